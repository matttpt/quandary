(* C20: what add accepts, that a rejected add changes nothing, and that iteration yields every
   existing name once with exactly the de-duplicated RRsets of the accepted records. *)
From QV Require Import Base.Res Base.Octets Base.ListX Gen.ZoneConsts Model.ZoneTree Spec.ZoneLookupS
  Proofs.ZoneBaseP Proofs.ZoneRrsetP Proofs.ZoneViewP Proofs.ZoneInvP Proofs.ZoneLookupP Proofs.ZoneTopP
  Proofs.ZoneIterP Proofs.ZoneSpellP.

(* every element of a piece carries the key of the piece, and the pieces have distinct keys *)
Lemma NoDup_flat_map_keyed {A B K} (g : A -> list B) (kA : A -> K) (kB : B -> K) l :
  NoDup (map kA l) -> (forall x, In x l -> NoDup (g x)) ->
  (forall x y, In x l -> In y (g x) -> kB y = kA x) -> NoDup (flat_map g l).
Proof.
  induction l as [|a l IH]; simpl; intros Hk Hg Hkey; [constructor|].
  inversion Hk as [|? ? Hnin Hnd]; subst. apply NoDup_app_disjoint.
  - apply Hg. auto.
  - apply IH; auto.
  - intros y Hy1 Hy2. apply in_flat_map in Hy2. destruct Hy2 as (x & Hx & Hy).
    assert (E : kA x = kA a) by (rewrite <- (Hkey a y), <- (Hkey x y); auto).
    apply Hnin. rewrite <- E. apply in_map. exact Hx.
Qed.

Lemma map_flat_map {A B C} (h : B -> C) (g : A -> list B) l :
  map h (flat_map g l) = flat_map (fun x => map h (g x)) l.
Proof. induction l as [|a l IH]; simpl; auto. rewrite map_app, IH. reflexivity. Qed.

Lemma sorted_rr_nodup_types d : sorted_rr d -> NoDup (map rs_type d).
Proof.
  induction d as [|r d IH]; simpl; [constructor|]. intros [F S]. constructor; auto.
  intros Hin. apply in_map_iff in Hin. destruct Hin as (x & E & Hx).
  rewrite Forall_forall in F. specialize (F x Hx). lia.
Qed.

Section Store.
Variable req : N -> N -> bytes -> bytes -> bool.
Hypothesis req_trans : forall cls ty a b c,
  req cls ty a b = true -> req cls ty b c = true -> req cls ty a c = true.
Variable apex : name.
Variable cls : N.

Lemma zone_add_apex z r z' e : zone_add req z r = Ok (z', e) ->
  exists a', z' = mk_zone (z_class z) (z_wide z) a' /\
    (a' = z_apex z \/
     exists level, node_update level (r_owner r)
                     (rrsets_add req (r_class r) (r_type r) (r_ttl r) (r_rdata r)) (z_apex z) = Ok (a', e)).
Proof.
  unfold zone_add. intros H.
  assert (Same : z = mk_zone (z_class z) (z_wide z) (z_apex z)) by (destruct z; reflexivity).
  destruct (negb (eq_or_subdomain_of (r_owner r) (zone_name z))); [injection H as <- _; eauto|].
  destruct (negb (r_class r =? z_class z)%N); [injection H as <- _; eauto|].
  destruct (usub _ _) as [level| |]; cbn [bind] in H; try discriminate.
  destruct (node_update level (r_owner r) _ (z_apex z)) as [[a' e']| |] eqn:U; cbn [bind] in H; try discriminate.
  injection H as <- <-. eauto.
Qed.

Lemma zone_build_keeps (Q : zone -> Prop) :
  (forall z r z' e, zone_add req z r = Ok (z', e) -> Q z -> Q z') ->
  forall rs z z', zone_build req z rs = Some z' -> Q z -> Q z'.
Proof.
  intros Hadd. induction rs as [|r rs IH]; simpl; intros z z' H HQ; [congruence|].
  destruct (zone_add req z r) as [[z1 e]| |] eqn:A; try discriminate. eauto.
Qed.

Lemma build_wf wide recs z : zone_build req (zone_new apex cls wide) recs = Some z -> wf (z_apex z).
Proof.
  intros H. apply (zone_build_keeps (fun z => wf (z_apex z))) in H; [exact H| |simpl; auto].
  intros z0 r z' e A W. destruct (zone_add_apex _ _ _ _ A) as (a' & -> & [->|(level & U)]); [exact W|].
  exact (node_update_wf _ _ _ _ _ _ U W).
Qed.

Lemma zone_build_wide rs z z' : zone_build req z rs = Some z' -> z_wide z' = z_wide z.
Proof.
  intros H. apply (zone_build_keeps (fun z0 => z_wide z0 = z_wide z)) in H; [exact H| |reflexivity].
  intros z0 r z1 e A W. destruct (zone_add_apex _ _ _ _ A) as (a' & -> & _). exact W.
Qed.

Lemma zone_build_snoc rs : forall z z1 r z2 e, zone_build req z rs = Some z1 ->
  zone_add req z1 r = Ok (z2, e) -> zone_build req z (rs ++ [r]) = Some z2.
Proof.
  induction rs as [|r0 rs IH]; simpl; intros z z1 r z2 e H A.
  - inversion H; subst. rewrite A. reflexivity.
  - destruct (zone_add req z r0) as [[z' e']| |]; try discriminate. eapply IH; eauto.
Qed.

Lemma add_result wide recs z r : zone_build req (zone_new apex cls wide) recs = Some z ->
  exists z', zone_add req z r = Ok (z', add_verdict apex cls (accepted apex cls recs) r) /\
             (add_verdict apex cls (accepted apex cls recs) r <> None -> z' = z) /\
             zone_build req (zone_new apex cls wide) (recs ++ [r]) = Some z'.
Proof.
  intros H. pose proof (build_inv req req_trans apex cls wide recs z H) as HI.
  destruct (zone_add_step req req_trans apex cls z _ r HI) as (z' & A & _ & Hsame & _).
  exists z'. split; auto. split; auto. eapply zone_build_snoc; eauto.
Qed.

Lemma add_verdict_none R r : add_verdict apex cls R r = None <->
  in_zone apex (r_owner r) = true /\ r_class r = cls /\
  (forall rs, spec_rrset req cls R (lc (r_owner r)) (r_type r) = Some rs -> rs_ttl rs = r_ttl r).
Proof.
  unfold add_verdict. rewrite (ttl_ok_spec req cls).
  destruct (in_zone apex (r_owner r)); simpl; [|split; [discriminate|intros [? _]; discriminate]].
  destruct (r_class r =? cls)%N eqn:C; simpl.
  - apply N.eqb_eq in C.
    destruct (spec_rrset req cls R (lc (r_owner r)) (r_type r)) as [rs|].
    + destruct (rs_ttl rs =? r_ttl r)%N eqn:T; simpl.
      * apply N.eqb_eq in T. split; auto. intros _. split; auto. split; auto. intros rs' E. inversion E; subst; auto.
      * apply N.eqb_neq in T. split; [discriminate|]. intros (_ & _ & H). exfalso. apply T. apply H. reflexivity.
    + simpl. split; auto. intros _. split; auto. split; auto. discriminate.
  - apply N.eqb_neq in C. split; [discriminate|]. intros (_ & H & _). contradiction.
Qed.

Lemma add_verdict_kinds R r :
  add_verdict apex cls R r =
    if negb (in_zone apex (r_owner r)) then Some NotInZone
    else if negb (r_class r =? cls)%N then Some ClassMismatch
    else if negb (ttl_ok R r) then Some TtlMismatch else None.
Proof. reflexivity. Qed.

Lemma exists_lower R m : exists_name apex R m = true -> lc m = m.
Proof.
  unfold exists_name. intros H. apply orb_true_iff in H. destruct H as [H|H].
  - apply name_eqb_eq in H. subst. apply lc_idem.
  - apply existsb_exists in H. destruct H as (r & _ & Hs). exact (suffix_of_lc _ _ Hs).
Qed.

Section Built.
Variables (wide : bool) (recs : list record) (z : zone).
Hypothesis B : zone_build req (zone_new apex cls wide) recs = Some z.
Let R := accepted apex cls recs.
Let HI : Inv req apex cls z R := build_inv req req_trans apex cls wide recs z B.
Let HS : Inv_sp apex z R := build_inv_sp req req_trans apex cls wide recs z B.
Let HW : wf (z_apex z) := build_wf wide recs z B.

Lemma path_facts p n d : In (p, (n, d)) (all_paths (z_apex z)) ->
  exists_name apex R (pname apex p) = true /\ lc n = pname apex p /\
  rrsets_ok req cls R (pname apex p) d.
Proof.
  intros Hin. pose proof (paths_sound _ HW _ _ Hin) as V.
  pose proof (Inv_node _ _ _ _ _ p HI) as Hv. rewrite V in Hv. exact Hv.
Qed.

Lemma build_iter_nodes :
  NoDup (map (fun nd => lc (fst nd)) (zone_iter_by_node z)) /\
  (forall m, In m (map (fun nd => lc (fst nd)) (zone_iter_by_node z)) <->
             is_suffixb (lc apex) m && exists_name apex R m = true) /\
  (forall n d, In (n, d) (zone_iter_by_node z) -> d = spec_rrsets req cls R (lc n)).
Proof.
  unfold zone_iter_by_node. rewrite <- all_paths_iter. split; [|split].
  - rewrite map_map.
    rewrite (map_ext_in _ (fun px => rev (lcpath px) ++ lc apex)).
    + rewrite <- (map_map lcpath (fun n => rev n ++ lc apex)).
      apply NoDup_map_inj; [|apply paths_nodup; exact HW].
      intros a b _ _ E. apply app_inv_tail in E. apply (f_equal (@rev _)) in E.
      rewrite !rev_involutive in E. exact E.
    + intros [p [n d]] Hin. simpl. destruct (path_facts p n d Hin) as (_ & Hn & _).
      rewrite Hn, pname_rev. reflexivity.
  - intros m. rewrite map_map. rewrite in_map_iff. split.
    + intros ([p [n d]] & E & Hin). simpl in E. subst m.
      destruct (path_facts p n d Hin) as (Hex & Hn & _). rewrite Hn, Hex, andb_true_r.
      apply is_suffixb_iff. exists (rev (lc p)). apply pname_rev.
    + intros H. apply andb_true_iff in H. destruct H as [Hs Hex].
      apply is_suffixb_iff in Hs. destruct Hs as [q Hq].
      pose proof (exists_lower R m Hex) as Hl. rewrite Hq, lc_app, lc_idem in Hl.
      apply app_inv_tail in Hl.
      assert (Hp : pname apex (rev q) = m).
      { rewrite pname_rev, lc_rev, rev_involutive, Hl. symmetry. exact Hq. }
      pose proof (Inv_node _ _ _ _ _ (rev q) HI) as Hv. unfold node_ok in Hv. rewrite Hp in Hv.
      destruct (view (rev q) (z_apex z)) as [[n d]|] eqn:V; [|simpl in Hv; congruence].
      destruct Hv as (_ & Hn & _).
      destruct (paths_complete _ _ _ V) as (p' & _ & Hin').
      exists (p', (n, d)). split; auto.
  - intros n d Hin. apply in_map_iff in Hin. destruct Hin as ([p [n' d']] & E & Hin).
    simpl in E. inversion E; subst.
    destruct (path_facts p n d Hin) as (_ & Hn & Hok). rewrite Hn.
    apply rrsets_ok_unique. exact Hok.
Qed.

Lemma build_iter_rrsets :
  (forall n rs, In (n, rs) (zone_iter_by_rrset z) ->
     spec_rrset req cls R (lc n) (rs_type rs) = Some rs) /\
  (forall m ty rs, is_suffixb (lc apex) m = true -> spec_rrset req cls R m ty = Some rs ->
     exists n, lc n = m /\ In (n, rs) (zone_iter_by_rrset z)) /\
  NoDup (map (fun x => (lc (fst x), rs_type (snd x))) (zone_iter_by_rrset z)).
Proof.
  destruct build_iter_nodes as (Hnd & Hmem & Hdata).
  unfold zone_iter_by_rrset. fold (zone_iter_by_node z). split; [|split].
  - intros n rs Hin. apply in_flat_map in Hin. destruct Hin as ([n' d] & Hnd' & Hrs).
    apply in_map_iff in Hrs. destruct Hrs as (rs' & E & Hrs). simpl in E. inversion E; subst.
    pose proof (Hdata n d Hnd') as Hd. simpl in Hrs.
    destruct (spec_rrsets_ok req cls R (lc n)) as [S L].
    rewrite <- L. rewrite <- Hd. apply rr_lookup_sorted_self; [rewrite Hd; exact S|exact Hrs].
  - intros m ty rs Hs Hsp.
    pose proof (rrset_exists req apex cls R m ty rs Hsp) as Hex.
    assert (Hin : In m (map (fun nd => lc (fst nd)) (zone_iter_by_node z))).
    { apply Hmem. rewrite Hs, Hex. reflexivity. }
    apply in_map_iff in Hin. destruct Hin as ([n d] & E & Hin). simpl in E. exists n. split; auto.
    apply in_flat_map. exists (n, d). split; auto. apply in_map_iff. exists rs. split; auto. simpl.
    pose proof (Hdata n d Hin) as Hd. rewrite Hd, E.
    destruct (spec_rrsets_ok req cls R m) as [S L]. eapply rr_lookup_In. rewrite L. exact Hsp.
  - rewrite map_flat_map.
    apply (NoDup_flat_map_keyed _ (fun nd => lc (fst nd)) (fun x : name * N => fst x)); auto.
    + intros [n d] Hin. simpl. rewrite map_map. simpl.
      rewrite <- (map_map rs_type (fun t => (lc n, t))).
      apply NoDup_map_inj; [intros a b _ _ E; inversion E; auto|].
      apply sorted_rr_nodup_types. rewrite (Hdata n d Hin).
      apply (spec_rrsets_ok req cls R (lc n)).
    + intros [n d] y _ Hy. simpl in *. rewrite map_map in Hy. apply in_map_iff in Hy.
      destruct Hy as (rs & E & _). subst y. reflexivity.
Qed.

Lemma build_soa_ns :
  zone_soa z = single_of req cls R (lc apex) 6 /\ zone_ns z = single_of req cls R (lc apex) 2 /\
  exists d, hd_error (zone_iter_by_node z) = Some (zone_name z, d) /\
            zone_soa z = option_map to_single (rr_lookup TYPE_SOA d) /\
            zone_ns z = option_map to_single (rr_lookup TYPE_NS d).
Proof.
  destruct (Inv_node _ _ _ _ _ [] HI) as (_ & _ & Hok).
  unfold pname in Hok. simpl in Hok.
  unfold zone_soa, zone_ns. change TYPE_SOA with 6%N. change TYPE_NS with 2%N.
  rewrite !(single_of_lookup req cls R (lc apex) _ _ Hok). split; auto. split; auto.
  exists (node_data (z_apex z)). split; [apply node_iter_hd|auto].
Qed.

Lemma build_stored n d rs rd : In (n, d) (zone_iter_by_node z) -> In rs d -> In rd (rs_rdatas rs) ->
  exists r, In r recs /\ r_rdata r = rd.
Proof.
  intros Hnd Hrs Hrd. destruct build_iter_nodes as (_ & _ & Hdata). rewrite (Hdata n d Hnd) in Hrs.
  destruct (rrsets_ok_rdatas req _ _ _ _ _ _ (spec_rrsets_ok req cls _ (lc n)) Hrs Hrd) as (r & Hin & E).
  exists r. split; [apply (accepted_In apex cls), Hin|exact E].
Qed.

Lemma build_iter_names_spelled :
  (forall n d, In (n, d) (zone_iter_by_node z) -> spelled apex (accepted apex cls recs) (lc n) = n) /\
  (forall n rs, In (n, rs) (zone_iter_by_rrset z) -> spelled apex (accepted apex cls recs) (lc n) = n).
Proof.
  assert (G : forall n d, In (n, d) (zone_iter_by_node z) -> spelled apex R (lc n) = n).
  { intros n d Hin. unfold zone_iter_by_node in Hin. rewrite <- all_paths_iter in Hin.
    apply in_map_iff in Hin. destruct Hin as ([p [n' d']] & E & Hin). simpl in E. inversion E; subst.
    apply (node_spelled req apex cls z R HI HS). exists p, d. apply paths_sound; auto. }
  split; [exact G|]. intros n rs Hin. unfold zone_iter_by_rrset in Hin. apply in_flat_map in Hin.
  destruct Hin as ([n' d] & Hnd & Hrs). apply in_map_iff in Hrs. destruct Hrs as (rs' & E & _).
  simpl in E. inversion E; subst. eapply G; eauto.
Qed.

End Built.

End Store.
