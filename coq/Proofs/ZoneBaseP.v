(* Basic facts for the zone-store proofs: boolean equalities, case-insensitive label equality,
   suffix/prefix tests, list helpers. *)
From QV Require Import Base.Res Base.Octets Base.ListX Model.ZoneTree Spec.ZoneLookupS.

Lemma bytes_eqb_eq a b : bytes_eqb a b = true <-> a = b.
Proof. apply bytes_eqb_fix_eq. intros [|] [|]; reflexivity. Qed.

(* octets_eqb is the same Fixpoint as bytes_eqb *)
Lemma octets_eqb_eq a b : octets_eqb a b = true <-> a = b.
Proof. exact (bytes_eqb_eq a b). Qed.

Lemma name_eqb_eq a b : name_eqb a b = true <-> a = b.
Proof.
  revert b; induction a as [|x a IH]; intros [|y b]; simpl; try (split; (discriminate || reflexivity)).
  rewrite andb_true_iff, octets_eqb_eq, IH. split; [intros []; congruence|intros [= -> ->]; auto].
Qed.

Lemma name_eqb_refl a : name_eqb a a = true.
Proof. apply name_eqb_eq. reflexivity. Qed.

Lemma name_eqb_neq a b : name_eqb a b = false <-> a <> b.
Proof. rewrite <- not_true_iff_false, name_eqb_eq. reflexivity. Qed.

Lemma name_eqb_sym a b : name_eqb a b = name_eqb b a.
Proof. apply eq_true_iff_eq. rewrite !name_eqb_eq. split; auto. Qed.

Lemma label_eqb_iff k l : label_eqb k l = true <-> map lower k = map lower l.
Proof. apply bytes_eqb_eq. Qed.

Lemma label_eqb_refl k : label_eqb k k = true.
Proof. apply label_eqb_iff. reflexivity. Qed.

Lemma label_eqb_sym k l : label_eqb k l = label_eqb l k.
Proof. apply eq_true_iff_eq. rewrite !label_eqb_iff. split; auto. Qed.

Lemma label_eqb_congr a b : label_eqb a b = true -> forall k, label_eqb k a = label_eqb k b.
Proof.
  intros H k. apply label_eqb_iff in H. apply eq_true_iff_eq. rewrite !label_eqb_iff, H. reflexivity.
Qed.

Lemma lc_app a b : lc (a ++ b) = lc a ++ lc b.
Proof. unfold lc. apply map_app. Qed.
Lemma lc_rev a : lc (rev a) = rev (lc a).
Proof. unfold lc. apply map_rev. Qed.
Lemma lc_length a : length (lc a) = length a.
Proof. unfold lc. apply map_length. Qed.
Lemma lc_skipn k a : lc (skipn k a) = skipn k (lc a).
Proof. unfold lc. symmetry. apply skipn_map. Qed.
Lemma lc_firstn k a : lc (firstn k a) = firstn k (lc a).
Proof. unfold lc. symmetry. apply firstn_map. Qed.
Lemma lc_cons x a : lc (x :: a) = map lower x :: lc a.
Proof. reflexivity. Qed.

Lemma lc_idem a : lc (lc a) = lc a.
Proof. unfold lc. rewrite map_map. apply map_ext. intros. apply map_lower_idem. Qed.

Lemma is_suffixb_skipn s n : is_suffixb s n = true -> skipn (length n - length s) n = s.
Proof. unfold is_suffixb. rewrite andb_true_iff, name_eqb_eq. tauto. Qed.

Lemma is_suffixb_length s n : is_suffixb s n = true -> length s <= length n.
Proof. unfold is_suffixb. rewrite andb_true_iff, Nat.leb_le. tauto. Qed.

Lemma is_suffixb_iff s n : is_suffixb s n = true <-> exists q, n = q ++ s.
Proof.
  split.
  - intros H. apply is_suffixb_skipn in H. exists (firstn (length n - length s) n).
    rewrite <- H at 2. symmetry. apply firstn_skipn.
  - intros [q ->]. unfold is_suffixb. rewrite app_length, Nat.add_sub.
    apply andb_true_iff. split; [apply Nat.leb_le; lia|].
    apply name_eqb_eq. rewrite skipn_app, skipn_all, Nat.sub_diag. reflexivity.
Qed.

Lemma is_suffixb_same_length s n : is_suffixb s n = true -> length n <= length s -> s = n.
Proof.
  intros H L. apply is_suffixb_skipn in H. replace (length n - length s) with 0 in H by lia.
  symmetry. exact H.
Qed.

Lemma is_suffixb_refl s : is_suffixb s s = true.
Proof. apply is_suffixb_iff. exists []. reflexivity. Qed.

Lemma is_suffixb_false s n : is_suffixb s n = false <-> ~ exists q, n = q ++ s.
Proof. rewrite <- not_true_iff_false, is_suffixb_iff. reflexivity. Qed.

Lemma is_suffixb_trans a b c : is_suffixb a b = true -> is_suffixb b c = true -> is_suffixb a c = true.
Proof.
  rewrite !is_suffixb_iff. intros [q ->] [q' ->]. exists (q' ++ q). rewrite app_assoc. reflexivity.
Qed.

Lemma suffix_of_lc m x : is_suffixb m (lc x) = true -> lc m = m.
Proof. intros H. apply is_suffixb_skipn in H. rewrite <- H, <- lc_skipn. apply lc_idem. Qed.

Lemma find_filter_hd {A} (P : A -> bool) l : find P l = hd_error (filter P l).
Proof. induction l as [|x l IH]; simpl; auto. destruct (P x); simpl; auto. Qed.

Lemma filter_snoc {A} (P : A -> bool) l x : filter P (l ++ [x]) = filter P l ++ (if P x then [x] else []).
Proof. rewrite filter_app. reflexivity. Qed.

Lemma existsb_snoc {A} (P : A -> bool) l x : existsb P (l ++ [x]) = existsb P l || P x.
Proof. rewrite existsb_app. simpl. rewrite orb_false_r. reflexivity. Qed.

Lemma firstn_S_snoc {A} (l : list A) n d : n < length l -> firstn (S n) l = firstn n l ++ [nth n l d].
Proof.
  revert n; induction l as [|x l IH]; intros n H; simpl in *; [lia|].
  destruct n; simpl; auto. rewrite <- IH by lia. reflexivity.
Qed.

Global Arguments lc : simpl never.
