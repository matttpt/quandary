(* What the pre-scan of Model/Server.v guarantees about a response that carries TSIG settings: the numbers of
   the reservation (cursor = header + question, cursor + TSIG reservation + OPT reservation <= limit — the TSIG
   record was only reserved because it fits, set_tsig_or_truncate) and where the settings come from (the key
   name is the lower-cased owner the Reader parsed, the algorithm name the lower-cased first name of the RDATA
   or the canonical name of a known algorithm, the RDATA passed validate_as_tsig, the reserved length is
   PreparedTsigRr::unsigned_len / signed_len).  Proofs/ServerP.v keeps its invariant only up to the TSIG record;
   here it is carried through it. *)
From QV Require Import Base.ListX Model.NameWire Model.Reader Model.RdataLite Model.Server
  Proofs.NameWireP Proofs.ReaderP Proofs.RdataLiteP Proofs.ServerP.
Local Open Scope nat_scope.

Definition qcur (w : resp) : nat :=
  match w_question w with Some q => 12 + (length (n_wire (q_name q)) + 4) | None => 12 end.

Definition badtime_extra (err : N) : nat := if (err =? XRC_BADTIME)%N then 6 else 0.

(* some call of the verifier accepted the MAC (verified, or BADTIME: the MAC is right, the time is not) *)
Definition signed_by (verify : tsig_verifier) : Prop :=
  exists rd o m a s n, verify rd o m a s n = VOk \/ verify rd o m a s n = VBadTime.

Definition tsig_src (verify : tsig_verifier) (t : tsig_out) : Prop :=
  let rd := t_request_rdata t in
  wf_bytes rd /\ validate_as_tsig rd = Ok tt /\
  (exists b c nm l, wf_bytes b /\ parse_compressed_name b c = Ok (nm, l) /\ t_key_wire t = lower_wire (n_wire nm)) /\
  match t_mode t with
  | TUnsigned aw =>
    (aw = lower_wire (firstn (tsig_alg_len rd) rd) \/ exists a, aw = alg_name_wire a) /\
    t_reserved t = length (t_key_wire t) + length aw + 26 /\ t_error t <> XRC_BADTIME
  | TResponse a _ mac =>
    signed_by verify /\ mac = tsig_mac rd /\
    t_reserved t = length (t_key_wire t) + length (alg_name_wire a) + 26 + badtime_extra (t_error t) + alg_output_size a
  end.

Definition tsig_post (verify : tsig_verifier) (w : resp) : Prop :=
  w_cursor w = qcur w /\
  match w_tsig w with
  | None => True
  | Some t => w_cursor w + t_reserved t + reserved w <= w_limit w /\ tsig_src verify t /\ (w_arcount w <= 2)%N
  end.

Lemma qcur_set_rcode w rc : qcur (set_rcode w rc) = qcur w. Proof. reflexivity. Qed.
Lemma qcur_set_tc w : qcur (set_tc w) = qcur w. Proof. reflexivity. Qed.

Lemma post_set_rcode verify w rc : tsig_post verify w -> tsig_post verify (set_rcode w rc).
Proof.
  intros [A B]. split; [exact A|]. cbn [set_rcode w_tsig]. destruct (w_tsig w) as [t|]; [|exact I].
  destruct B as (B1 & B2 & B3). split; [|split; assumption].
  unfold reserved in *. cbn [set_rcode w_edns w_cursor w_limit]. destruct (w_edns w) as [[sz up]|]; exact B1.
Qed.

Lemma post_notsig verify w : w_tsig w = None -> w_cursor w = qcur w -> tsig_post verify w.
Proof. intros E C. split; [exact C|]. rewrite E. exact I. Qed.

Lemma post_apply_body verify w b : tsig_post verify w -> tsig_post verify (apply_body w b).
Proof.
  intros P. unfold apply_body. destruct (b_rcode b) as [rc|].
  - apply (post_set_rcode verify w rc) in P. exact P.
  - exact P.
Qed.

Lemma post_tsig_or_truncate verify cfg seen w rc t : srv_inv cfg seen w -> w_cursor w = qcur w -> tsig_src verify t ->
  tsig_post verify (fst (set_tsig_or_truncate (set_rcode w rc) t)).
Proof.
  intros I C S. pose proof (srv_inv_set_rcode cfg seen w rc I) as (A & B & Ct & D & E & F & G & H & J).
  unfold set_tsig_or_truncate, set_tsig. rewrite Ct.
  destruct (w_avail (set_rcode w rc) <? w_cursor (set_rcode w rc) + t_reserved t) eqn:X; cbn [fst].
  { apply post_notsig; [exact Ct|exact C]. }
  destruct (65535 <=? w_arcount (set_rcode w rc))%N eqn:Y; cbn [fst].
  { apply post_notsig; [exact Ct|exact C]. }
  apply Nat.ltb_ge in X. split; [exact C|]. cbn [w_tsig w_cursor w_limit w_arcount].
  split; [|split; [exact S|]].
  - unfold reserved in *. cbn [w_edns]. lia.
  - rewrite H. destruct (w_edns (set_rcode w rc)); lia.
Qed.

Lemma wf_bytes_slice (l : bytes) a b : wf_bytes l -> wf_bytes (slice l a b).
Proof.
  unfold wf_bytes, slice. rewrite !Forall_forall. intros H x Hx. eapply H, In_skipn, In_firstn. exact Hx.
Qed.

Lemma peek_parse_tsig r p r' rr : rinv r -> peek_type r p = Ok TYPE_TSIG -> peek_parse rd_lite r p = (r', Ok rr) ->
  wf_bytes (rr_rdata rr) /\ validate_as_tsig (rr_rdata rr) = Ok tt /\
  exists l, parse_compressed_name (r_octets r) (r_cursor r) = Ok (rr_owner rr, l).
Proof.
  intros (Hwf & _) Ety H. unfold peek_parse, peek_owner in H. rewrite Ety in H.
  destruct (parse_compressed_name (r_octets r) (r_cursor r)) as [[nm l]|e|] eqn:P; cbn [lift_name map_err map_ok bind fst] in H;
    try (inv H; fail).
  destruct (peek_class r p) as [cl|e|]; cbn [bind] in H; try (inv H; fail).
  destruct (peek_rdlength r p) as [rl|e|]; cbn [bind] in H; try (inv H; fail).
  unfold rd_lite in H at 1. unfold prepare_rdata in H.
  destruct (length (r_octets r) <? p_owner_end p + 10 + N.to_nat rl); cbn [bind map_err] in H; try (inv H; fail).
  change (lite_unsupported cl TYPE_TSIG) with false in H. cbv iota in H.
  change ((TYPE_TSIG =? TYPE_A)%N) with false in H. change ((TYPE_TSIG =? TYPE_AAAA)%N) with false in H.
  change ((TYPE_TSIG =? TYPE_OPT)%N) with false in H. change ((TYPE_TSIG =? TYPE_TSIG)%N) with true in H.
  cbn [andb] in H. cbv iota in H.
  set (rd := slice (r_octets r) (p_owner_end p + 10) (p_owner_end p + 10 + N.to_nat rl)) in *.
  destruct (validate_as_tsig rd) as [[]|e|] eqn:V; cbn [bind map_err] in H; try (inv H; fail).
  destruct (peek_ttl r p) as [ttl|e|]; cbn [bind] in H; try (inv H; fail).
  inv H. cbn [rr_rdata rr_owner]. split; [apply wf_bytes_slice; exact Hwf|]. split; [exact V|]. exists l. reflexivity.
Qed.

Lemma tsig_alg_len_val rd al : validate_uncompressed_name rd false = Ok al -> tsig_alg_len rd = al.
Proof. intros E. unfold tsig_alg_len. rewrite E. reflexivity. Qed.

Lemma tsig_src_of verify r p r' rr mode err : rinv r -> peek_type r p = Ok TYPE_TSIG ->
  peek_parse rd_lite r p = (r', Ok rr) ->
  match mode with
  | TUnsigned aw => (aw = lower_wire (firstn (tsig_alg_len (rr_rdata rr)) (rr_rdata rr)) \/ exists a, aw = alg_name_wire a) /\
                    err <> XRC_BADTIME
  | TResponse _ _ mac => signed_by verify /\ mac = tsig_mac (rr_rdata rr)
  end -> tsig_src verify (tsig_out_of rr mode err).
Proof.
  intros Hinv T PP M. destruct (peek_parse_tsig r p r' rr Hinv T PP) as (Wrd & Vrd & l & Pown).
  split; [exact Wrd|]. split; [exact Vrd|]. split.
  { exists (r_octets r), (r_cursor r), (rr_owner rr), l. split; [exact (proj1 Hinv)|]. split; [exact Pown|reflexivity]. }
  destruct mode as [aw|a sec mac]; cbn.
  - destruct M as [M He]. split; [exact M|]. split; [|exact He]. apply N.eqb_neq in He. rewrite He. lia.
  - destruct M as [SB ->]. auto.
Qed.

Lemma process_additional_tsig verify cfg r w seen last r' s seen' : rinv r -> srv_inv cfg seen w -> w_cursor w = qcur w ->
  process_additional verify cfg r w seen last = Ok (r', s, seen') ->
  match s with
  | Continue w' => tsig_post verify w' /\ (w_tsig w' <> None -> signed_by verify)
  | Return w' => tsig_post verify w'
  | Silent => True
  end.
Proof.
  intros Hinv Iv C H. pose proof Iv as (_ & _ & Hts & _).
  assert (Pn : forall w', w_tsig w' = w_tsig w -> w_cursor w' = w_cursor w -> w_question w' = w_question w ->
            tsig_post verify w').
  { intros w' A B Q. apply post_notsig; [congruence|]. unfold qcur. rewrite B, Q. exact C. }
  assert (Pe : forall w1, set_edns w (c_edns_size cfg) = Ok w1 ->
            w_tsig w1 = w_tsig w /\ w_cursor w1 = w_cursor w /\ w_question w1 = w_question w).
  { intros w1 E. pose proof (set_edns_Ok _ _ _ E) as ->. auto. }
  assert (Pt : forall rc t, tsig_src verify t -> tsig_post verify (fst (set_tsig_or_truncate (set_rcode w rc) t)))
    by (intros rc t; apply (post_tsig_or_truncate verify cfg seen); assumption).
  destruct (process_additional_inv _ _ _ _ _ _ _ _ _ H)
    as [e P|p P T S|p e P T S E|p w1 P T S E|p w1 raw r' rr w2 s P T S E PP Ng V|p r' P T Hr
       |p r' rr rc aw err P T PP Haw He|p r' rr m a k P T PP Vf|p r' rr m a k P T L PP Vf|p ty P T _ _];
    try (apply post_set_rcode, Pn; reflexivity).
  - destruct (Pe w1 E) as (A & B & Q). apply post_set_rcode, Pn; assumption.
  - destruct (Pe w1 E) as (A1 & B1 & Q1).
    assert (A2 : w_tsig w2 = w_tsig w /\ w_cursor w2 = w_cursor w /\ w_question w2 = w_question w).
    { destruct (negotiate_Ok _ _ _ _ Ng) as [[_ ->]|[_ SL]]; [auto|].
      destruct (set_limit_Ok _ _ _ SL) as (nl & av & -> & _). auto. }
    destruct A2 as (A2 & B2 & Q2). destruct (validate_opt _ _).
    + destruct V as (w3 & E3 & ->). destruct (set_extended_rcode_Ok _ _ _ E3) as (sz & up & _ & ->). apply Pn; assumption.
    + subst s. split; [apply Pn; assumption|]. rewrite A2, Hts. contradiction.
  - apply Pt, (tsig_src_of verify r p r' rr _ _ Hinv T PP). auto.
  - apply Pt, (tsig_src_of verify r p r' rr _ _ Hinv T PP). split; [do 6 eexists; right; exact Vf|reflexivity].
  - assert (SB : signed_by verify) by (do 6 eexists; left; exact Vf).
    pose proof (Pt 0%N _ (tsig_src_of verify r p r' rr (TResponse a (k_secret k) (tsig_mac (rr_rdata rr))) 0%N Hinv T PP (conj SB eq_refl))) as PT.
    subst wo. destruct (snd _); auto.
  - split; [apply Pn; reflexivity|]. rewrite Hts. contradiction.
Qed.

Theorem prescan_tsig verify cfg req p : wf_cfg cfg -> wf_bytes req -> prescan verify cfg req = Ok p ->
  match p with
  | PEarly w => tsig_post verify w
  | PClean _ w => tsig_post verify w /\ (w_tsig w <> None -> signed_by verify)
  | PNone => True
  end.
Proof.
  intros Hcfg Hwf H.
  refine (prescan_lift verify cfg req (fun r seen w => rinv r /\ srv_inv cfg seen w /\ w_cursor w = qcur w)
            (fun w => tsig_post verify w /\ (w_tsig w <> None -> signed_by verify)) (tsig_post verify) _ _ _ _ _ _ _ p H).
  - intros r w seen last r' s seen' (Hinv & Iv & C) E.
    destruct (process_additional_facts verify cfg r w seen last Hcfg Hinv Iv) as (r1 & s1 & seen1 & E' & Hinv1 & RO).
    rewrite E in E'. injection E' as <- <- <-. pose proof (process_additional_tsig verify cfg r w seen last r' s seen' Hinv Iv C E) as PT.
    destruct s as [w'|w'|]; [|exact PT..]. destruct last; [exact PT|].
    destruct RO as (_ & [I1|[L1 _]] & _); [|discriminate]. exact (conj Hinv1 (conj I1 (proj1 (proj1 PT)))).
  - intros r seen w (_ & Iv & C). split; [apply post_notsig; [apply Iv|exact C]|]. destruct Iv as (_ & _ & X & _). contradiction.
  - intros r seen w rc (_ & Iv & C). apply post_set_rcode, post_notsig; [apply Iv|exact C].
  - intros w P. apply post_set_rcode, P.
  - intros r1 n r2 w (Hinv1 & R) A.
    exact (conj (an_ns_reader_inv n r1 r2 w Hinv1 A) R).
  - intros w0 St. destruct (started_ready cfg req w0 Hcfg Hwf St) as (A & B & C0 & Q0). unfold qcur. rewrite Q0. auto.
  - intros w0 r1 q w1 St RQ EA. destruct (question_ready cfg req w0 r1 q w1 Hcfg Hwf St RQ EA) as (Hinv1 & I1 & _).
    destruct (started_ready cfg req w0 Hcfg Hwf St) as (_ & _ & C0 & _).
    split; [exact Hinv1|]. split; [exact I1|].
    pose proof (add_question_Ok _ _ _ EA) as ->. unfold qcur. cbn. rewrite C0. reflexivity.
Qed.
