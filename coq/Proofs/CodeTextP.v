(* The type/class/opcode/rcode text conversions of Model/CodeText.v: each parser accepts exactly what the
   specification's lenient reading accepts (a mnemonic of the table in any letter case, or WORDnnn), and what
   Display writes is read back as the value. *)
From QV Require Import Base.ListX Model.DecU16 Model.CodeText Spec.CodeTextS Proofs.DecU16P.
Local Open Scope N_scope.

Lemma bytes_eqb_eq a : forall b, bytes_eqb a b = true <-> a = b.
Proof.
  induction a as [|x a IH]; intros [|y b]; cbn; try (split; [discriminate|congruence]).
  - tauto.
  - rewrite andb_true_iff, N.eqb_eq, IH. split; [intros [-> ->]; reflexivity|intros H; inversion H; auto].
Qed.

Lemma bytes_eqb_refl a : bytes_eqb a a = true.
Proof. apply bytes_eqb_eq. reflexivity. Qed.

Lemma eq_nocase_spec a : forall b, eq_nocase a b = bytes_eqb (lower_str a) (lower_str b).
Proof.
  induction a as [|x a IH]; intros [|y b]; cbn; try reflexivity.
  rewrite IH. reflexivity.
Qed.

Lemma eq_nocase_iff a b : eq_nocase a b = true <-> lower_str a = lower_str b.
Proof. rewrite eq_nocase_spec. apply bytes_eqb_eq. Qed.

Lemma starts_with_app p d : starts_with (p ++ d) p = true.
Proof. induction p as [|x p IH]; [destruct d; reflexivity|]. cbn. rewrite N.eqb_refl. exact IH. Qed.

Lemma starts_with_length s p : starts_with s p = true -> (length p <= length s)%nat.
Proof.
  revert s. induction p as [|y p IH]; intros s H; [cbn; lia|].
  destruct s as [|x s]; [discriminate|]. cbn in H. apply andb_true_iff in H. destruct H as [_ H].
  apply IH in H. cbn. lia.
Qed.

(* prefix.eq_ignore_ascii_case(WORD) on text[0..len WORD] is "the lower-cased text starts with the
   lower-cased word" *)
Lemma eq_nocase_firstn p : forall text,
  eq_nocase (firstn (length p) text) p = starts_with (lower_str text) (lower_str p).
Proof.
  induction p as [|y p IH]; intros text.
  - cbn. destruct (lower_str text); reflexivity.
  - destruct text as [|x t]; [reflexivity|]. cbn. rewrite IH. reflexivity.
Qed.

Lemma lower_str_length s : length (lower_str s) = length s.
Proof. apply map_length. Qed.

Lemma lower_str_app a b : lower_str (a ++ b) = lower_str a ++ lower_str b.
Proof. apply map_app. Qed.

(* the arms are a first-match lookup *)

Lemma match_arms_lookup text arms : match_arms eq_nocase text arms = lookup_mnemonic arms text.
Proof.
  unfold lookup_mnemonic. induction arms as [|[m v] r IH]; [reflexivity|].
  cbn [match_arms find fst snd]. rewrite eq_nocase_spec.
  destruct (bytes_eqb (lower_str text) (lower_str m)); [reflexivity|exact IH].
Qed.

Lemma lookup_app a b s :
  lookup_mnemonic (a ++ b) s = match lookup_mnemonic a s with Some v => Some v | None => lookup_mnemonic b s end.
Proof.
  unfold lookup_mnemonic. induction a as [|e a IH]; [reflexivity|].
  cbn [app find]. destruct (bytes_eqb (lower_str s) (lower_str (fst e))); [reflexivity|exact IH].
Qed.

Lemma lookup_lower table s s' : lower_str s = lower_str s' -> lookup_mnemonic table s = lookup_mnemonic table s'.
Proof. intros H. unfold lookup_mnemonic. rewrite H. reflexivity. Qed.

Lemma lookup_some_in table s v : lookup_mnemonic table s = Some v ->
  exists m, In (m, v) table /\ lower_str s = lower_str m.
Proof.
  unfold lookup_mnemonic. destruct (find _ table) as [[m v']|] eqn:E; [|discriminate].
  intros H. inversion H; subst. apply find_some in E. destruct E as [Hin Heq].
  exists m. split; [exact Hin|]. apply bytes_eqb_eq. exact Heq.
Qed.

Definition no_word_prefix (word : bytes) (table : list (bytes * N)) : bool :=
  forallb (fun e => negb (starts_with (lower_str (fst e)) (lower_str word))) table.

Lemma lookup_generic_none word table p d :
  no_word_prefix word table = true -> lower_str p = lower_str word ->
  lookup_mnemonic table (p ++ d) = None.
Proof.
  intros Hno Hp. destruct (lookup_mnemonic table (p ++ d)) as [v|] eqn:E; [|reflexivity].
  apply lookup_some_in in E. destruct E as (m & Hin & Hm).
  unfold no_word_prefix in Hno. rewrite forallb_forall in Hno. specialize (Hno _ Hin). cbn [fst] in Hno.
  rewrite <- Hm, lower_str_app, Hp, starts_with_app in Hno. discriminate.
Qed.

Lemma nth_error_skipn_cons {A} (l : list A) n b : nth_error l n = Some b -> skipn n l = b :: skipn (S n) l.
Proof.
  revert l. induction n as [|n IH]; intros [|x l] H; try discriminate.
  - cbn in H. inversion H. reflexivity.
  - cbn in H. cbn [skipn]. apply IH in H. exact H.
Qed.

(* The model tests the char boundary twice (for the get and for the skip) at the same number, so one case
   split covers both and the Panic of the second test is dead.  At a non-boundary the specification fails
   too: the octet there is a continuation octet, neither '+' nor a digit. *)
Lemma generic_from_str_spec prefix text v :
  generic_from_str (length prefix) prefix (length prefix) text = Ok v <->
  starts_with (lower_str text) (lower_str prefix) = true /\
  spec_number true (skipn (length prefix) text) = Some v.
Proof.
  unfold generic_from_str. set (n := length prefix).
  destruct (is_char_boundary text n) eqn:Eb.
  - unfold n at 1. rewrite eq_nocase_firstn. fold n.
    destruct (starts_with (lower_str text) (lower_str prefix)).
    + destruct (u16_from_str (skipn n text)) as [w|e|] eqn:Eu.
      * apply u16_from_str_spec in Eu. rewrite Eu. split.
        -- intros H. inversion H; subst. auto.
        -- intros [_ H]. congruence.
      * split; [discriminate|]. intros [_ H]. apply u16_from_str_spec in H. congruence.
      * exfalso. exact (uint_from_str_no_panic _ _ Eu).
    + split; [discriminate|]. intros [H _]. discriminate.
  - split; [discriminate|]. intros [Hs Hn]. exfalso.
    unfold is_char_boundary in Eb. destruct (n =? 0)%nat; [discriminate|].
    destruct (nth_error text n) as [b|] eqn:En.
    + rewrite (nth_error_skipn_cons _ _ _ En) in Hn.
      apply negb_false_iff, andb_true_iff in Eb. destruct Eb as [E1 E2].
      apply N.leb_le in E1. apply N.ltb_lt in E2.
      rewrite spec_number_bad_head in Hn; [discriminate|lia|].
      destruct (is_dec_digit b) eqn:Ed; [|reflexivity]. apply is_dec_digit_spec in Ed. lia.
    + apply nth_error_None in En. apply Nat.eqb_neq in Eb.
      apply starts_with_length in Hs. rewrite !lower_str_length in Hs. fold n in Hs. lia.
Qed.

Lemma generic_from_str_no_panic prefix text :
  generic_from_str (length prefix) prefix (length prefix) text <> Panic.
Proof.
  unfold generic_from_str. destruct (is_char_boundary text (length prefix)); [|discriminate].
  destruct (eq_nocase _ _); [|discriminate].
  destruct (u16_from_str _) eqn:E; try discriminate. exfalso. exact (uint_from_str_no_panic _ _ E).
Qed.


Lemma arms_generic_spec arms prefix text v :
  arms_then eq_nocase arms (generic_from_str (length prefix) prefix (length prefix)) text = Ok v <->
  spec_code arms prefix true text = Some v.
Proof.
  unfold arms_then, spec_code. rewrite match_arms_lookup.
  destruct (lookup_mnemonic arms text) as [w|].
  - split; intros H; inversion H; reflexivity.
  - rewrite generic_from_str_spec.
    destruct (starts_with (lower_str text) (lower_str prefix)).
    + tauto.
    + split; [intros [H _]; discriminate|discriminate].
Qed.

Lemma type_generic_eq : type_generic = generic_from_str (length word_type) word_type (length word_type).
Proof. reflexivity. Qed.
Lemma class_generic_eq : class_generic = generic_from_str (length word_class) word_class (length word_class).
Proof. reflexivity. Qed.
Lemma type_arms_rfc : type_parse_arms = rfc_types. Proof. reflexivity. Qed.
Lemma class_arms_rfc : class_parse_arms = rfc_classes. Proof. reflexivity. Qed.
Lemma qtype_arms_rfc : qtype_parse_arms = rfc_qtypes_only. Proof. reflexivity. Qed.
Lemma qclass_arms_rfc : qclass_parse_arms = rfc_qclasses_only. Proof. reflexivity. Qed.

Lemma type_from_str_exact s v : type_from_str s = Ok v <-> spec_type true s = Some v.
Proof. unfold type_from_str. rewrite type_generic_eq, type_arms_rfc. apply arms_generic_spec. Qed.

Lemma class_from_str_exact s v : class_from_str s = Ok v <-> spec_class true s = Some v.
Proof. unfold class_from_str. rewrite class_generic_eq, class_arms_rfc. apply arms_generic_spec. Qed.

Lemma spec_code_app a b word lenient s :
  spec_code (a ++ b) word lenient s =
  match lookup_mnemonic a s with Some v => Some v | None => spec_code b word lenient s end.
Proof. unfold spec_code. rewrite lookup_app. destruct (lookup_mnemonic a s); reflexivity. Qed.

Lemma qtype_from_str_exact s v : qtype_from_str s = Ok v <-> spec_qtype true s = Some v.
Proof.
  unfold qtype_from_str, spec_qtype, arms_then. rewrite spec_code_app, match_arms_lookup, qtype_arms_rfc.
  destruct (lookup_mnemonic rfc_qtypes_only s).
  - split; intros H; inversion H; reflexivity.
  - apply type_from_str_exact.
Qed.

Lemma qclass_from_str_exact s v : qclass_from_str s = Ok v <-> spec_qclass true s = Some v.
Proof.
  unfold qclass_from_str, spec_qclass, arms_then. rewrite spec_code_app, match_arms_lookup, qclass_arms_rfc.
  destruct (lookup_mnemonic rfc_qclasses_only s).
  - split; intros H; inversion H; reflexivity.
  - apply class_from_str_exact.
Qed.

Lemma spec_code_strict_lenient table word s v :
  spec_code table word false s = Some v -> spec_code table word true s = Some v.
Proof.
  unfold spec_code. destruct (lookup_mnemonic table s); [auto|].
  destruct (starts_with _ _); [|auto]. apply spec_number_strict_lenient.
Qed.

Lemma arms_then_no_panic arms rest text :
  (forall t, rest t <> Panic) -> arms_then (E := code_err) eq_nocase arms rest text <> Panic.
Proof. intros H. unfold arms_then. destruct (match_arms _ _ _); [discriminate|apply H]. Qed.

Lemma type_from_str_no_panic s : type_from_str s <> Panic.
Proof. apply arms_then_no_panic. intros t. rewrite type_generic_eq. apply generic_from_str_no_panic. Qed.
Lemma class_from_str_no_panic s : class_from_str s <> Panic.
Proof. apply arms_then_no_panic. intros t. rewrite class_generic_eq. apply generic_from_str_no_panic. Qed.
Lemma qtype_from_str_no_panic s : qtype_from_str s <> Panic.
Proof. apply arms_then_no_panic. apply type_from_str_no_panic. Qed.
Lemma qclass_from_str_no_panic s : qclass_from_str s <> Panic.
Proof. apply arms_then_no_panic. apply class_from_str_no_panic. Qed.


Lemma lower_str_eq_length a b : lower_str a = lower_str b -> length a = length b.
Proof. intros H. rewrite <- (lower_str_length a), H. apply lower_str_length. Qed.

Lemma spec_code_generic table word lenient p k v :
  no_word_prefix word table = true -> lower_str p = lower_str word -> v < 65536 ->
  spec_code table word lenient (p ++ repeat 48 k ++ u16_display v) = Some v.
Proof.
  intros Hno Hp Hv. unfold spec_code. rewrite (lookup_generic_none word) by assumption.
  rewrite lower_str_app, Hp, starts_with_app.
  rewrite skipn_app_exact by (symmetry; apply lower_str_eq_length; exact Hp).
  apply spec_number_zeros. exact Hv.
Qed.


Definition opt_eqb (a b : option N) : bool :=
  match a, b with Some x, Some y => x =? y | None, None => true | _, _ => false end.

Lemma opt_eqb_eq a b : opt_eqb a b = true -> a = b.
Proof. destruct a, b; cbn; try discriminate; auto. intros H. apply N.eqb_eq in H. congruence. Qed.

(* every Display arm writes a mnemonic that the RFC table maps back to the arm's value *)
Definition display_arms_ok (table : list (bytes * N)) (arms : list (N * bytes)) : bool :=
  forallb (fun a => opt_eqb (lookup_mnemonic table (snd a)) (Some (fst a))) arms.

Lemma display_arm_in v arms m : display_arm v arms = Some m -> In (v, m) arms.
Proof.
  induction arms as [|[c s] r IH]; [discriminate|]. cbn [display_arm].
  destruct (c =? v) eqn:E.
  - apply N.eqb_eq in E. intros H. inversion H; subst. left. reflexivity.
  - intros H. right. apply IH. exact H.
Qed.

Lemma arm_or_denotes table word arms rest v :
  display_arms_ok table arms = true ->
  (display_arm v arms = None -> spec_code table word false (rest v) = Some v) ->
  spec_code table word false (arm_or arms rest v) = Some v.
Proof.
  intros Hok Hrest. unfold arm_or. destruct (display_arm v arms) as [m|] eqn:E; [|auto].
  apply display_arm_in in E. unfold display_arms_ok in Hok. rewrite forallb_forall in Hok.
  specialize (Hok _ E). cbn [fst snd] in Hok. apply opt_eqb_eq in Hok.
  unfold spec_code. rewrite Hok. reflexivity.
Qed.

Lemma generic_text_denotes table word v : no_word_prefix word table = true -> v < 65536 ->
  spec_code table word false (word ++ u16_display v) = Some v.
Proof. intros Hno Hv. apply (spec_code_generic table word false word 0 v Hno eq_refl Hv). Qed.

(* No mnemonic begins with the generic word of its table.  Evaluated once per table; the q-tables contain the
   plain ones. *)
Lemma qtypes_no_word_prefix : no_word_prefix word_type (rfc_qtypes_only ++ rfc_types) = true.
Proof. vm_compute. reflexivity. Qed.
Lemma qclasses_no_word_prefix : no_word_prefix word_class (rfc_qclasses_only ++ rfc_classes) = true.
Proof. vm_compute. reflexivity. Qed.

Lemma no_word_prefix_app_r word a b : no_word_prefix word (a ++ b) = true -> no_word_prefix word b = true.
Proof. unfold no_word_prefix. rewrite forallb_app, andb_true_iff. tauto. Qed.

Lemma types_no_word_prefix : no_word_prefix word_type rfc_types = true.
Proof. exact (no_word_prefix_app_r _ _ _ qtypes_no_word_prefix). Qed.
Lemma classes_no_word_prefix : no_word_prefix word_class rfc_classes = true.
Proof. exact (no_word_prefix_app_r _ _ _ qclasses_no_word_prefix). Qed.

Lemma type_display_denotes v : v < 65536 -> spec_type false (type_to_string v) = Some v.
Proof.
  intros Hv. unfold spec_type, type_to_string. apply arm_or_denotes; [vm_compute; reflexivity|].
  intros _. exact (generic_text_denotes rfc_types word_type v types_no_word_prefix Hv).
Qed.

Lemma class_display_denotes v : v < 65536 -> spec_class false (class_to_string v) = Some v.
Proof.
  intros Hv. unfold spec_class, class_to_string. apply arm_or_denotes; [vm_compute; reflexivity|].
  intros _. exact (generic_text_denotes rfc_classes word_class v classes_no_word_prefix Hv).
Qed.

Lemma qtype_display_denotes v : v < 65536 -> spec_qtype false (qtype_to_string v) = Some v.
Proof.
  intros Hv. unfold spec_qtype, qtype_to_string. apply arm_or_denotes; [vm_compute; reflexivity|].
  intros _. unfold type_to_string. apply arm_or_denotes; [vm_compute; reflexivity|].
  intros _. exact (generic_text_denotes _ word_type v qtypes_no_word_prefix Hv).
Qed.

Lemma qclass_display_denotes v : v < 65536 -> spec_qclass false (qclass_to_string v) = Some v.
Proof.
  intros Hv. unfold spec_qclass, qclass_to_string. apply arm_or_denotes; [vm_compute; reflexivity|].
  intros _. unfold class_to_string. apply arm_or_denotes; [vm_compute; reflexivity|].
  intros _. exact (generic_text_denotes _ word_class v qclasses_no_word_prefix Hv).
Qed.

Lemma type_roundtrip v : v < 65536 -> type_from_str (type_to_string v) = Ok v.
Proof. intros Hv. apply type_from_str_exact, spec_code_strict_lenient, type_display_denotes, Hv. Qed.
Lemma class_roundtrip v : v < 65536 -> class_from_str (class_to_string v) = Ok v.
Proof. intros Hv. apply class_from_str_exact, spec_code_strict_lenient, class_display_denotes, Hv. Qed.
Lemma qtype_roundtrip v : v < 65536 -> qtype_from_str (qtype_to_string v) = Ok v.
Proof. intros Hv. apply qtype_from_str_exact, spec_code_strict_lenient, qtype_display_denotes, Hv. Qed.
Lemma qclass_roundtrip v : v < 65536 -> qclass_from_str (qclass_to_string v) = Ok v.
Proof. intros Hv. apply qclass_from_str_exact, spec_code_strict_lenient, qclass_display_denotes, Hv. Qed.

Lemma accepts_rfc_forms s v :
  (spec_type false s = Some v -> type_from_str s = Ok v) /\
  (spec_class false s = Some v -> class_from_str s = Ok v) /\
  (spec_qtype false s = Some v -> qtype_from_str s = Ok v) /\
  (spec_qclass false s = Some v -> qclass_from_str s = Ok v).
Proof.
  repeat split; intros H.
  - apply type_from_str_exact, spec_code_strict_lenient, H.
  - apply class_from_str_exact, spec_code_strict_lenient, H.
  - apply qtype_from_str_exact, spec_code_strict_lenient, H.
  - apply qclass_from_str_exact, spec_code_strict_lenient, H.
Qed.

(* no entry of the table is shadowed by an earlier one that differs only in case but carries another value *)
Definition table_consistent (table : list (bytes * N)) : bool :=
  forallb (fun e => opt_eqb (lookup_mnemonic table (fst e)) (Some (snd e))) table.

Lemma mnemonic_case_spec table word lenient m v s :
  table_consistent table = true -> In (m, v) table -> lower_str s = lower_str m ->
  spec_code table word lenient s = Some v.
Proof.
  intros Hc Hin Hs. unfold spec_code. rewrite (lookup_lower table s m Hs).
  unfold table_consistent in Hc. rewrite forallb_forall in Hc. specialize (Hc _ Hin). cbn [fst snd] in Hc.
  apply opt_eqb_eq in Hc. rewrite Hc. reflexivity.
Qed.

Lemma type_mnemonic_case m v s : In (m, v) type_parse_arms -> lower_str s = lower_str m -> type_from_str s = Ok v.
Proof.
  intros Hin Hs. apply type_from_str_exact. rewrite type_arms_rfc in Hin.
  apply (mnemonic_case_spec rfc_types word_type true m v s); [vm_compute; reflexivity|exact Hin|exact Hs].
Qed.

Lemma class_mnemonic_case m v s : In (m, v) class_parse_arms -> lower_str s = lower_str m -> class_from_str s = Ok v.
Proof.
  intros Hin Hs. apply class_from_str_exact. rewrite class_arms_rfc in Hin.
  apply (mnemonic_case_spec rfc_classes word_class true m v s); [vm_compute; reflexivity|exact Hin|exact Hs].
Qed.

Lemma qtype_mnemonic_case m v s : In (m, v) (qtype_parse_arms ++ type_parse_arms) -> lower_str s = lower_str m ->
  qtype_from_str s = Ok v.
Proof.
  intros Hin Hs. apply qtype_from_str_exact. rewrite qtype_arms_rfc, type_arms_rfc in Hin.
  apply (mnemonic_case_spec (rfc_qtypes_only ++ rfc_types) word_type true m v s); [vm_compute; reflexivity|exact Hin|exact Hs].
Qed.

Lemma qclass_mnemonic_case m v s : In (m, v) (qclass_parse_arms ++ class_parse_arms) -> lower_str s = lower_str m ->
  qclass_from_str s = Ok v.
Proof.
  intros Hin Hs. apply qclass_from_str_exact. rewrite qclass_arms_rfc, class_arms_rfc in Hin.
  apply (mnemonic_case_spec (rfc_qclasses_only ++ rfc_classes) word_class true m v s); [vm_compute; reflexivity|exact Hin|exact Hs].
Qed.


Lemma type_generic_form p k v : lower_str p = lower_str word_type -> v < 65536 ->
  type_from_str (p ++ repeat 48 k ++ u16_display v) = Ok v.
Proof.
  intros Hp Hv. apply type_from_str_exact.
  exact (spec_code_generic rfc_types word_type true p k v types_no_word_prefix Hp Hv).
Qed.

Lemma class_generic_form p k v : lower_str p = lower_str word_class -> v < 65536 ->
  class_from_str (p ++ repeat 48 k ++ u16_display v) = Ok v.
Proof.
  intros Hp Hv. apply class_from_str_exact.
  exact (spec_code_generic rfc_classes word_class true p k v classes_no_word_prefix Hp Hv).
Qed.

Lemma qtype_generic_form p k v : lower_str p = lower_str word_type -> v < 65536 ->
  qtype_from_str (p ++ repeat 48 k ++ u16_display v) = Ok v.
Proof.
  intros Hp Hv. apply qtype_from_str_exact.
  exact (spec_code_generic _ word_type true p k v qtypes_no_word_prefix Hp Hv).
Qed.

Lemma qclass_generic_form p k v : lower_str p = lower_str word_class -> v < 65536 ->
  qclass_from_str (p ++ repeat 48 k ++ u16_display v) = Ok v.
Proof.
  intros Hp Hv. apply qclass_from_str_exact.
  exact (spec_code_generic _ word_class true p k v qclasses_no_word_prefix Hp Hv).
Qed.

(* the three conversions are one bound test ([apply] below computes the bounds of the model to 16) *)
Lemma below_16_spec (v w c : N) : (v < 16 -> w = v) ->
  (if v <? 16 then Ok w else Err tt : res unit N) = Ok c <-> v < 16 /\ c = v.
Proof.
  intros Hw. destruct (N.ltb_spec v 16) as [H|H].
  - rewrite (Hw H). split; [intros [= <-]; auto|intros [_ ->]; reflexivity].
  - split; [discriminate|lia].
Qed.

Lemma opcode_try_from_spec v c : opcode_try_from v = Ok c <-> v < 16 /\ c = v.
Proof. apply below_16_spec. reflexivity. Qed.

Lemma rcode_try_from_spec v c : rcode_try_from v = Ok c <-> v < 16 /\ c = v.
Proof. apply below_16_spec. reflexivity. Qed.

Lemma rcode_try_from_ext_spec e c : rcode_try_from_ext e = Ok c <-> e < 16 /\ c = e.
Proof. apply below_16_spec. intros H. apply N.mod_small. lia. Qed.

Lemma try_from_total v :
  opcode_try_from v <> Panic /\ rcode_try_from v <> Panic /\ rcode_try_from_ext v <> Panic.
Proof.
  unfold opcode_try_from, rcode_try_from, rcode_try_from_ext.
  destruct (v <? opcode_bound), (v <? rcode_bound), (v <? rcode_ext_bound); repeat split; discriminate.
Qed.

Lemma rcode_ext_roundtrip r : r < 16 -> rcode_try_from_ext (ercode_from_rcode r) = Ok r.
Proof. intros H. apply rcode_try_from_ext_spec. auto. Qed.

Lemma prefix_rejects_lowercase : type_from_str_prefix [97] = Err UnknownCode /\ type_from_str [97] = Ok 1.
Proof. split; vm_compute; reflexivity. Qed.
