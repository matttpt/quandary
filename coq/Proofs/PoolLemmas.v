(* Counting lemmas for the thread list of Model/Pool.v: every invariant is a linear
   (in)equation between weighted sums [sumf w (thr s)], and every step changes the
   thread list by [upd], [++ [_]], [notify_all] or [notify_one]. *)
From Coq Require Import Lia Permutation.
From QV Require Import Model.Pool.

Definition b2n (b : bool) : nat := if b then 1 else 0.

(* the standard library's name for it, which [lia] knows through ZifyBool *)
Lemma b2n_nat b : b2n b = Nat.b2n b.
Proof. reflexivity. Qed.

Fixpoint sumf (w : pc -> nat) (l : list pc) : nat :=
  match l with
  | [] => 0
  | p :: r => w p + sumf w r
  end.

Notation cnt f := (sumf (fun p => b2n (f p))).

Lemma sumf_app w l1 l2 : sumf w (l1 ++ l2) = sumf w l1 + sumf w l2.
Proof. induction l1 as [|p r IH]; simpl; [reflexivity | rewrite IH; lia]. Qed.

Lemma sumf_snoc w l q : sumf w (l ++ [q]) = sumf w l + w q.
Proof. rewrite sumf_app; simpl; lia. Qed.

(* thread i's own term split off a sum: the other threads [R] are the same whatever pc thread i moves to *)
Lemma sumf_others l : forall i p, nth_error l i = Some p ->
  exists R, (forall w, sumf w l = sumf w (p :: R)) /\ forall q w, sumf w (upd i q l) = sumf w (q :: R).
Proof.
  induction l as [|h t IH]; intros [|i] p E; simpl in *; try discriminate.
  - inversion E; subst. exists t. split; reflexivity.
  - destruct (IH i p E) as (R & H1 & H2). exists (h :: R).
    split; intros; simpl in *; rewrite ?H1, ?H2; lia.
Qed.

Lemma sumf_upd w l i p q : nth_error l i = Some p ->
  sumf w (upd i q l) + w p = sumf w l + w q.
Proof.
  intros E. destruct (sumf_others l i p E) as (R & H1 & H2). rewrite H1, H2. simpl; lia.
Qed.

Lemma sumf_nth_le w l i p : nth_error l i = Some p -> w p <= sumf w l.
Proof.
  intros E. destruct (sumf_others l i p E) as (R & H1 & _). rewrite H1. simpl; lia.
Qed.

Lemma sumf_ext w1 w2 l : (forall p, w1 p = w2 p) -> sumf w1 l = sumf w2 l.
Proof. intros H; induction l as [|p r IH]; simpl; [reflexivity | rewrite H, IH; reflexivity]. Qed.

Lemma sumf_le w1 w2 l : (forall p, w1 p <= w2 p) -> sumf w1 l <= sumf w2 l.
Proof. intros H; induction l as [|p r IH]; simpl; [lia | specialize (H p); lia]. Qed.

Lemma sumf_plus w1 w2 l : sumf (fun p => w1 p + w2 p) l = sumf w1 l + sumf w2 l.
Proof. induction l as [|p r IH]; simpl; [reflexivity | rewrite IH; lia]. Qed.

Lemma sumf_map w h l : sumf w (map h l) = sumf (fun p => w (h p)) l.
Proof. induction l as [|p r IH]; simpl; [reflexivity | rewrite IH; reflexivity]. Qed.

Lemma sumf_zero_all w l : sumf w l = 0 -> forall p, In p l -> w p = 0.
Proof.
  induction l as [|h t IH]; simpl; intros Hs p Hin; [contradiction|].
  destruct Hin as [->|Hin]; [lia|]. apply IH; [lia | exact Hin].
Qed.

Lemma sumf_all_zero w l : (forall p, In p l -> w p = 0) -> sumf w l = 0.
Proof.
  induction l as [|h t IH]; simpl; intros H; [reflexivity|].
  rewrite (H h (or_introl eq_refl)), IH; [reflexivity | intros p Hp; apply H; right; exact Hp].
Qed.


Lemma length_upd {A} (l : list A) : forall i x, length (upd i x l) = length l.
Proof. induction l as [|h t IH]; intros [|i] x; simpl; auto. Qed.

Lemma nth_upd_same {A} (l : list A) : forall i x, i < length l -> nth_error (upd i x l) i = Some x.
Proof. induction l as [|h t IH]; intros [|i] x H; simpl in *; try lia; auto. apply IH; lia. Qed.

Lemma nth_upd_other {A} (l : list A) : forall i j x, i <> j -> nth_error (upd i x l) j = nth_error l j.
Proof. induction l as [|h t IH]; intros [|i] [|j] x H; simpl; auto; try lia. Qed.

Lemma nth_Some_lt {A} (l : list A) i x : nth_error l i = Some x -> i < length l.
Proof. intros H; apply nth_error_Some; rewrite H; discriminate. Qed.

Lemma nth_snoc_lt {A} (l : list A) i x y : nth_error l i = Some x -> nth_error (l ++ [y]) i = Some x.
Proof. intros H; rewrite nth_error_app1; [exact H | eapply nth_Some_lt; exact H]. Qed.

Lemma nth_snoc_last {A} (l : list A) y : nth_error (l ++ [y]) (length l) = Some y.
Proof. rewrite nth_error_app2, Nat.sub_diag by lia; reflexivity. Qed.

Lemma upd_In {A} (l : list A) : forall i x y, In y (upd i x l) -> y = x \/ In y l.
Proof.
  induction l as [|h t IH]; intros [|i] x y H; simpl in *; try tauto.
  - destruct H as [->|H]; auto.
  - destruct H as [->|H]; auto. destruct (IH i x y H); auto.
Qed.


Lemma sumf_na w g l : sumf w (notify_all g l) = sumf (fun p => if g p then w (wake p) else w p) l.
Proof. unfold notify_all; rewrite sumf_map; apply sumf_ext; intros p; destruct (g p); reflexivity. Qed.

Lemma sumf_na_same w g l : (forall p, g p = true -> w (wake p) = w p) -> sumf w (notify_all g l) = sumf w l.
Proof.
  intros H; rewrite sumf_na; apply sumf_ext; intros p.
  destruct (g p) eqn:E; [apply H; exact E | reflexivity].
Qed.

Lemma sumf_na_zero w g l : (forall p, g p = true -> w (wake p) = 0) -> (forall p, g p = false -> w p = 0) ->
  sumf w (notify_all g l) = 0.
Proof.
  intros H1 H2; rewrite sumf_na; apply sumf_all_zero; intros p _.
  destruct (g p) eqn:E; [apply H1 | apply H2]; exact E.
Qed.

Lemma length_na g l : length (notify_all g l) = length l.
Proof. apply map_length. Qed.

Lemma nth_na g l i : nth_error (notify_all g l) i = option_map (fun p => if g p then wake p else p) (nth_error l i).
Proof. unfold notify_all; apply nth_error_map. Qed.

Lemma nth_na_other g l i p : nth_error l i = Some p -> g p = false -> nth_error (notify_all g l) i = Some p.
Proof. intros E G; rewrite nth_na, E; simpl; rewrite G; reflexivity. Qed.

Lemma na_upd g l : forall i q, g q = false -> notify_all g (upd i q l) = upd i q (notify_all g l).
Proof.
  induction l as [|h t IH]; intros [|i] q G; simpl; rewrite ?G, ?IH by exact G; reflexivity.
Qed.


Lemma existsb_false_cnt g l : existsb g l = false -> cnt g l = 0.
Proof.
  induction l as [|p r IH]; simpl; intros H; [reflexivity|].
  apply orb_false_iff in H; destruct H as [H1 H2]; rewrite H1, (IH H2); reflexivity.
Qed.

Lemma cnt_zero_existsb g l : cnt g l = 0 -> existsb g l = false.
Proof.
  induction l as [|p r IH]; simpl; intros H; [reflexivity|].
  destruct (g p); simpl in *; [lia | apply IH; lia].
Qed.

Lemma notify_one_cases g c l l' : notify_one g c l = Some l' ->
  (l' = l /\ cnt g l = 0) \/
  (exists j p, nth_error l j = Some p /\ g p = true /\ l' = upd j (wake p) l).
Proof.
  unfold notify_one; destruct c as [j|].
  - destruct (nth_error l j) as [p|] eqn:E; [|discriminate].
    destruct (g p) eqn:G; [|discriminate].
    intros H; inversion H; subst; right; exists j, p; auto.
  - destruct (existsb g l) eqn:E; [discriminate|].
    intros H; inversion H; subst; left; split; [reflexivity | apply existsb_false_cnt; exact E].
Qed.

Lemma notify_one_nth g c l l' i p : notify_one g c l = Some l' ->
  nth_error l i = Some p -> g p = false -> nth_error l' i = Some p.
Proof.
  unfold notify_one; destruct c as [j|].
  - destruct (nth_error l j) as [pj|] eqn:E; [|discriminate].
    destruct (g pj) eqn:G; [|discriminate].
    intros H Ei Gi; inversion H; subst.
    rewrite nth_upd_other; [exact Ei|]. intros ->. rewrite E in Ei; inversion Ei; subst. congruence.
  - destruct (existsb g l); [discriminate|]. intros H; inversion H; subst; auto.
Qed.

Lemma notify_one_length g c l l' : notify_one g c l = Some l' -> length l' = length l.
Proof.
  unfold notify_one; destruct c as [j|].
  - destruct (nth_error l j) as [pj|]; [|discriminate]. destruct (g pj); [|discriminate].
    intros H; inversion H; subst; apply length_upd.
  - destruct (existsb g l); [discriminate|]. intros H; inversion H; subst; auto.
Qed.

Fixpoint find_waiter (g : pc -> bool) (l : list pc) (i : nat) : option nat :=
  match l with
  | [] => None
  | p :: r => if g p then Some i else find_waiter g r (S i)
  end.

Lemma find_waiter_spec g l : forall k,
  match find_waiter g l k with
  | Some j => exists p, k <= j /\ nth_error l (j - k) = Some p /\ g p = true
  | None => existsb g l = false
  end.
Proof.
  induction l as [|p r IH]; intros k; simpl; [reflexivity|].
  destruct (g p) eqn:G.
  - exists p; rewrite Nat.sub_diag; simpl; auto.
  - specialize (IH (S k)). destruct (find_waiter g r (S k)) as [j|]; simpl; [|exact IH].
    destruct IH as (q & Hk & Hn & Hg). exists q; split; [lia|]. split; [|exact Hg].
    replace (j - k) with (S (j - S k)) by lia. exact Hn.
Qed.

Lemma notify_one_enabled g l : exists c l', notify_one g c l = Some l'.
Proof.
  pose proof (find_waiter_spec g l 0) as H.
  destruct (find_waiter g l 0) as [j|].
  - destruct H as (p & _ & Hn & Hg). rewrite Nat.sub_0_r in Hn.
    exists (Some j), (upd j (wake p) l). unfold notify_one; rewrite Hn, Hg; reflexivity.
  - exists None, l. unfold notify_one; rewrite H; reflexivity.
Qed.
