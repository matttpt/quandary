(* Lemmas about the decimal codec of Model/DecU16.v (Rust's u16::from_str / Display) against the
   naive reading of Spec/CodeTextS.v ([horner], [spec_number]). *)
From QV Require Import Base.ListX Model.DecU16 Spec.CodeTextS.
Local Open Scope N_scope.

Lemma is_dec_digit_spec c : is_dec_digit c = true <-> 48 <= c <= 57.
Proof.
  unfold is_dec_digit. rewrite andb_true_iff, !N.leb_le. tauto.
Qed.

Definition hfold (a : N) (l : bytes) : N := fold_left (fun a d => a * 10 + (d - 48)) l a.

Lemma horner_hfold l : horner l = hfold 0 l.
Proof. reflexivity. Qed.

Lemma hfold_cons a d l : hfold a (d :: l) = hfold (a * 10 + (d - 48)) l.
Proof. reflexivity. Qed.

Lemma hfold_app a l1 l2 : hfold a (l1 ++ l2) = hfold (hfold a l1) l2.
Proof. unfold hfold. apply fold_left_app. Qed.

Lemma hfold_ge a l : a <= hfold a l.
Proof.
  revert a. induction l as [|d l IH]; intros a.
  - simpl. lia.
  - rewrite hfold_cons. specialize (IH (a * 10 + (d - 48))). lia.
Qed.

Lemma digits_loop_spec max l : forall a v, a <= max ->
  (digits_loop max l a = Ok v <-> forallb is_dec_digit l = true /\ hfold a l = v /\ v <= max).
Proof.
  induction l as [|c r IH]; intros a v Ha.
  - simpl. split.
    + intros H. inversion H; subst. auto.
    + intros (_ & H & _). subst. reflexivity.
  - cbn [digits_loop forallb]. rewrite hfold_cons.
    destruct (is_dec_digit c) eqn:Ed.
    + destruct (max <? a * 10) eqn:E1.
      * apply N.ltb_lt in E1. split; [discriminate|].
        intros (_ & H & Hv). pose proof (hfold_ge (a * 10 + (c - 48)) r). lia.
      * apply N.ltb_ge in E1.
        destruct (max <? a * 10 + (c - 48)) eqn:E2.
        -- apply N.ltb_lt in E2. split; [discriminate|].
           intros (_ & H & Hv). pose proof (hfold_ge (a * 10 + (c - 48)) r). lia.
        -- apply N.ltb_ge in E2. rewrite (IH _ v E2). simpl. tauto.
    + simpl. split; [discriminate|]. intros (H & _). discriminate.
Qed.

Lemma digits_loop_no_panic max l : forall a, digits_loop max l a <> Panic.
Proof.
  induction l as [|c r IH]; intros a; cbn [digits_loop]; [discriminate|].
  destruct (is_dec_digit c); [|discriminate].
  destruct (max <? a * 10); [discriminate|].
  destruct (max <? a * 10 + (c - 48)); [discriminate|]. apply IH.
Qed.

Lemma uint_from_str_no_panic max s : uint_from_str max s <> Panic.
Proof.
  unfold uint_from_str. destruct s as [|c r]; [discriminate|].
  destruct (((c =? 43) || (c =? 45)) && is_nil r); [discriminate|].
  destruct (c =? 43); apply digits_loop_no_panic.
Qed.

(* digits only: one or more decimal digits whose value fits *)
Definition spec_digits (ds : bytes) : option N :=
  if is_nil ds then None
  else if forallb is_dec_digit ds then (if horner ds <=? 65535 then Some (horner ds) else None) else None.

Lemma spec_number_unfold lenient l :
  spec_number lenient l =
  spec_digits (match l with c :: r => if lenient && (c =? 43) then r else l | [] => l end).
Proof. reflexivity. Qed.

Lemma digits_loop_spec_digits ds v : ds <> [] ->
  (digits_loop u16_max ds 0 = Ok v <-> spec_digits ds = Some v).
Proof.
  intros Hne. rewrite digits_loop_spec by (unfold u16_max; lia).
  unfold spec_digits. destruct ds as [|c r]; [congruence|]. cbn [is_nil].
  change (horner (c :: r)) with (hfold 0 (c :: r)). unfold u16_max.
  destruct (forallb is_dec_digit (c :: r)).
  - destruct (hfold 0 (c :: r) <=? 65535) eqn:E.
    + apply N.leb_le in E. split.
      * intros (_ & H & _). congruence.
      * intros H. inversion H; subst. auto.
    + apply N.leb_gt in E. split; [|discriminate]. intros (_ & H & Hv). lia.
  - split; [|discriminate]. intros (H & _). discriminate.
Qed.

Lemma u16_from_str_spec s v : u16_from_str s = Ok v <-> spec_number true s = Some v.
Proof.
  rewrite spec_number_unfold. unfold u16_from_str, uint_from_str.
  destruct s as [|c r].
  - cbn. split; discriminate.
  - cbn [andb]. destruct (c =? 43) eqn:E43.
    + cbn [orb]. destruct r as [|c' r'].
      * cbn. split; discriminate.
      * cbn [is_nil andb]. apply digits_loop_spec_digits. discriminate.
    + cbn [orb]. destruct (c =? 45) eqn:E45.
      * apply N.eqb_eq in E45. subst c. destruct r as [|c' r'].
        -- cbn. split; discriminate.
        -- cbn [is_nil andb]. apply digits_loop_spec_digits. discriminate.
      * cbn [andb]. apply digits_loop_spec_digits. discriminate.
Qed.

Lemma spec_number_strict_lenient l v : spec_number false l = Some v -> spec_number true l = Some v.
Proof.
  rewrite !spec_number_unfold. destruct l as [|c r]; [auto|].
  cbn [andb]. destruct (c =? 43) eqn:E; [|auto].
  apply N.eqb_eq in E. subst c. unfold spec_digits at 1. cbn. discriminate.
Qed.

Lemma spec_number_bad_head lenient b r : b <> 43 -> is_dec_digit b = false -> spec_number lenient (b :: r) = None.
Proof.
  intros H43 Hd. rewrite spec_number_unfold.
  apply N.eqb_neq in H43. rewrite H43, andb_false_r.
  unfold spec_digits. cbn [is_nil forallb]. rewrite Hd. reflexivity.
Qed.

Lemma to_dec_aux_app f : forall n acc, to_dec_aux f n acc = to_dec_aux f n [] ++ acc.
Proof.
  induction f as [|f IH]; intros n acc; cbn [to_dec_aux]; [reflexivity|].
  destruct (n / 10 =? 0); [reflexivity|].
  rewrite (IH _ (_ :: acc)), (IH _ [_]), <- app_assoc. reflexivity.
Qed.

(* quotient and remainder as variables with their defining equation, which is all [lia] needs of them *)
Lemma divmod10 n : exists q m, n / 10 = q /\ n mod 10 = m /\ n = 10 * q + m /\ m < 10.
Proof.
  exists (n / 10), (n mod 10). split; [reflexivity|]. split; [reflexivity|]. split.
  - apply N.div_mod'.
  - apply N.mod_lt. discriminate.
Qed.

Lemma to_dec_aux_digits f : forall n, n < 10 ^ N.of_nat f ->
  hfold 0 (to_dec_aux f n []) = n /\ forallb is_dec_digit (to_dec_aux f n []) = true.
Proof.
  induction f as [|f IH]; intros n Hn.
  - cbn in *. split; [lia|reflexivity].
  - cbn [to_dec_aux].
    rewrite Nat2N.inj_succ, N.pow_succ_r' in Hn.
    set (P := 10 ^ N.of_nat f) in *. clearbody P.
    destruct (divmod10 n) as (q & m & Eq & Em & Hnm & Hm). rewrite Eq, Em. clear Eq Em.
    assert (Hd : is_dec_digit (48 + m) = true) by (apply is_dec_digit_spec; lia).
    destruct (q =? 0) eqn:E.
    + apply N.eqb_eq in E. split.
      * unfold hfold. cbn [fold_left]. lia.
      * cbn [forallb]. rewrite Hd. reflexivity.
    + rewrite to_dec_aux_app.
      assert (Hq : q < P) by lia.
      destruct (IH _ Hq) as [Hv Hall]. split.
      * rewrite hfold_app, Hv. unfold hfold. cbn [fold_left]. lia.
      * rewrite forallb_app, Hall. cbn [forallb]. rewrite Hd. reflexivity.
Qed.

Lemma to_dec_aux_nonempty f n : to_dec_aux (S f) n [] <> [].
Proof.
  cbn [to_dec_aux]. destruct (n / 10 =? 0); [discriminate|].
  rewrite to_dec_aux_app. intros H. apply app_eq_nil in H. destruct H; discriminate.
Qed.

Lemma u16_display_digits v : v < 65536 ->
  u16_display v <> [] /\ forallb is_dec_digit (u16_display v) = true /\ horner (u16_display v) = v.
Proof.
  intros Hv. unfold u16_display. split; [apply to_dec_aux_nonempty|].
  destruct (to_dec_aux_digits 5 v) as [H1 H2].
  { change (10 ^ N.of_nat 5) with 100000. lia. }
  split; [exact H2|exact H1].
Qed.

Lemma hfold_zeros k : forall l, hfold 0 (repeat 48 k ++ l) = hfold 0 l.
Proof.
  induction k as [|k IH]; intros l; [reflexivity|].
  cbn [repeat app]. rewrite hfold_cons. change (0 * 10 + (48 - 48)) with 0. apply IH.
Qed.

(* one or more digits of value v are read as v, with or without leniency: the first is no '+' *)
Lemma spec_number_digits lenient ds v :
  ds <> [] -> forallb is_dec_digit ds = true -> horner ds = v -> v < 65536 -> spec_number lenient ds = Some v.
Proof.
  intros Hne Hall Hval Hv. rewrite spec_number_unfold. destruct ds as [|c r]; [congruence|].
  assert (Hc : (c =? 43) = false).
  { cbn [forallb] in Hall. apply andb_true_iff in Hall as [Hc _]. apply is_dec_digit_spec in Hc. apply N.eqb_neq. lia. }
  rewrite Hc, andb_false_r. unfold spec_digits. cbn [is_nil].
  rewrite Hall, Hval, (proj2 (N.leb_le v 65535)) by lia. reflexivity.
Qed.

Lemma spec_number_zeros lenient k v : v < 65536 ->
  spec_number lenient (repeat 48 k ++ u16_display v) = Some v.
Proof.
  intros Hv. destruct (u16_display_digits v Hv) as (Hne & Hall & Hval). apply spec_number_digits; [| | |exact Hv].
  - intros E. apply app_eq_nil in E. tauto.
  - rewrite forallb_app, Hall, andb_true_r. induction k as [|k IH]; [reflexivity|].
    (* [is_dec_digit 48 && _] computes to its second argument *) exact IH.
  - rewrite horner_hfold, hfold_zeros. exact Hval.
Qed.

Lemma spec_number_display lenient v : v < 65536 -> spec_number lenient (u16_display v) = Some v.
Proof. exact (spec_number_zeros lenient 0 v). Qed.

Lemma u16_codec v : v < 65536 -> u16_from_str (u16_display v) = Ok v.
Proof. intros Hv. apply u16_from_str_spec. apply spec_number_display. exact Hv. Qed.
