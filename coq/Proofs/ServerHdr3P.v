(* C03 at the byte level for ANSWERED responses: the fourth header octet.
   Every response [QueryW.respond_w] produces has RA = 0 and Z = 0 — the upper four bits of the octet that
   holds the RCODE are never set: the octet starts at 0, only set_rcode touches it, and the answering logic
   only ever passes RCODEs that fit in 4 bits (which is why the lifting of Proofs/QueryInv16P.v asks set_rcode to
   preserve the invariant for such RCODEs only). *)
From QV Require Import Base.ListX Gen.Consts Model.MsgWriter Proofs.NameWireP Proofs.MsgWriterP Proofs.MsgWriterNameP
  Proofs.MsgWriterInvP Model.ZoneTree Model.Query Model.QueryW Proofs.QueryWP.
Local Open Scope nat_scope.

Definition nibble_at3 (b : bytes) : Prop := exists y, nth_error b 3 = Some y /\ (y < 16)%N.
Definition HK3 (w : writer) : Prop := Inv_n w /\ nibble_at3 (w_buf w).

Lemma HK3_keeps w w' : Inv_n w -> nibble_at3 (w_buf w) -> keeps w w' -> nibble_at3 (w_buf w').
Proof.
  intros Hi (y & Hy & Ho) X. exists y. split; [|exact Ho]. rewrite (agree_nth _ _ _ _ (k_buf _ _ X)); [exact Hy|].
  pose proof (i_hdr _ Hi) as H12. change header_size with 12 in H12. lia.
Qed.

Lemma HK3_modify2 w f w' : nibble_at3 (w_buf w) -> w_modify w 2 f = Ok w' -> nibble_at3 (w_buf w').
Proof.
  intros (y & Hy & Ho) E. destruct (w_modify_at _ _ _ _ E) as (x & b' & _ & -> & _ & _ & Hoth).
  exists y. split; [|exact Ho]. cbn [w_buf set_buf]. rewrite Hoth by (cbn; lia). exact Hy.
Qed.

(* the low nibble is replaced, the high one (0) kept: or-ing two values below 16 stays below 16 *)
Lemma rcode_nibble y rc : (y < 16)%N -> (rc < 16)%N -> (N.lor (N.land y (255 - RCODE_MASK)) rc < 16)%N.
Proof.
  intros Hy Hr.
  assert (A : forallb (fun y => forallb (fun rc => (N.lor (N.land y (255 - RCODE_MASK)) rc <? 16)%N) (upto 16)) (upto 16) = true)
    by (vm_compute; reflexivity).
  rewrite forallb_forall in A. specialize (A y (upto_In 16 y Hy)).
  rewrite forallb_forall in A. specialize (A rc (upto_In 16 rc Hr)). apply N.ltb_lt. exact A.
Qed.

Lemma HK3_set_rcode rc w w' : (rc < 16)%N -> nibble_at3 (w_buf w) -> set_rcode rc w = Ok w' -> nibble_at3 (w_buf w').
Proof.
  intros Hr (y & Hy & Ho) E. apply set_rcode_inv in E as (w1 & E1 & ->). rewrite clear_upper_buf.
  destruct (w_modify_at _ _ _ _ E1) as (x & b' & Hx & -> & _ & Hx' & _). change (N.to_nat RCODE_BYTE) with 3 in *.
  rewrite Hy in Hx. injection Hx as <-. eexists. split; [exact Hx'|]. apply rcode_nibble; assumption.
Qed.

Theorem handle_HK3 negttl z qname qtype tcp w w' : HK3 w ->
  handle_non_axfr_query w_iface negttl z qname qtype tcp w = Some w' -> HK3 w'.
Proof.
  apply (handle_keeps (fun w => nibble_at3 (w_buf w)) HK3_keeps).
  - intros b w0 w0' _. apply HK3_modify2.
  - intros rc w0 w0' Hr _. apply HK3_set_rcode, Hr.
  - intros b w0 w0' _. apply HK3_modify2.
Qed.

Theorem respond_w_ra_z negttl buf tcp id rd qname qtype qclass edns limit z len b :
  respond_w negttl buf tcp id rd qname qtype qclass edns limit z = Some (len, b) ->
  exists y, nth_error b 3 = Some y /\ (y < 16)%N.
Proof.
  intros R. destruct (respond_w_inv _ _ _ _ _ _ _ _ _ _ _ _ R) as (w & w' & Ep & Eh & Ef).
  destruct (prepare_w_shape _ _ _ _ _ _ _ _ _ _ Ep) as (Hi & _ & _ & H3 & _).
  destruct (handle_HK3 _ _ _ _ _ _ _ (conj Hi (ex_intro _ 0%N (conj H3 eq_refl))) Eh) as (Hi' & y & Hy & Ho).
  exists y. split; [|exact Ho]. destruct (finish_below _ _ _ Hi' Ef) as (_ & Hn). rewrite <- Hy.
  pose proof (inv_cursor_12 w' Hi'). apply Hn; lia.
Qed.
