(* Composition (C02): the octets respond_w returns are a well-formed response (Spec/RespS.v) for every zone whose
   RDATA is valid for its type.  The decoder reads back the abstract message of the run (run_decode); every record
   of it is a record of the zone ([Good], carried through the replay by the per-operation predicate Pop2), whose
   validity survives the round trip; QR is set, there is no TSIG and at most the one OPT. *)
From QV Require Import Base.ListX Gen.Consts Model.NameWire Model.MsgWriter Model.ZoneTree
  Spec.ZoneLookupS Proofs.ZoneInvP Model.Query Model.QueryW
  Spec.NameWireS Spec.MsgWriterS Spec.MsgWriterAbsS Spec.RdataFormatS Spec.RespS
  Proofs.MsgWriterP Proofs.MsgWriterScanP Proofs.MsgWriterNameP Proofs.MsgWriterInvP Proofs.MsgWriterOpP
  Proofs.MsgWriterStepP Proofs.MsgWriterDecP Proofs.MsgWriterHdrP Proofs.MsgWriterRtP
  Proofs.ComposeTraceP Proofs.ComposeWfP Proofs.ComposeNameP Proofs.ComposeKeyP Proofs.ComposeTopP Proofs.ComposeRdataP.
Local Open Scope nat_scope.

Definition no_pseudo (ty : N) : Prop := ty <> 41%N /\ ty <> 250%N.

(* per operation: records carry the zone's class, octets < 256, RDATA valid for the type, no OPT/TSIG type;
   QR is only ever set (so h_qr stays true); no TSIG, no change of compression mode, no templates (so h_tsig stays
   None and the mode Standard, which [Good] needs to read names modulo case) *)
Definition Pop2 (cls : N) (o : wop) : Prop :=
  match o with
  | OAddRr _ _ _ ty cl _ rd _ => cl = cls /\ no_pseudo ty /\ wf_bytes rd /\ spec_valid cls ty rd = true
  | OAddRrset _ _ _ ty cl _ rds _ => cl = cls /\ Forall (fun rd => no_pseudo ty /\ wf_bytes rd /\ spec_valid cls ty rd = true) rds
  | OSetQr b => b = true
  | OSetMode _ | OSetTsig _ _ _ _ _ _ _ | OUpdateTime _ | OTemplate _ | OTemplateSubsequent => False
  | _ => True
  end.

Definition arr_ok (cls : N) (a : arr) : Prop :=
  ar_cl a = cls /\ no_pseudo (ar_ty a) /\ wf_bytes (ar_rd a) /\ spec_valid cls (ar_ty a) (ar_rd a) = true /\ ar_mode a = Standard.

Definition Good (cls : N) (A : amsg) (H : ahdr) : Prop :=
  h_qr H = true /\ h_tsig H = None /\ am_mode A = Standard /\
  Forall (arr_ok cls) (am_an A) /\ Forall (arr_ok cls) (am_ns A) /\ Forall (arr_ok cls) (am_ar A).

Lemma Good_add cls A H s l : Good cls A H -> Forall (arr_ok cls) l -> Good cls (add_rrs A s l) H.
Proof.
  intros (A1 & A2 & A3 & A4 & A5 & A6) Hl. destruct s; unfold add_rrs, Good; cbn; repeat split; auto; apply Forall_app; auto.
Qed.

Lemma Good_step cls A H o r : Good cls A H -> Pop2 cls o -> Good cls (astep A o r) (hstep H o r).
Proof.
  intros G P. pose proof G as (A1 & A2 & A3 & A4 & A5 & A6).
  destruct o; cbn [Pop2] in P; try contradiction; destruct r; cbn [astep hstep]; try exact G;
    try (unfold Good; cbn; repeat split; auto; fail).
  - destruct P as (-> & Hn & Hw & Hv). apply Good_add; auto. constructor; [|constructor].
    unfold arr_ok. cbn. repeat split; auto; apply Hn.
  - destruct P as (-> & Hf). apply Good_add; auto. apply Forall_forall. intros a Ha.
    apply in_map_iff in Ha as (rd & <- & Hin). rewrite Forall_forall in Hf. destruct (Hf rd Hin) as (Hn & Hw & Hv).
    unfold arr_ok. cbn. repeat split; auto; apply Hn.
Qed.

Lemma Good_replay cls : forall ops outs A H, Forall (Pop2 cls) ops -> Good cls A H ->
  Good cls (areplay A ops outs) (hreplay H ops outs).
Proof.
  induction ops as [|o ops IH]; intros outs A H Hf G; [exact G|].
  destruct outs as [|r outs]; [exact G|]. inversion Hf; subst. cbn [areplay hreplay]. apply IH; auto. apply Good_step; auto.
Qed.

Lemma Good_prepared cls tcp id rd qname qtype qclass edns limit :
  let ops := pre_ops tcp id rd qname qtype qclass edns limit in
  Good cls (areplay am0 ops (map (fun _ => RUnit) ops)) (hreplay ah0 ops (map (fun _ => RUnit) ops)).
Proof.
  unfold pre_ops. destruct edns as [size|]; [destruct tcp|]; cbn; unfold Good; cbn; repeat split; auto.
Qed.

Lemma component_types_opt u : component_types u 41 = [].
Proof. reflexivity. Qed.

Lemma rr_ok_decoded cls a d : arr_ok cls a -> rr_rel xparts a d ->
  rr_rdata_ok d = true /\ is_opt d = false /\ is_tsig d = false.
Proof.
  intros (Hc & [Hn1 Hn2] & Hw & Hv & Hm) (_ & Ht & Hcl & _ & Hp).
  assert (E1 : is_opt d = false) by (unfold is_opt; rewrite Ht; apply N.eqb_neq; exact Hn1).
  assert (E2 : is_tsig d = false) by (unfold is_tsig; rewrite Ht; apply N.eqb_neq; exact Hn2).
  split; [|split; auto]. unfold rr_rdata_ok. rewrite E1, Ht, Hcl, Hc.
  unfold ar_exact in Hp. rewrite Hm in Hp. cbn [exact_of] in Hp. unfold xparts in Hp. rewrite Hc in Hp.
  eapply rdata_valid_roundtrip; eauto.
Qed.

Lemma section_ok cls : forall As Ds, Forall (arr_ok cls) As -> Forall2 (rr_rel xparts) As Ds ->
  Forall (fun d => rr_rdata_ok d = true /\ is_opt d = false /\ is_tsig d = false) Ds.
Proof.
  induction 2 as [|a d As Ds Hr _ IH]; constructor.
  - inversion H; subst. eapply rr_ok_decoded; eauto.
  - apply IH. inversion H; auto.
Qed.

Lemma opt_decoded mode u up d : rr_rel xparts (mkAR [] mode 41 u up []) d ->
  rr_rdata_ok d = true /\ is_opt d = true /\ is_tsig d = false.
Proof.
  intros (_ & Ht & _ & _ & Hp). cbn [ar_ty] in Ht.
  assert (E1 : is_opt d = true) by (unfold is_opt; rewrite Ht; reflexivity).
  assert (E2 : is_tsig d = false) by (unfold is_tsig; rewrite Ht; reflexivity).
  split; [|split; auto]. unfold rr_rdata_ok. rewrite E1.
  unfold xparts in Hp. cbn [ar_cl ar_ty ar_rd] in Hp. rewrite component_types_opt in Hp. cbn in Hp. inversion Hp. reflexivity.
Qed.

Lemma count_none {A} (f : A -> bool) l : Forall (fun x => f x = false) l -> count f l = 0.
Proof.
  unfold count. induction 1 as [|x l Hx _ IH]; [reflexivity|]. cbn [filter]. rewrite Hx. exact IH.
Qed.
Lemma count_le {A} (f : A -> bool) l : count f l <= length l.
Proof. unfold count. induction l as [|x l IH]; simpl; [lia|]. destruct (f x); simpl; lia. Qed.
Lemma count_app {A} (f : A -> bool) a b : count f (a ++ b) = count f a + count f b.
Proof. unfold count. rewrite filter_app, app_length. reflexivity. Qed.

Lemma wf_decoded_intro m :
  qr_bit m = true ->
  Forall (fun d => rr_rdata_ok d = true /\ is_opt d = false /\ is_tsig d = false) (m_an m) ->
  Forall (fun d => rr_rdata_ok d = true /\ is_opt d = false /\ is_tsig d = false) (m_ns m) ->
  (exists xs ps, m_ar m = xs ++ ps /\
     Forall (fun d => rr_rdata_ok d = true /\ is_opt d = false /\ is_tsig d = false) xs /\
     length ps <= 1 /\ Forall (fun d => rr_rdata_ok d = true /\ is_tsig d = false) ps) ->
  wf_decoded m = true.
Proof.
  intros Hq Han Hns (xs & ps & Ear & Hxs & Hlen & Hps).
  assert (Hall : Forall (fun d => rr_rdata_ok d = true /\ is_tsig d = false) (m_ar m)).
  { rewrite Ear. apply Forall_app. split; [|exact Hps]. eapply Forall_impl; [|exact Hxs]. intros d (A & _ & B). auto. }
  unfold wf_decoded. rewrite Hq. cbn [andb].
  assert (H1 : forallb rr_rdata_ok (m_an m ++ m_ns m ++ m_ar m) = true).
  { apply forallb_forall. intros d Hd. apply in_app_or in Hd as [Hd|Hd]; [|apply in_app_or in Hd as [Hd|Hd]].
    - rewrite Forall_forall in Han. apply (Han d Hd).
    - rewrite Forall_forall in Hns. apply (Hns d Hd).
    - rewrite Forall_forall in Hall. apply (Hall d Hd). }
  rewrite H1. cbn [andb].
  assert (H2 : count is_pseudo (m_an m ++ m_ns m) = 0).
  { apply count_none. apply Forall_app. split; [eapply Forall_impl; [|exact Han]|eapply Forall_impl; [|exact Hns]];
      intros d (_ & A & B); unfold is_pseudo; rewrite A, B; reflexivity. }
  rewrite H2. cbn [Nat.eqb andb].
  assert (H3 : count is_opt (m_ar m) <= 1).
  { rewrite Ear, count_app. rewrite (count_none is_opt xs) by (eapply Forall_impl; [|exact Hxs]; intros d (_ & A & _); exact A).
    pose proof (count_le is_opt ps). lia. }
  apply Nat.leb_le in H3. rewrite H3. cbn [andb].
  assert (H4 : count is_tsig (m_ar m) = 0).
  { apply count_none. eapply Forall_impl; [|exact Hall]. intros d (_ & A). exact A. }
  rewrite H4. cbn [Nat.leb andb].
  destruct (rev (m_ar m)) as [|last before] eqn:Er; [reflexivity|].
  apply Nat.eqb_eq. apply count_none. apply Forall_forall. intros d Hd.
  assert (Hin : In d (m_ar m)) by (apply in_rev; rewrite Er; right; exact Hd).
  rewrite Forall_forall in Hall. apply (Hall d Hin).
Qed.

(* the finished message of a traced run from a fresh Writer decodes to the replay of the trace (C12's round trip) *)
Lemma run_decode Pop buf lim w0 ops outs d' g' : writer_new buf lim = Ok w0 ->
  Traced Pop (mkD w0 []) g0 ops outs d' g' ->
  exists len b m, finish (d_w d') = Ok (len, b) /\ decode_msg (firstn len b) = Some m /\
    hdr_rel (hreplay ah0 ops outs) m /\
    Forall2 (rr_rel xparts) (am_an (areplay am0 ops outs)) (m_an m) /\
    Forall2 (rr_rel xparts) (am_ns (areplay am0 ops outs)) (m_ns m) /\
    Forall2 (rr_rel xparts) (am_ar (areplay am0 ops outs) ++ pseudo_of (am_mode (areplay am0 ops outs)) (hreplay ah0 ops outs)) (m_ar m).
Proof.
  intros E0 (L & Rall & Hi).
  destruct (Reach_run _ _ _ _ _ _ _ Rall) as (_ & Hrc & F1 & F2 & F3 & _).
  destruct (Reach_finish _ buf lim w0 ops outs d' g' L E0 Rall Hi) as (len & b & EF & Erun).
  exists len, b. destruct (roundtrip_full buf _ w0 ops E0 Hrc F1 F2 F3) as (rr & Err & Hrt).
  rewrite Erun in Err. inversion Err; subst rr. cbn [rr_final rr_outcomes] in Hrt.
  destruct Hrt as (m & Em & Hh & _ & Han & Hns & Har & _). exists m. auto 10.
Qed.

(* the pseudo-records of the additional section, decoded: at most the OPT record, then the TSIG record if one was set *)
Lemma pseudo_decoded mode H ds : h_tsig H = None -> Forall2 (rr_rel xparts) (pseudo_of mode H) ds ->
  length ds <= 1 /\ Forall (fun d => rr_rdata_ok d = true /\ is_opt d = true /\ is_tsig d = false) ds.
Proof.
  intros Hts Hps. unfold pseudo_of in Hps. rewrite Hts, app_nil_r in Hps.
  destruct (h_edns H) as [[u up]|].
  - inversion Hps as [|a d l l' Hd Hrest]; subst. inversion Hrest; subst. split; [simpl; lia|].
    constructor; [exact (opt_decoded _ _ _ _ Hd)|constructor].
  - inversion Hps; subst. split; [simpl; lia|constructor].
Qed.

Lemma pseudo_all_pseudo mode H ds : h_tsig H = None -> Forall2 (rr_rel xparts) (pseudo_of mode H) ds ->
  forallb is_pseudo ds = true.
Proof.
  intros Hts Hps. apply forallb_forall. intros d Hd. destruct (pseudo_decoded mode H ds Hts Hps) as [_ Hf].
  rewrite Forall_forall in Hf. destruct (Hf d Hd) as (_ & Ho & _). unfold is_pseudo. rewrite Ho. reflexivity.
Qed.

Lemma run_wf cls buf lim w0 ops outs d' g' L :
  writer_new buf lim = Ok w0 -> Reach (Pop2 cls) (mkD w0 []) g0 ops outs d' g' -> AInv d' g' L ->
  Good cls (areplay am0 ops outs) (hreplay ah0 ops outs) ->
  exists len b, finish (d_w d') = Ok (len, b) /\ wf_response (firstn len b) = true.
Proof.
  intros E0 Rall Hi (G1 & G2 & G3 & G4 & G5 & G6).
  destruct (run_decode _ buf lim w0 ops outs d' g' E0 (ex_intro _ L (conj Rall Hi))) as (len & b & m & EF & Em & Hh & Han & Hns & Har).
  exists len, b. split; [exact EF|]. unfold wf_response. rewrite Em.
  apply wf_decoded_intro.
  - unfold qr_bit. destruct Hh as (_ & Hqr & _). rewrite Hqr. exact G1.
  - exact (section_ok cls _ _ G4 Han).
  - exact (section_ok cls _ _ G5 Hns).
  - apply Forall2_app_inv_l in Har as (xs & ps & Hxs & Hps & Ear). exists xs, ps. split; [exact Ear|].
    split; [exact (section_ok cls _ _ G6 Hxs)|]. destruct (pseudo_decoded _ _ _ G2 Hps) as [Hl Hf]. split; [exact Hl|].
    eapply Forall_impl; [|exact Hf]. intros d (A & _ & B). auto.
Qed.

Lemma Pop2_hdr cls : forall o, match o with
  | OSetId _ | OSetQr true | OSetOpcode _ | OSetRd _ | OAddQuestion _ _ _ | OSetEdns _ | OSetLimit _
  | OSetAa _ | OSetTc _ | OSetRcode _ | OClearRrs => Pop2 cls o
  | _ => True end.
Proof. intros o. destruct o; try exact I; try (destruct b; exact I || reflexivity). Qed.

(* The frame of both theorems below: the preparation succeeds, and whatever contract-obeying trace over Pop2
   follows it, finish yields a well-formed response. *)
Lemma prepared_wf cls buf tcp id rd qname qtype qclass edns limit :
  512 <= length buf -> good_name qname ->
  (id < 65536)%N -> (qtype < 65536)%N -> (qclass < 65536)%N -> (forall s, edns = Some s -> (s < 65536)%N) ->
  exists w, prepare_w buf tcp id rd qname qtype qclass edns limit = Some w /\
    St (Pop2 cls) (mkD w []) (g_prepared qname) (mkD w []) (g_prepared qname) /\
    forall d' g', St (Pop2 cls) (mkD w []) (g_prepared qname) d' g' ->
      exists len b, finish (d_w d') = Ok (len, b) /\ wf_response (firstn len b) = true.
Proof.
  intros Hb Gq Hid Hqt Hqc Hed.
  assert (Hhdr : forall o, match o with
    | OSetId _ | OSetQr true | OSetOpcode _ | OSetRd _ | OAddQuestion _ _ _ | OSetEdns _ | OSetLimit _ => Pop2 cls o
    | _ => True end).
  { intros o. pose proof (Pop2_hdr cls o) as H. destruct o; auto. }
  destruct (prepared_Traced _ Hhdr buf tcp id rd qname qtype qclass edns limit Hb Gq Hid Hqt Hqc Hed) as (w & w0 & Ew & E0 & Lp & Rpre & Hip).
  exists w. split; [exact Ew|]. split; [exists [], [], Lp; split; [constructor|exact Hip]|].
  intros d' g' (ops2 & outs2 & L & Rq & Hi).
  set (pre := pre_ops tcp id rd qname qtype qclass edns limit) in *.
  apply (run_wf cls buf _ w0 (pre ++ ops2) (map (fun _ => RUnit) pre ++ outs2) d' g' L E0 (Reach_trans _ _ _ _ _ _ _ _ _ _ _ Rpre Rq) Hi).
  destruct (Reach_run _ _ _ _ _ _ _ Rq) as (_ & _ & _ & _ & _ & F4q & _).
  rewrite areplay_app, hreplay_app by (rewrite map_length; reflexivity).
  apply Good_replay; [exact F4q|]. apply Good_prepared.
Qed.

Theorem respond_plain_wf buf tcp id rd qname qtype qclass edns limit rcode :
  512 <= length buf -> good_name qname ->
  (id < 65536)%N -> (qtype < 65536)%N -> (qclass < 65536)%N -> (forall s, edns = Some s -> (s < 65536)%N) ->
  (rcode < 16)%N ->
  exists len b, respond_plain buf tcp id rd qname qtype qclass edns limit rcode = Some (len, b) /\
                wf_response (firstn len b) = true.
Proof.
  intros Hb Gq Hid Hqt Hqc Hed Hrc.
  destruct (prepared_wf 0%N buf tcp id rd qname qtype qclass edns limit Hb Gq Hid Hqt Hqc Hed) as (w & Ew & Sp & Hfin).
  destruct (St_set_rcode _ _ _ _ _ rcode Sp Hrc (Pop2_hdr 0%N (OSetRcode rcode))) as (w' & Ew' & S').
  destruct (Hfin _ _ S') as (len & b & Ef & Hwf). cbn [d_w wi_set_rcode w_iface] in Ew', Ef.
  exists len, b. split; [|exact Hwf].
  unfold respond_plain. rewrite Ew. destruct (set_rcode rcode w) as [w2|e|]; try discriminate.
  inversion Ew'; subst w2. rewrite Ef. reflexivity.
Qed.

Section Wf.
Variable reqf : N -> N -> bytes -> bytes -> bool.
Variable apex : name.
Variable cls : N.
Variable R : list record.
Variable z : zone.
Hypothesis Hinv : Inv reqf apex cls z R.
Hypothesis Hapex : good_name apex.
Hypothesis Hclass : (cls < 65536)%N.

(* THE HYPOTHESIS ON ZONE CONTENTS: every record's RDATA is generated by the RFC grammar of its type
   (Zone::add does not check this; zone files do, through Rdata::validate), and the zone holds no
   OPT / TSIG pseudo-records *)
Definition PRv (ty : N) (rd : bytes) : Prop := no_pseudo ty /\ wf_bytes rd /\ spec_valid cls ty rd = true.
Hypothesis HR : Forall (fun r => Pz PRv (r_type r) (r_rdata r)) R.
Variable negttl : N -> N -> N.

Theorem respond_w_wf buf tcp id rd qname qtype qclass edns limit :
  512 <= length buf -> good_name qname -> in_zone apex qname = true ->
  (id < 65536)%N -> (qtype < 65536)%N -> (qclass < 65536)%N -> (forall s, edns = Some s -> (s < 65536)%N) ->
  exists len b, respond_w negttl buf tcp id rd qname qtype qclass edns limit z = Some (len, b) /\
                wf_response (firstn len b) = true.
Proof.
  intros Hb Gq Hz Hid Hqt Hqc Hed.
  assert (Hrr : forall s hs owner ty ttl rd0 vec, PRv ty rd0 -> Pop2 cls (OAddRr s hs owner ty (z_class z) ttl rd0 vec)).
  { intros s hs owner ty ttl rd0 vec (A & B & C). cbn [Pop2]. rewrite (Hzc _ _ _ _ _ Hinv). auto. }
  assert (Hrrset : forall s hs owner ty ttl rds vec, Forall (PRv ty) rds -> Pop2 cls (OAddRrset s hs owner ty (z_class z) ttl rds vec)).
  { intros s hs owner ty ttl rds vec Hf. cbn [Pop2]. rewrite (Hzc _ _ _ _ _ Hinv). split; [reflexivity|exact Hf]. }
  destruct (prepared_wf cls buf tcp id rd qname qtype qclass edns limit Hb Gq Hid Hqt Hqc Hed) as (w & Ew & Sp & Hfin).
  destruct (handle_S reqf apex cls R z Hinv PRv (Pop2 cls) HR Hapex Hclass Hrr Hrrset
              (fun b => Pop2_hdr cls (OSetAa b)) (fun b => Pop2_hdr cls (OSetTc b)) (fun rc => Pop2_hdr cls (OSetRcode rc))
              (Pop2_hdr cls OClearRrs) negttl (mkD w []) (g_prepared qname) qname Gq Hz qtype tcp (mkD w []) (g_prepared qname) Sp eq_refl)
    as (w' & d' & g' & Eh & S' & Hw').
  destruct (Hfin _ _ S') as (len & b & Ef & Hwf). cbn [d_w] in Eh.
  exists len, b. split; [|exact Hwf].
  unfold respond_w. rewrite Ew, Eh, <- Hw', Ef. reflexivity.
Qed.

End Wf.
