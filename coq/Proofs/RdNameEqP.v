(* Name equality of the model (impl PartialEq for Name, through label offsets and
   label_at) on parsed names is label-wise case-insensitive equality of the label lists. *)
From QV Require Import Base.ListX Model.NameWire Spec.NameWireS Spec.NameRepr Proofs.NameWireP
  Model.RdataM Spec.RdataFormatS Spec.RdataEqS Proofs.RdNameP.
Local Open Scope nat_scope.

Lemma ci_eqb_label a b : ci_eqb a b = label_ci_eqb a b.
Proof. revert b; induction a as [|x a IH]; intros [|y b]; simpl; auto; try rewrite IH; reflexivity. Qed.

Lemma bytes_eqb_octets a b : bytes_eqb a b = octets_eqb a b.
Proof. revert b; induction a as [|x a IH]; intros [|y b]; simpl; auto; try rewrite IH; reflexivity. Qed.

Lemma octets_eqb_eq a b : octets_eqb a b = true <-> a = b.
Proof. apply bytes_eqb_fix_eq. intros [|] [|]; reflexivity. Qed.

Lemma octets_eqb_refl a : octets_eqb a a = true.
Proof. apply octets_eqb_eq. reflexivity. Qed.

Lemma octets_eqb_false_len a b : length a <> length b -> octets_eqb a b = false.
Proof.
  intros H. destruct (octets_eqb a b) eqn:E; [|reflexivity]. apply octets_eqb_eq in E. subst. congruence.
Qed.

Lemma labels_ci_eqb_len a b : labels_ci_eqb a b = true -> length a = length b.
Proof.
  revert b; induction a as [|x a IH]; intros [|y b]; simpl; intros H; try discriminate; auto.
  apply andb_true_iff in H. destruct H as [_ H]. f_equal. apply IH. exact H.
Qed.

Lemma offs_of_length base ls : length (offs_of base ls) = S (length ls).
Proof. revert base; induction ls as [|l ls IH]; intros base; simpl; auto. Qed.

Lemma label_at_gen : forall ls pre offs_pre,
  Forall valid_label ls -> length pre + wire_len ls <= 256 ->
  forall i, i <= length ls ->
  label_at (mkName (offs_pre ++ offs_of (length pre) ls) (pre ++ wire_of ls)) (length offs_pre + i)
  = Ok (nth i ls []).
Proof.
  induction ls as [|l ls IH]; intros pre offs_pre Hv Hlen i Hi.
  - assert (i = 0) by (simpl in Hi; lia). subst i. unfold wire_len in Hlen. simpl in Hlen.
    unfold label_at. cbn [n_offsets n_wire offs_of]. rewrite Nat.add_0_r, nth_error_mid.
    rewrite N.mod_small by lia. rewrite Nat2N.id.
    change (wire_of []) with [0%N]. rewrite nth_error_mid. change (N.to_nat 0) with 0.
    rewrite app_length. simpl length.
    destruct (length pre + 1 <? length pre + 1 + 0) eqn:E; [apply Nat.ltb_lt in E; lia|].
    rewrite Nat.add_0_r, slice_nil. reflexivity.
  - inversion Hv as [|? ? [Hl1 Hl2] Hv']; subst. rewrite wire_len_cons in Hlen.
    destruct i as [|i].
    + unfold label_at. cbn [n_offsets n_wire offs_of]. rewrite Nat.add_0_r, nth_error_mid.
      rewrite N.mod_small by lia. rewrite Nat2N.id.
      rewrite wire_of_cons, nth_error_mid. rewrite Nat2N.id.
      destruct (length (pre ++ N.of_nat (length l) :: l ++ wire_of ls) <? length pre + 1 + length l) eqn:E.
      { apply Nat.ltb_lt in E. rewrite !app_length in E. simpl in E. rewrite app_length in E. lia. }
      cbn [nth]. f_equal.
      replace (pre ++ N.of_nat (length l) :: l ++ wire_of ls)
        with ((pre ++ [N.of_nat (length l)]) ++ l ++ wire_of ls)
        by (rewrite <- app_assoc; reflexivity).
      apply slice_app_mid; rewrite app_length; simpl; lia.
    + cbn [offs_of nth].
      replace (offs_pre ++ (N.of_nat (length pre) mod 256)%N :: offs_of (length pre + 1 + length l) ls)
        with ((offs_pre ++ [(N.of_nat (length pre) mod 256)%N]) ++ offs_of (length (pre ++ N.of_nat (length l) :: l)) ls).
      2: { rewrite <- app_assoc. simpl. do 3 f_equal. rewrite app_length. simpl. lia. }
      replace (pre ++ wire_of (l :: ls)) with ((pre ++ N.of_nat (length l) :: l) ++ wire_of ls)
        by (rewrite wire_of_cons, <- app_assoc; reflexivity).
      replace (length offs_pre + S i) with (length (offs_pre ++ [(N.of_nat (length pre) mod 256)%N]) + i)
        by (rewrite app_length; simpl; lia).
      apply IH; auto; [rewrite app_length; simpl; lia|simpl in Hi; lia].
Qed.

Lemma label_at_name_of ls i : valid_name ls -> i <= length ls ->
  label_at (name_of ls) i = Ok (nth i ls []).
Proof.
  intros [Hv Hw] Hi. unfold name_of.
  apply (label_at_gen ls [] [] Hv); [simpl; lia|exact Hi].
Qed.

(* the loop compares the labels from index i on; index [length la] is the root label of both *)
Lemma labels_eq_spec la lb : valid_name la -> valid_name lb -> length la = length lb ->
  forall k i, i + k = S (length la) ->
  labels_eq k i (name_of la) (name_of lb) = Ok (labels_ci_eqb (skipn i la) (skipn i lb) ).
Proof.
  intros Ha Hb Hl. induction k as [|k IH]; intros i Hk; cbn [labels_eq].
  - rewrite !skipn_all2 by lia. reflexivity.
  - rewrite !label_at_name_of by (auto; lia). cbn [map_err bind]. rewrite ci_eqb_label.
    destruct (Nat.eq_dec i (length la)) as [->|Hne].
    + rewrite (nth_overflow la), (nth_overflow lb) by lia. cbn [label_ci_eqb].
      rewrite IH by lia. rewrite !skipn_all2 by lia. reflexivity.
    + rewrite (skipn_nth_cons la i ([] : label)), (skipn_nth_cons lb i ([] : label)) by lia. cbn [labels_ci_eqb].
      destruct (label_ci_eqb (nth i la []) (nth i lb [])); cbn [andb]; [apply IH; lia|reflexivity].
Qed.

Theorem name_eq_spec la lb : valid_name la -> valid_name lb ->
  name_eq (name_of la) (name_of lb) = Ok (labels_ci_eqb la lb).
Proof.
  intros Ha Hb. unfold name_eq. cbn [name_of n_offsets]. rewrite !offs_of_length.
  destruct (S (length la) =? S (length lb)) eqn:E.
  - apply Nat.eqb_eq in E. apply (labels_eq_spec la lb Ha Hb ltac:(lia) (S (length la)) 0). lia.
  - apply Nat.eqb_neq in E. destruct (labels_ci_eqb la lb) eqn:L; [|reflexivity].
    apply labels_ci_eqb_len in L. lia.
Qed.
