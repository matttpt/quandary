(* C32 — every trace of the cell model satisfies single_snapshot, for every schedule. *)
From Coq Require Import List Arith Bool Lia.
Import ListNotations.
From QV Require Import Base.ListX Model.Snapshot Spec.SnapshotS.

Section SnapP.
  Variables Req C K Resp : Type.
  Variable needs_keys : Req -> bool.
  Variable handle : Req -> C -> option K -> Resp.
  Variable ths : list (thread Req C K).
  Variables (c0 : C) (k0 : K).

  Notation ev := (event C K Resp).
  Notation st := (state Req C K).
  Notation stepf := (step Req C K Resp needs_keys handle).
  Notation execf := (exec Req C K Resp needs_keys handle).

  Definition req_of (t : nat) : option Req :=
    match nth_error ths t with Some (Handler req _) => Some req | _ => None end.

  Lemma nth_error_set_nth_same {A} (l : list A) t x y :
    nth_error l t = Some y -> nth_error (set_nth l t x) t = Some x.
  Proof.
    revert t; induction l as [|z l IH]; intros [|t] H; simpl in *; try discriminate; auto.
  Qed.

  Lemma nth_error_set_nth_other {A} (l : list A) t t' x :
    t <> t' -> nth_error (set_nth l t x) t' = nth_error l t'.
  Proof.
    revert t t'; induction l as [|z l IH]; intros [|t] [|t'] H; simpl; auto; try congruence.
  Qed.

  Lemma nth_error_snoc_old (tr : list ev) x e y :
    nth_error tr e = Some y -> nth_error (tr ++ [x]) e = Some y.
  Proof.
    intros H. rewrite nth_error_app1; [exact H|]. apply nth_error_Some. congruence.
  Qed.

  (* the step functions that cat_at / keys_at of Model/Snapshot.v fold over the trace *)
  Definition cat_upd (cell : nat * C) (e : ev) : nat * C :=
    match e with EWriteCat _ v c => (v, c) | _ => cell end.
  Definition keys_upd (cell : nat * K) (e : ev) : nat * K :=
    match e with EWriteKeys _ v k => (v, k) | _ => cell end.

  Lemma firstn_snoc_le {A} (l : list A) x n : n <= length l -> firstn n (l ++ [x]) = firstn n l.
  Proof.
    intros H. rewrite firstn_app. replace (n - length l) with 0 by lia. simpl. apply app_nil_r.
  Qed.

  Lemma cat_at_snoc_le (tr : list ev) x n : n <= length tr -> cat_at c0 (tr ++ [x]) n = cat_at c0 tr n.
  Proof. intros H. unfold cat_at. rewrite firstn_snoc_le by exact H. reflexivity. Qed.

  Lemma keys_at_snoc_le (tr : list ev) x n : n <= length tr -> keys_at k0 (tr ++ [x]) n = keys_at k0 tr n.
  Proof. intros H. unfold keys_at. rewrite firstn_snoc_le by exact H. reflexivity. Qed.

  Lemma cat_at_all (tr : list ev) x :
    cat_at c0 (tr ++ [x]) (length (tr ++ [x])) = cat_upd (cat_at c0 tr (length tr)) x.
  Proof. unfold cat_at. rewrite !firstn_all, fold_left_app. reflexivity. Qed.

  Lemma keys_at_all (tr : list ev) x :
    keys_at k0 (tr ++ [x]) (length (tr ++ [x])) = keys_upd (keys_at k0 tr (length tr)) x.
  Proof. unfold keys_at. rewrite !firstn_all, fold_left_app. reflexivity. Qed.

  Inductive reach : list ev -> st -> Prop :=
  | reach_init : reach [] (init ths c0 k0)
  | reach_step : forall tr s t e s', reach tr s -> stepf t s = Some (e, s') -> reach (tr ++ [e]) s'.

  Lemma exec_reach : forall sched tr0 s tr fin,
    reach tr0 s -> execf sched s = (tr, fin) -> reach (tr0 ++ tr) fin.
  Proof.
    induction sched as [|t sched IH]; intros tr0 s tr fin Hr He; simpl in He.
    - inversion He; subst. rewrite app_nil_r. exact Hr.
    - destruct (stepf t s) as [[e s']|] eqn:Hs.
      + destruct (execf sched s') as [tr' fin'] eqn:He'. inversion He; subst.
        replace (tr0 ++ e :: tr') with ((tr0 ++ [e]) ++ tr') by (rewrite <- app_assoc; reflexivity).
        eapply IH; [|exact He']. econstructor; eauto.
      + eapply IH; eauto.
  Qed.

  (* what the trace holds for a thread at its program point; a handler keeps its request.
     Instants are lengths of trace prefixes ([cat_at tr i] replays the first i events): a read is
     recorded at the position of its own read event, i.e. the cell as it was just before; a pending
     set_catalog that wrote at position w holds the version of instant S w, just after.  Nothing is
     kept for a pending set_tsig_keys: "uses the new value after a replacement returns" is asked
     of the catalog only. *)
  Definition thread_ok (tr : list ev) (t : nat) (th : thread Req C K) : Prop :=
    match th with
    | Handler req pc =>
        req_of t = Some req /\
        match pc with
        | HNew | HDone => True
        | HStarted => exists s, nth_error tr s = Some (EStart t)
        | HGotCat v c =>
            exists s i, nth_error tr s = Some (EStart t) /\ s < i /\ i < length tr /\ cat_at c0 tr i = (v, c)
        | HGotBoth v c vk k =>
            needs_keys req = true /\
            exists s i j, nth_error tr s = Some (EStart t) /\ s < i /\ i < length tr /\ cat_at c0 tr i = (v, c) /\
                          s < j /\ j < length tr /\ keys_at k0 tr j = (vk, k)
        end
    | Swapper _ (Some (true, v)) => exists w, w < length tr /\ fst (cat_at c0 tr (S w)) = v
    | Swapper _ _ => True
    end.

  (* [response_ok] of Spec/SnapshotS.v without its last clause (the returns), which is derived at
     the end from inv_ret and the monotonicity of versions *)
  Definition resp_core (tr : list ev) (e t : nat) (r : Resp) : Prop :=
    exists req s i,
      req_of t = Some req /\ nth_error tr s = Some (EStart t) /\ s < i /\ i < e /\
      (if needs_keys req
       then exists j, s < j /\ j < e /\ r = handle req (snd (cat_at c0 tr i)) (Some (snd (keys_at k0 tr j)))
       else r = handle req (snd (cat_at c0 tr i)) None).

  Record Inv (tr : list ev) (s : st) : Prop := {
    inv_cat : cat s = cat_at c0 tr (length tr);
    inv_keys : keys s = keys_at k0 tr (length tr);
    inv_writes : forall w t v c, nth_error tr w = Some (EWriteCat t v c) -> v = S (fst (cat_at c0 tr w));
    inv_threads : forall t th, nth_error (threads s) t = Some th -> thread_ok tr t th;
    inv_resp : forall e t r, nth_error tr e = Some (ERespond t r) -> e < length tr /\ resp_core tr e t r;
    inv_ret : forall q t v, nth_error tr q = Some (ERetCat t v) ->
              exists w, w < q /\ fst (cat_at c0 tr (S w)) = v
  }.

  Lemma thread_ok_lift tr x t th : thread_ok tr t th -> thread_ok (tr ++ [x]) t th.
  Proof.
    assert (Hlen : length (tr ++ [x]) = S (length tr)) by (rewrite app_length; simpl; lia).
    destruct th as [req [| |v c|v c vk k|]|ops [[[|] v]|]]; simpl; auto.
    - intros (Hq & s & H). split; [exact Hq|]. exists s. apply nth_error_snoc_old; exact H.
    - intros (Hq & s & i & H1 & H2 & H3 & H4). split; [exact Hq|]. exists s, i.
      rewrite Hlen, cat_at_snoc_le by lia. repeat split; auto using nth_error_snoc_old.
    - intros (Hq & Hk & s & i & j & H1 & H2 & H3 & H4 & H5 & H6 & H7). split; [exact Hq|]. split; [exact Hk|].
      exists s, i, j.
      rewrite Hlen, cat_at_snoc_le, keys_at_snoc_le by lia. repeat split; auto using nth_error_snoc_old.
    - intros (w & H1 & H2). exists w. rewrite Hlen, cat_at_snoc_le by lia. split; [lia|exact H2].
  Qed.

  Lemma resp_core_lift tr x e t r : e <= length tr -> resp_core tr e t r -> resp_core (tr ++ [x]) e t r.
  Proof.
    intros He (req & s & i & H1 & H2 & H3 & H4 & H5). exists req, s, i.
    rewrite cat_at_snoc_le by lia. repeat split; auto using nth_error_snoc_old.
    destruct (needs_keys req); [|exact H5].
    destruct H5 as (j & J1 & J2 & J3). exists j. rewrite keys_at_snoc_le by lia. auto.
  Qed.

  Hypothesis Hfresh : forallb fresh ths = true.

  Lemma inv_init : Inv [] (init ths c0 k0).
  Proof.
    constructor; simpl; auto.
    - intros w t v c H. destruct w; discriminate.
    - intros t th H. assert (Hq : forall req pc, th = Handler req pc -> req_of t = Some req)
        by (intros req pc ->; unfold req_of; rewrite H; reflexivity).
      apply nth_error_In in H. rewrite forallb_forall in Hfresh. apply Hfresh in H.
      destruct th as [req [| |v c|v c vk k|]|ops [[[|] v]|]]; simpl in *; eauto; discriminate.
    - intros e t r H. destruct e; discriminate.
    - intros q t v H. destruct q; discriminate.
  Qed.

  (* thread t moves from th to th' and emits e: what is left to check *)
  Lemma inv_snoc tr s t th th' e s' :
    Inv tr s -> nth_error (threads s) t = Some th -> threads s' = set_nth (threads s) t th' ->
    cat s' = cat_upd (cat s) e -> keys s' = keys_upd (keys s) e ->
    (forall t v c, e = EWriteCat t v c -> v = S (fst (cat s))) ->
    thread_ok (tr ++ [e]) t th' ->
    (forall t r, e = ERespond t r -> resp_core (tr ++ [e]) (length tr) t r) ->
    (forall t v, e = ERetCat t v -> exists w, w < length tr /\ fst (cat_at c0 (tr ++ [e]) (S w)) = v) ->
    Inv (tr ++ [e]) s'.
  Proof.
    intros I Hth Hths Hc Hk Hw Ht Hr Hret.
    assert (Hlen : length (tr ++ [e]) = S (length tr)) by (rewrite app_length; simpl; lia).
    constructor.
    - rewrite cat_at_all, Hc, (inv_cat _ _ I). reflexivity.
    - rewrite keys_at_all, Hk, (inv_keys _ _ I). reflexivity.
    - intros w t0 v c H. apply nth_error_snoc in H. destruct H as [[Hlt H]|[-> <-]].
      + rewrite cat_at_snoc_le by lia. eapply inv_writes; eauto.
      + rewrite cat_at_snoc_le by lia. rewrite <- (inv_cat _ _ I). eapply Hw; reflexivity.
    - intros t' th0 H. rewrite Hths in H. destruct (Nat.eq_dec t t') as [<-|Hne].
      + rewrite (nth_error_set_nth_same _ _ _ _ Hth) in H. inversion H; subst. exact Ht.
      + rewrite nth_error_set_nth_other in H by exact Hne. apply thread_ok_lift. eapply inv_threads; eauto.
    - intros q t0 r H. apply nth_error_snoc in H. destruct H as [[Hlt H]|[-> <-]].
      + split; [lia|]. apply resp_core_lift; [lia|]. eapply inv_resp; eauto.
      + split; [lia|]. eapply Hr; reflexivity.
    - intros q t0 v H. apply nth_error_snoc in H. destruct H as [[Hlt H]|[-> <-]].
      + destruct (inv_ret _ _ I q t0 v H) as (w & W1 & W2). exists w.
        rewrite cat_at_snoc_le by lia. auto.
      + destruct (Hret t0 v eq_refl) as (w & W1 & W2). exists w. auto.
  Qed.

  (* an event that is no catalog write, response or catalog return leaves only the thread to check *)
  Definition quiet (e : ev) : Prop :=
    match e with EWriteCat _ _ _ | ERespond _ _ | ERetCat _ _ => False | _ => True end.

  Lemma inv_snoc_quiet tr s t th th' e s' :
    Inv tr s -> nth_error (threads s) t = Some th -> threads s' = set_nth (threads s) t th' ->
    cat s' = cat_upd (cat s) e -> keys s' = keys_upd (keys s) e -> quiet e ->
    thread_ok (tr ++ [e]) t th' -> Inv (tr ++ [e]) s'.
  Proof. intros I Hth Hths Hc Hk Q Ht. eapply inv_snoc; eauto; intros; subst e; contradiction. Qed.

  Lemma inv_step tr s t e s' : Inv tr s -> stepf t s = Some (e, s') -> Inv (tr ++ [e]) s'.
  Proof.
    intros I Hs. unfold step in Hs.
    assert (Hlen : length (tr ++ [e]) = S (length tr)) by (rewrite app_length; simpl; lia).
    destruct (nth_error (threads s) t) as [th|] eqn:Hth; [|discriminate].
    pose proof (inv_threads _ _ I t th Hth) as Hok.
    destruct th as [req pc|ops pending].
    - destruct Hok as [Hreq Hok]. destruct pc as [| |v c|v c vk k|].
      + (* start *)
        inversion Hs; subst; clear Hs.
        eapply (inv_snoc_quiet tr s t _ _ _ _ I Hth); try reflexivity.
        split; [exact Hreq|]. exists (length tr). apply nth_error_mid.
      + (* read catalog: the instant recorded is the position of the EReadCat event itself *)
        destruct (cat s) as [v c] eqn:Hcat. inversion Hs; subst; clear Hs.
        eapply (inv_snoc_quiet tr s t _ _ _ _ I Hth); try reflexivity.
        split; [exact Hreq|]. destruct Hok as [s0 Hs0].
        exists s0, (length tr). rewrite Hlen, cat_at_snoc_le by lia.
        assert (s0 < length tr) by (apply nth_error_Some; congruence).
        repeat split; auto using nth_error_snoc_old; try lia.
        rewrite <- (inv_cat _ _ I). exact Hcat.
      + destruct Hok as (s0 & i & H1 & H2 & H3 & H4).
        destruct (needs_keys req) eqn:Hnk.
        * (* read keys *)
          destruct (keys s) as [vk k] eqn:Hkeys. inversion Hs; subst; clear Hs.
          eapply (inv_snoc_quiet tr s t _ _ _ _ I Hth); try reflexivity.
          split; [exact Hreq|]. split; [exact Hnk|].
          exists s0, i, (length tr). rewrite Hlen, cat_at_snoc_le, keys_at_snoc_le by lia.
          repeat split; auto using nth_error_snoc_old; try lia.
          rewrite <- (inv_keys _ _ I). exact Hkeys.
        * (* respond without keys *)
          inversion Hs; subst; clear Hs.
          eapply (inv_snoc tr s t _ _ _ _ I Hth); try reflexivity.
          1, 4: intros; discriminate.
          -- split; [exact Hreq|constructor].
          -- intros t0 r H. inversion H; subst. exists req, s0, i.
             rewrite cat_at_snoc_le by lia. rewrite Hnk, H4. simpl.
             repeat split; auto using nth_error_snoc_old.
      + (* respond with keys *)
        destruct Hok as (Hnk & s0 & i & j & H1 & H2 & H3 & H4 & H5 & H6 & H7).
        inversion Hs; subst; clear Hs.
        eapply (inv_snoc tr s t _ _ _ _ I Hth); try reflexivity.
        1, 4: intros; discriminate.
        * split; [exact Hreq|constructor].
        * intros t0 r H. inversion H; subst. exists req, s0, i.
          rewrite cat_at_snoc_le by lia. rewrite Hnk, H4. simpl.
          repeat split; auto using nth_error_snoc_old.
          exists j. rewrite keys_at_snoc_le by lia. rewrite H7. simpl. auto.
      + discriminate.
    - destruct pending as [[[|] v]|].
      + (* set_catalog returns *)
        inversion Hs; subst; clear Hs. simpl in Hok. destruct Hok as (w & W1 & W2).
        eapply (inv_snoc tr s t _ _ _ _ I Hth); try reflexivity.
        1, 2: intros; discriminate.
        intros t0 v0 H. inversion H; subst. exists w. rewrite cat_at_snoc_le by lia. auto.
      + (* set_tsig_keys returns *)
        inversion Hs; subst; clear Hs.
        eapply (inv_snoc_quiet tr s t _ _ _ _ I Hth); try reflexivity.
      + destruct ops as [|[c|k] ops']; [discriminate| |].
        * (* write catalog: the version it installs is read off the trace one past the write *)
          inversion Hs; subst; clear Hs.
          eapply (inv_snoc tr s t _ _ _ _ I Hth); try reflexivity.
          3, 4: intros; discriminate.
          -- intros t0 v c1 H. inversion H; subst. reflexivity.
          -- exists (length tr). split; [lia|]. rewrite <- Hlen, cat_at_all. reflexivity.
        * (* write keys *)
          inversion Hs; subst; clear Hs.
          eapply (inv_snoc_quiet tr s t _ _ _ _ I Hth); try reflexivity.
  Qed.

  Lemma reach_inv tr s : reach tr s -> Inv tr s.
  Proof. induction 1; [apply inv_init|eapply inv_step; eauto]. Qed.

  Lemma cat_at_S tr n e : nth_error tr n = Some e -> cat_at c0 tr (S n) = cat_upd (cat_at c0 tr n) e.
  Proof.
    intros H. unfold cat_at.
    assert (E : firstn (S n) tr = firstn n tr ++ [e]).
    { revert n H. induction tr as [|x tr IH]; intros [|n] H; simpl in *; try discriminate.
      - inversion H. reflexivity.
      - f_equal. apply IH. exact H. }
    rewrite E, fold_left_app. reflexivity.
  Qed.

  Lemma cat_version_mono tr s : Inv tr s -> forall i d, i + d <= length tr ->
    fst (cat_at c0 tr i) <= fst (cat_at c0 tr (i + d)).
  Proof.
    intros I i d. induction d as [|d IH]; intros H.
    - rewrite Nat.add_0_r. lia.
    - replace (i + S d) with (S (i + d)) by lia.
      destruct (nth_error tr (i + d)) as [e|] eqn:He.
      2:{ apply nth_error_None in He. lia. }
      rewrite (cat_at_S tr (i + d) e He).
      assert (IH' := IH ltac:(lia)).
      destruct e; simpl; try exact IH'.
      rewrite (inv_writes _ _ I _ _ _ _ He). simpl. lia.
  Qed.

  Lemma exec_inv sched tr fin : execf sched (init ths c0 k0) = (tr, fin) -> Inv tr fin.
  Proof.
    intros H. apply reach_inv. change tr with ([] ++ tr). eapply exec_reach; [apply reach_init|exact H].
  Qed.

  Lemma inv_single_snapshot tr s : Inv tr s ->
    single_snapshot Req C K Resp needs_keys handle req_of c0 k0 tr.
  Proof.
    intros I e t r He. destruct (inv_resp _ _ I e t r He) as (Hlt & req & s0 & i & H1 & H2 & H3 & H4 & H5).
    exists req, s0, i. repeat split; auto.
    (* a catalog return before the start names a write before it; versions only grow from there to i *)
    intros q u v Hq Hqs. destruct (inv_ret _ _ I q u v Hq) as (w & W1 & W2).
    rewrite <- W2. replace i with (S w + (i - S w)) by lia.
    eapply cat_version_mono; eauto. lia.
  Qed.

  Lemma exec_single_snapshot sched tr fin :
    execf sched (init ths c0 k0) = (tr, fin) ->
    single_snapshot Req C K Resp needs_keys handle req_of c0 k0 tr.
  Proof. intros H. exact (inv_single_snapshot tr fin (exec_inv sched tr fin H)). Qed.
End SnapP.
