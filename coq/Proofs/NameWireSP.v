(* Facts about the specification of wire names alone: the wire form of a label list, the relation
   [decodes], and its executable twin [sdecode], which is equivalent to it (with the 255-octet bound). *)
From QV Require Import Base.ListX Spec.NameWireS.
Local Open Scope nat_scope.

Lemma slice_length_add {A} (l : list A) a n : a + n <= length l -> length (slice l a (a + n)) = n.
Proof. intros H. rewrite slice_length; lia. Qed.

Lemma slice_app_mid {A} (pre mid post : list A) a b :
  a = length pre -> b = length pre + length mid -> slice (pre ++ mid ++ post) a b = mid.
Proof.
  intros -> ->. unfold slice. rewrite skipn_app_exact by reflexivity.
  apply firstn_app_exact. lia.
Qed.

Lemma lwire_app a c : lwire (a ++ c) = lwire a ++ lwire c.
Proof. apply flat_map_app. Qed.

Lemma lwire_cons l r : lwire (l :: r) = N.of_nat (length l) :: l ++ lwire r.
Proof. reflexivity. Qed.

Lemma lwire_snoc ds (l : label) : lwire (ds ++ [l]) = lwire ds ++ N.of_nat (length l) :: l.
Proof. rewrite lwire_app. cbn. rewrite app_nil_r. reflexivity. Qed.

Lemma wire_len_lwire (ls : list label) : wire_len ls = length (lwire ls) + 1.
Proof. unfold wire_len, wire_of. rewrite app_length. reflexivity. Qed.

Lemma wire_of_cons l r : wire_of (l :: r) = N.of_nat (length l) :: l ++ wire_of r.
Proof. unfold wire_of, lwire. cbn [flat_map app]. rewrite <- app_assoc. reflexivity. Qed.

Lemma wire_len_cons l r : wire_len (l :: r) = 1 + length l + wire_len r.
Proof. unfold wire_len. rewrite wire_of_cons. cbn [length]. rewrite app_length. lia. Qed.

Lemma wire_len_pos ls : 1 <= wire_len ls.
Proof. unfold wire_len, wire_of. rewrite app_length. cbn [length]. lia. Qed.

Lemma decodes_end_le b cs i ls e : decodes b cs i ls e -> i < e /\ e <= length b.
Proof.
  induction 1 as [cs i H | cs i len rest e H Hp Hl Hb Hd IH | cs i hi lo rest e' H Hh Hlo Ht Hd IH].
  - apply nth_error_Some_lt in H. lia.
  - lia.
  - apply nth_error_Some_lt in Hlo. lia.
Qed.

(* The relation is functional: the octet at [i] selects the rule. *)
Lemma decodes_fun b cs i ls e : decodes b cs i ls e ->
  forall ls' e', decodes b cs i ls' e' -> ls = ls' /\ e = e'.
Proof.
  induction 1 as [cs i H | cs i len rest e H Hp Hl Hb Hd IH | cs i hi lo rest e1 H Hh Hlo Ht Hd IH];
    intros ls' e' D;
    inversion D as [? ? H' | ? ? ? ? ? H' ? ? ? Hd' | ? ? ? ? ? ? H' ? Hlo' ? Hd']; subst;
    rewrite H in H'; inversion H'; subst; try lia.
  - auto.
  - destruct (IH _ _ Hd') as [-> ->]. auto.
  - rewrite Hlo in Hlo'. inversion Hlo'; subst. destruct (IH _ _ Hd') as [-> _]. auto.
Qed.

(* Without a prior occurrence to point to (cs = 0) the name is contiguous: it is its own wire form. *)
Lemma decodes_nc_end b cs i rest e : decodes b cs i rest e -> cs = 0 ->
  e = i + wire_len rest /\ slice b i e = wire_of rest.
Proof.
  induction 1 as [cs i H | cs i len rest e H Hp Hl Hb Hd IH | cs i hi lo rest e' H Hh Hlo Ht Hd IH];
    intros ->; [| |lia].
  - split; [reflexivity|]. rewrite (slice_cons b i 0%N), Nat.add_1_r, slice_nil by (auto; lia). reflexivity.
  - destruct (IH eq_refl) as [-> Hs]. pose proof (wire_len_pos rest).
    rewrite wire_len_cons, wire_of_cons, slice_length_add, N2Nat.id by lia. split; [lia|].
    rewrite (slice_cons b i len), <- Nat.add_1_r, (slice_app b (i + 1) (i + 1 + N.to_nat len)), Hs by (auto; lia).
    reflexivity.
Qed.

Lemma sdecode_eom f b cs i B : length b <= i -> sdecode f b cs i B = None.
Proof. intros H. apply nth_error_None in H. destruct f; cbn [sdecode]; [|rewrite H]; reflexivity. Qed.

Lemma sdecode_sound b : forall fuel cs i B ls e,
  sdecode fuel b cs i B = Some (ls, e) -> decodes b cs i ls e /\ wire_len ls <= B.
Proof.
  induction fuel as [|f IH]; intros cs i B ls e H; [discriminate|].
  cbn [sdecode] in H. destruct (nth_error b i) as [len|] eqn:Hi; [|discriminate].
  destruct (N.eqb_spec len 0) as [->|E0].
  - destruct (Nat.leb_spec 1 B); [|discriminate]. injection H as <- <-. split; [constructor|]; assumption.
  - destruct (N.leb_spec len 63).
    + destruct (Nat.leb_spec (i + 1 + N.to_nat len) (length b)), (Nat.leb_spec (1 + N.to_nat len) B);
        try discriminate. cbn [andb] in H.
      destruct (sdecode f b cs _ _) as [[r e']|] eqn:Hr; [|discriminate]. injection H as <- <-.
      apply IH in Hr as [D Hw]. split; [apply dec_label; auto; lia|].
      rewrite wire_len_cons, slice_length_add by lia. lia.
    + destruct (N.leb_spec 192 len); [|discriminate].
      destruct (nth_error b (i + 1)) as [lo|] eqn:Hlo; [|discriminate].
      destruct (Nat.ltb_spec (N.to_nat ((len - 192) * 256 + lo)) cs); [|discriminate].
      destruct (sdecode f b _ _ B) as [[r e']|] eqn:Hr; [|discriminate]. injection H as <- <-.
      apply IH in Hr as [D Hw]. split; [eapply dec_ptr; eauto|exact Hw].
Qed.

Lemma sdecode_complete b : forall cs i ls e, decodes b cs i ls e ->
  forall fuel B, wire_len ls <= B -> B + cs < fuel -> sdecode fuel b cs i B = Some (ls, e).
Proof.
  induction 1 as [cs i H | cs i len rest e H Hp Hl Hb Hd IH | cs i hi lo rest e' H Hh Hlo Ht Hd IH];
    intros fuel B Hw Hf; (destruct fuel as [|f]; [lia|]); cbn [sdecode]; rewrite H.
  - cbn [N.eqb]. destruct (Nat.leb_spec 1 B); [reflexivity|]. cbn in Hw. lia.
  - rewrite wire_len_cons, slice_length_add in Hw by lia.
    destruct (N.eqb_spec len 0); [lia|]. destruct (N.leb_spec len 63); [|lia].
    destruct (Nat.leb_spec (i + 1 + N.to_nat len) (length b)); [|lia].
    destruct (Nat.leb_spec (1 + N.to_nat len) B); [|lia].
    cbn [andb]. rewrite IH by lia. reflexivity.
  - destruct (N.eqb_spec hi 0); [lia|]. destruct (N.leb_spec hi 63); [lia|].
    destruct (N.leb_spec 192 hi); [|lia]. rewrite Hlo.
    destruct (Nat.ltb_spec (N.to_nat ((hi - 192) * 256 + lo)) cs); [|lia].
    rewrite IH by lia. reflexivity.
Qed.

Theorem spec_decode_name_iff b start ls l :
  spec_decode_name b start = Some (ls, l) <-> decodes_name b start ls l.
Proof.
  unfold spec_decode_name, decodes_name. split.
  - destruct (sdecode _ b start start 255) as [[ls' e]|] eqn:H; [|discriminate].
    intros [= <- <-]. apply sdecode_sound in H as [D Hw]. eauto.
  - intros (e & D & -> & Hw). rewrite (sdecode_complete b _ _ _ _ D) by lia. reflexivity.
Qed.
