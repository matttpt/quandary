(* Soundness of the trace validator: a trace accepted by [validate] from an initial
   state is the image of a genuine run of the LTS, so its end state is reachable and
   everything proved about reachable states applies to it. *)
From Coq Require Import Lia.
From QV Require Import Model.Pool Model.PoolTrace Spec.PoolS Proofs.PoolP.

Lemma run_app fx ls1 : forall s ls2, run fx s (ls1 ++ ls2) =
  match run fx s ls1 with Some s1 => run fx s1 ls2 | None => None end.
Proof.
  induction ls1 as [|l r IH]; intros s ls2; simpl; [reflexivity|].
  destruct (step fx s l); [apply IH | reflexivity].
Qed.

Lemma accept_event_run fx s e s' : accept_event fx s e = Some s' -> exists ls, run fx s ls = Some s'.
Proof.
  unfold accept_event. destruct (negb (note_ok s e)); [discriminate|].
  destruct (event_labels fx s e) as [[ls pool]|]; [|discriminate].
  destruct (run fx s ls) as [s1|] eqn:E; [|discriminate].
  destruct ((if pool then pool_counters s1 e else group_counters s1 e) && negb (crashed s1)); [|discriminate].
  intros H; inversion H; subst. exists ls; exact E.
Qed.

Lemma validate_run fx evs : forall s k s', validate fx s evs k = (s', None) -> exists ls, run fx s ls = Some s'.
Proof.
  induction evs as [|e r IH]; simpl; intros s k s' H.
  - inversion H; subst. exists []; reflexivity.
  - destruct (accept_event fx s e) as [s1|] eqn:E; [|discriminate].
    destruct (accept_event_run _ _ _ _ E) as (l1 & H1).
    destruct (IH _ _ _ H) as (l2 & H2).
    exists (l1 ++ l2). rewrite run_app, H1. exact H2.
Qed.

Theorem validate_reachable fx s0 evs s : initial s0 -> validate fx s0 evs 0 = (s, None) -> reachable fx s.
Proof.
  intros H0 H. destruct (validate_run _ _ _ _ _ H) as (ls & Hr). exists s0, ls; split; assumption.
Qed.

(* the counters the hooks logged are the model's counters after each accepted event *)
Lemma accept_event_counters fx s e s' : accept_event fx s e = Some s' ->
  crashed s' = false /\ (pool_counters s' e = true \/ group_counters s' e = true).
Proof.
  unfold accept_event. destruct (negb (note_ok s e)); [discriminate|].
  destruct (event_labels fx s e) as [[ls pool]|]; [|discriminate].
  destruct (run fx s ls) as [s1|]; [|discriminate].
  destruct ((if pool then pool_counters s1 e else group_counters s1 e) && negb (crashed s1)) eqn:E; [|discriminate].
  intros H; inversion H; subst. apply andb_true_iff in E. destruct E as [E1 E2].
  split; [destruct (crashed s'); [discriminate | reflexivity]|].
  destruct pool; [left | right]; exact E1.
Qed.

Theorem validated_trace_safe s0 evs s : initial s0 -> validate true s0 evs 0 = (s, None) ->
  exactly_one_place s /\ never_twice s /\ await_ok s /\ crashed s = false.
Proof.
  intros H0 H. pose proof (validate_reachable _ _ _ _ H0 H) as R.
  destruct (exactly_once_reachable s R) as [A B].
  split; [exact A | split; [exact B | split; [apply await_reachable; exact R | apply no_crash_reachable; exact R]]].
Qed.
