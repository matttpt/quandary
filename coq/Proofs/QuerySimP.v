(* Relational lifting through the answering logic of Model/Query.v: run 1 on an interface whose
   operations never fail (a strict interface), run 2 on another interface; if every operation that
   succeeds in run 1 towards a state satisfying the (backward-closed) goal predicate G also succeeds
   in run 2 from any R-related state, with the same result and R-related states, then a successful
   run 1 of answer / answer_any ending in G is matched step by step by run 2. *)
From QV Require Import Base.ListX Gen.ZoneConsts Gen.QueryConsts Model.ZoneTree Model.Query.

Section Sim.
Context {W1 W2 : Type}.
Variable wi1 : wiface W1.
Variable wi2 : wiface W2.
Variable negttl : N -> N -> N.
Variable z : zone.
Variable R : W1 -> W2 -> Prop.
Variable G : W1 -> Prop.

(* G is assumed of the END state and concluded of the start: the instance is "cursor <= a", known only of the
   finished body and inherited backwards because the cursor only grows *)
Definition simQ {E1 E2 A} (f1 : W1 -> res E1 (A * W1)) (f2 : W2 -> res E2 (A * W2)) : Prop :=
  forall w1 x w1', f1 w1 = Ok (x, w1') -> G w1' ->
    G w1 /\ forall w2, R w1 w2 -> exists w2', f2 w2 = Ok (x, w2') /\ R w1' w2'.
Definition simR (f1 : W1 -> res (wierr * W1) W1) (f2 : W2 -> res (wierr * W2) W2) : Prop :=
  forall w1 w1', f1 w1 = Ok w1' -> G w1' ->
    G w1 /\ forall w2, R w1 w2 -> exists w2', f2 w2 = Ok w2' /\ R w1' w2'.

Definition simO (f1 : W1 -> option W1) (f2 : W2 -> option W2) : Prop :=
  forall w1 w1', f1 w1 = Some w1' -> G w1' ->
    G w1 /\ forall w2, R w1 w2 -> exists w2', f2 w2 = Some w2' /\ R w1' w2'.

Hypothesis Hrr : forall s h o ty c ttl rd, simR (wi_add_rr wi1 s h o ty c ttl rd) (wi_add_rr wi2 s h o ty c ttl rd).
Hypothesis Hrrset : forall s h o ty c ttl rds b,
  simQ (wi_add_rrset wi1 s h o ty c ttl rds b) (wi_add_rrset wi2 s h o ty c ttl rds b).
Hypothesis Haa : forall b, simO (wi_set_aa wi1 b) (wi_set_aa wi2 b).
Hypothesis Hrc : forall c, simO (wi_set_rcode wi1 c) (wi_set_rcode wi2 c).
(* run 1 is strict: add_rrset never reports an error (a swallowed Truncation would let run 1 go on where run 2 stops;
   an add_rr error ends run 1, which is then not Ok) *)
Hypothesis Hstrict_rrset : forall s h o ty c ttl rds b w e, wi_add_rrset wi1 s h o ty c ttl rds b w <> Err e.

Lemma simQ_ret {E1 E2 A} (a : A) : @simQ E1 E2 A (fun w => Ok (a, w)) (fun w => Ok (a, w)).
Proof. intros w1 x w1' H HG. injection H as <- <-. split; [exact HG|]. intros w2 HR. exists w2. auto. Qed.

(* the model sequences its steps by "match q w with Ok (a, w1) => k a w1 | other => other" *)
Lemma simQ_then {A B} (q1 : W1 -> res (perr * W1) (A * W1)) (q2 : W2 -> res (perr * W2) (A * W2))
    (k1 : A -> W1 -> res (perr * W1) (B * W1)) (k2 : A -> W2 -> res (perr * W2) (B * W2)) :
  simQ q1 q2 -> (forall a, simQ (k1 a) (k2 a)) ->
  simQ (fun w => match q1 w with Ok (a, w') => k1 a w' | Err e => Err e | Panic => Panic end)
       (fun w => match q2 w with Ok (a, w') => k2 a w' | Err e => Err e | Panic => Panic end).
Proof.
  intros Hq Hk w1 x w1'. cbn beta. destruct (q1 w1) as [[a w1a]|e|] eqn:E; try discriminate.
  intros H HG. destruct (Hk a _ _ _ H HG) as [Ga S2]. destruct (Hq _ _ _ E Ga) as [G0 S1].
  split; [exact G0|]. intros w2 HR. destruct (S1 w2 HR) as (w2a & -> & Ra). apply S2, Ra.
Qed.

Lemma simQ_lift_add f1 f2 : simR f1 f2 -> simQ (fun w => lift_add (f1 w)) (fun w => lift_add (f2 w)).
Proof.
  intros Hf w1 [] w1' E HG. assert (E1 : f1 w1 = Ok w1') by (destruct (f1 w1) as [?|[? ?]|]; cbn in E; congruence).
  destruct (Hf _ _ E1 HG) as [G0 S]. split; [exact G0|]. intros w2 HR. destruct (S w2 HR) as (w2' & -> & HR'). exists w2'. auto.
Qed.

(* execute_allowing_truncation of a computation that never reports an error *)
Lemma simQ_allow f1 f2 : (forall w e, f1 w <> Err e) -> simR f1 f2 ->
  simQ (fun w => allow_truncation (f1 w)) (fun w => allow_truncation (f2 w)).
Proof.
  intros Hn Hf w1 [] w1' E HG. assert (E1 : f1 w1 = Ok w1').
  { pose proof (Hn w1) as N1. destruct (f1 w1) as [?|[[|] ?]|]; cbn in E; try congruence; elim (N1 _ eq_refl). }
  destruct (Hf _ _ E1 HG) as [G0 S]. split; [exact G0|]. intros w2 HR. destruct (S w2 HR) as (w2' & -> & HR'). exists w2'. auto.
Qed.

Lemma simQ_rrset s h o ty c ttl rds b :
  simQ (fun w => lift_addv (wi_add_rrset wi1 s h o ty c ttl rds b w)) (fun w => lift_addv (wi_add_rrset wi2 s h o ty c ttl rds b w)).
Proof.
  intros w1 v w1' E HG. assert (E1 : wi_add_rrset wi1 s h o ty c ttl rds b w1 = Ok (v, w1'))
    by (destruct (wi_add_rrset wi1 s h o ty c ttl rds b w1) as [?|[? ?]|]; cbn in E; congruence).
  destruct (Hrrset _ _ _ _ _ _ _ _ _ _ _ E1 HG) as [G0 S]. split; [exact G0|]. intros w2 HR.
  destruct (S w2 HR) as (w2' & -> & HR'). exists w2'. auto.
Qed.

Lemma simQ_set f1 f2 : simO f1 f2 -> simQ (fun w => lift_set (f1 w)) (fun w => lift_set (f2 w)).
Proof.
  intros Hf w1 [] w1' E HG. assert (E1 : f1 w1 = Some w1') by (destruct (f1 w1); cbn in E; congruence).
  destruct (Hf _ _ E1 HG) as [G0 S]. split; [exact G0|]. intros w2 HR. destruct (S w2 HR) as (w2' & -> & HR'). exists w2'. auto.
Qed.

(* a branch that does not end Ok has nothing to match *)
Ltac no_ok := intros ? ? ? H; discriminate H.

Lemma simR_ret : simR (fun w => Ok w) (fun w => Ok w).
Proof. intros w1 w1' H HG. injection H as <-. split; [exact HG|]. intros w2 HR. exists w2. auto. Qed.

Lemma addrs_noerr owner h sbc w e : add_additional_addresses wi1 z owner h sbc w <> Err e.
Proof.
  unfold add_additional_addresses.
  destruct (zl (zone_lookup_addrs z owner false sbc)) as [[a aaaa sos|c ns| |]|]; try discriminate.
  assert (H6 : forall h1 w1,
    (if (z_class z =? CLASS_IN)%N
     then match aaaa with
          | Some (ttl, rdatas) =>
            match wi_add_rrset wi1 SAr h1 owner TYPE_AAAA CLASS_IN ttl rdatas false w1 with
            | Ok (_, w2) => Ok w2 | Err e => Err e | Panic => Panic end
          | None => Ok w1
          end
     else Ok w1) <> Err e).
  { intros h1 w1. destruct (z_class z =? CLASS_IN)%N; [|discriminate]. destruct aaaa as [[tb rb]|]; [|discriminate].
    destruct (wi_add_rrset wi1 SAr h1 owner TYPE_AAAA CLASS_IN tb rb false w1) as [[v w2]|e2|] eqn:E2; try discriminate.
    elim (Hstrict_rrset _ _ _ _ _ _ _ _ _ _ E2). }
  destruct a as [[ta ra]|]; [|apply H6].
  destruct (wi_add_rrset wi1 SAr h owner TYPE_A (z_class z) ta ra false w) as [[v w1]|e1|] eqn:E1; [apply H6| |discriminate].
  elim (Hstrict_rrset _ _ _ _ _ _ _ _ _ _ E1).
Qed.

Lemma sim_addrs owner h sbc :
  simR (add_additional_addresses wi1 z owner h sbc) (add_additional_addresses wi2 z owner h sbc).
Proof.
  unfold add_additional_addresses.
  destruct (zl (zone_lookup_addrs z owner false sbc)) as [[a aaaa sos|c ns| |]|];
    [|apply simR_ret..|intros ? ? H; discriminate H].
  assert (H6 : forall h1,
    simR (fun w1 => if (z_class z =? CLASS_IN)%N
                    then match aaaa with
                         | Some (ttl, rdatas) =>
                           match wi_add_rrset wi1 SAr h1 owner TYPE_AAAA CLASS_IN ttl rdatas false w1 with
                           | Ok (_, w2) => Ok w2 | Err e => Err e | Panic => Panic end
                         | None => Ok w1
                         end
                    else Ok w1)
         (fun w1 => if (z_class z =? CLASS_IN)%N
                    then match aaaa with
                         | Some (ttl, rdatas) =>
                           match wi_add_rrset wi2 SAr h1 owner TYPE_AAAA CLASS_IN ttl rdatas false w1 with
                           | Ok (_, w2) => Ok w2 | Err e => Err e | Panic => Panic end
                         | None => Ok w1
                         end
                    else Ok w1)).
  { intros h1. destruct (z_class z =? CLASS_IN)%N; [|apply simR_ret]. destruct aaaa as [[tb rb]|]; [|apply simR_ret].
    intros w1 w1'. destruct (wi_add_rrset wi1 SAr h1 owner TYPE_AAAA CLASS_IN tb rb false w1) as [[v w1b]|e2|] eqn:E2; try discriminate.
    intros H HG; injection H as <-. destruct (Hrrset _ _ _ _ _ _ _ _ _ _ _ E2 HG) as [G0 S2].
    split; [exact G0|]. intros w2 HR. destruct (S2 w2 HR) as (w2b & -> & Rb). exists w2b. auto. }
  destruct a as [[ta ra]|]; [|apply H6]. intros w1 w1'.
  destruct (wi_add_rrset wi1 SAr h owner TYPE_A (z_class z) ta ra false w1) as [[v w1a]|e1|] eqn:E1; try discriminate.
  intros H HG. destruct (H6 QhOwner _ _ H HG) as [Ga S2]. destruct (Hrrset _ _ _ _ _ _ _ _ _ _ _ E1 Ga) as [G0 S1].
  split; [exact G0|]. intros w2 HR. destruct (S1 w2 HR) as (w2a & -> & Ra). apply S2, Ra.
Qed.

Lemma sim_additional_loop start : forall rds v idx,
  simQ (additional_loop wi1 z start rds v idx) (additional_loop wi2 z start rds v idx).
Proof.
  induction rds as [|rd rds IH]; intros v idx; cbn [additional_loop]; [apply simQ_ret|].
  destruct (read_name_from_rdata rd start) as [n|e|]; [|no_ok..].
  apply simQ_then; [apply simQ_allow; [intros w e; apply addrs_noerr|apply sim_addrs]|]. intros _. apply IH.
Qed.

Lemma sim_additional ty s v :
  simQ (do_additional_section_processing wi1 z ty s v) (do_additional_section_processing wi2 z ty s v).
Proof.
  unfold do_additional_section_processing. destruct (negb _); [apply simQ_ret|].
  destruct (lookup_offset ADDITIONAL_TABLE ty); [apply sim_additional_loop|apply simQ_ret].
Qed.

Lemma sim_negsoa : simQ (add_negative_caching_soa wi1 negttl z) (add_negative_caching_soa wi2 negttl z).
Proof.
  unfold add_negative_caching_soa. destruct (zone_soa z) as [[ttl [|rd rest]]|]; [no_ok| |no_ok].
  destruct (read_soa_minimum rd) as [m|e|]; [|no_ok..]. apply simQ_lift_add, Hrr.
Qed.

Lemma sim_glue_loop : forall l v, simQ (glue_loop wi1 z l v) (glue_loop wi2 z l v).
Proof.
  induction l as [|[idx n] l IH]; intros v; cbn [glue_loop]; [apply simQ_ret|].
  apply simQ_then; [apply simQ_lift_add, sim_addrs|]. intros _. apply IH.
Qed.
Lemma sim_optional_loop : forall l v, simQ (optional_loop wi1 z l v) (optional_loop wi2 z l v).
Proof.
  induction l as [|[idx n] l IH]; intros v; cbn [optional_loop]; [apply simQ_ret|].
  apply simQ_then; [apply simQ_allow; [intros w e; apply addrs_noerr|apply sim_addrs]|]. intros _. apply IH.
Qed.

Lemma sim_referral child ns : simQ (do_referral wi1 z child ns) (do_referral wi2 z child ns).
Proof.
  unfold do_referral. apply simQ_then; [apply simQ_rrset|]. intros v.
  destruct (referral_names child (snd ns) 0) as [[g a]|e|]; [|no_ok..].
  apply simQ_then; [apply sim_glue_loop|]. intros _. apply sim_optional_loop.
Qed.

Lemma sim_found h owner ty rs : simQ (add_found wi1 z h owner ty rs) (add_found wi2 z h owner ty rs).
Proof. unfold add_found. apply simQ_then; [apply simQ_rrset|]. intros v. apply sim_additional. Qed.

Lemma sim_set_rcode_then {A} c (k1 : W1 -> res (perr * W1) (A * W1)) (k2 : W2 -> res (perr * W2) (A * W2)) :
  simQ k1 k2 ->
  simQ (fun w => match lift_set (wi_set_rcode wi1 c w) with Ok (_, w1) => k1 w1 | Err e => Err e | Panic => Panic end)
       (fun w => match lift_set (wi_set_rcode wi2 c w) with Ok (_, w1) => k2 w1 | Err e => Err e | Panic => Panic end).
Proof. intros Hk. apply simQ_then; [apply simQ_set, Hrc|]. intros _. exact Hk. Qed.

Lemma sim_set_aa_then k1 k2 : simQ k1 k2 -> simQ (set_aa_then wi1 k1) (set_aa_then wi2 k2).
Proof. intros Hk. unfold set_aa_then. apply simQ_then; [apply simQ_set, Haa|]. intros _. exact Hk. Qed.

Lemma sim_cname qname ty : forall fuel cn os,
  simQ (follow_cname_1 wi1 negttl z fuel qname ty cn os) (follow_cname_1 wi2 negttl z fuel qname ty cn os).
Proof.
  induction fuel as [|fuel IH]; intros cn os; cbn [follow_cname_1]; [no_ok|].
  destruct (snd cn) as [|rd rest]; [no_ok|].
  destruct (name_from_all rd) as [[[cname wire]|]|e|]; [|no_ok..].
  destruct (_ || _); [no_ok|].
  destruct (match last_opt os with Some o => (QhRdata, o) | None => (QhQname, qname) end) as [h owner].
  destruct wire as [|b0 wire']; [no_ok|].
  apply simQ_then; [apply simQ_lift_add, Hrr|]. intros _. unfold follow_cname_2_body.
  destruct (zl (zone_lookup z cname ty false false)) as [[s sos|next sos|c ns|sos| |]|]; [| | | | | |no_ok].
  - apply sim_found.
  - destruct (length os <? PREVIOUS_OWNERS_CAP); [apply IH|no_ok].
  - apply sim_referral.
  - apply sim_negsoa.
  - apply sim_set_rcode_then, sim_negsoa.
  - apply simQ_ret.
Qed.

Lemma sim_nxdomain : simQ (nxdomain wi1 negttl z) (nxdomain wi2 negttl z).
Proof. apply (sim_set_rcode_then RCODE_NXDOMAIN), sim_set_aa_then, sim_negsoa. Qed.

Theorem sim_answer qname ty : simQ (answer wi1 negttl z qname ty) (answer wi2 negttl z qname ty).
Proof.
  unfold answer. destruct (zl (zone_lookup z qname ty true false)) as [[s sos|cn sos|c ns|sos| |]|]; [| | | | |no_ok..].
  - apply sim_set_aa_then, sim_found.
  - apply (sim_set_aa_then (follow_cname_1 wi1 negttl z _ qname ty cn []) (follow_cname_1 wi2 negttl z _ qname ty cn [])), sim_cname.
  - apply sim_referral.
  - apply sim_set_aa_then, sim_negsoa.
  - apply sim_nxdomain.
Qed.

Lemma sim_any_loop qname : forall rrsets n, simQ (any_loop wi1 z qname rrsets n) (any_loop wi2 z qname rrsets n).
Proof.
  induction rrsets as [|r rrsets IH]; intros n; cbn [any_loop]; [apply simQ_ret|].
  apply simQ_then; [apply simQ_rrset|]. intros _. apply IH.
Qed.

Theorem sim_answer_any qname : simQ (answer_any wi1 negttl z qname) (answer_any wi2 negttl z qname).
Proof.
  unfold answer_any. destruct (zl (zone_lookup_all z qname true false)) as [[rrsets sos|c ns| |]|]; [| | |no_ok..].
  - apply sim_set_aa_then. apply simQ_then; [apply sim_any_loop|]. intros n.
    destruct (n =? 0); [apply sim_negsoa|apply simQ_ret].
  - apply sim_referral.
  - apply sim_nxdomain.
Qed.

End Sim.
