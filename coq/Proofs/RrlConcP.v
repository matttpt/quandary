(* C28: the interleaving semantics of Model/RrlConc.v sends exactly min(n, tokens) responses. *)
From QV Require Import Base.Res Base.Octets Model.Rrl Model.RrlConc Spec.RrlBucketS Proofs.RrlP.
Local Open Scope N_scope.

Lemma nth_error_set_nth_same {A} (l : list A) i x y : nth_error l i = Some y ->
  nth_error (set_nth l i x) i = Some x.
Proof.
  revert i. induction l as [|z l IH]; intros [|i] H; simpl in *; try discriminate; [reflexivity|].
  apply IH. exact H.
Qed.

Lemma nth_error_set_nth_other {A} (l : list A) i j x : i <> j ->
  nth_error (set_nth l i x) j = nth_error l j.
Proof.
  revert i j. induction l as [|z l IH]; intros [|i] [|j] H; simpl; try reflexivity; try contradiction.
  apply IH. intros E. apply H. f_equal. exact E.
Qed.

Definition total (f : thread -> nat) (ths : list thread) : nat := list_sum (map f ths).

Lemma total_set_nth f ths i th th' : nth_error ths i = Some th ->
  (total f (set_nth ths i th') + f th = total f ths + f th')%nat.
Proof.
  unfold total. revert i. induction ths as [|z l IH]; intros [|i] H; simpl in *; try discriminate.
  - inversion H; subst. lia.
  - specialize (IH i H). lia.
Qed.

(* tokens the cell still holds for stream k (a cell holding another key will be replaced by
   a fresh, full bucket) *)
Definition avail (p : params) (k : key) (e : entry) : N :=
  if key_eqb (e_key e) k then limit_of p (k_category k) - e_count e else limit_of p (k_category k).

(* the cell is within its limit and no whole second will have elapsed by time [hi]; nothing is
   asked of a cell that holds another key: the first response of the stream replaces it *)
Definition cell_ok (p : params) (k : key) (hi : N) (e : entry) : Prop :=
  key_eqb (e_key e) k = true ->
  e_count e <= limit_of p (k_category k) /\ hi - e_last e < nanos_per_sec.

Lemma cell_step_spec p k lo hi e now rnd :
  wf_params p -> cell_ok p k hi e -> lo <= now <= hi -> hi - lo < nanos_per_sec ->
  exists e' act,
    cell_step p k e now rnd = Ok (e', act) /\ cell_ok p k hi e' /\
    ((act = Send /\ avail p k e = avail p k e' + 1) \/
     (act <> Send /\ avail p k e = 0 /\ e' = e)).
Proof.
  intros W CO [T1 T2] TW. pose proof W as (W1 & W2 & W3).
  destruct (W1 (k_category k)) as [Hr Hl]. fold (limit_of p (k_category k)) in *.
  set (lim := limit_of p (k_category k)) in *.
  assert (Hlim : 1 <= lim) by (unfold lim, limit_of; nia).
  unfold cell_step, avail, cell_ok in *. fold lim in CO |- *.
  destruct (key_eqb (e_key e) k) eqn:EK.
  - destruct (CO eq_refl) as [Hc Ht].
    (* no whole second has passed: nothing is credited *)
    destruct (entry_step_fixed p e (k_category k) now rnd W Hc) as (e1 & _ & _ & _ & Z & ->).
    rewrite (Z (N.div_small (now - e_last e) nanos_per_sec ltac:(lia))). fold lim.
    destruct (lim <=? e_count e) eqn:EL.
    + apply N.leb_le in EL. eexists; eexists. split; [reflexivity|].
      split; [intros _; split; assumption|].
      right. split; [destruct (should_slip p rnd); discriminate|]. split; [lia|reflexivity].
    + apply N.leb_gt in EL.
      eexists; eexists. split; [reflexivity|]. cbn [e_key e_count e_last]. rewrite EK.
      split; [intros _; split; [lia|exact Ht]|].
      left. split; [reflexivity|lia].
  - eexists; eexists. split; [reflexivity|]. cbn [e_key e_count e_last]. rewrite key_eqb_refl.
    split; [intros _; split; [exact Hlim|lia]|].
    left. split; [reflexivity|lia].
Qed.

Definition in_cs (q : pc) : bool := match q with Idle => false | _ => true end.

(* requests of a thread whose decision has not been taken yet *)
Definition pending (th : thread) : nat :=
  (th_todo th + match th_pc th with Locked | HasRead _ => 1 | _ => 0 end)%nat.

(* A0: the tokens the bucket held at the start; n: the requests of the whole workload *)
Record inv (p : params) (k : key) (hi A0 : N) (n : nat) (s : cstate) : Prop := mkInv {
  (* mutual exclusion: a thread is inside the critical section iff it owns the lock *)
  inv_lock : forall i th, nth_error (c_threads s) i = Some th ->
                          (in_cs (th_pc th) = true <-> c_lock s = Some i);
  (* the lock is only ever owned by a thread that is inside the critical section *)
  inv_owner : forall o, c_lock s = Some o ->
                        exists th, nth_error (c_threads s) o = Some th /\ in_cs (th_pc th) = true;
  (* what a thread has read is still what the cell holds *)
  inv_read : forall i th e, nth_error (c_threads s) i = Some th -> th_pc th = HasRead e -> e = c_cell s;
  inv_cell : cell_ok p k hi (c_cell s);
  (* no update lost or double-counted: every response sent took exactly one token *)
  inv_acct : N.of_nat (c_sent s) + avail p k (c_cell s) = A0;
  (* a response was limited only when no token was left (and none comes back in this second) *)
  inv_lim : (0 < c_limited s)%nat -> avail p k (c_cell s) = 0;
  inv_total : (c_sent s + c_limited s + total pending (c_threads s) = n)%nat }.

Lemma inv_init p k hi e bursts :
  cell_ok p k hi e ->
  inv p k hi (avail p k e) (list_sum bursts) (cinit e bursts).
Proof.
  intros CO. unfold cinit. constructor; cbn [c_threads c_lock c_cell c_sent c_limited].
  - intros i th H. apply nth_error_In in H. apply in_map_iff in H. destruct H as (b & <- & _).
    cbn. split; discriminate.
  - discriminate.
  - intros i th e' H. apply nth_error_In in H. apply in_map_iff in H. destruct H as (b & <- & _).
    cbn. discriminate.
  - exact CO.
  - reflexivity.
  - lia.
  - cbn. unfold total. rewrite map_map. cbn. f_equal. rewrite <- (map_id bursts) at 2.
    apply map_ext. intros b. unfold pending. cbn. lia.
Qed.

(* A step of thread tid replaces its own entry and possibly the lock, the cell and the counters:
   what is left to check of the invariant.  The cell changes only under the lock ([e' = c_cell s] or
   tid owns it): then no other thread is past its read, so what the others have read stays current. *)
Lemma inv_upd p k hi A0 n s tid th th' lk' e' sent' lim' :
  inv p k hi A0 n s -> nth_error (c_threads s) tid = Some th ->
  (in_cs (th_pc th') = true <-> lk' = Some tid) ->
  (forall j, j <> tid -> c_lock s = Some j <-> lk' = Some j) ->
  (forall e, th_pc th' = HasRead e -> e = e') ->
  (e' = c_cell s \/ c_lock s = Some tid) ->
  cell_ok p k hi e' -> N.of_nat sent' + avail p k e' = A0 -> ((0 < lim')%nat -> avail p k e' = 0) ->
  (sent' + lim' + pending th' = c_sent s + c_limited s + pending th)%nat ->
  inv p k hi A0 n (mkC e' lk' (set_nth (c_threads s) tid th') sent' lim').
Proof.
  intros [IL IO IR IC IA IM IT] ET HL HO HR HC CO HA HM HT.
  assert (Lset : forall j x, nth_error (set_nth (c_threads s) tid th') j = Some x ->
                 (j = tid /\ x = th') \/ (j <> tid /\ nth_error (c_threads s) j = Some x)).
  { intros j x Hj. destruct (Nat.eq_dec j tid) as [->|Hne].
    - rewrite (nth_error_set_nth_same _ _ th' th ET) in Hj. inversion Hj. left; split; reflexivity.
    - rewrite nth_error_set_nth_other in Hj by (intros E; apply Hne; symmetry; exact E).
      right; split; assumption. }
  constructor; cbn [c_threads c_lock c_cell c_sent c_limited].
  - intros j x Hj. destruct (Lset _ _ Hj) as [[-> ->]|[Hne Hj']]; [exact HL|].
    exact (iff_trans (IL j x Hj') (HO j Hne)).
  - intros o Ho. destruct (Nat.eq_dec o tid) as [->|Hne].
    + exists th'. split; [exact (nth_error_set_nth_same _ _ _ th ET)|apply HL; exact Ho].
    + apply (HO o Hne) in Ho. destruct (IO o Ho) as (x & Hx & Hc). exists x. split; [|exact Hc].
      rewrite nth_error_set_nth_other by (intros E; apply Hne; symmetry; exact E). exact Hx.
  - intros j x e Hj Hp. destruct (Lset _ _ Hj) as [[-> ->]|[Hne Hj']]; [exact (HR e Hp)|].
    destruct HC as [->|Own]; [exact (IR j x e Hj' Hp)|].
    (* another thread inside the critical section would own the lock too *)
    exfalso. assert (Hc : c_lock s = Some j) by (apply (IL j x Hj'); rewrite Hp; reflexivity). congruence.
  - exact CO.
  - exact HA.
  - exact HM.
  - pose proof (total_set_nth pending (c_threads s) tid th th' ET). lia.
Qed.

Lemma inv_step p k lo hi A0 n s s' tid now rnd :
  wf_params p -> hi - lo < nanos_per_sec -> lo <= now <= hi ->
  inv p k hi A0 n s -> cstep p k s (tid, now, rnd) = Some s' -> inv p k hi A0 n s'.
Proof.
  intros W TW TN I H. unfold cstep in H.
  destruct (nth_error (c_threads s) tid) as [th|] eqn:ET; [|discriminate].
  pose proof I as [IL _ IR IC IA IM _].
  assert (Own : in_cs (th_pc th) = true -> c_lock s = Some tid) by apply (IL tid th ET).
  destruct (th_pc th) as [| |e|] eqn:EP.
  - (* Acquire *)
    destruct (th_todo th) as [|m] eqn:ETD; [discriminate|].
    destruct (c_lock s) as [o|] eqn:ELK; [discriminate|]. injection H as <-.
    apply (inv_upd p k hi A0 n s tid th _ _ _ _ _ I ET); try assumption.
    + split; reflexivity.
    + intros j Hj. rewrite ELK. split; [discriminate|intros [= ->]; contradiction].
    + discriminate.
    + left; reflexivity.
    + unfold pending. rewrite EP, ETD. cbn. lia.
  - (* Read *)
    injection H as <-. apply (inv_upd p k hi A0 n s tid th _ _ _ _ _ I ET); try assumption.
    + split; [intros _; apply Own|]; reflexivity.
    + intros j _. apply iff_refl.
    + intros e [= <-]. reflexivity.
    + left; reflexivity.
    + unfold pending. rewrite EP. cbn. lia.
  - (* Write *)
    pose proof (IR tid th e ET EP) as ->.
    destruct (cell_step_spec p k lo hi (c_cell s) now rnd W IC TN TW) as (e' & act & HS & CO' & HA).
    rewrite HS in H. injection H as <-.
    apply (inv_upd p k hi A0 n s tid th _ _ _ _ _ I ET); try assumption.
    + split; [intros _; apply Own|]; reflexivity.
    + intros j _. apply iff_refl.
    + discriminate.
    + right. apply Own. reflexivity.
    + destruct HA as [[-> HA]|[Hn [HA ->]]]; [rewrite Nat2N.inj_succ; lia|].
      destruct act; [contradiction| |]; exact IA.
    + destruct HA as [[-> HA]|[Hn [HA ->]]]; [intros Hl; specialize (IM Hl); lia|intros _; exact HA].
    + unfold pending. rewrite EP. cbn. destruct act; lia.
  - (* Release *)
    injection H as <-. specialize (Own eq_refl).
    apply (inv_upd p k hi A0 n s tid th _ _ _ _ _ I ET); try assumption.
    + split; discriminate.
    + intros j Hj. rewrite Own. split; [intros [= ->]; contradiction|discriminate].
    + discriminate.
    + left; reflexivity.
    + unfold pending. rewrite EP. cbn. lia.
Qed.

Definition label_now (l : label) : N := snd (fst l).

Lemma inv_run p k lo hi A0 n sched : wf_params p -> hi - lo < nanos_per_sec ->
  Forall (fun l => lo <= label_now l <= hi) sched ->
  forall s, inv p k hi A0 n s -> inv p k hi A0 n (crun p k s sched).
Proof.
  intros W TW. induction sched as [|[[tid now] rnd] r IH]; intros HF s I.
  - exact I.
  - inversion HF as [|? ? Hl HF']; subst. cbn [crun].
    destruct (cstep p k s (tid, now, rnd)) as [s'|] eqn:ES.
    + apply IH; [exact HF'|]. eapply inv_step; eauto.
    + apply IH; assumption.
Qed.

Lemma all_done_pending ths : forallb thread_done ths = true -> total pending ths = 0%nat.
Proof.
  unfold total. induction ths as [|th l IH]; intros H; [reflexivity|].
  simpl in H. apply andb_true_iff in H. destruct H as [H1 H2]. simpl. rewrite (IH H2).
  unfold thread_done in H1. unfold pending.
  destruct (th_pc th); try discriminate. destruct (th_todo th); [reflexivity|discriminate].
Qed.

(* MAIN: any number of threads, any bursts, any schedule, any clock readings inside one
   refill second: when every thread has finished, exactly min(n, tokens) responses were
   sent and the other n - min(n, tokens) were limited. *)
Lemma conc_exact p k lo hi e bursts sched :
  wf_params p -> cell_ok p k hi e -> hi - lo < nanos_per_sec ->
  Forall (fun l => lo <= label_now l <= hi) sched ->
  let s' := crun p k (cinit e bursts) sched in
  all_done s' = true ->
  let n := N.of_nat (list_sum bursts) in
  N.of_nat (c_sent s') = N.min n (avail p k e) /\
  N.of_nat (c_limited s') = n - N.min n (avail p k e).
Proof.
  intros W CO TW HF s' HD n.
  pose proof (inv_run p k lo hi _ _ sched W TW HF _ (inv_init p k hi e bursts CO)) as I.
  fold s' in I. destruct I as [_ _ _ _ IA IM IT].
  rewrite (all_done_pending _ HD) in IT.
  assert (Hn : n = N.of_nat (c_sent s') + N.of_nat (c_limited s')) by (unfold n; lia).
  destruct (c_limited s') as [|m] eqn:EL.
  - split; lia.
  - assert (Hz : avail p k (c_cell s') = 0) by (apply IM; lia). split; lia.
Qed.

(* on a fresh server (the cell holds Rrl::new's placeholder, not k): min(n, rate x window) *)
Lemma conc_exact_fresh p k lo hi e bursts sched :
  wf_params p -> key_eqb (e_key e) k = false -> hi - lo < nanos_per_sec ->
  Forall (fun l => lo <= label_now l <= hi) sched ->
  let s' := crun p k (cinit e bursts) sched in
  all_done s' = true ->
  let n := N.of_nat (list_sum bursts) in
  let cap := rate_of p (k_category k) * p_window p in
  N.of_nat (c_sent s') = N.min n cap /\ N.of_nat (c_limited s') = n - N.min n cap.
Proof.
  intros W EK TW HF s' HD n cap.
  assert (CO : cell_ok p k hi e) by (unfold cell_ok; rewrite EK; discriminate).
  pose proof (conc_exact p k lo hi e bursts sched W CO TW HF HD) as H.
  unfold avail in H. rewrite EK in H. exact H.
Qed.


Lemma not_all_done_ex ths : forallb thread_done ths = false ->
  exists i th, nth_error ths i = Some th /\ thread_done th = false.
Proof.
  induction ths as [|x l IH]; intros H; [discriminate|].
  simpl in H. destruct (thread_done x) eqn:Ex.
  - destruct (IH H) as (i & th & H1 & H2). exists (S i), th. split; assumption.
  - exists 0%nat, x. split; [reflexivity|exact Ex].
Qed.

Lemma conc_progress p k lo hi A0 n s now rnd :
  wf_params p -> hi - lo < nanos_per_sec -> lo <= now <= hi ->
  inv p k hi A0 n s -> all_done s = false ->
  exists tid s', cstep p k s (tid, now, rnd) = Some s'.
Proof.
  intros W TW TN I ND. destruct I as [IL IO IR IC _ _ _].
  destruct (c_lock s) as [o|] eqn:ELK.
  - (* the owner can always take its next step *)
    destruct (IO o eq_refl) as (th & ET & HC). exists o. unfold cstep. rewrite ET.
    destruct (th_pc th) as [| |e|] eqn:EP; [discriminate| | |]; try (eexists; reflexivity).
    pose proof (IR o th e ET EP) as He. subst e.
    destruct (cell_step_spec p k lo hi (c_cell s) now rnd W IC TN TW) as (e' & act & HS & _).
    rewrite HS. eexists; reflexivity.
  - (* the lock is free: an unfinished thread is idle with work left and can acquire it *)
    destruct (not_all_done_ex _ ND) as (i & th & ET & Hnd). exists i. unfold cstep. rewrite ET.
    assert (HI : th_pc th = Idle).
    { destruct (th_pc th) eqn:EP; [reflexivity| | |];
        (assert (Hc : @None nat = Some i) by (apply (IL i th ET); rewrite EP; reflexivity);
         discriminate). }
    rewrite HI. unfold thread_done in Hnd. rewrite HI in Hnd.
    destruct (th_todo th); [discriminate|]. rewrite ELK. eexists; reflexivity.
Qed.

Definition cw_params : params := mkParams 1 1 1 1 0 RRL_DEFAULT_IPV4_NETMASK RRL_DEFAULT_IPV6_NETMASK 1.
Definition cw_key : key := mkKey 7 false 0 NxDomain.
Definition cw_cell : entry := mkEntry cw_key 0 1000.      (* the stream's bucket, one token left *)
Definition cw_sched : list label :=
  [(0%nat, 2000, 0); (1%nat, 2000, 0);        (* both enter *)
   (0%nat, 2000, 0); (1%nat, 2001, 0);        (* both read count = 0 *)
   (0%nat, 2002, 0); (1%nat, 2003, 0);        (* both store count = 1 and send *)
   (0%nat, 2004, 0); (1%nat, 2004, 0)].

Lemma lockless_loses_update :
  let s' := crun_nolock cw_params cw_key (cinit cw_cell [1%nat; 1%nat]) cw_sched in
  all_done s' = true /\ c_sent s' = 2%nat /\ avail cw_params cw_key cw_cell = 1 /\
  (* the same schedule under the lock: the second Acquire waits, one response is sent *)
  c_sent (crun cw_params cw_key (cinit cw_cell [1%nat; 1%nat]) cw_sched) = 1%nat.
Proof. vm_compute. repeat split; reflexivity. Qed.

Definition cx_params : params := mkParams 3 3 3 1 1 RRL_DEFAULT_IPV4_NETMASK RRL_DEFAULT_IPV6_NETMASK 1.
(* thread ids in the order in which they are scheduled: 2,0,1,1 round and round; a thread
   that cannot move (waiting for the lock, finished) stutters *)
Definition cx_order : list nat := concat (repeat [2; 0; 1; 1]%nat 30).
Definition cx_sched : list label := map (fun i => (i, 5000 + N.of_nat i, 0)) cx_order.
Lemma conc_example :
  let s' := crun cx_params cw_key (cinit (mkEntry init_key 0 0) [2; 1; 2]%nat) cx_sched in
  all_done s' = true /\ c_sent s' = 3%nat /\ c_limited s' = 2%nat.
Proof. vm_compute. repeat split; reflexivity. Qed.

Definition rem_steps (th : thread) : nat :=
  (4 * th_todo th + match th_pc th with Idle => 0 | Locked => 3 | HasRead _ => 2 | Written => 1 end)%nat.

Lemma cstep_measure p k s l s' : cstep p k s l = Some s' ->
  (S (total rem_steps (c_threads s')) = total rem_steps (c_threads s))%nat.
Proof.
  destruct l as [[tid now] rnd]. unfold cstep.
  destruct (nth_error (c_threads s) tid) as [th|] eqn:ET; [|discriminate].
  (* every enabled step puts in the thread's place one with one step less to go *)
  assert (M : forall th' x, (S (rem_steps th') = rem_steps th)%nat ->
                c_threads x = set_nth (c_threads s) tid th' ->
                (S (total rem_steps (c_threads x)) = total rem_steps (c_threads s))%nat).
  { intros th' x Hr ->. pose proof (total_set_nth rem_steps _ tid th th' ET). lia. }
  destruct (th_pc th) as [| |e|] eqn:EP.
  - destruct (th_todo th) as [|m] eqn:ETD; [discriminate|]. destruct (c_lock s); [discriminate|].
    intros [= <-]. eapply M; [|reflexivity]. unfold rem_steps. rewrite EP, ETD. cbn. lia.
  - intros [= <-]. eapply M; [|reflexivity]. unfold rem_steps. rewrite EP. cbn. lia.
  - destruct (cell_step p k e now rnd) as [[e' act]| |]; try discriminate.
    intros [= <-]. eapply M; [|reflexivity]. unfold rem_steps. rewrite EP. cbn. lia.
  - intros [= <-]. eapply M; [|reflexivity]. unfold rem_steps. rewrite EP. cbn. lia.
Qed.

Lemma conc_can_finish_from p k lo hi A0 n now : wf_params p -> hi - lo < nanos_per_sec -> lo <= now <= hi ->
  forall m s, (total rem_steps (c_threads s) < m)%nat -> inv p k hi A0 n s ->
  exists sched, Forall (fun l => lo <= label_now l <= hi) sched /\ all_done (crun p k s sched) = true.
Proof.
  intros W TW TN. induction m as [|m IH]; intros s Hm I; [lia|].
  destruct (all_done s) eqn:ED; [exists []; split; [constructor|exact ED]|].
  destruct (conc_progress p k lo hi A0 n s now 0 W TW TN I ED) as (tid & s' & HS).
  pose proof (cstep_measure _ _ _ _ _ HS) as HM.
  destruct (IH s' ltac:(lia) (inv_step p k lo hi A0 n s s' tid now 0 W TW TN I HS)) as (sched & HF & HD).
  exists ((tid, now, 0) :: sched). split; [constructor; [exact TN|exact HF]|].
  cbn [crun]. rewrite HS. exact HD.
Qed.

(* for every workload there is a complete schedule inside the window (so the hypotheses of
   conc_exact are satisfiable for every workload, and the lock discipline cannot deadlock) *)
Lemma conc_can_finish p k lo hi e bursts : wf_params p -> cell_ok p k hi e ->
  hi - lo < nanos_per_sec -> lo <= hi ->
  exists sched, Forall (fun l => lo <= label_now l <= hi) sched /\
                all_done (crun p k (cinit e bursts) sched) = true.
Proof.
  intros W CO TW LH.
  apply (conc_can_finish_from p k lo hi (avail p k e) (list_sum bursts) lo W TW ltac:(lia) _ _ (Nat.lt_succ_diag_r _)
           (inv_init p k hi e bursts CO)).
Qed.
