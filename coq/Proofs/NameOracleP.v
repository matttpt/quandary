(* (1) The executable text oracle [spec_of_text] (tokenize, split at the dots, RFC 1035 limits)
   IS the declarative specification [text_denotes /\ wf_name] on ASCII text;
   (2) text with a non-ASCII character is rejected by FromStr (never accepted, never a panic). *)
From QV Require Import Base.ListX Model.NameWire Model.DecU16 Model.NameText Spec.NameWireS Spec.NameRepr Spec.NameTextS
  Proofs.NameWireP Proofs.NameLabelsP Proofs.NameTextP Model.ZfStd.

Local Open Scope N_scope.

Lemma list_eqb_N_spec a : forall b, list_eqb_N a b = true <-> a = b.
Proof.
  induction a as [|x a IH]; intros [|y b]; cbn; try (split; [discriminate|congruence]); [tauto|].
  rewrite andb_true_iff, N.eqb_eq, IH. split; [intros [-> ->]; reflexivity|intros [= -> ->]; auto].
Qed.

Lemma wf_labelb_spec l : wf_labelb l = true <-> wf_label l.
Proof.
  unfold wf_labelb, wf_label. rewrite !andb_true_iff, wf_bytesb_spec, Nat.leb_le, Nat.leb_le. tauto.
Qed.

Lemma wf_nameb_spec ls : wf_nameb ls = true <-> wf_name ls.
Proof.
  unfold wf_nameb, wf_name. rewrite andb_true_iff, Nat.leb_le, forallb_forall, Forall_forall.
  split; intros [H1 H2]; (split; [|exact H2]); intros l Hl; apply wf_labelb_spec; apply H1; exact Hl.
Qed.

Lemma ascii_forallb s : forallb (fun c => c <? 128) s = true <-> is_ascii_text s.
Proof.
  unfold is_ascii_text. rewrite forallb_forall, Forall_forall.
  split; intros H c Hc; apply N.ltb_lt; apply H; exact Hc.
Qed.

(* splitting at the dots inverts "every label followed by a dot" *)
Lemma split_labels_sound ts : forall cur ls, split_labels ts cur = Some ls ->
  (map TOct cur ++ ts = flat_map label_toks ls)%list.
Proof.
  induction ts as [|t r IH]; intros cur ls H; cbn [split_labels] in H.
  - destruct cur; [|discriminate]. inversion H; subst. reflexivity.
  - destruct t as [v|].
    + apply IH in H. rewrite map_app, <- app_assoc in H. exact H.
    + destruct (split_labels r []) as [ls'|] eqn:E; [|discriminate]. cbn in H. inversion H; subst.
      apply IH in E. cbn [map app] in E. cbn [flat_map]. unfold label_toks at 1. rewrite <- app_assoc.
      cbn [app]. rewrite E. reflexivity.
Qed.

Lemma split_labels_octets (l : list N) : forall r cur,
  split_labels (map TOct l ++ r) cur = split_labels r (cur ++ l).
Proof.
  induction l as [|v l IH]; intros r cur; cbn [map app].
  - rewrite app_nil_r. reflexivity.
  - cbn [split_labels]. rewrite IH, <- app_assoc. reflexivity.
Qed.

Lemma split_labels_complete (ls : list label) : split_labels (flat_map label_toks ls) [] = Some ls.
Proof.
  induction ls as [|l ls IH]; [reflexivity|]. cbn [flat_map]. unfold label_toks at 1.
  rewrite <- app_assoc, split_labels_octets. cbn [app split_labels]. rewrite IH. reflexivity.
Qed.

Lemma dot_not_labels (ls : list label) : ls <> [] -> Forall wf_label ls ->
  tokens [46] (flat_map label_toks ls) -> False.
Proof.
  intros Hne Hwf Htok. apply tokens_dot_inv in Htok. destruct ls as [|l ls']; [congruence|].
  inversion Hwf as [|? ? [Hl _] _]; subst. cbn [flat_map] in Htok. unfold label_toks in Htok.
  destruct l as [|x l]; [cbn in Hl; lia|]. cbn in Htok. destruct l; discriminate.
Qed.

Theorem spec_of_text_iff s ls :
  spec_of_text s = Some ls <-> is_ascii_text s /\ text_denotes s ls /\ wf_name ls.
Proof.
  unfold spec_of_text. split.
  - destruct (list_eqb_N s [46]) eqn:Edot.
    + apply list_eqb_N_spec in Edot. subst s. intros [= <-]. split; [repeat constructor|].
      split; [left; auto|]. split; [constructor|cbn; lia].
    + destruct (forallb (fun c => c <? 128) s) eqn:Easc; [|discriminate]. apply ascii_forallb in Easc.
      destruct (tokenize s) as [ts|] eqn:Et; [|discriminate].
      destruct (split_labels ts []) as [ls0|] eqn:Es; [|discriminate].
      destruct (negb (is_nil_l ls0) && wf_nameb ls0) eqn:Ew; [|discriminate]. intros [= <-].
      apply andb_true_iff in Ew. destruct Ew as [Hne Hwf]. apply wf_nameb_spec in Hwf.
      split; [exact Easc|]. split; [|exact Hwf]. right. split; [intros ->; discriminate|].
      apply split_labels_sound in Es. cbn [map app] in Es. subst ts.
      apply (tokenize_tokens (length s)); [lia|exact Et].
  - intros (Hasc & [[-> ->]|[Hne Htok]] & Hwf); [reflexivity|].
    destruct (list_eqb_N s [46]) eqn:Edot.
    + exfalso. apply list_eqb_N_spec in Edot. subst s. destruct Hwf as [Hwf _].
      exact (dot_not_labels ls Hne Hwf Htok).
    + apply ascii_forallb in Hasc. rewrite Hasc. rewrite (tokens_tokenize _ _ Htok), split_labels_complete.
      apply wf_nameb_spec in Hwf. rewrite Hwf. destruct ls; [congruence|reflexivity].
Qed.

Theorem name_from_str_oracle s n : is_ascii_text s ->
  (name_from_str s = Ok n <-> exists ls, spec_of_text s = Some ls /\ n = name_of ls).
Proof.
  intros Hasc. rewrite (name_from_str_iff s n Hasc). split.
  - intros (ls & Hd & Hw & ->). exists ls. split; [apply spec_of_text_iff; auto|reflexivity].
  - intros (ls & Hs & ->). apply spec_of_text_iff in Hs. destruct Hs as (_ & Hd & Hw). exists ls. auto.
Qed.

Lemma spec_of_text_ascii s ls : spec_of_text s = Some ls -> is_ascii_text s.
Proof. intros H. apply spec_of_text_iff in H. apply H. Qed.

Definition high (c : N) : Prop := 128 <= c.

(* in valid UTF-8 an octet >= 128 is never alone: a lead octet is followed by a continuation octet *)
Lemma utf8_high_pair a r : utf8_valid (a :: r) = true -> high a -> exists c1 r', r = c1 :: r' /\ high c1.
Proof.
  unfold high. intros H Ha. cbn [utf8_valid] in H.
  assert (E : (a <? 128) = false) by (apply N.ltb_ge; exact Ha). rewrite E in H.
  unfold inr_, cont in H.
  destruct ((194 <=? a) && (a <=? 223)).
  { destruct r as [|c1 r']; [discriminate|]. apply andb_true_iff in H. destruct H as [H _].
    unfold inr_ in H. apply andb_true_iff in H. destruct H as [H _]. apply N.leb_le in H. eauto. }
  destruct ((224 <=? a) && (a <=? 239)).
  { destruct r as [|c1 [|c2 r']]; try discriminate. apply andb_true_iff in H. destruct H as [H _].
    apply andb_true_iff in H. destruct H as [H _].
    exists c1, (c2 :: r'). split; [reflexivity|].
    destruct (a =? 224); [|destruct (a =? 237)]; unfold inr_ in H; apply andb_true_iff in H; destruct H as [H _];
      apply N.leb_le in H; lia. }
  destruct ((240 <=? a) && (a <=? 244)); [|discriminate].
  destruct r as [|c1 [|c2 [|c3 r']]]; try discriminate. apply andb_true_iff in H. destruct H as [H _].
  apply andb_true_iff in H. destruct H as [H _]. apply andb_true_iff in H. destruct H as [H _].
  exists c1, (c2 :: c3 :: r'). split; [reflexivity|].
  destruct (a =? 240); [|destruct (a =? 244)]; unfold inr_ in H; apply andb_true_iff in H; destruct H as [H _];
    apply N.leb_le in H; lia.
Qed.

Lemma past_ascii_octet a r : a < 128 -> utf8_valid (a :: r) = true /\ Exists high (a :: r) ->
  utf8_valid r = true /\ Exists high r.
Proof.
  intros Ha [Hu Hex]. cbn [utf8_valid] in Hu. rewrite (proj2 (N.ltb_lt _ _) Ha) in Hu. split; [exact Hu|].
  inversion Hex as [? ? Hh|]; subst; [unfold high in Hh; lia|assumption].
Qed.

Lemma loop_high_head fuel c r b : high c -> exists e, from_str_loop (S fuel) (c :: r) b = Err e.
Proof.
  unfold high. intros Hc. cbn [from_str_loop].
  destruct (N.eqb_spec c 92); [lia|]. destruct (N.eqb_spec c 46); [lia|].
  destruct (N.leb_spec 128 c); [eauto|lia].
Qed.

Lemma is_digit_low c : is_digitb c = true -> c < 128.
Proof. unfold is_digitb. rewrite andb_true_iff, !N.leb_le. lia. Qed.

(* What the loop is left with after one token of a valid UTF-8 text with a non-ASCII octet: such a text
   again, or, when an escape swallowed the lead octet of a multi-octet character, its continuation octet
   in front. *)
Definition doomed (s : bytes) : Prop :=
  (utf8_valid s = true /\ Exists high s) \/ (exists c r, s = c :: r /\ high c).

Lemma lex1_doomed c r t r' : lex1 (c :: r) = Some (t, r') -> c < 128 ->
  utf8_valid (c :: r) = true /\ Exists high (c :: r) -> doomed r'.
Proof.
  intros L Hc H. apply (past_ascii_octet _ _ Hc) in H. revert L. unfold lex1.
  destruct (c =? 92); [|destruct (c =? 46); intros [= <- <-]; left; exact H].
  destruct r as [|a r1]; [discriminate|]. destruct (is_digitb a) eqn:Ea.
  - destruct r1 as [|b [|d r3]]; try discriminate. destruct (is_digitb b && is_digitb d && _) eqn:E; [|discriminate].
    apply andb_true_iff in E as [E _]. apply andb_true_iff in E as [Eb Ed].
    intros [= <- <-]. left. apply is_digit_low in Ea, Eb, Ed.
    apply (past_ascii_octet d), (past_ascii_octet b), (past_ascii_octet a); assumption.
  - intros [= <- <-]. destruct (N.lt_ge_cases a 128) as [La|Ha]; [left; apply (past_ascii_octet a); assumption|].
    right. destruct H as [Hu _]. destruct (utf8_high_pair a r1 Hu Ha) as (c1 & r2 & -> & Hc1). eauto.
Qed.

Lemma loop_rejects_high fuel : forall rem b st, brepr b st -> ast_ok st -> (length rem < fuel)%nat ->
  doomed rem -> exists e, from_str_loop fuel rem b = Err e.
Proof.
  induction fuel as [|f IH]; intros rem b st Hb Hok Hf Hrem; [lia|].
  destruct rem as [|c r]; [destruct Hrem as [[_ H]|(? & ? & H & _)]; [inversion H|discriminate]|].
  destruct (N.lt_ge_cases c 128) as [Hc|Hc]; [|apply loop_high_head; exact Hc].
  destruct Hrem as [H|(c' & r0 & [= <- <-] & Hh)]; [|unfold high in Hh; lia].
  rewrite (loop_lex1 _ _ _ _ Hc). destruct (lex1 (c :: r)) as [[t r']|] eqn:L; [|eauto].
  pose proof (feed1_step b st t Hb Hok) as F.
  destruct (astep st t) as [st'|]; [destruct F as (b' & -> & Hb' & Hok')|destruct F as (e & ->)]; cbn [bind]; [|eauto].
  apply (IH r' b' st' Hb' Hok'); [|exact (lex1_doomed _ _ _ _ L Hc H)].
  apply lex1_length in L. cbn [length] in *. lia.
Qed.

(* a Rust &str (valid UTF-8) with a non-ASCII character is never accepted and never panics *)
Theorem name_from_str_rejects_non_ascii s :
  utf8_valid s = true -> ~ is_ascii_text s -> exists e, name_from_str s = Err e.
Proof.
  intros Hu Hna.
  assert (Hex : Exists high s).
  { unfold is_ascii_text in Hna. clear Hu. induction s as [|c r IHr].
    - exfalso. apply Hna. constructor.
    - destruct (N.lt_ge_cases c 128) as [Hc|Hc]; [|left; exact Hc].
      right. apply IHr. intros Hr. apply Hna. constructor; assumption. }
  unfold name_from_str. destruct s as [|c r]; [eauto|].
  destruct ((c =? 46) && is_nil r) eqn:Eroot.
  - exfalso. apply andb_true_iff in Eroot. destruct Eroot as [Ec Er]. apply N.eqb_eq in Ec. subst c.
    destruct r; [|discriminate]. inversion Hex as [? ? Hh|? ? H1]; subst; [unfold high in Hh; lia|inversion H1].
  - destruct builder_new_repr as [Hb0 Hok0].
    apply (loop_rejects_high _ _ builder_new ([], []) Hb0 Hok0); [lia|left; auto].
Qed.
