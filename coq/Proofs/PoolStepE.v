(* Preservation of [Inv]: shut_down (group, pool), await_shutdown, spurious wake-ups, timers. *)
From Coq Require Import Lia Permutation.
From QV Require Import Model.Pool Proofs.PoolLemmas Proofs.PoolInv.

Lemma psd_wakes l (L := notify_all on_avail (notify_all on_task l)) :
  cnt on_task L = 0 /\ cnt on_avail L = 0.
Proof. unfold L; rewrite !sumf_na; split; apply sumf_all_zero; intros [] _; reflexivity. Qed.

Lemma gsd_wakes l (L := notify_all on_sd (notify_all on_avail (notify_all on_task l))) :
  (cnt on_task L = 0 /\ cnt on_avail L = 0) /\ cnt is_rwait L = 0 /\ cnt is_awwait L = 0.
Proof. unfold L; rewrite !sumf_na; repeat split; apply sumf_all_zero; intros [] _; reflexivity. Qed.

Lemma inv_sdg s i s' : Inv s -> step true s (LSdG i) = Some s' -> Inv s'.
Proof.
  intros I H. simpl in H.
  destruct (glock s) eqn:Egl; [discriminate|].
  destruct (nth_error (thr s) i) as [[]|] eqn:E; try discriminate.
  destruct (reg s) eqn:Ereg; inversion H; subst s'; clear H.
  - (* the pool is still registered: keep the group lock for its shutdown. i_glock, i_reg,
       i_gsd_reg move with the fields; i_gsd_w is off while this thread is at GHold; i_awret
       now has [gsd] in its conclusion *)
    eapply (inv_set I E); [reflexivity|]. clear - Egl Ereg. intros R I.
    destruct s; simpl in *; subst. inv_clauses I.
  - (* the pool was removed before: i_gsd_w is on from now, by [Z]; i_gsd_reg, i_awret as above *)
    pose proof (sd_wakes (thr s)) as Z.
    eapply (inv_move _ _ _ _ _ [] (inv_notify_all _ on_sd I) (nth_na_other on_sd _ _ _ E eq_refl));
      [reflexivity|].
    intros R HR I1. simpl in HR. rewrite !HR in Z. clear - Egl Ereg Z I1.
    destruct s; simpl in *; subst. inv_clauses I1.
Qed.

Lemma inv_sdp s i s' : Inv s -> step true s (LSdP i) = Some s' -> Inv s'.
Proof.
  intros I H. simpl in H.
  destruct (nth_error (thr s) i) as [[]|] eqn:E; try discriminate.
  inversion H; subst s'; clear H.
  (* i_psd_w and i_gsd_w are on from now, by [Z]; i_glock, i_reg with the fields ([GHold] shows the
     lock was held); i_cnt_eq is off *)
  pose proof (gsd_wakes (thr s)) as Z. cbv zeta in Z.
  pose proof (nth_na_other on_sd _ _ _
    (nth_na_other on_avail _ _ _ (nth_na_other on_task _ _ _ E eq_refl) eq_refl) eq_refl) as E'.
  eapply (inv_move _ _ _ _ _ []
    (inv_notify_all _ on_sd (inv_notify_all _ on_avail (inv_notify_all _ on_task I))) E'); [reflexivity|].
  intros R HR I1. simpl in HR. rewrite !HR in Z. clear - Z I1.
  destruct s; simpl in *. inv_clauses I1.
Qed.

Lemma inv_psd1 s i s' : Inv s -> step true s (LPsd1 i) = Some s' -> Inv s'.
Proof.
  intros I H. simpl in H.
  destruct (glock s) eqn:Egl; [discriminate|].
  destruct (nth_error (thr s) i) as [[]|] eqn:E; try discriminate.
  inversion H; subst s'; clear H.
  (* i_glock, i_reg, i_gsd_reg move with the fields *)
  eapply (inv_set I E); [reflexivity|]. clear - Egl. intros R I.
  destruct s; simpl in *; subst. inv_clauses I.
Qed.

Lemma inv_psd2 s i s' : Inv s -> step true s (LPsd2 i) = Some s' -> Inv s'.
Proof.
  intros I H. simpl in H.
  destruct (nth_error (thr s) i) as [[]|] eqn:E; try discriminate.
  inversion H; subst s'; clear H.
  (* as in [inv_sdp], without shutdown_wakeup: i_psd_w by [Z], i_glock, i_reg, i_cnt_eq *)
  pose proof (psd_wakes (thr s)) as Z. cbv zeta in Z.
  pose proof (nth_na_other on_avail _ _ _ (nth_na_other on_task _ _ _ E eq_refl) eq_refl) as E'.
  eapply (inv_move _ _ _ _ _ [] (inv_notify_all _ on_avail (inv_notify_all _ on_task I)) E'); [reflexivity|].
  intros R HR I1. simpl in HR. rewrite !HR in Z. clear - Z I1.
  destruct s; simpl in *. inv_clauses I1.
Qed.

Lemma inv_await s i o s' : Inv s -> step true s (LAwait i o) = Some s' -> Inv s'.
Proof.
  intros I H. simpl in H.
  destruct (glock s); [discriminate|].
  destruct (nth_error (thr s) i) as [p|] eqn:E; [|discriminate].
  destruct s as [tc gs ? ? ? ? ? th ? ? ? ? ?]; simpl in *.
  (* ARet: i_awret, by the condition just evaluated ([Eg]). AWaitO: i_gsd_w, a new waiter on
     shutdown_wakeup, allowed because the condition is false *)
  destruct p; try discriminate;
    (destruct (gs && (tc =? 0)) eqn:Eg; destruct o; try discriminate; inversion H; subst s'; clear H;
     (eapply (inv_set I E); [reflexivity|]); clear I E; intros R I; inv_clauses I).
Qed.

Lemma inv_spurious s i s' : Inv s -> step true s (LSpurious i) = Some s' -> Inv s'.
Proof.
  intros I H. simpl in H.
  destruct (nth_error (thr s) i) as [p|] eqn:E; [|discriminate].
  destruct (on_task p || on_avail p || on_sd p); inversion H.
  exact (inv_relax_pc _ _ _ _ I E (relax_wake p)).
Qed.

Lemma inv_timer s i s' : Inv s -> step true s (LTimer i) = Some s' -> Inv s'.
Proof.
  intros I H. simpl in H.
  destruct (nth_error (thr s) i) as [p|] eqn:E; [|discriminate].
  destruct p as [| | | | |[]|[] []| | | | | | | | | | | | | | |]; try discriminate;
    inversion H; apply (inv_relax_pc _ _ _ _ I E); repeat split; simpl; lia.
Qed.
