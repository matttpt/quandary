(* C23, tokens: escapes, quoted and unquoted <character-string>s, decimal integers.
   For every octet string and every legal escaping choice the parser gives the string back. *)
From QV Require Import Base.ListX Model.ZfReader Model.ZfParser Proofs.ZfReaderP Proofs.ZfStdP Proofs.ZfRunP
  Spec.ZfRenderS.

Local Open Scope N_scope.

(* \c *)
Lemma escape_char c b : is_dig c = false -> runs anyt parse_escape [c] b b c.
Proof.
  intros Hc. unfold parse_escape. apply runs_getpos. intros p.
  apply runs_app_nil. eapply runs_bind; [apply read_octet_runs|intros; exact I|].
  cbv beta iota. change (is_digit c) with (is_dig c). rewrite Hc. apply runs_ret.
Qed.

Lemma read2_runs x y b : x <> 10 -> y <> 10 -> runs anyt (lift read2) [x; y] b b (Some (x, y)).
Proof.
  intros Hx Hy r t E P W _. simpl in E. unfold lift, read2. rewrite E.
  eexists. split; [reflexivity|]. unfold post. cbn [r_rest r_paren r_pos p_line r_fuel].
  rewrite !count_nl_cons, count_nl_nil. apply N.eqb_neq in Hx, Hy. rewrite Hx, Hy. repeat split; auto; lia.
Qed.

(* \DDD: the three digits of c < 256 carry its value *)
Lemma escape_dec c b : c < 256 -> runs anyt parse_escape (dec3 c) b b c.
Proof.
  intros Hc. unfold dec3. set (x := c / 100). set (y := (c / 10) mod 10). set (z := c mod 10).
  assert (Hx : x < 10) by (apply N.div_lt_upper_bound; lia).
  assert (Hy : y < 10) by (apply N.mod_lt; lia). assert (Hz : z < 10) by (apply N.mod_lt; lia).
  assert (Hv : 100 * x + 10 * y + z = c).
  { unfold x, y, z. replace (c / 100) with (c / 10 / 10) by (rewrite N.div_div by lia; reflexivity).
    pose proof (N.div_mod c 10). pose proof (N.div_mod (c / 10) 10). lia. }
  assert (Hdig : forall d, d < 10 -> is_digit (48 + d) = true)
    by (intros d Hd; apply andb_true_iff; split; apply N.leb_le; lia).
  unfold parse_escape. apply runs_getpos. intros p.
  eapply (runs_bind _ _ _ _ [48 + x]); [apply read_octet_runs|intros; exact I|].
  cbv beta iota. rewrite (Hdig x Hx). unfold parse_decimal_escape.
  apply runs_app_nil. eapply runs_bind; [apply read2_runs; lia|intros; exact I|].
  cbv beta iota. rewrite (Hdig y Hy), (Hdig z Hz). cbn [andb negb].
  replace (100 * (48 + x - 48) + 10 * (48 + y - 48) + (48 + z - 48)) with c by lia.
  rewrite (proj2 (N.ltb_ge 255 c)) by lia. apply runs_ret.
Qed.

(* after the backslash *)
Theorem escape_runs k e c b : e <> ERaw -> esc_ok k e c = true ->
  runs anyt parse_escape (tl (render_octet e c)) b b c.
Proof.
  intros He Hok. unfold esc_ok in Hok. apply andb_true_iff in Hok. destruct Hok as [Hc Hok]. apply N.ltb_lt in Hc.
  destruct e; [congruence| |]; cbn [render_octet tl].
  - apply escape_char. apply negb_true_iff. exact Hok.
  - apply escape_dec. exact Hc.
Qed.

Lemma raw_unq_plain c : raw_ok KUnquoted c = true -> plainb c = true /\ c <> 92.
Proof.
  unfold raw_ok, special. intros H. apply negb_true_iff in H.
  apply orb_false_iff in H; destruct H as [H H92]. apply orb_false_iff in H; destruct H as [H H59].
  apply orb_false_iff in H; destruct H as [H H41]. apply orb_false_iff in H; destruct H as [H H40].
  apply orb_false_iff in H; destruct H as [H H13]. apply orb_false_iff in H; destruct H as [Hb H10].
  unfold plainb, ends_field. change (is_whitespace c) with (is_blank c).
  rewrite Hb, H40, H41, H59, H10, H13. split; [reflexivity|]. apply N.eqb_neq. exact H92.
Qed.

Lemma raw_label_plain c : raw_ok KLabel c = true -> plainb c = true /\ c <> 92 /\ c <> 46.
Proof.
  unfold raw_ok. intros H. apply negb_true_iff, orb_false_iff in H. destruct H as [H1 H2].
  assert (G : raw_ok KUnquoted c = true) by (unfold raw_ok; rewrite H1; reflexivity).
  apply raw_unq_plain in G. apply N.eqb_neq in H2. tauto.
Qed.

Lemma raw_quoted c : raw_ok KQuoted c = true -> c <> 34 /\ c <> 92.
Proof.
  unfold raw_ok. intros H. apply negb_true_iff, orb_false_iff in H. destruct H as [H1 H2].
  apply N.eqb_neq in H1, H2. tauto.
Qed.

Lemma plain92 : plainb 92 = true. Proof. reflexivity. Qed.

Lemma esc_ok_raw k c : esc_ok k ERaw c = true -> raw_ok k c = true.
Proof. unfold esc_ok. intros H. apply andb_true_iff in H. tauto. Qed.

(* an octet is written raw, or as a backslash and what parse_escape reads *)
Lemma esc_ok_cases k e c : esc_ok k e c = true ->
  (e = ERaw /\ raw_ok k c = true) \/
  (exists x, render_octet e c = 92 :: x /\ forall b, runs anyt parse_escape x b b c).
Proof.
  intros H. destruct e; [left; split; [reflexivity|exact (esc_ok_raw k c H)]| |];
    (right; eexists; split; [reflexivity|]; intros b).
  - apply (escape_runs k EChar c b); [discriminate|exact H].
  - apply (escape_runs k EDec c b); [discriminate|exact H].
Qed.

(* One rendered octet in a loop that reads strings or labels; inside quotes the reader is read_octet, else
   read_field_octet.  F is the loop body after the read, G what it does with the octet denoted: a backslash
   sends it through parse_escape, an octet that may stand raw is taken as it is. *)
Lemma octet_step {B} (k : tokctx) (T : bytes -> Prop) n (F : option N -> M B) (G : N -> M B) e c rest b b' v :
  esc_ok k e c = true ->
  (forall r, F (Some 92) r = bindM parse_escape G r) ->
  (forall o r, raw_ok k o = true -> F (Some o) r = G o r) ->
  runsN n T (G c) rest b b' v ->
  runsN (S n) T (bindM (match k with KQuoted => lift read_octet | _ => read_field_octet end) F)
        (render_octet e c ++ rest) b b' v.
Proof.
  intros Hc H92 Hraw HG.
  assert (Hrd : forall o, k = KQuoted \/ plainb o = true ->
                runs anyt (match k with KQuoted => lift read_octet | _ => read_field_octet end) [o] b b (Some o)).
  { intros o [->|Ho]; [apply read_octet_runs|]. destruct k; [apply read_octet_runs|apply rfo_plain, Ho..]. }
  destruct (esc_ok_cases _ _ _ Hc) as [[-> Hr]|(x & -> & Hx)].
  - eapply runsN_bind_dec; [apply Hrd|discriminate|intros; exact I|eapply runsN_eq; [intros r; apply Hraw, Hr|exact HG]].
    destruct k; [left; reflexivity|right; apply (raw_unq_plain c Hr)|right; apply (raw_label_plain c Hr)].
  - eapply (runsN_bind_dec _ _ _ _ _ [92]); [apply Hrd; right; exact plain92|discriminate|intros; exact I|].
    eapply runsN_eq; [exact H92|]. eapply runsN_bind; [apply Hx|intros; exact I|exact HG].
Qed.

Lemma cs_push_ok s o : (length s < 255)%nat -> cs_push s o = Some (s ++ [o]).
Proof. intros H. unfold cs_push. destruct (255 <=? length s)%nat eqn:E; [apply Nat.leb_le in E; lia|reflexivity]. Qed.

Lemma pucs_runs : forall s es acc fuel start b, octets_ok KUnquoted es s = true ->
  (length acc + length s <= 255)%nat ->
  runsN fuel fend (pucs_loop fuel start acc) (render_octets es s) b b (acc ++ s).
Proof.
  induction s as [|c s IH]; intros es acc fuel start b Hok Hlen; (destruct fuel as [|fuel]; [apply runsN_0|]).
  - cbn [render_octets pucs_loop]. rewrite app_nil_r.
    change (@nil N) with (@nil N ++ []). eapply runsN_bind; [apply rfo_end|intros t Ht; exact Ht|].
    cbv beta iota. apply runs_N, runs_ret.
  - cbn [octets_ok] in Hok. apply andb_true_iff in Hok. destruct Hok as [Hc Hs]. cbn [length] in Hlen.
    assert (Hnext : runsN fuel fend (pucs_loop fuel start (acc ++ [c])) (render_octets (tl es) s) b b (acc ++ c :: s)).
    { replace (acc ++ c :: s) with ((acc ++ [c]) ++ s) by (rewrite <- app_assoc; reflexivity).
      apply IH; [exact Hs|rewrite app_length; simpl; lia]. }
    cbn [render_octets pucs_loop].
    eapply (octet_step KUnquoted); [exact Hc|intros r; reflexivity| |cbv beta; rewrite cs_push_ok by lia; exact Hnext].
    intros o r Ho. apply raw_unq_plain in Ho. destruct Ho as [_ H92]. apply N.eqb_neq in H92. cbv beta iota. rewrite H92. reflexivity.
Qed.

Lemma pqcs_runs : forall s es acc fuel start b, octets_ok KQuoted es s = true ->
  (length acc + length s <= 255)%nat ->
  runsN fuel anyt (pqcs_loop fuel start acc) (render_octets es s ++ [34]) b b (acc ++ s).
Proof.
  induction s as [|c s IH]; intros es acc fuel start b Hok Hlen; (destruct fuel as [|fuel]; [apply runsN_0|]).
  - cbn [render_octets pqcs_loop app]. rewrite app_nil_r. apply runsN_getpos. intros p.
    change [34] with ([34] ++ []). eapply runsN_bind; [apply read_octet_runs|intros; exact I|].
    cbv beta iota. change (34 =? 92) with false. change (34 =? 34) with true. cbv iota. apply runs_N, runs_ret.
  - cbn [octets_ok] in Hok. apply andb_true_iff in Hok. destruct Hok as [Hc Hs]. cbn [length] in Hlen.
    assert (Hnext : runsN fuel anyt (pqcs_loop fuel start (acc ++ [c])) (render_octets (tl es) s ++ [34]) b b (acc ++ c :: s)).
    { replace (acc ++ c :: s) with ((acc ++ [c]) ++ s) by (rewrite <- app_assoc; reflexivity).
      apply IH; [exact Hs|rewrite app_length; simpl; lia]. }
    cbn [render_octets pqcs_loop]. apply runsN_getpos. intros p. rewrite <- app_assoc.
    eapply (octet_step KQuoted); [exact Hc|intros r; reflexivity| |cbv beta; rewrite cs_push_ok by lia; exact Hnext].
    intros o r Ho. apply raw_quoted in Ho. destruct Ho as [H34 H92]. apply N.eqb_neq in H92, H34. cbv beta iota. rewrite H92, H34. reflexivity.
Qed.

(* what may follow the token: anything after a closing quote, a field end otherwise *)
Definition ftail (closed : bool) (t : bytes) : Prop := if closed then True else fend t.

(* the same function as [quoted] of the specification *)
Definition string_closed (sc : schoice) : bool := match sc with SQuoted _ => true | SUnquoted _ => false end.

(* an action that looks at the input before it chooses may be replaced by its choice *)
Lemma runs_on {A} (T : bytes -> Prop) (m m' : M A) s b b' v :
  (forall r t, r_rest r = s ++ t -> m r = m' r) -> runs T m' s b b' v -> runs T m s b b' v.
Proof. intros Hm H r t E P W Ht. rewrite (Hm r t E). apply H; assumption. Qed.

Lemma unquoted_head es s : negb (beq s []) = true -> negb (head_is 34 (render_octets es s)) = true ->
  exists x l, render_octets es s = x :: l /\ (x =? 34) = false.
Proof.
  destruct s as [|c s]; [discriminate|]. intros _ H. destruct (render_octets es (c :: s)) as [|x l] eqn:E.
  - cbn [render_octets] in E. destruct (hd EDec es); discriminate.
  - exists x, l. split; [reflexivity|]. apply negb_true_iff, H.
Qed.

Theorem string_runs first sc s b : string_ok first sc s = true ->
  runs (ftail (string_closed sc)) parse_character_string (render_string sc s) b b s.
Proof.
  unfold string_ok. intros H. apply andb_true_iff in H. destruct H as [Hlen H]. apply Nat.leb_le in Hlen.
  destruct sc as [es|es]; cbn [string_closed ftail render_string].
  - apply (runs_on _ _ parse_quoted_character_string).
    { intros r t E. unfold parse_character_string, peek_octet. rewrite E. reflexivity. }
    unfold parse_quoted_character_string. apply runs_getpos. intros p.
    eapply (runs_bind _ _ _ _ [34]); [apply read_octet_runs|intros; exact I|]. cbv beta.
    apply runs_get_fuel. intros n. apply (pqcs_runs s es [] n p b H). simpl. exact Hlen.
  - repeat (apply andb_true_iff in H; destruct H as [H ?]).
    destruct (unquoted_head es s) as (x & l & El & Hx); [assumption|assumption|].
    apply (runs_on _ _ parse_unquoted_character_string).
    { intros r t E. unfold parse_character_string, peek_octet. rewrite E, El. cbn [app hd_error]. rewrite Hx. reflexivity. }
    unfold parse_unquoted_character_string. apply runs_getpos. intros p.
    apply runs_get_fuel. intros n. apply (pucs_runs s es [] n p b H). simpl. exact Hlen.
Qed.

Definition dval (base : N) (ds : bytes) (acc : N) : N := fold_left (fun a c => a * base + (c - 48)) ds acc.

Lemma dval_app base a b acc : dval base (a ++ b) acc = dval base b (dval base a acc).
Proof. unfold dval. apply fold_left_app. Qed.

Lemma dval_ge base : 1 <= base -> forall ds acc, acc <= dval base ds acc.
Proof.
  intros Hb. induction ds as [|c ds IH]; intros acc; [simpl; lia|]. cbn [dval fold_left].
  eapply N.le_trans; [|apply IH]. nia.
Qed.

Definition digit_of (base c : N) : Prop := 48 <= c < 48 + base.

Lemma num_f_digits base : 1 <= base -> forall fuel n, Forall (digit_of base) (num_f base fuel n).
Proof.
  intros Hb. induction fuel as [|f IH]; intros n; [constructor|]. cbn [num_f]. apply Forall_app. split.
  - destruct (n <? base); [constructor|apply IH].
  - constructor; [|constructor]. unfold digit_of. assert (Hm : n mod base < base) by (apply N.mod_lt; lia). generalize dependent (n mod base). intros m Hm. lia.
Qed.

Lemma num_f_val base : 2 <= base -> forall fuel n, n < 2 ^ N.of_nat fuel -> dval base (num_f base fuel n) 0 = n.
Proof.
  intros Hb. induction fuel as [|f IH]; intros n Hn.
  - simpl in Hn. assert (n = 0) by lia. subst. reflexivity.
  - cbn [num_f]. rewrite dval_app. cbn [dval fold_left]. fold (dval base).
    replace (48 + n mod base - 48) with (n mod base) by (generalize (n mod base); intros; lia).
    destruct (n <? base) eqn:E.
    + apply N.ltb_lt in E. cbn [dval fold_left]. rewrite N.mod_small by exact E. lia.
    + rewrite IH.
      * rewrite N.mul_comm. symmetry. apply N.div_mod. lia.
      * rewrite Nat2N.inj_succ, N.pow_succ_r' in Hn.
        apply N.div_lt_upper_bound; [lia|]. nia.
Qed.

Lemma num_f_length base : forall fuel n, (length (num_f base fuel n) <= fuel)%nat.
Proof.
  induction fuel as [|f IH]; intros n; [simpl; lia|]. cbn [num_f]. rewrite app_length. cbn [length].
  destruct (n <? base); [simpl; lia|]. specialize (IH (n / base)). lia.
Qed.

Lemma num_f_nonempty base f n : num_f base (S f) n <> [].
Proof. cbn [num_f]. destruct (n <? base); [discriminate|]. destruct (num_f base f (n / base)); discriminate. Qed.

Lemma log2_fuel n : n < 2 ^ N.of_nat (S (N.to_nat (N.log2 n))).
Proof.
  rewrite Nat2N.inj_succ, N2Nat.id. destruct (N.eq_dec n 0) as [->|Hn]; [reflexivity|].
  apply N.log2_spec. lia.
Qed.

Lemma num_val base n : 2 <= base -> dval base (num base n) 0 = n.
Proof. intros Hb. apply num_f_val; [exact Hb|apply log2_fuel]. Qed.

Lemma num_digits base n : 1 <= base -> Forall (digit_of base) (num base n).
Proof. intros Hb. apply num_f_digits. exact Hb. Qed.

Lemma num_nonempty base n : num base n <> []. Proof. apply num_f_nonempty. Qed.

Lemma num_length base n : n <= 4294967295 -> (length (num base n) <= 32)%nat.
Proof.
  intros Hn. unfold num. eapply Nat.le_trans; [apply num_f_length|].
  pose proof (N.log2_le_mono n 4294967295 Hn) as H. change (N.log2 4294967295) with 31 in H. lia.
Qed.

Lemma zeros_digits base z : 1 <= base -> Forall (digit_of base) (repeat 48 z).
Proof. intros Hb. induction z; simpl; constructor; auto. unfold digit_of. lia. Qed.

Lemma zeros_val base z acc : dval base (repeat 48 z) (acc * 0) = 0.
Proof. rewrite N.mul_0_r. induction z as [|z IH]; [reflexivity|]. cbn [repeat dval fold_left]. exact IH. Qed.

(* from_ascii_radix on decimal digits *)
Lemma uint_loop_dval max : forall ds acc, Forall (digit_of 10) ds -> dval 10 ds acc <= max ->
  uint_loop max ds acc = inl (dval 10 ds acc).
Proof.
  induction ds as [|c ds IH]; intros acc Hd Hm; [reflexivity|].
  inversion Hd as [|? ? Hc Hds]; subst. unfold digit_of in Hc.
  change (dval 10 (c :: ds) acc) with (dval 10 ds (acc * 10 + (c - 48))) in *. cbn [uint_loop].
  pose proof (dval_ge 10 ltac:(lia) ds (acc * 10 + (c - 48))) as Hge.
  unfold is_digit. rewrite !(proj2 (N.leb_le _ _)) by lia. cbn [andb]. rewrite !(proj2 (N.ltb_ge _ _)) by lia. apply IH; assumption.
Qed.

Lemma parse_uint_digits max ds : ds <> [] -> Forall (digit_of 10) ds -> parse_uint max ds = uint_loop max ds 0.
Proof.
  intros Hne Hd. destruct ds as [|c ds]; [congruence|]. inversion Hd as [|? ? Hc _]; subst. unfold digit_of in Hc.
  unfold parse_uint. assert (E43 : c =? 43 = false) by (apply N.eqb_neq; lia).
  assert (E45 : c =? 45 = false) by (apply N.eqb_neq; lia). rewrite E43, E45. destruct ds; reflexivity.
Qed.

Lemma parse_uint_plus max ds : ds <> [] -> parse_uint max (43 :: ds) = uint_loop max ds 0.
Proof. intros Hne. destruct ds as [|c ds]; [congruence|]. reflexivity. Qed.

Lemma uint_digits_val ic n : let ds := repeat 48 (i_zeros ic) ++ dec n in
  ds <> [] /\ Forall (digit_of 10) ds /\ dval 10 ds 0 = n.
Proof.
  intros ds. subst ds. split; [|split].
  - intros H. apply app_eq_nil in H. destruct H as [_ H]. exact (num_nonempty 10 n H).
  - apply Forall_app. split; [apply zeros_digits; lia|apply num_digits; lia].
  - rewrite dval_app. change 0 with (0 * 0) at 1. rewrite zeros_val. apply num_val. lia.
Qed.

(* integers: parse (render n) = n for every '+' / leading-zero choice *)
Theorem uint_roundtrip max ic n : uint_ok max ic n = true -> parse_uint max (render_uint ic n) = inl n.
Proof.
  unfold uint_ok. intros H. apply andb_true_iff in H. destruct H as [Hn _]. apply N.leb_le in Hn.
  destruct (uint_digits_val ic n) as (Hne & Hd & Hv). unfold render_uint.
  destruct (i_plus ic); cbn [app].
  - rewrite parse_uint_plus by exact Hne. rewrite uint_loop_dval; [rewrite Hv; reflexivity|exact Hd|rewrite Hv; exact Hn].
  - rewrite parse_uint_digits by assumption. rewrite uint_loop_dval; [rewrite Hv; reflexivity|exact Hd|rewrite Hv; exact Hn].
Qed.

Lemma digit_tokch base c : base <= 10 -> digit_of base c -> tokch c = true.
Proof.
  unfold digit_of. intros Hb Hc. apply (proj1 (forallb_forall tokch [48;49;50;51;52;53;54;55;56;57]) eq_refl).
  simpl. lia.
Qed.

Lemma digits_tokch base ds : base <= 10 -> Forall (digit_of base) ds -> forallb tokch ds = true.
Proof.
  intros Hb H. apply forallb_forall. rewrite Forall_forall in H. intros c Hc. eapply digit_tokch; eauto.
Qed.

Lemma render_uint_length max ic n : max <= 4294967295 -> uint_ok max ic n = true ->
  N.of_nat (length (render_uint ic n)) <= 60033.
Proof.
  unfold uint_ok. intros Hmax H. apply andb_true_iff in H. destruct H as [Hn Hz]. apply N.leb_le in Hn, Hz.
  unfold render_uint. rewrite !app_length, repeat_length, !Nat2N.inj_add.
  pose proof (num_length 10 n ltac:(lia)) as HL. fold (dec n) in HL. destruct (i_plus ic); simpl length; lia.
Qed.

Lemma uint_tok max ic n : max <= 4294967295 -> uint_ok max ic n = true ->
  forallb tokch (render_uint ic n) = true /\ N.of_nat (length (render_uint ic n)) <= 65536.
Proof.
  intros Hmax H. pose proof (render_uint_length max ic n Hmax H) as HL. split; [|lia].
  destruct (uint_digits_val ic n) as (_ & Hd & _). unfold render_uint.
  rewrite forallb_app. apply andb_true_iff. split; [destruct (i_plus ic); reflexivity|].
  eapply digits_tokch; [|exact Hd]. lia.
Qed.

Theorem uint_field_runs max k ic n b : max <= 4294967295 -> uint_ok max ic n = true ->
  runs fend (read_field (parse_uint max) k) (render_uint ic n) b b n.
Proof.
  intros Hmax Hok. destruct (uint_tok max ic n Hmax Hok) as [H1 H2].
  apply read_field_runs; [exact H1|exact H2|]. apply uint_roundtrip. exact Hok.
Qed.

Lemma push_path_ok {B} o p n start (K : bytes * N -> M B) r : n < 65536 ->
  bindM (push_path_octet o p n start) K r = K (o :: p, n + 1) r.
Proof.
  intros H. unfold push_path_octet. change INCLUDE_PATH_MAX with 65536.
  destruct (n <? 65536) eqn:E; [reflexivity|apply N.ltb_ge in E; lia].
Qed.

Lemma pqip_runs : forall s es acc n fuel start b, octets_ok KQuoted es s = true ->
  n + N.of_nat (length s) <= 65536 ->
  runsN fuel anyt (pqip_loop fuel start acc n) (render_octets es s ++ [34]) b b (rev acc ++ s).
Proof.
  induction s as [|c s IH]; intros es acc n fuel start b Hok Hlen; (destruct fuel as [|fuel]; [apply runsN_0|]).
  - cbn [render_octets pqip_loop app]. rewrite app_nil_r. apply runsN_getpos. intros p.
    change [34] with ([34] ++ []). eapply runsN_bind; [apply read_octet_runs|intros; exact I|].
    cbv beta iota. change (34 =? 92) with false. change (34 =? 34) with true. cbv iota. rewrite rev_fast_rev. apply runs_N, runs_ret.
  - cbn [octets_ok] in Hok. apply andb_true_iff in Hok. destruct Hok as [Hc Hs].
    cbn [length] in Hlen. rewrite Nat2N.inj_succ in Hlen.
    assert (Hnext : runsN fuel anyt (pqip_loop fuel start (c :: acc) (n + 1)) (render_octets (tl es) s ++ [34]) b b (rev acc ++ c :: s)).
    { replace (rev acc ++ c :: s) with (rev (c :: acc) ++ s) by (cbn [rev]; rewrite <- app_assoc; reflexivity).
      apply IH; [exact Hs|lia]. }
    cbn [render_octets pqip_loop]. apply runsN_getpos. intros p. rewrite <- app_assoc.
    eapply (octet_step KQuoted); [exact Hc|intros r; reflexivity| |].
    + intros o r Ho. apply raw_quoted in Ho. destruct Ho as [H34 H92]. apply N.eqb_neq in H92, H34. cbv beta iota. rewrite H92, H34. reflexivity.
    + eapply runsN_eq; [intros r; apply push_path_ok; lia|exact Hnext].
Qed.

Lemma puip_runs : forall s es acc n fuel start b, octets_ok KUnquoted es s = true ->
  n + N.of_nat (length s) <= 65536 ->
  runsN fuel fend (puip_loop fuel start acc n) (render_octets es s) b b (rev acc ++ s).
Proof.
  induction s as [|c s IH]; intros es acc n fuel start b Hok Hlen; (destruct fuel as [|fuel]; [apply runsN_0|]).
  - cbn [render_octets puip_loop]. rewrite app_nil_r.
    change (@nil N) with (@nil N ++ []). eapply runsN_bind; [apply rfo_end|intros t Ht; exact Ht|].
    cbv beta iota. rewrite rev_fast_rev. apply runs_N, runs_ret.
  - cbn [octets_ok] in Hok. apply andb_true_iff in Hok. destruct Hok as [Hc Hs].
    cbn [length] in Hlen. rewrite Nat2N.inj_succ in Hlen.
    assert (Hnext : runsN fuel fend (puip_loop fuel start (c :: acc) (n + 1)) (render_octets (tl es) s) b b (rev acc ++ c :: s)).
    { replace (rev acc ++ c :: s) with (rev (c :: acc) ++ s) by (cbn [rev]; rewrite <- app_assoc; reflexivity).
      apply IH; [exact Hs|lia]. }
    cbn [render_octets puip_loop]. eapply (octet_step KUnquoted); [exact Hc|intros r; reflexivity| |].
    + intros o r Ho. apply raw_unq_plain in Ho. destruct Ho as [_ H92]. apply N.eqb_neq in H92. cbv beta iota. rewrite H92. reflexivity.
    + eapply runsN_eq; [intros r; apply push_path_ok; lia|exact Hnext].
Qed.

Theorem path_runs pc path b : path_ok pc path = true ->
  runs (ftail (quoted pc)) parse_include_path (render_string pc path) b b path.
Proof.
  unfold path_ok. intros H. apply andb_true_iff in H. destruct H as [Hlen H]. apply N.leb_le in Hlen.
  destruct pc as [es|es]; cbn [quoted ftail render_string].
  - apply (runs_on _ _ (do start <- getpos; do _ <- lift read_octet; do fuel <- get_fuel; pqip_loop fuel start [] 0)).
    { intros r t E. unfold parse_include_path, peek_octet. rewrite E. reflexivity. }
    apply runs_getpos. intros p.
    eapply (runs_bind _ _ _ _ [34]); [apply read_octet_runs|intros; exact I|]. cbv beta.
    apply runs_get_fuel. intros n. apply (pqip_runs path es [] 0 n p b H). lia.
  - apply andb_true_iff in H. destruct H as [H Hq]. apply andb_true_iff in H. destruct H as [H Hne].
    destruct (unquoted_head es path Hne Hq) as (x & l & El & Hx).
    apply (runs_on _ _ (do start <- getpos; do fuel <- get_fuel; puip_loop fuel start [] 0)).
    { intros r t E. unfold parse_include_path, peek_octet. rewrite E, El. cbn [app hd_error]. rewrite Hx. reflexivity. }
    apply runs_getpos. intros p. apply runs_get_fuel. intros n. apply (puip_runs path es [] 0 n p b H). lia.
Qed.
