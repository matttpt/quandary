(* The digest encoding of RFC 8945 4.3 is injective on the covered fields (for equal lengths of
   the variable-length components that carry no length prefix). *)
From QV Require Import Base.ListX Model.TsigMsg Spec.Tsig8945S Spec.TsigRepr Proofs.TsigEncP.

Lemma app_inv_len {A} : forall (a a' b b' : list A), length a = length a' -> a ++ b = a' ++ b' -> a = a' /\ b = b'.
Proof.
  induction a as [|x a IH]; intros [|y a'] b b' L H; simpl in *; try discriminate.
  - split; [reflexivity|exact H].
  - inversion H; subst. inversion L as [L']. destruct (IH a' b b' L' H2) as [-> ->]. split; reflexivity.
Qed.

Lemma u16_app_inv a a' (b b' : bytes) : (a < 65536)%N -> (a' < 65536)%N ->
  u16 a ++ b = u16 a' ++ b' -> a = a' /\ b = b'.
Proof.
  intros Ha Ha' H. apply app_inv_len in H; [|rewrite !(be_enc_length 2); reflexivity].
  destruct H as [H1 H2]. split; [apply u16_inj; assumption|exact H2].
Qed.

Lemma u48_app_inv a a' (b b' : bytes) : (a < 281474976710656)%N -> (a' < 281474976710656)%N ->
  u48 a ++ b = u48 a' ++ b' -> a = a' /\ b = b'.
Proof.
  intros Ha Ha' H. apply app_inv_len in H; [|rewrite !(be_enc_length 6); reflexivity].
  destruct H as [H1 H2]. split; [apply u48_inj; assumption|exact H2].
Qed.

Lemma prior_mac_inv (pm pm' x x' : bytes) :
  (N.of_nat (length pm) < 65536)%N -> (N.of_nat (length pm') < 65536)%N ->
  comp_prior_mac pm ++ x = comp_prior_mac pm' ++ x' -> pm = pm' /\ x = x'.
Proof.
  intros L L' H. unfold comp_prior_mac in H. rewrite <- !app_assoc in H.
  apply u16_app_inv in H; try assumption. destruct H as [Hl H].
  apply app_inv_len in H; [exact H|]. apply Nat2N.inj. exact Hl.
Qed.

(* the covered fields, per mode (used in the statements of Props/C11.v, like same_mode below) *)
Definition covered_msg (m : smsg) (t : stsig) :=
  (t_orig_id t, m_flags m, m_qd m, m_an m, m_ns m, m_ar m, m_body m).
Definition covered_vars (t : stsig) :=
  (canon_wire (t_key t), canon_wire (t_alg t), t_time t, t_fudge t, t_error t, t_other t).
Definition covered_timers (t : stsig) := (t_time t, t_fudge t).

(* the message component: everything but the transmitted ID is determined *)
Lemma comp_message_inv m m' t t' (x x' : bytes) :
  wf_smsg m -> wf_smsg m' -> wf_stsig t -> wf_stsig t' -> length (m_body m) = length (m_body m') ->
  comp_message m (t_orig_id t) ++ x = comp_message m' (t_orig_id t') ++ x' ->
  covered_msg m t = covered_msg m' t' /\ x = x'.
Proof.
  intros [(F & Q & An & Ns & Ar) _] [(F' & Q' & An' & Ns' & Ar') _] (_ & _ & (_ & _ & Ho & _) & _) (_ & _ & (_ & _ & Ho' & _) & _) Lb H.
  unfold comp_message, smsg_wire in H. rewrite <- !app_assoc in H.
  apply u16_app_inv in H; try assumption. destruct H as [E0 H].
  apply u16_app_inv in H; try assumption. destruct H as [E1 H].
  apply u16_app_inv in H; try assumption. destruct H as [E2 H].
  apply u16_app_inv in H; try assumption. destruct H as [E3 H].
  apply u16_app_inv in H; try assumption. destruct H as [E4 H].
  apply u16_app_inv in H; try lia. destruct H as [E5 H].
  apply app_inv_len in H; [|exact Lb]. destruct H as [E6 E7].
  unfold covered_msg. split; [congruence|exact E7].
Qed.

Lemma comp_timers_inv t t' : wf_stsig t -> wf_stsig t' ->
  comp_timers t = comp_timers t' -> covered_timers t = covered_timers t'.
Proof.
  intros (_ & _ & (T & F & _) & _) (_ & _ & (T' & F' & _) & _) H. unfold comp_timers in H.
  apply u48_app_inv in H; try assumption. destruct H as [E1 H].
  rewrite <- (app_nil_r (u16 (t_fudge t))), <- (app_nil_r (u16 (t_fudge t'))) in H.
  apply u16_app_inv in H; try assumption. destruct H as [E2 _]. unfold covered_timers. congruence.
Qed.

Lemma comp_variables_inv t t' : wf_stsig t -> wf_stsig t' ->
  length (canon_wire (t_key t)) = length (canon_wire (t_key t')) ->
  length (canon_wire (t_alg t)) = length (canon_wire (t_alg t')) ->
  comp_variables t = comp_variables t' -> covered_vars t = covered_vars t'.
Proof.
  intros (_ & _ & (T & F & _ & E) & _ & _ & _ & Lo & _) (_ & _ & (T' & F' & _ & E') & _ & _ & _ & Lo' & _) LK LA H.
  unfold comp_variables in H.
  apply app_inv_len in H; [|exact LK]. destruct H as [E1 H].
  apply u16_app_inv in H; try lia. destruct H as [_ H].
  apply app_inv_len in H; [|reflexivity]. destruct H as [_ H].
  apply app_inv_len in H; [|exact LA]. destruct H as [E2 H].
  apply u48_app_inv in H; try assumption. destruct H as [E3 H].
  apply u16_app_inv in H; try assumption. destruct H as [E4 H].
  apply u16_app_inv in H; try assumption. destruct H as [E5 H].
  apply u16_app_inv in H; try assumption. destruct H as [_ E6].
  unfold covered_vars. congruence.
Qed.

Definition same_mode (d d' : dmode) : Prop :=
  match d, d' with
  | DRequest, DRequest | DResponse _, DResponse _ | DSubsequent _, DSubsequent _ => True
  | _, _ => False
  end.

Theorem digest_injective d d' m m' t t' :
  same_mode d d' -> wf_smsg m -> wf_smsg m' -> wf_stsig t -> wf_stsig t' ->
  (N.of_nat (length (dmode_mac d)) < 65536)%N -> (N.of_nat (length (dmode_mac d')) < 65536)%N ->
  length (m_body m) = length (m_body m') ->
  length (canon_wire (t_key t)) = length (canon_wire (t_key t')) ->
  length (canon_wire (t_alg t)) = length (canon_wire (t_alg t')) ->
  spec_digest d m t = spec_digest d' m' t' ->
  dmode_mac d = dmode_mac d' /\ covered_msg m t = covered_msg m' t' /\
  match d with
  | DSubsequent _ => covered_timers t = covered_timers t'
  | _ => covered_vars t = covered_vars t'
  end.
Proof.
  intros S Wm Wm' Wt Wt' Ld Ld' Lb LK LA H.
  destruct d as [|rm|pm]; destruct d' as [|rm'|pm']; try contradiction; cbn [spec_digest dmode_mac] in *.
  - destruct (comp_message_inv m m' t t' _ _ Wm Wm' Wt Wt' Lb H) as (Em & Hv). auto using comp_variables_inv.
  - apply prior_mac_inv in H; try assumption. destruct H as [-> H].
    destruct (comp_message_inv m m' t t' _ _ Wm Wm' Wt Wt' Lb H) as (Em & Hv). auto using comp_variables_inv.
  - apply prior_mac_inv in H; try assumption. destruct H as [-> H].
    destruct (comp_message_inv m m' t t' _ _ Wm Wm' Wt Wt' Lb H) as (Em & Hv). auto using comp_timers_inv.
Qed.

Corollary tamper_changes_digest d d' m m' t t' :
  same_mode d d' -> wf_smsg m -> wf_smsg m' -> wf_stsig t -> wf_stsig t' ->
  (N.of_nat (length (dmode_mac d)) < 65536)%N -> (N.of_nat (length (dmode_mac d')) < 65536)%N ->
  length (m_body m) = length (m_body m') ->
  length (canon_wire (t_key t)) = length (canon_wire (t_key t')) ->
  length (canon_wire (t_alg t)) = length (canon_wire (t_alg t')) ->
  (dmode_mac d <> dmode_mac d' \/ covered_msg m t <> covered_msg m' t' \/
   match d with DSubsequent _ => covered_timers t <> covered_timers t' | _ => covered_vars t <> covered_vars t' end) ->
  spec_digest d m t <> spec_digest d' m' t'.
Proof.
  intros S Wm Wm' Wt Wt' Ld Ld' Lb LK LA Hdiff H.
  destruct (digest_injective d d' m m' t t' S Wm Wm' Wt Wt' Ld Ld' Lb LK LA H) as (E1 & E2 & E3).
  destruct Hdiff as [N|[N|N]]; [exact (N E1)|exact (N E2)|].
  destruct d; exact (N E3).
Qed.

Section Tamper.
Variable mac_fn : salg -> bytes -> bytes -> bytes.

(* with a MAC function that has no collision on these two inputs (the cryptographic assumption, for the truncation
   length used), a tampered message is rejected with BADSIG (or FORMERR), never accepted *)
Theorem tamper_rejected d d' m m' t t' a key now :
  same_mode d d' -> wf_smsg m -> wf_smsg m' -> wf_stsig t -> wf_stsig t' ->
  (N.of_nat (length (dmode_mac d)) < 65536)%N -> (N.of_nat (length (dmode_mac d')) < 65536)%N ->
  length (m_body m) = length (m_body m') ->
  length (canon_wire (t_key t)) = length (canon_wire (t_key t')) ->
  length (canon_wire (t_alg t)) = length (canon_wire (t_alg t')) ->
  (* the original verifies, the received one carries the same MAC field ... *)
  mac_matches mac_fn d m t a key -> t_mac t' = t_mac t ->
  (* ... but differs in a covered field *)
  (dmode_mac d <> dmode_mac d' \/ covered_msg m t <> covered_msg m' t' \/
   match d with DSubsequent _ => covered_timers t <> covered_timers t' | _ => covered_vars t <> covered_vars t' end) ->
  (* cryptographic assumption, for exactly these two inputs and this truncation length *)
  (forall x y, x <> y -> x = spec_digest d m t -> y = spec_digest d' m' t' ->
     firstn (length (t_mac t)) (mac_fn a key x) <> firstn (length (t_mac t)) (mac_fn a key y)) ->
  spec_verify mac_fn d' m' t' a key now = SFormErr \/ spec_verify mac_fn d' m' t' a key now = SBadSig.
Proof.
  intros S Wm Wm' Wt Wt' Ld Ld' Lb LK LA Hok Hmac Hdiff Hcr.
  pose proof (tamper_changes_digest d d' m m' t t' S Wm Wm' Wt Wt' Ld Ld' Lb LK LA Hdiff) as Hne.
  unfold spec_verify. destruct (mac_len_okb a (length (t_mac t'))); cbn [negb]; [|left; reflexivity].
  right.
  destruct (octets_eqb (t_mac t') (firstn (length (t_mac t')) (mac_fn a key (spec_digest d' m' t')))) eqn:E;
    cbn [negb]; [|reflexivity].
  exfalso. apply octets_eqb_eq in E. rewrite Hmac in E. unfold mac_matches in Hok.
  apply (Hcr _ _ Hne eq_refl eq_refl). rewrite <- Hok, <- E. reflexivity.
Qed.
End Tamper.
