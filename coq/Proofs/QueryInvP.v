(* The unconditional form of QueryInv16P.set_rcode_then: when the interface's set_rcode preserves P for every RCODE,
   setting one and continuing with k keeps P.  The lifting through answer / answer_any is Proofs/QueryInv16P.v. *)
From QV Require Import Base.ListX Gen.ZoneConsts Gen.QueryConsts Model.ZoneTree Model.Query.

Section Lift.
Context {W : Type}.
Variable wi : wiface W.
Variable P : W -> Prop.

Definition QP {A} (q : res (perr * W) (A * W)) : Prop :=
  match q with Ok (_, w') => P w' | Err (_, w') => P w' | Panic => True end.

Hypothesis Hrc : forall c w w', P w -> wi_set_rcode wi c w = Some w' -> P w'.

Lemma set_rcode_then {A} c w (k : W -> res (perr * W) (A * W)) : P w -> (forall w1, P w1 -> QP (k w1)) ->
  QP (match lift_set (wi_set_rcode wi c w) with Ok (_, w1) => k w1 | Err e => Err e | Panic => Panic end).
Proof.
  intros Hw Hk. destruct (wi_set_rcode wi c w) as [w1|] eqn:E; cbn [lift_set QP]; auto.
  apply Hk. eapply Hrc; eauto.
Qed.

End Lift.
