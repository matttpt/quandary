(* On the table Rrl::new builds, no stream other than the placeholder key has a bucket. *)
From QV Require Import Base.Res Base.Octets Model.Rrl Spec.RrlBucketS Proofs.RrlP Proofs.RrlKeyP.
Local Open Scope N_scope.

Lemma abs_bucket_new hkey p now k : k <> init_key -> abs_bucket hkey p (rrl_new p now) k = None.
Proof.
  intros H. unfold abs_bucket, rrl_new. cbn [t_get e_key].
  assert (E : key_eqb init_key k = false) by (apply key_eqb_neq; intros E; apply H; symmetry; exact E).
  rewrite E. reflexivity.
Qed.

Lemma pair_limited_iff_fresh hname hkey p t0 c1 c2 k1 k2 now1 now2 rnd1 rnd2 :
  wf_params p -> (forall cat, rate_of p cat = 1) -> p_window p = 1 ->
  subject_to_rrl c1 = true -> subject_to_rrl c2 = true ->
  key_of hname p c1 = Some k1 -> key_of hname p c2 = Some k2 ->
  k1 <> init_key -> k2 <> init_key ->
  now1 <= now2 < now1 + nanos_per_sec ->
  exists t1 t2,
    process_response hname hkey p (rrl_new p t0) c1 now1 rnd1 = Ok (t1, apply_action c1 Send) /\
    process_response hname hkey p t1 c2 now2 rnd2
    = Ok (t2, apply_action c2 (if key_eqb k1 k2
                               then action_of_verdict (limited_verdict (p_slip p) rnd2)
                               else Send)).
Proof.
  intros W R1 W1 S1 S2 K1 K2 N1 N2 T.
  apply (pair_limited_iff hname hkey p (rrl_new p t0) c1 c2 k1 k2 now1 now2 rnd1 rnd2 W R1 W1
           (rrl_new_wf p t0 W) S1 S2 K1 K2 (abs_bucket_new hkey p t0 k1 N1) (abs_bucket_new hkey p t0 k2 N2) T).
Qed.
