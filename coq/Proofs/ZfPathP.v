(* C25 — "relative include paths resolve against the including file's directory": compute_path
   (Path::parent + Path::join of Model/ZfFs.v) against the string-level reading of that sentence. *)
From QV Require Import Base.ListX Model.ZfFs.

Local Open Scope N_scope.

Definition no_slash (b : bytes) : Prop := ~ In 47 b.

Lemma last_slash_none b : forall i acc, no_slash b -> last_slash b i acc = acc.
Proof.
  induction b as [|c b IH]; intros i acc H; [reflexivity|]. cbn [last_slash].
  assert (E : (c =? 47) = false) by (apply N.eqb_neq; intros ->; apply H; left; reflexivity).
  rewrite E. apply IH. intros Hin. apply H. right. exact Hin.
Qed.

Lemma last_slash_app a b : forall i acc, no_slash b ->
  last_slash (a ++ 47 :: b) i acc = Some (i + length a)%nat.
Proof.
  induction a as [|c a IH]; intros i acc H; cbn [app last_slash length].
  - rewrite N.eqb_refl, last_slash_none by exact H. f_equal. lia.
  - rewrite IH by exact H. f_equal. lia.
Qed.

Lemma path_parent_bare base : base <> [] -> no_slash base -> path_parent base = Some [].
Proof.
  intros Hne H. unfold path_parent. destruct base; [congruence|]. rewrite last_slash_none by exact H. reflexivity.
Qed.

Lemma path_parent_in_dir dir base : dir <> [] -> no_slash base -> path_parent (dir ++ 47 :: base) = Some dir.
Proof.
  intros Hd Hb. unfold path_parent.
  destruct (dir ++ 47 :: base)%list as [|c0 t0] eqn:Ep; [destruct dir; discriminate|]. rewrite <- Ep.
  rewrite (last_slash_app dir base 0 None Hb). cbn [Nat.add].
  destruct (length dir) as [|n] eqn:El; [destruct dir; [congruence|discriminate]|].
  rewrite <- El, firstn_app, firstn_all, Nat.sub_diag. cbn [firstn]. rewrite app_nil_r. reflexivity.
Qed.

Lemma path_join_dir dir rel : last dir 0 <> 47 ->
  path_join dir rel =
  match rel with 47 :: _ => rel | _ => match dir with [] => rel | _ => dir ++ 47 :: rel end end%list.
Proof.
  intros Hl. unfold path_join. apply N.eqb_neq in Hl. rewrite Hl. reflexivity.
Qed.

(* a bare file name: the included path is taken as it is (relative to the working directory) *)
Lemma compute_path_bare base rel : base <> [] -> no_slash base -> compute_path base rel = Some rel.
Proof.
  intros Hne H. unfold compute_path. rewrite path_parent_bare, path_join_dir by (assumption || discriminate).
  destruct rel as [|x r]; [reflexivity|]. destruct x as [|px]; [reflexivity|].
  repeat (destruct px as [px|px|]; try reflexivity).
Qed.

Lemma compute_path_in_dir dir base rel :
  dir <> [] -> last dir 0 <> 47 -> no_slash base ->
  compute_path (dir ++ 47 :: base) rel =
  Some (match rel with 47 :: _ => rel | _ => dir ++ 47 :: rel end)%list.
Proof.
  intros Hd Hl Hb. unfold compute_path. rewrite path_parent_in_dir, path_join_dir by assumption.
  destruct dir; [congruence|reflexivity].
Qed.

(* neither the empty path nor "/" can be opened as a file, which is all that [fs_parent] of ZfIncFullP assumes *)
Lemma path_parent_none p : path_parent p = None <-> p = [] \/ p = [47].
Proof.
  unfold path_parent. destruct p as [|c t]; [split; auto|].
  split.
  - destruct (last_slash (c :: t) 0 None) as [[|i]|] eqn:E; try discriminate.
    destruct t; [|discriminate]. intros _. right. cbn [last_slash] in E.
    destruct (c =? 47) eqn:Ec; [apply N.eqb_eq in Ec; subst; reflexivity|discriminate].
  - intros [H|H]; [discriminate|]. inversion H; subst. reflexivity.
Qed.
