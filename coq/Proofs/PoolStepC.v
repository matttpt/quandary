(* Preservation of [Inv]: a worker's section after a wake-up, and task completion. *)
From Coq Require Import Lia Permutation.
From QV Require Import Model.Pool Proofs.PoolLemmas Proofs.PoolInv Proofs.PoolStepB.

Lemma inv_work_wake s i k to dl o c s' :
  Inv s -> nth_error (thr s) i = Some (WWoken k to) ->
  step true s (LWork i dl o c) = Some s' -> Inv s'.
Proof.
  intros I E H. simpl in H. rewrite E in H.
  (* the thread is counted, so [available_workers -= 1] does not underflow *)
  pose proof (i_cnt_le s I) as Hav.
  pose proof (sumf_nth_le (fun p => b2n (is_counted p)) _ _ _ E) as Hi.
  destruct s as [? ? ? ? qu av ps th ? ? ? ? ?]; simpl in *.
  destruct av as [|av]; [lia|]. clear Hav Hi.
  unfold work_wake, work_loop, dec_avail in H. cbn [avail queue psd negb orb] in H.
  (* The one place where the repaired loop ([fx = true]) matters: with a task queued, [is_nil]
     is false and the exit on timeout (WExitTo) is not a behaviour; the old loop takes it there
     and i_queue fails: a queued task whose woken worker has left (PoolWitness).
     The thread stops being a woken worker, so i_cnt_le, i_cnt_eq (unless it waits again) and
     i_queue move in every outcome: the queue is empty, or its head is taken (WTake: i_tasks,
     i_started as well). WWaitO: i_psd_w too. *)
  destruct qu as [|t qu]; cbn [is_nil] in H;
    [destruct (is_aux k && to && true); [|destruct ps; [|destruct (is_aux k && dl)]]
    |rewrite andb_false_r in H];
    destruct o; try discriminate; inversion H; subst s'; clear H;
    (eapply (inv_set I E); [reflexivity|]; clear I E; intros R I; inv_clauses I).
Qed.

Lemma inv_work s i dl o c s' : Inv s -> step true s (LWork i dl o c) = Some s' -> Inv s'.
Proof.
  intros I H.
  destruct (nth_error (thr s) i) as [[]|] eqn:E; try (simpl in H; rewrite E in H; discriminate).
  - eapply inv_work_top; eassumption.
  - eapply inv_work_wake; eassumption.
Qed.

Lemma inv_task_done s i b s' : Inv s -> step true s (LTaskDone i b) = Some s' -> Inv s'.
Proof.
  intros I H. simpl in H.
  destruct (nth_error (thr s) i) as [[]|] eqn:E; try discriminate.
  inversion H; subst s'; clear H.
  (* only i_tasks and i_started move: the task goes from running to done; the worker stays
     live and uncounted *)
  eapply (inv_set I E); [reflexivity|]. clear I E. intros R I.
  destruct b; [|destruct (is_aux k && negb (linger s))]; inv_clauses I.
Qed.
