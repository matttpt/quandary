(* Composition (C04, clause (iv) for direct referrals and direct positive answers).  The abstract message of the
   trace ([StA]) is threaded through add_additional_addresses, glue_loop (all or error), optional_loop and
   additional_loop (some: execute_allowing_truncation), do_referral and add_found; C12's round trip turns it into
   what the RFC 1035 decoder reads: a referral carries EVERY in-bailiwick glue record, the rest is optional. *)
From QV Require Import Base.ListX Gen.ZoneConsts Gen.QueryConsts Model.NameWire Model.MsgWriter Model.ZoneTree
  Spec.ZoneLookupS Proofs.ZoneBaseP Proofs.ZoneInvP Proofs.ZoneTopP Model.Query Model.QueryW
  Spec.NameWireS Spec.MsgWriterS Spec.MsgWriterAbsS Spec.RespS
  Proofs.MsgWriterP Proofs.MsgWriterScanP Proofs.MsgWriterNameP Proofs.MsgWriterInvP Proofs.MsgWriterOpP
  Proofs.MsgWriterStepP Proofs.MsgWriterDecP Proofs.MsgWriterHdrP Proofs.MsgWriterRtP
  Proofs.QueryNameP Proofs.QueryWfP Proofs.QueryP
  Proofs.ComposeTraceP Proofs.ComposeWfP Proofs.ComposeNameP Proofs.ComposeKeyP Proofs.ComposeTopP Proofs.ComposeRespP
  Proofs.ComposeTcP.
From QV Require Proofs.QueryTopP.
Local Open Scope nat_scope.

Definition ArExt (A A' : amsg) (X : list arr) : Prop :=
  am_mode A' = am_mode A /\ am_qs A' = am_qs A /\ am_an A' = am_an A /\ am_ns A' = am_ns A /\ am_ar A' = am_ar A ++ X.
Lemma ArExt_refl A : ArExt A A [].
Proof. unfold ArExt. rewrite app_nil_r. auto. Qed.
Lemma ArExt_trans A A1 A2 X Y : ArExt A A1 X -> ArExt A1 A2 Y -> ArExt A A2 (X ++ Y).
Proof. intros (a1 & a2 & a3 & a4 & a5) (b1 & b2 & b3 & b4 & b5). unfold ArExt. rewrite b5, a5, app_assoc. repeat split; congruence. Qed.
Lemma add_rrs_ext A l : ArExt A (add_rrs A SecAdditional l) l.
Proof. unfold ArExt, add_rrs. cbn. auto. Qed.

(* order-preserving omission *)
Inductive Sub {T} : list T -> list T -> Prop :=
| Sub_nil : Sub [] []
| Sub_keep x a b : Sub a b -> Sub (x :: a) (x :: b)
| Sub_drop x a b : Sub a b -> Sub a (x :: b).
Lemma Sub_refl {T} (l : list T) : Sub l l.
Proof. induction l; constructor; auto. Qed.
Lemma Sub_nil_l {T} (l : list T) : Sub [] l.
Proof. induction l; constructor; auto. Qed.
Lemma Sub_app {T} (a b c d : list T) : Sub a b -> Sub c d -> Sub (a ++ c) (b ++ d).
Proof. induction 1; intros Hcd; simpl; auto; constructor; auto. Qed.
Lemma Sub_prefix {T} (y z : list T) : Sub y (y ++ z).
Proof. rewrite <- (app_nil_r y) at 1. apply Sub_app; [apply Sub_refl|apply Sub_nil_l]. Qed.

Section Add.
Variable Pop : wop -> Prop.
Hypothesis Hpop_rrset : forall s hs owner ty cl ttl rds vec, Pop (OAddRrset s hs owner ty cl ttl rds vec).
Hypothesis Hpop_rr : forall s hs owner ty cl ttl rd vec, Pop (OAddRr s hs owner ty cl ttl rd vec).
Variable d0 : dstate.
Variable g0 : gn.
Variable A0 : amsg.
Notation StA := (StA Pop d0 g0 A0).

Lemma StA_add_rrset d g A s h hs owner ty cl ttl rds vec : StA d g A -> hint_agrees (d_regs d) h hs ->
  good_name owner -> Forall good_rd rds -> (ty < 65536)%N -> (cl < 65536)%N -> hs_contract (d_regs d) g hs owner ->
  match wi_add_rrset w_iface s h owner ty cl ttl rds vec (d_w d) with
  | Ok (v, w') => exists d' g', StA d' g' (add_rrs A (sec_of s) (map (mkAR owner (am_mode A) ty cl (ttl_rfc ttl)) rds)) /\
               d_w d' = w' /\ Frame d g d' g' /\
               ghost_rr_ok g g' owner (rds_names (component_types cl ty) rds) (match rds with [] => false | _ => true end) /\
               (vec = true -> vec_issued d' g' (length (d_regs d)) v (component_types cl ty) rds)
  | Err (_, w') => exists d' g', StA d' g' A /\ d_w d' = w' /\ Frame d g d' g'
  | Panic => False
  end.
Proof.
  intros HS Hh Gn Hr Hty Hcl Hc. pose proof (StA_regs_len _ _ _ _ _ _ _ HS) as L0. destruct HS as (ops & outs & HT & ->).
  pose proof (Traced_add_rrset Pop d0 g0 ops outs d g s h hs owner ty cl ttl rds vec HT Hh Gn Hr Hty Hcl (Hpop_rrset _ _ _ _ _ _ _ _) Hc) as X.
  destruct (wi_add_rrset w_iface s h owner ty cl ttl rds vec (d_w d)) as [[v w']|[e w']|]; [| |exact X].
  - destruct X as [X Hv]. eexists _, _. split; [exact (StA_snoc _ _ _ _ _ _ _ _ _ _ HT _ _ X)|]. split; [reflexivity|].
    split; [split; [reflexivity|split; eexists; reflexivity]|].
    split; [split; [reflexivity|split; [destruct rds; reflexivity|reflexivity]]|].
    intros ->. split; [apply nth_error_mid|]. split; [|exact Hv]. cbn [gstep g_regs]. rewrite L0. apply nth_error_mid.
  - destruct X as [e' X]. eexists _, _. split; [exact (StA_snoc _ _ _ _ _ _ _ _ _ _ HT _ _ X)|]. split; [reflexivity|].
    split; [reflexivity|split; eexists; reflexivity].
Qed.

Lemma StA_add_rr d g A s h hs owner ty cl ttl rd : StA d g A -> hint_agrees (d_regs d) h hs ->
  good_name owner -> good_rd rd -> (ty < 65536)%N -> (cl < 65536)%N -> hs_contract (d_regs d) g hs owner ->
  match wi_add_rr w_iface s h owner ty cl ttl rd (d_w d) with
  | Ok w' => exists d' g', StA d' g' (add_rrs A (sec_of s) [mkAR owner (am_mode A) ty cl (ttl_rfc ttl) rd]) /\
               d_w d' = w' /\ Frame d g d' g' /\ ghost_rr_ok g g' owner (rd_names (component_types cl ty) rd) true
  | Err _ => True
  | Panic => False
  end.
Proof.
  intros (ops & outs & HT & ->) Hh Gn Grd Hty Hcl Hc.
  pose proof (Traced_add_rr Pop d0 g0 ops outs d g s h hs owner ty cl ttl rd HT Hh Gn Grd Hty Hcl (Hpop_rr _ _ _ _ _ _ _ _) Hc) as X.
  destruct (wi_add_rr w_iface s h owner ty cl ttl rd (d_w d)) as [w'|[e w']|]; [|exact I|exact X].
  eexists _, _. split; [exact (StA_snoc _ _ _ _ _ _ _ _ _ _ HT _ _ X)|]. split; [reflexivity|].
  split; [split; [reflexivity|split; [apply prefix_refl|eexists; reflexivity]]|repeat split; reflexivity].
Qed.

End Add.

Section Glue.
Variable req : N -> N -> bytes -> bytes -> bool.
Variable apex : name.
Variable cls : N.
Variable R : list record.
Variable z : zone.
Hypothesis Hinv : Inv req apex cls z R.
Hypothesis HR : Forall (fun r => Pz (fun _ _ => True) (r_type r) (r_rdata r)) R.
Hypothesis Hclass : (cls < 65536)%N.
Variable Pop : wop -> Prop.
Hypothesis Hpop_rrset : forall s hs owner ty cl ttl rds vec, Pop (OAddRrset s hs owner ty cl ttl rds vec).
Variable d0 : dstate.
Variable g0 : gn.
Variable A0 : amsg.

Notation Pz0 := (Pz (fun _ _ => True)).
Notation StA := (StA Pop d0 g0 A0).
Notation StA_add_rrset := (StA_add_rrset Pop Hpop_rrset d0 g0 A0).

Notation zc16' := (zc16 req apex cls R z Hinv Hclass).

(* what add_additional_addresses appends on success: the address RRsets of the lookup *)
Definition addr_rrs (owner : zname) (sbc : bool) : list arr :=
  match zl (zone_lookup_addrs z owner false sbc) with
  | Some (AFound a aaaa _) =>
    (match a with Some (ttl, rds) => map (mkAR owner Standard ZoneConsts.TYPE_A (z_class z) (ttl_rfc ttl)) rds | None => [] end) ++
    (if (z_class z =? ZoneConsts.CLASS_IN)%N
     then match aaaa with Some (ttl, rds) => map (mkAR owner Standard ZoneConsts.TYPE_AAAA ZoneConsts.CLASS_IN (ttl_rfc ttl)) rds | None => [] end
     else [])
  | _ => []
  end.

(* On Err a prefix Y of X has been appended, and the state is kept: execute_allowing_truncation goes on from
   there.  [QSA] below says nothing on Err: an error of the answering logic ends the answer. *)
Definition RSA (d : dstate) (g : gn) (A : amsg) (X : list arr) (r : res (wierr * writer) writer) : Prop :=
  match r with
  | Ok w' => exists d' g' A', StA d' g' A' /\ d_w d' = w' /\ Frame d g d' g' /\ ArExt A A' X
  | Err (_, w') => exists d' g' A' Y Z, StA d' g' A' /\ d_w d' = w' /\ Frame d g d' g' /\ ArExt A A' Y /\ X = Y ++ Z
  | Panic => False
  end.


Lemma addrs_A d g A owner h hs sbc : StA d g A -> am_mode A = Standard -> good_name owner ->
  hint_agrees (d_regs d) h hs -> hs_contract (d_regs d) g hs owner ->
  RSA d g A (addr_rrs owner sbc) (add_additional_addresses w_iface z owner h sbc (d_w d)).
Proof.
  intros HS Hm Hown Hh Hc. unfold add_additional_addresses, addr_rrs.
  destruct (zone_lookup_addrs_refines req apex cls z R owner false sbc Hinv) as (r & Hz & Hs); [discriminate|].
  rewrite Hz. cbn [zl].
  pose proof (spec_addrs_good req apex cls R Pz0 HR _ _ _ _ Hs) as G.
  assert (Here : RSA d g A [] (Ok (d_w d))).
  { exists d, g, A. split; [exact HS|]. split; [reflexivity|]. split; [apply Frame_refl|apply ArExt_refl]. }
  destruct r as [a aaaa sos|c ns| |]; try exact Here.
  destruct G as [Ga Gb].
  (* the AAAA step, from any state reached so far *)
  assert (Haaaa : forall d1 g1 A1 X h1 hs1, StA d1 g1 A1 -> am_mode A1 = Standard -> Frame d g d1 g1 -> ArExt A A1 X ->
            hint_agrees (d_regs d1) h1 hs1 -> hs_contract (d_regs d1) g1 hs1 owner ->
            RSA d g A (X ++ (if (z_class z =? ZoneConsts.CLASS_IN)%N
                             then match aaaa with
                                  | Some (ttl, rds) => map (mkAR owner Standard ZoneConsts.TYPE_AAAA ZoneConsts.CLASS_IN (ttl_rfc ttl)) rds
                                  | None => [] end
                             else []))
                (if (z_class z =? ZoneConsts.CLASS_IN)%N
                 then match aaaa with
                      | Some (ttl, rdatas) =>
                        match wi_add_rrset w_iface SAr h1 owner ZoneConsts.TYPE_AAAA ZoneConsts.CLASS_IN ttl rdatas false (d_w d1) with
                        | Ok (_, w2) => Ok w2 | Err e => Err e | Panic => Panic end
                      | None => Ok (d_w d1)
                      end
                 else Ok (d_w d1))).
  { intros d1 g1 A1 X h1 hs1 HS1 Hm1 F1 E1 Hh1 Hc1.
    assert (Here1 : RSA d g A (X ++ []) (Ok (d_w d1))).
    { exists d1, g1, A1. split; [exact HS1|]. split; [reflexivity|]. split; [exact F1|]. rewrite app_nil_r. exact E1. }
    destruct (z_class z =? ZoneConsts.CLASS_IN)%N eqn:Ecl; [|exact Here1].
    destruct aaaa as [[tb rb]|]; [|exact Here1].
    destruct (Gb _ eq_refl) as [GbP _]. cbn [snd] in GbP. destruct (Pz_split _ _ _ GbP) as [GbG _].
    pose proof (StA_add_rrset d1 g1 A1 SAr h1 hs1 owner ZoneConsts.TYPE_AAAA ZoneConsts.CLASS_IN tb rb false HS1 Hh1 Hown GbG eq_refl eq_refl Hc1) as Y.
    destruct (wi_add_rrset w_iface SAr h1 owner ZoneConsts.TYPE_AAAA ZoneConsts.CLASS_IN tb rb false (d_w d1)) as [[v w2]|[e w2]|]; cbn [RSA]; auto.
    - destruct Y as (d2 & g2 & HS2 & Hw2 & F2 & _). eexists d2, g2, _. split; [exact HS2|]. split; [exact Hw2|].
      split; [eapply Frame_trans; eauto|]. rewrite Hm1. eapply ArExt_trans; [exact E1|apply add_rrs_ext].
    - destruct Y as (d2 & g2 & HS2 & Hw2 & F2). exists d2, g2, A1, X. eexists. split; [exact HS2|]. split; [exact Hw2|].
      split; [eapply Frame_trans; eauto|]. split; [exact E1|reflexivity]. }
  destruct a as [[ta ra]|].
  - destruct (Ga _ eq_refl) as [GaP Gane]. cbn [snd] in *. destruct (Pz_split _ _ _ GaP) as [GaG _].
    pose proof (StA_add_rrset d g A SAr h hs owner ZoneConsts.TYPE_A (z_class z) ta ra false HS Hh Hown GaG eq_refl zc16' Hc) as Y.
    destruct (wi_add_rrset w_iface SAr h owner ZoneConsts.TYPE_A (z_class z) ta ra false (d_w d)) as [[v w1]|[e w1]|]; cbn [RSA]; auto.
    + (* the A RRset is non-empty, so the AAAA RRset is written with its owner as the hint *)
      destruct Y as (d1 & g1 & HS1 & <- & F1 & (_ & Go & _) & _). rewrite Hm in HS1.
      apply (Haaaa d1 g1 _ _ QhOwner HsOwner HS1 Hm F1 (add_rrs_ext _ _) eq_refl).
      apply (contract_same _ _ HsOwner). rewrite Go. destruct ra; [congruence|reflexivity].
    + destruct Y as (d1 & g1 & HS1 & Hw1 & F1). exists d1, g1, A, []. eexists. split; [exact HS1|]. split; [exact Hw1|].
      split; [exact F1|]. split; [apply ArExt_refl|reflexivity].
  - apply (Haaaa d g A [] h hs HS Hm (Frame_refl d g) (ArExt_refl A) Hh Hc).
Qed.

Definition QSA {T} (d : dstate) (g : gn) (A : amsg) (P : amsg -> Prop) (q : res (perr * writer) (T * writer)) : Prop :=
  match q with
  | Ok (_, w') => exists d' g' A', StA d' g' A' /\ d_w d' = w' /\ Frame d g d' g' /\ am_mode A' = Standard /\ P A'
  | Err _ => True
  | Panic => False
  end.

Lemma QSA_here {T} d g A (P : amsg -> Prop) (t : T) : StA d g A -> am_mode A = Standard -> P A -> QSA d g A P (Ok (t, d_w d)).
Proof. intros HS Hm HP. exists d, g, A. split; [exact HS|]. split; [reflexivity|]. split; [apply Frame_refl|]. auto. Qed.

Lemma QSA_frame {T} d g A d1 g1 A1 (P P1 : amsg -> Prop) (q : res (perr * writer) (T * writer)) :
  Frame d g d1 g1 -> (forall A', am_mode A' = Standard -> P1 A' -> P A') ->
  QSA d1 g1 A1 P1 q -> QSA d g A P q.
Proof.
  intros F HP. destruct q as [[t w']|e|]; cbn [QSA]; auto. intros (d' & g' & A' & HS & Hw & F' & Hm & H1).
  exists d', g', A'. split; [exact HS|]. split; [exact Hw|]. split; [eapply Frame_trans; eauto|]. auto.
Qed.

Definition some_of (A : amsg) (l : list arr) (A' : amsg) : Prop := exists X, ArExt A A' X /\ Sub X l.

Lemma some_of_nil A : some_of A [] A.
Proof. exists []. split; [apply ArExt_refl|constructor]. Qed.

(* execute_allowing_truncation around add_additional_addresses, then the rest of a loop *)
Lemma allow_then d g A l1 l2 r (k : writer -> res (perr * writer) (unit * writer)) : RSA d g A l1 r ->
  (forall d1 g1 A1, StA d1 g1 A1 -> am_mode A1 = Standard -> Frame d g d1 g1 -> QSA d1 g1 A1 (some_of A1 l2) (k (d_w d1))) ->
  am_mode A = Standard ->
  QSA d g A (some_of A (l1 ++ l2)) (match allow_truncation r with Ok (_, w1) => k w1 | other => other end).
Proof.
  intros Q Hk Hm.
  assert (Cont : forall d1 g1 A1 X, StA d1 g1 A1 -> Frame d g d1 g1 -> ArExt A A1 X -> Sub X l1 ->
            QSA d g A (some_of A (l1 ++ l2)) (k (d_w d1))).
  { intros d1 g1 A1 X HS1 F1 E1 HsubX.
    assert (Hm1 : am_mode A1 = Standard) by (destruct E1 as (Y & _); congruence).
    apply (QSA_frame d g A d1 g1 A1 _ (some_of A1 l2) _ F1); [|apply Hk; auto].
    intros A' _ (Y & E2 & HsubY). exists (X ++ Y). split; [eapply ArExt_trans; eauto|apply Sub_app; auto]. }
  destruct r as [w1|[[|] w1]|]; cbn [allow_truncation RSA] in Q |- *; auto.
  - destruct Q as (d1 & g1 & A1 & HS1 & <- & F1 & E1). eapply Cont; eauto. apply Sub_refl.
  - destruct Q as (d1 & g1 & A1 & Y & Z & HS1 & <- & F1 & E1 & ->). eapply Cont; eauto. apply Sub_prefix.
  - exact I.
Qed.

Lemma glue_loop_A r v rds : forall l d g A, StA d g A -> am_mode A = Standard -> vec_issued d g r v [CtCompressible] rds ->
  (forall i nm, In (i, nm) l -> good_name nm /\ nth_error (rds_names [CtCompressible] rds) i = Some nm) ->
  QSA d g A (fun A' => ArExt A A' (flat_map (fun t => addr_rrs (snd t) true) l)) (glue_loop w_iface z l v (d_w d)).
Proof.
  induction l as [|[idx n] l IH]; intros d g A HS Hm Hv Hl; cbn [glue_loop flat_map].
  - apply QSA_here; auto. apply ArExt_refl.
  - destruct (Hl idx n (or_introl eq_refl)) as [Gn Hn].
    destruct (vec_hint d g r v _ _ idx n Hv (or_intror Hn)) as (hs & Hh & Hc).
    pose proof (addrs_A d g A n _ hs true HS Hm Gn Hh Hc) as Q.
    destruct (add_additional_addresses w_iface z n (hint_from_vec (Some v) idx) true (d_w d)) as [w1|[e w1]|]; cbn [lift_add QSA RSA] in Q |- *; auto.
    destruct Q as (d1 & g1 & A1 & HS1 & <- & F1 & E1).
    assert (Hm1 : am_mode A1 = Standard) by (destruct E1 as (X & _); congruence).
    apply (QSA_frame d g A d1 g1 A1 _ _ _ F1 (fun A' _ E2 => ArExt_trans _ _ _ _ _ E1 E2)).
    apply (IH d1 g1 A1 HS1 Hm1 (vec_issued_frame _ _ _ _ _ _ _ _ F1 Hv)). intros i nm Hin. apply Hl. right. exact Hin.
Qed.

Lemma optional_loop_A r v rds : forall l d g A, StA d g A -> am_mode A = Standard -> vec_issued d g r v [CtCompressible] rds ->
  (forall i nm, In (i, nm) l -> good_name nm /\ nth_error (rds_names [CtCompressible] rds) i = Some nm) ->
  QSA d g A (some_of A (flat_map (fun t => addr_rrs (snd t) true) l)) (optional_loop w_iface z l v (d_w d)).
Proof.
  induction l as [|[idx n] l IH]; intros d g A HS Hm Hv Hl; cbn [optional_loop flat_map].
  - apply QSA_here; auto. apply some_of_nil.
  - destruct (Hl idx n (or_introl eq_refl)) as [Gn Hn].
    destruct (vec_hint d g r v _ _ idx n Hv (or_intror Hn)) as (hs & Hh & Hc).
    apply allow_then; [exact (addrs_A d g A n _ hs true HS Hm Gn Hh Hc)| |exact Hm].
    intros d1 g1 A1 HS1 Hm1 F1. apply (IH d1 g1 A1 HS1 Hm1 (vec_issued_frame _ _ _ _ _ _ _ _ F1 Hv)).
    intros i nm Hin. apply Hl. right. exact Hin.
Qed.

Definition glue_rrs (child : zname) (rds : list bytes) : list arr :=
  match referral_names child rds 0 with
  | Ok (glues, _) => flat_map (fun t => addr_rrs (snd t) true) glues
  | _ => []
  end.
(* the address records of the OTHER name servers: candidates, added as far as they fit *)
Definition opt_rrs (child : zname) (rds : list bytes) : list arr :=
  match referral_names child rds 0 with
  | Ok (_, adds) => flat_map (fun t => addr_rrs (snd t) true) adds
  | _ => []
  end.

Lemma referral_A child ns d g A : StA d g A -> am_mode A = Standard -> good_name child -> Forall (Pz0 2%N) (snd ns) ->
  QSA d g A (fun A' => am_an A' = am_an A /\
                       am_ns A' = am_ns A ++ map (mkAR child Standard ZoneConsts.TYPE_NS (z_class z) (ttl_rfc (fst ns))) (snd ns) /\
                       exists X, am_ar A' = am_ar A ++ glue_rrs child (snd ns) ++ X /\ Sub X (opt_rrs child (snd ns)))
      (do_referral w_iface z child ns (d_w d)).
Proof.
  intros HS Hm Gc HrdsP. destruct (Pz_split _ _ _ HrdsP) as [Hrds _]. unfold do_referral, glue_rrs, opt_rrs.
  pose proof (StA_add_rrset d g A SNs QhNone HsNone child ZoneConsts.TYPE_NS (z_class z) (fst ns) (snd ns) true
                HS eq_refl Gc Hrds eq_refl zc16' I) as X.
  destruct (wi_add_rrset w_iface SNs QhNone child ZoneConsts.TYPE_NS (z_class z) (fst ns) (snd ns) true (d_w d)) as [[v w1]|[e w1]|];
    cbn [lift_addv QSA]; auto.
  destruct X as (d1 & g1 & HS1 & <- & F1 & _ & Hv). specialize (Hv eq_refl). rewrite Hm in HS1.
  set (A1 := add_rrs A (sec_of SNs) (map (mkAR child Standard ZoneConsts.TYPE_NS (z_class z) (ttl_rfc (fst ns))) (snd ns))) in *.
  pose proof (referral_names_no_panic child (snd ns) 0) as NP.
  destruct (referral_names child (snd ns) 0) as [[glues adds]|e|] eqn:Ern; [| |congruence]; [|exact I].
  pose proof (referral_names_facts cls Hclass child (snd ns) 0 glues adds Hrds Ern) as Hf.
  assert (Hga : forall i nm, In (i, nm) (glues ++ adds) -> good_name nm /\ nth_error (rds_names [CtCompressible] (snd ns)) i = Some nm).
  { intros i nm Hin. destruct (Hf i nm Hin) as (B & _ & C). rewrite Nat.sub_0_r in C. auto. }
  pose proof (glue_loop_A (length (d_regs d)) v (snd ns) glues d1 g1 A1 HS1 Hm Hv
                (fun i nm Hin => Hga i nm (in_or_app _ _ _ (or_introl Hin)))) as Q.
  destruct (glue_loop w_iface z glues v (d_w d1)) as [[u w2]|[e w2]|]; cbn [QSA] in Q |- *; auto.
  destruct Q as (d2 & g2 & A2 & HS2 & <- & F2 & Hm2 & E2).
  pose proof (optional_loop_A (length (d_regs d)) v (snd ns) adds d2 g2 A2 HS2 Hm2 (vec_issued_frame _ _ _ _ _ _ _ _ F2 Hv)
                (fun i nm Hin => Hga i nm (in_or_app _ _ _ (or_intror Hin)))) as Q3.
  destruct (optional_loop w_iface z adds v (d_w d2)) as [[u3 w3]|[e w3]|]; cbn [QSA] in Q3 |- *; auto.
  destruct Q3 as (d3 & g3 & A3 & HS3 & Hw3 & F3 & Hm3 & (Y & E3 & HsubY)). exists d3, g3, A3. split; [exact HS3|]. split; [exact Hw3|].
  split; [eapply Frame_trans; [exact F1|eapply Frame_trans; eauto]|]. split; [exact Hm3|].
  destruct E2 as (_ & _ & a3 & a4 & a5). destruct E3 as (_ & _ & b3 & b4 & b5).
  split; [rewrite b3, a3; reflexivity|]. split; [rewrite b4, a4; reflexivity|].
  exists Y. split; [|exact HsubY]. rewrite b5, a5. unfold A1. cbn [add_rrs sec_of am_ar]. rewrite <- app_assoc. reflexivity.
Qed.

(* the candidates of additional-section processing: the addresses of the names at [start] of every RDATA *)
Definition rd_addrs (start : nat) (rd : bytes) : list arr :=
  match read_name_from_rdata rd start with Ok nm => addr_rrs nm false | _ => [] end.

Lemma additional_loop_A start cts r v : forall rest pre d g A, StA d g A -> am_mode A = Standard -> Forall good_rd rest ->
  vec_issued d g r v cts (pre ++ rest) ->
  (cts = [] \/ (one_name cts start /\ length (rds_names cts pre) = length pre)) ->
  QSA d g A (some_of A (flat_map (rd_addrs start) rest))
      (additional_loop w_iface z start rest (Some v) (length pre) (d_w d)).
Proof.
  induction rest as [|rd rest IH]; intros pre d g A HS Hm Hrds Hv Hcts; cbn [additional_loop flat_map].
  - apply QSA_here; auto. apply some_of_nil.
  - inversion Hrds as [|? ? [Hrd _] Hrest]; subst.
    pose proof (read_name_no_panic rd start) as NP. unfold rd_addrs at 1.
    destruct (read_name_from_rdata rd start) as [nm|e|] eqn:Er; [| |congruence]; [|exact I].
    destruct (read_name_facts _ _ _ Hrd Er) as (_ & Gn & _).
    assert (Hnames : one_name cts start -> rds_names cts (pre ++ [rd]) = rds_names cts pre ++ [nm]).
    { intros H1. rewrite rds_names_app. cbn [rds_names]. rewrite (rd_names_one _ _ _ _ Hrd H1 Er). reflexivity. }
    assert (Hslot : cts = [] \/ nth_error (rds_names cts (pre ++ rd :: rest)) (length pre) = Some nm).
    { destruct Hcts as [Hc|[H1 Hl]]; [left; exact Hc|right].
      change (rd :: rest) with ([rd] ++ rest). rewrite app_assoc, rds_names_app, (Hnames H1), <- app_assoc.
      rewrite nth_error_app2 by lia. rewrite Hl, Nat.sub_diag. reflexivity. }
    destruct (vec_hint d g r v cts _ (length pre) nm Hv Hslot) as (hs & Hh & Hc).
    apply allow_then; [exact (addrs_A d g A nm _ hs false HS Hm Gn Hh Hc)| |exact Hm].
    intros d1 g1 A1 HS1 Hm1 F1.
    replace (S (length pre)) with (length (pre ++ [rd])) by (rewrite app_length; simpl; lia).
    apply (IH (pre ++ [rd]) d1 g1 A1 HS1 Hm1 Hrest).
    + rewrite <- app_assoc. eapply vec_issued_frame; eauto.
    + destruct Hcts as [Hc'|[H1 Hl]]; [left; exact Hc'|right]. split; [exact H1|].
      rewrite (Hnames H1), !app_length, Hl. reflexivity.
Qed.

Definition addl_rrs (ty : N) (rds : list bytes) : list arr :=
  if negb (existsb (N.eqb (z_class z)) ADDITIONAL_CLASSES) then []
  else match lookup_offset ADDITIONAL_TABLE ty with
       | Some start => flat_map (rd_addrs start) rds
       | None => []
       end.

Lemma additional_A ty rs r v d g A : StA d g A -> am_mode A = Standard -> Forall good_rd (snd rs) ->
  vec_issued d g r v (component_types (z_class z) ty) (snd rs) ->
  QSA d g A (some_of A (addl_rrs ty (snd rs))) (do_additional_section_processing w_iface z ty rs (Some v) (d_w d)).
Proof.
  intros HS Hm Hrds Hv. unfold do_additional_section_processing, addl_rrs.
  pose proof (QSA_here d g A _ tt HS Hm (some_of_nil A)) as Here.
  change ADDITIONAL_CLASSES with [1%N; 3%N]. cbn [existsb]. rewrite orb_false_r.
  destruct ((z_class z =? 1)%N || (z_class z =? 3)%N) eqn:Ec; cbn [negb]; [|exact Here].
  destruct (lookup_offset ADDITIONAL_TABLE ty) as [start|] eqn:Eo; [|exact Here].
  assert (Hc : (z_class z = 1 \/ z_class z = 3)%N).
  { apply orb_prop in Ec. destruct Ec as [E|E]; apply N.eqb_eq in E; auto. }
  apply (additional_loop_A start _ r v (snd rs) [] d g A HS Hm Hrds Hv).
  destruct (addl_cts _ _ _ Hc Eo) as [H|H]; [left; exact H|right; split; [exact H|reflexivity]].
Qed.

Lemma found_A h hs owner ty rs d g A : StA d g A -> am_mode A = Standard -> good_name owner -> single_good Pz0 ty rs ->
  hint_agrees (d_regs d) h hs -> hs_contract (d_regs d) g hs owner ->
  QSA d g A (fun A' => am_an A' = am_an A ++ map (mkAR owner Standard ty (z_class z) (ttl_rfc (fst rs))) (snd rs) /\
                       am_ns A' = am_ns A /\
                       exists X, am_ar A' = am_ar A ++ X /\ Sub X (addl_rrs ty (snd rs)))
      (add_found w_iface z h owner ty rs (d_w d)).
Proof.
  intros HS Hm Gn [HrdsP Hne] Hh Hc. destruct (Pz_split _ _ _ HrdsP) as [Hrds _]. pose proof (Pz_ty _ _ _ HrdsP Hne) as Hty.
  unfold add_found.
  pose proof (StA_add_rrset d g A SAn h hs owner ty (z_class z) (fst rs) (snd rs) true HS Hh Gn Hrds Hty zc16' Hc) as X.
  destruct (wi_add_rrset w_iface SAn h owner ty (z_class z) (fst rs) (snd rs) true (d_w d)) as [[v w1]|[e w1]|];
    cbn [lift_addv QSA]; auto.
  destruct X as (d1 & g1 & HS1 & <- & F1 & _ & Hv). specialize (Hv eq_refl). rewrite Hm in HS1.
  set (A1 := add_rrs A (sec_of SAn) (map (mkAR owner Standard ty (z_class z) (ttl_rfc (fst rs))) (snd rs))) in *.
  apply (QSA_frame d g A d1 g1 A1 _ (some_of A1 (addl_rrs ty (snd rs))) _ F1);
    [|exact (additional_A ty rs (length (d_regs d)) v d1 g1 A1 HS1 Hm Hrds Hv)].
  intros A' _ (Y & (_ & _ & a3 & a4 & a5) & HsubY). split; [rewrite a3; reflexivity|]. split; [rewrite a4; reflexivity|].
  exists Y. split; [rewrite a5; reflexivity|exact HsubY].
Qed.

End Glue.

(* the decoded response to a direct referral: authority = the NS RRset; additional = all the glue, some of the other
   name servers' addresses, then only pseudo-records *)
Definition referral_decoded (z : zone) (child : zname) (ns : single_rrset) (m : dmsg) : Prop :=
  exists ds_ns ds_glue X ds_opt ds_pseudo,
    m_ns m = ds_ns /\
    Forall2 (rr_rel xparts) (map (mkAR child Standard ZoneConsts.TYPE_NS (z_class z) (ttl_rfc (fst ns))) (snd ns)) ds_ns /\
    m_ar m = ds_glue ++ ds_opt ++ ds_pseudo /\
    Forall2 (rr_rel xparts) (glue_rrs z child (snd ns)) ds_glue /\
    Forall2 (rr_rel xparts) X ds_opt /\ Sub X (opt_rrs z child (snd ns)) /\
    forallb is_pseudo ds_pseudo = true.

(* the decoded direct positive answer: the answer RRset, no authority, some of the additional candidates *)
Definition found_decoded (z : zone) (qname : zname) (qtype : N) (rs : single_rrset) (m : dmsg) : Prop :=
  exists X ds_opt ds_pseudo,
    Forall2 (rr_rel xparts) (map (mkAR qname Standard qtype (z_class z) (ttl_rfc (fst rs))) (snd rs)) (m_an m) /\
    m_ns m = [] /\
    m_ar m = ds_opt ++ ds_pseudo /\
    Forall2 (rr_rel xparts) X ds_opt /\ Sub X (addl_rrs z qtype (snd rs)) /\
    forallb is_pseudo ds_pseudo = true.

Section GlueTop.
Variable reqf : N -> N -> bytes -> bytes -> bool.
Variable apex : name.
Variable cls : N.
Variable R : list record.
Variable z : zone.
Hypothesis Hinv : Inv reqf apex cls z R.
Hypothesis Hapex : good_name apex.
Hypothesis Hclass : (cls < 65536)%N.
Hypothesis HR : Forall (fun r => Pz (fun _ _ => True) (r_type r) (r_rdata r)) R.
Variable negttl : N -> N -> N.

Notation respond_w_ok := (respond_w_ok reqf apex cls R z Hinv Hapex Hclass HR negttl).

Theorem respond_referral_glue buf tcp id rd qname qtype qclass edns limit child ns :
  512 <= length buf -> good_name qname -> in_zone apex qname = true ->
  (id < 65536)%N -> (qtype < 65536)%N -> (qclass < 65536)%N -> (forall s, edns = Some s -> (s < 65536)%N) ->
  (qtype =? QTYPE_ANY)%N = false ->
  zone_lookup z qname qtype true false = Ok (LReferral child ns) ->
  exists w len b m,
    prepare_w buf tcp id rd qname qtype qclass edns limit = Some w /\
    respond_w negttl buf tcp id rd qname qtype qclass edns limit z = Some (len, b) /\
    decode_msg (firstn len b) = Some m /\
    match do_referral w_iface z child ns w with
    | Ok _ =>
      (* the answering logic succeeded: the response is neither truncated nor a SERVFAIL *)
      referral_decoded z child ns m
    | _ => True
    end.
Proof.
  intros Hb Gq Hz Hid Hqt Hqc Hed Hany Hlk.
  destruct (respond_w_ok buf tcp id rd qname qtype qclass edns limit Hb Gq Hz Hid Hqt Hqc Hed)
    as (w & Lp & len & b & m & Ew & Hip & Er & Em & Hok).
  exists w, len, b, m. split; [exact Ew|]. split; [exact Er|]. split; [exact Em|].
  destruct (zone_lookup_refines reqf apex cls z R qname qtype true false Hinv (fun _ => Hz)) as (r & Hzl & Hs).
  rewrite Hlk in Hzl. inversion Hzl; subst r.
  destruct (spec_lookup_good reqf apex cls R (Pz (fun _ _ => True)) HR _ _ _ _ _ Hs) as [GP Gs].
  pose proof (referral_A reqf apex cls R z Hinv HR Hclass Pop_t (fun _ _ _ _ _ _ _ _ => I) _ _ _
                child ns (mkD w []) (g_prepared qname) _ (StA_nil Pop_t _ _ (pre_amsg qname qtype qclass) Lp Hip) eq_refl
                (good_name_suffix _ _ Gs Gq) GP) as Q.
  cbn [d_w] in Q. destruct (do_referral w_iface z child ns w) as [[u w1]|e|] eqn:Edr; [|exact I|exact I]. cbn [QSA] in Q.
  destruct Q as (d3 & g3 & A3 & HS3 & <- & _ & _ & _ & Hns & (X & Har & HsubX)).
  destruct (Hok u d3 g3 A3) as (_ & Hdns & ds & dP & Ear & Hds & HdP); [rewrite Hany; unfold answer; rewrite Hlk; exact Edr|exact HS3|].
  rewrite Hns in Hdns. rewrite Har in Hds. cbn [pre_amsg am_ns am_ar app] in Hdns, Hds.
  apply Forall2_app_inv_l in Hds as (dg & dop & Hg' & Hop & ->).
  exists (m_ns m), dg, X, dop, dP. rewrite <- app_assoc in Ear. auto 10.
Qed.

Theorem respond_found_optional buf tcp id rd qname qtype qclass edns limit rs sos :
  512 <= length buf -> good_name qname -> in_zone apex qname = true ->
  (id < 65536)%N -> (qtype < 65536)%N -> (qclass < 65536)%N -> (forall s, edns = Some s -> (s < 65536)%N) ->
  (qtype =? QTYPE_ANY)%N = false ->
  zone_lookup z qname qtype true false = Ok (LFound rs sos) ->
  exists w len b m,
    prepare_w buf tcp id rd qname qtype qclass edns limit = Some w /\
    respond_w negttl buf tcp id rd qname qtype qclass edns limit z = Some (len, b) /\
    decode_msg (firstn len b) = Some m /\
    match set_aa_then w_iface (add_found w_iface z QhQname qname qtype rs) w with
    | Ok _ =>
      found_decoded z qname qtype rs m
    | _ => True
    end.
Proof.
  intros Hb Gq Hz Hid Hqt Hqc Hed Hany Hlk.
  destruct (respond_w_ok buf tcp id rd qname qtype qclass edns limit Hb Gq Hz Hid Hqt Hqc Hed)
    as (w & Lp & len & b & m & Ew & Hip & Er & Em & Hok).
  exists w, len, b, m. split; [exact Ew|]. split; [exact Er|]. split; [exact Em|].
  destruct (zone_lookup_refines reqf apex cls z R qname qtype true false Hinv (fun _ => Hz)) as (r & Hzl & Hs).
  rewrite Hlk in Hzl. inversion Hzl; subst r.
  pose proof (spec_lookup_good reqf apex cls R (Pz (fun _ _ => True)) HR _ _ _ _ _ Hs) as G. cbn [lookup_good] in G.
  (* set_aa(true): one more header step, the abstract message does not move *)
  destruct (StA_set_aa Pop_t _ _ _ _ _ _ true (StA_nil Pop_t _ _ (pre_amsg qname qtype qclass) Lp Hip) I) as (wa & Ea & Sa).
  cbn [d_w d_regs] in Ea, Sa. unfold set_aa_then. rewrite Ea. cbn [lift_set].
  pose proof (found_A reqf apex cls R z Hinv HR Hclass Pop_t (fun _ _ _ _ _ _ _ _ => I) _ _ _
                QhQname HsQname qname qtype rs (mkD wa []) (g_prepared qname) _ Sa eq_refl Gq G eq_refl) as Q.
  cbn [d_w] in Q. destruct (add_found w_iface z QhQname qname qtype rs wa) as [[u w1]|e|] eqn:Edr; [|exact I|exact I].
  specialize (Q (contract_same _ (g_prepared qname) HsQname qname eq_refl)). cbn [QSA] in Q.
  destruct Q as (d3 & g3 & A3 & HS3 & <- & _ & _ & Han & Hns & (X & Har & HsubX)).
  destruct (Hok u d3 g3 A3) as (Hdan & Hdns & ds & dP & Ear & Hds & HdP);
    [rewrite Hany; unfold answer; rewrite Hlk; cbn [zl]; unfold set_aa_then; rewrite Ea; exact Edr|exact HS3|].
  rewrite Han in Hdan. rewrite Hns in Hdns. rewrite Har in Hds. cbn [pre_amsg am_an am_ns am_ar app] in Hdan, Hdns, Hds.
  exists X, ds, dP. inversion Hdns. auto 10.
Qed.

End GlueTop.

Theorem respond_referral_glue_build reqf apex cls wide recs z negttl buf tcp id rd qname qtype qclass edns limit child ns :
  (forall c t a b d, reqf c t a b = true -> reqf c t b d = true -> reqf c t a d = true) ->
  zone_build reqf (zone_new apex cls wide) recs = Some z ->
  Forall (fun r => good_rd (r_rdata r) /\ (r_type r < 65536)%N) recs -> good_name apex -> (cls < 65536)%N ->
  512 <= length buf -> good_name qname -> in_zone apex qname = true ->
  (id < 65536)%N -> (qtype < 65536)%N -> (qclass < 65536)%N -> (forall s, edns = Some s -> (s < 65536)%N) ->
  (qtype =? QTYPE_ANY)%N = false ->
  zone_lookup z qname qtype true false = Ok (LReferral child ns) ->
  exists w len b m,
    prepare_w buf tcp id rd qname qtype qclass edns limit = Some w /\
    respond_w negttl buf tcp id rd qname qtype qclass edns limit z = Some (len, b) /\
    decode_msg (firstn len b) = Some m /\
    match do_referral w_iface z child ns w with
    | Ok _ =>
      referral_decoded z child ns m
    | _ => True
    end.
Proof.
  intros Ht Hb Hrecs Ga Hc.
  exact (respond_referral_glue reqf apex cls (accepted apex cls recs) z (ZoneTopP.build_inv reqf Ht apex cls wide recs z Hb) Ga Hc
           (accepted_Pz apex cls recs Hrecs) negttl buf tcp id rd qname qtype qclass edns limit child ns).
Qed.

Theorem respond_found_optional_build reqf apex cls wide recs z negttl buf tcp id rd qname qtype qclass edns limit rs sos :
  (forall c t a b d, reqf c t a b = true -> reqf c t b d = true -> reqf c t a d = true) ->
  zone_build reqf (zone_new apex cls wide) recs = Some z ->
  Forall (fun r => good_rd (r_rdata r) /\ (r_type r < 65536)%N) recs -> good_name apex -> (cls < 65536)%N ->
  512 <= length buf -> good_name qname -> in_zone apex qname = true ->
  (id < 65536)%N -> (qtype < 65536)%N -> (qclass < 65536)%N -> (forall s, edns = Some s -> (s < 65536)%N) ->
  (qtype =? QTYPE_ANY)%N = false ->
  zone_lookup z qname qtype true false = Ok (LFound rs sos) ->
  exists w len b m,
    prepare_w buf tcp id rd qname qtype qclass edns limit = Some w /\
    respond_w negttl buf tcp id rd qname qtype qclass edns limit z = Some (len, b) /\
    decode_msg (firstn len b) = Some m /\
    match set_aa_then w_iface (add_found w_iface z QhQname qname qtype rs) w with
    | Ok _ =>
      found_decoded z qname qtype rs m
    | _ => True
    end.
Proof.
  intros Ht Hb Hrecs Ga Hc.
  exact (respond_found_optional reqf apex cls (accepted apex cls recs) z (ZoneTopP.build_inv reqf Ht apex cls wide recs z Hb) Ga Hc
           (accepted_Pz apex cls recs Hrecs) negttl buf tcp id rd qname qtype qclass edns limit rs sos).
Qed.
