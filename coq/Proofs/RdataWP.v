(* Formats made of names and fixed-length fields only: the formats of every type whose
   names are decompressed on reading. *)
From QV Require Import Base.ListX Spec.NameWireS Spec.NameRepr Proofs.NameWireP Proofs.NameWireSP
  Model.RdataM Spec.RdataFormatS Proofs.RdNameP Proofs.RdataFormatSP Proofs.RdataVP Proofs.RdataRP.
Local Open Scope nat_scope.

Definition simple_field (f : field) : bool :=
  match f with FName | FBytes _ => true | _ => false end.
Definition simple (g : list field) : bool := forallb simple_field g.

Theorem decompressed_simple c t : decompressed c t = decompressed c t && simple (grammar c t).
Proof.
  pose proof (dispatch_read c t) as D.
  destruct (lookup read_arms read_default c t) as [d|v]; destruct D as [-> <-]; [destruct d|]; reflexivity.
Qed.
