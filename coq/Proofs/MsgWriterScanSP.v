(* The compression scan only ever stands on, and only ever reports, members of the set L of
   label starts (so a pointer it yields leads to a label start of an earlier name), and a
   reported match covers at least one label (so compressing never lengthens a name). *)
From QV Require Import Base.ListX Model.MsgWriter Proofs.NameWireP Proofs.MsgWriterP
     Proofs.MsgWriterScanP Proofs.MsgWriterClosP.

Local Open Scope nat_scope.

Section ScanL.
Variables (b : bytes) (lo c h : nat) (L : nat -> Prop).
Hypothesis HC : closed b lo c h L.

Lemma next_real_L : forall fuel i p, nextok b lo c h L i -> next_real fuel b i = Ok p -> L p.
Proof.
  induction fuel as [|fuel IH]; intros i p Hk; simpl; [discriminate|].
  destruct Hk as [Hs|[hi [l [K1 [K2 [K3 [K4 [K5 [K6 K7]]]]]]]]].
  - destruct (HC i Hs) as [x [X1 [X2 _]]]. rewrite X1, (small_not_pointer x X2).
    intros H; inversion H; subst; auto.
  - rewrite K1, K2, K3. fold (ptr_target hi l).
    destruct (ptr_target hi l <? i); [|discriminate]. apply IH. left; auto.
Qed.

Lemma move_L i p : nextok b lo c h L i -> move_to_next_real_label b i = Ok p -> L p.
Proof. unfold move_to_next_real_label. apply next_real_L. Qed.

Lemma next_of_label p len : L p -> nth_error b p = Some len -> (0 < len)%N ->
  nextok b lo c h L (p + 1 + N.to_nat len).
Proof.
  intros Hs E H0. destruct (HC p Hs) as [x [X1 [_ [_ X4]]]]. rewrite E in X1. inversion X1; subst x.
  apply X4. lia.
Qed.

Lemma move_closed p len p2 : L p -> nth_error b p = Some len -> (0 < len)%N ->
  move_to_next_real_label b (p + 1 + N.to_nat len) = Ok p2 -> L p2.
Proof. intros Hs E H0. apply move_L, next_of_label; auto. Qed.

Lemma search_L cur cp n o1 o2 : oprior_ok b cur o1 -> oprior_ok b cur o2 ->
  (forall pr, o1 = Some pr -> L (p_ptr pr)) -> (forall pr, o2 = Some pr -> L (p_ptr pr)) ->
  exists cs, (let* c0 := opt_build b (nm_len n) o1 in
              let* c1 := opt_build b (nm_len n) o2 in
              scan b cp 0 n (c0, c1)) = Ok cs
             /\ forall m, longest_match cs = Some m -> match_ok b cur cp n m /\ L (snd m) /\ fst m < length n.
Proof. apply (search_good b cur cp L move_closed). Qed.

End ScanL.
