(* The reduced RDATA reader of Model/RdataLite.v (A, AAAA, OPT, TSIG and opaque types; what the
   message walk of C15 uses): it never panics and returns the RDATA slice. *)
From QV Require Import Base.ListX Model.NameWire Model.Reader Model.RdataLite Proofs.NameWireP.
Local Open Scope nat_scope.

Lemma validate_option_no_panic o : validate_option o <> Panic.
Proof.
  unfold validate_option. destruct (nth_error o 2); [|discriminate]. destruct (nth_error o 3); [|discriminate].
  destruct (_ <=? _); discriminate.
Qed.

Lemma validate_opt_loop_no_panic f o off : validate_opt_loop f o off <> Panic.
Proof.
  revert off; induction f as [|f IH]; intros off; cbn [validate_opt_loop]; [discriminate|].
  destruct (off <? length o); [|discriminate].
  pose proof (validate_option_no_panic (skipn off o)).
  destruct (validate_option (skipn off o)); cbn [bind]; [apply IH|discriminate|congruence].
Qed.

(* the fuel S (length o) is never exhausted: each option consumes >= 4 octets.  The model returns
   the same RdOther for exhausted fuel, so this is said as: every RdOther comes from an option *)
Lemma validate_opt_loop_fuel f o off : length o - off < f ->
  validate_opt_loop f o off = Err RdOther ->
  exists off', off <= off' /\ off' < length o /\ validate_option (skipn off' o) = Err RdOther.
Proof.
  revert off; induction f as [|f IH]; intros off Hf H; [lia|]. cbn [validate_opt_loop] in H.
  destruct (off <? length o) eqn:E; [|discriminate]. apply Nat.ltb_lt in E.
  destruct (validate_option (skipn off o)) as [n|e|] eqn:V; cbn [bind] in H.
  - assert (4 <= n).
    { unfold validate_option in V. destruct (nth_error _ 2); [|discriminate]. destruct (nth_error _ 3); [|discriminate].
      destruct (_ <=? _); inversion V. lia. }
    apply IH in H; [|lia]. destruct H as (off' & A & B & C). exists off'. repeat split; auto. lia.
  - inversion H; subst. exists off. auto.
  - discriminate.
Qed.

Lemma validate_as_tsig_no_panic o : validate_as_tsig o <> Panic.
Proof.
  unfold validate_as_tsig.
  pose proof (validate_agrees o false) as VA.
  destruct (parse_uncompressed_total o false) as [Hp _].
  rewrite VA. destruct (parse_uncompressed_name o false) as [[nm l]|e|]; cbn [map_ok snd]; [|discriminate|congruence].
  destruct (get16 o (l + 8)); [|discriminate].
  destruct (get16 o _); [|discriminate]. destruct (_ =? _); discriminate.
Qed.

(* one walk through the dispatcher: an error, or the RDATA slice, which lies inside the message *)
Lemma rd_lite_cases c t b cur l :
  match rd_lite c t b cur l with
  | Ok x => cur + N.to_nat l <= length b /\ x = slice b cur (cur + N.to_nat l)
  | Err _ => True
  | Panic => False
  end.
Proof.
  unfold rd_lite, prepare_rdata. destruct (Nat.ltb_spec (length b) (cur + N.to_nat l)); cbn [bind]; [exact I|].
  destruct (lite_unsupported c t); [exact I|].
  destruct ((t =? TYPE_A)%N && (c =? CLASS_IN)%N); [destruct (_ =? 4); auto|].
  destruct ((t =? TYPE_AAAA)%N && (c =? CLASS_IN)%N); [destruct (_ =? 16); auto|].
  destruct (t =? TYPE_OPT)%N.
  { unfold validate_as_opt.
    pose proof (validate_opt_loop_no_panic (S (length (slice b cur (cur + N.to_nat l)))) (slice b cur (cur + N.to_nat l)) 0).
    destruct (validate_opt_loop _ _ 0); cbn [bind]; auto. }
  destruct (t =? TYPE_TSIG)%N; [|auto].
  pose proof (validate_as_tsig_no_panic (slice b cur (cur + N.to_nat l))).
  destruct (validate_as_tsig _); cbn [bind]; auto.
Qed.

Theorem rd_lite_total c t b cur l : rd_lite c t b cur l <> Panic.
Proof. pose proof (rd_lite_cases c t b cur l) as H. destruct (rd_lite c t b cur l); [discriminate|discriminate|contradiction]. Qed.

Theorem rd_lite_bounds c t b cur l x : rd_lite c t b cur l = Ok x ->
  cur + N.to_nat l <= length b /\ x = slice b cur (cur + N.to_nat l).
Proof. intros E. pose proof (rd_lite_cases c t b cur l) as H. rewrite E in H. exact H. Qed.
