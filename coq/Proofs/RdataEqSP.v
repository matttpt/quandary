(* The characterisation spec_equals (Spec/RdataEqS.v) is an equivalence relation,
   for every class and type. *)
From QV Require Import Base.ListX Spec.NameWireS Proofs.NameWireP Proofs.NameWireSP
  Model.RdataM Spec.RdataFormatS Spec.RdataEqS Proofs.RdNameP Proofs.RdataFormatSP Proofs.RdataVP
  Proofs.RdNameEqP.
Local Open Scope nat_scope.

Lemma label_ci_refl a : label_ci_eqb a a = true.
Proof. induction a as [|x a IH]; simpl; auto. rewrite N.eqb_refl. exact IH. Qed.

Lemma label_ci_sym a b : label_ci_eqb a b = label_ci_eqb b a.
Proof.
  revert b; induction a as [|x a IH]; intros [|y b]; simpl; auto.
  rewrite (N.eqb_sym (lower x)), IH. reflexivity.
Qed.

Lemma label_ci_trans a b c : label_ci_eqb a b = true -> label_ci_eqb b c = true -> label_ci_eqb a c = true.
Proof.
  revert b c; induction a as [|x a IH]; intros [|y b] [|z c]; simpl; auto; try discriminate.
  intros H1 H2. apply andb_true_iff in H1. apply andb_true_iff in H2.
  destruct H1 as [A1 B1]. destruct H2 as [A2 B2]. apply N.eqb_eq in A1. apply N.eqb_eq in A2.
  rewrite A1, A2, N.eqb_refl. simpl. eapply IH; eauto.
Qed.

Lemma labels_ci_refl a : labels_ci_eqb a a = true.
Proof. induction a as [|x a IH]; simpl; auto. rewrite label_ci_refl. exact IH. Qed.

Lemma labels_ci_sym a b : labels_ci_eqb a b = labels_ci_eqb b a.
Proof.
  revert b; induction a as [|x a IH]; intros [|y b]; simpl; auto.
  rewrite label_ci_sym, IH. reflexivity.
Qed.

Lemma labels_ci_trans a b c :
  labels_ci_eqb a b = true -> labels_ci_eqb b c = true -> labels_ci_eqb a c = true.
Proof.
  revert b c; induction a as [|x a IH]; intros [|y b] [|z c]; simpl; auto; try discriminate.
  intros H1 H2. apply andb_true_iff in H1. apply andb_true_iff in H2.
  destruct H1 as [A1 B1]. destruct H2 as [A2 B2].
  rewrite (label_ci_trans _ _ _ A1 A2). simpl. eapply IH; eauto.
Qed.

Lemma octets_eqb_sym a b : octets_eqb a b = octets_eqb b a.
Proof.
  revert b; induction a as [|x a IH]; intros [|y b]; simpl; auto.
  rewrite (N.eqb_sym x), IH. reflexivity.
Qed.

Lemma octets_eqb_trans a b c : octets_eqb a b = true -> octets_eqb b c = true -> octets_eqb a c = true.
Proof. rewrite !octets_eqb_eq. congruence. Qed.

Lemma ci_fields_refl g : forall a, smatch g a = true -> ci_fields g a a = true.
Proof.
  induction g as [|f g IH]; intros a M; [apply octets_eqb_refl|].
  destruct f; cbn [ci_fields]; try apply octets_eqb_refl.
  - cbn [smatch] in M. unfold sname in M.
    destruct (spec_decode_name a 0) as [[ls l]|]; [|discriminate].
    rewrite labels_ci_refl. cbn [andb]. apply IH. exact M.
  - cbn [smatch] in M. apply andb_true_iff in M. destruct M as [_ M].
    rewrite octets_eqb_refl. cbn [andb]. apply IH. exact M.
Qed.

Lemma ci_fields_sym g : forall a b, ci_fields g a b = ci_fields g b a.
Proof.
  induction g as [|f g IH]; intros a b; [apply octets_eqb_sym|].
  destruct f; cbn [ci_fields]; try apply octets_eqb_sym.
  - destruct (spec_decode_name a 0) as [[la na]|], (spec_decode_name b 0) as [[lb nb]|]; auto.
    rewrite labels_ci_sym, IH. reflexivity.
  - rewrite octets_eqb_sym, IH. reflexivity.
Qed.

Lemma ci_fields_trans g : forall a b c,
  ci_fields g a b = true -> ci_fields g b c = true -> ci_fields g a c = true.
Proof.
  induction g as [|f g IH]; intros a b c; [apply octets_eqb_trans|].
  destruct f; cbn [ci_fields]; try apply octets_eqb_trans.
  - destruct (spec_decode_name a 0) as [[la na]|]; [|discriminate].
    destruct (spec_decode_name b 0) as [[lb nb]|]; [|discriminate].
    destruct (spec_decode_name c 0) as [[lc nc]|]; [|intros _ H; exact H].
    intros H1 H2. apply andb_true_iff in H1. apply andb_true_iff in H2.
    destruct H1 as [A1 B1]. destruct H2 as [A2 B2].
    rewrite (labels_ci_trans _ _ _ A1 A2). cbn [andb]. eapply IH; eauto.
  - intros H1 H2. apply andb_true_iff in H1. apply andb_true_iff in H2.
    destruct H1 as [A1 B1]. destruct H2 as [A2 B2].
    rewrite (octets_eqb_trans _ _ _ A1 A2). cbn [andb]. eapply IH; eauto.
Qed.

Theorem spec_equals_refl c t a : spec_equals c t a a = true.
Proof.
  unfold spec_equals. destruct (ci_type c t); cbn [andb]; [|apply octets_eqb_refl].
  destruct (spec_valid c t a) eqn:V; cbn [andb]; [|apply octets_eqb_refl].
  apply ci_fields_refl. exact V.
Qed.

Theorem spec_equals_sym c t a b : spec_equals c t a b = spec_equals c t b a.
Proof.
  unfold spec_equals. rewrite ci_fields_sym, octets_eqb_sym.
  destruct (ci_type c t), (spec_valid c t a), (spec_valid c t b); reflexivity.
Qed.

Theorem spec_equals_trans c t a b d :
  spec_equals c t a b = true -> spec_equals c t b d = true -> spec_equals c t a d = true.
Proof.
  unfold spec_equals. destruct (ci_type c t); cbn [andb]; [|apply octets_eqb_trans].
  destruct (spec_valid c t a) eqn:Va, (spec_valid c t b) eqn:Vb; cbn [andb].
  - destruct (spec_valid c t d) eqn:Vd; cbn [andb].
    + apply ci_fields_trans.
    + intros _ H. apply octets_eqb_eq in H. subst. congruence.
  - intros H. apply octets_eqb_eq in H. subst. congruence.
  - intros H. apply octets_eqb_eq in H. subst. congruence.
  - intros H. apply octets_eqb_eq in H. subst. try rewrite Va. try rewrite Vb. cbn [andb]. auto.
Qed.
