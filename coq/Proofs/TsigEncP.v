(* Lemmas about the integer encodings and slicing helpers of Model/TsigMsg.v and Spec/Tsig8945S.v. *)
From QV Require Import Base.ListX Model.TsigMsg Spec.Tsig8945S.

Lemma be_enc_length w : forall n, length (be_enc w n) = w.
Proof. induction w as [|w IH]; intros n; simpl; [reflexivity|]. rewrite app_length, IH. simpl. lia. Qed.

Lemma be_enc_wf w : forall n, wf_bytes (be_enc w n).
Proof.
  induction w as [|w IH]; intros n; simpl; [constructor|].
  apply Forall_app. split; [apply IH|]. constructor; [|constructor].
  unfold is_octet. apply N.mod_lt. lia.
Qed.

Lemma be_dec_app l x : be_dec (l ++ [x]) = (be_dec l * 256 + x)%N.
Proof. unfold be_dec. rewrite fold_left_app. reflexivity. Qed.

Lemma be_dec_enc w : forall n, be_dec (be_enc w n) = (n mod 256 ^ N.of_nat w)%N.
Proof.
  induction w as [|w IH]; intros n.
  - simpl. rewrite N.mod_1_r. reflexivity.
  - cbn [be_enc]. rewrite be_dec_app, IH.
    rewrite Nat2N.inj_succ, N.pow_succ_r by lia.
    rewrite (N.mod_mul_r n 256 (256 ^ N.of_nat w)) by (try lia; apply N.pow_nonzero; lia).
    lia.
Qed.

Lemma be_dec_enc_small w n : (n < 256 ^ N.of_nat w)%N -> be_dec (be_enc w n) = n.
Proof. intros H. rewrite be_dec_enc. apply N.mod_small. exact H. Qed.

Lemma be_enc_inj w a b : (a < 256 ^ N.of_nat w)%N -> (b < 256 ^ N.of_nat w)%N ->
  be_enc w a = be_enc w b -> a = b.
Proof. intros Ha Hb H. rewrite <- (be_dec_enc_small w a Ha), <- (be_dec_enc_small w b Hb), H. reflexivity. Qed.

Lemma be_dec_bound l : wf_bytes l -> (be_dec l < 256 ^ N.of_nat (length l))%N.
Proof.
  induction l as [|x l IH] using rev_ind; intros H.
  - vm_compute. reflexivity.
  - apply Forall_app in H. destruct H as [Hl Hx]. inversion Hx as [|? ? Hx' _]; subst.
    rewrite be_dec_app, app_length. simpl length. rewrite Nat.add_1_r, Nat2N.inj_succ, N.pow_succ_r by lia.
    specialize (IH Hl). unfold is_octet in Hx'. lia.
Qed.

Lemma be_enc_dec l : wf_bytes l -> be_enc (length l) (be_dec l) = l.
Proof.
  induction l as [|x l IH] using rev_ind; intros H; [reflexivity|].
  apply Forall_app in H. destruct H as [Hl Hx]. inversion Hx as [|? ? Hx' _]; subst.
  rewrite app_length. simpl length. rewrite Nat.add_1_r. cbn [be_enc].
  rewrite be_dec_app. unfold is_octet in Hx'.
  assert (Hd : ((be_dec l * 256 + x) / 256 = be_dec l)%N).
  { rewrite N.div_add_l by lia. rewrite (N.div_small x 256) by lia. lia. }
  assert (Hm : ((be_dec l * 256 + x) mod 256 = x)%N).
  { rewrite N.add_comm, N.mod_add by lia. apply N.mod_small. lia. }
  rewrite Hd, Hm.
  rewrite IH by exact Hl. reflexivity.
Qed.

Lemma be16_u16 n : be16 n = u16 n.
Proof. reflexivity. Qed.

Lemma be32_u32 n : be32 n = u32 n.
Proof.
  unfold be32, u32. cbn [be_enc app].
  rewrite !N.div_div by lia. reflexivity.
Qed.

Lemma be48_u48 n : be48 n = u48 n.
Proof.
  unfold be48, u48. cbn [be_enc app].
  rewrite !N.div_div by lia. reflexivity.
Qed.

Lemma be_dec_u16 n : (n < 65536)%N -> be_dec (u16 n) = n.
Proof. intros H. apply (be_dec_enc_small 2). exact H. Qed.

Lemma be_dec_u48 n : (n < 281474976710656)%N -> be_dec (u48 n) = n.
Proof. intros H. apply (be_dec_enc_small 6). exact H. Qed.

Lemma u16_inj a b : (a < 65536)%N -> (b < 65536)%N -> u16 a = u16 b -> a = b.
Proof. apply (be_enc_inj 2). Qed.

Lemma u48_inj a b : (a < 281474976710656)%N -> (b < 281474976710656)%N -> u48 a = u48 b -> a = b.
Proof. apply (be_enc_inj 6). Qed.

Lemma len_u16_small l : (N.of_nat (length l) < 65536)%N -> len_u16 l = N.of_nat (length l).
Proof. intros H. unfold len_u16. apply N.mod_small. exact H. Qed.

Lemma serialize_rdata_ok {E} p algorithm mac :
  (N.of_nat (length algorithm + 16 + length mac + length (p_other p)) <= 65535)%N ->
  @serialize_rdata E p algorithm mac =
  Ok (serialize_tsig_unchecked algorithm (p_time_signed p) (p_fudge p) mac (p_original_id p) (p_error p) (p_other p)).
Proof.
  intros H. unfold serialize_rdata, new_tsig, required_len. change (N.to_nat TSIG_RDATA_FIXED_LEN) with 16.
  apply N.leb_le in H. rewrite H. reflexivity.
Qed.

Lemma get_range_app (pre mid post : bytes) a b :
  a = length pre -> b = a + length mid -> get_range (pre ++ mid ++ post) a b = Some mid.
Proof.
  intros -> ->. unfold get_range.
  assert (H1 : (length pre <=? length pre + length mid) = true) by (apply Nat.leb_le; lia).
  assert (H2 : (length pre + length mid <=? length (pre ++ mid ++ post)) = true)
    by (apply Nat.leb_le; rewrite !app_length; lia).
  rewrite H1, H2. simpl. f_equal. unfold slice.
  rewrite skipn_app, skipn_all, Nat.sub_diag. simpl.
  replace (length pre + length mid - length pre) with (length mid) by lia.
  rewrite firstn_app, firstn_all, Nat.sub_diag. simpl. apply app_nil_r.
Qed.

(* the same with the list given up to re-association: [l = pre ++ mid ++ post] is closed by app_assoc *)
Lemma get_range_in (l pre mid post : bytes) a b :
  l = pre ++ mid ++ post -> a = length pre -> b = a + length mid -> get_range l a b = Some mid.
Proof. intros ->. apply get_range_app. Qed.

Lemma get_from_app (pre post : bytes) a : a = length pre -> get_from (pre ++ post) a = Some post.
Proof.
  intros ->. unfold get_from.
  assert (H : (length pre <=? length (pre ++ post)) = true) by (apply Nat.leb_le; rewrite app_length; lia).
  rewrite H. f_equal. rewrite skipn_app, skipn_all, Nat.sub_diag. reflexivity.
Qed.

Lemma get_u16_app (pre post : bytes) n a :
  a = length pre -> (n < 65536)%N -> get_u16 (pre ++ u16 n ++ post) a = Some n.
Proof.
  intros Ha Hn. unfold get_u16.
  rewrite (get_range_app pre (u16 n) post a (a + 2) Ha) by (rewrite (be_enc_length 2); reflexivity).
  rewrite be_dec_u16 by exact Hn. reflexivity.
Qed.

Lemma get_range_Some l a b s : get_range l a b = Some s -> a <= b /\ b <= length l /\ s = slice l a b.
Proof.
  unfold get_range. destruct (a <=? b) eqn:E1; simpl; [|discriminate].
  destruct (b <=? length l) eqn:E2; [|discriminate].
  intros H. inversion H. apply Nat.leb_le in E1. apply Nat.leb_le in E2. auto.
Qed.

Lemma get_range_ok l a b : a <= b -> b <= length l -> get_range l a b = Some (slice l a b).
Proof.
  intros H1 H2. unfold get_range.
  apply Nat.leb_le in H1. apply Nat.leb_le in H2. rewrite H1, H2. reflexivity.
Qed.

Lemma get_u16_ok l a : a + 2 <= length l -> exists n, get_u16 l a = Some n.
Proof. intros H. unfold get_u16. rewrite get_range_ok by lia. eauto. Qed.

Lemma get_u16_Some l a n : get_u16 l a = Some n -> a + 2 <= length l.
Proof.
  unfold get_u16. destruct (get_range l a (a + 2)) eqn:E; [|discriminate].
  apply get_range_Some in E. lia.
Qed.

Lemma get_from_ok l a : a <= length l -> get_from l a = Some (skipn a l).
Proof. intros H. unfold get_from. apply Nat.leb_le in H. rewrite H. reflexivity. Qed.

Lemma bytes_eqb_eq a : forall b, bytes_eqb a b = true <-> a = b.
Proof. apply bytes_eqb_fix_eq. intros [|] [|]; reflexivity. Qed.

Lemma octets_eqb_eq a : forall b, octets_eqb a b = true <-> a = b.
Proof. apply bytes_eqb_fix_eq. intros [|] [|]; reflexivity. Qed.

Lemma bytes_octets_eqb a b : bytes_eqb a b = octets_eqb b a.
Proof.
  destruct (bytes_eqb a b) eqn:E1; destruct (octets_eqb b a) eqn:E2; try reflexivity.
  - apply bytes_eqb_eq in E1. subst. assert (H : octets_eqb b b = true) by (apply octets_eqb_eq; reflexivity). congruence.
  - apply octets_eqb_eq in E2. subst. assert (H : bytes_eqb a a = true) by (apply bytes_eqb_eq; reflexivity). congruence.
Qed.

Lemma lower_small b : (b <= 63)%N -> lower b = b.
Proof.
  intros H. unfold lower. destruct ((65 <=? b)%N && (b <=? 90)%N) eqn:E; [|reflexivity].
  apply andb_true_iff in E. destruct E as [E _]. apply N.leb_le in E. lia.
Qed.

(* lower-casing the wire form of a name whose labels are at most 63 octets long is the wire
   form of the lower-cased labels (length octets are not letters) *)
Lemma map_lower_wire_of (n : sname) : Forall (fun l => length l <= 63) n ->
  map lower (wire_of n) = canon_wire n.
Proof.
  unfold canon_wire, canon, wire_of. intros H. rewrite map_app. simpl map at 2.
  replace (lower 0) with 0%N by reflexivity. f_equal.
  induction H as [|l r Hl _ IH]; [reflexivity|].
  simpl. rewrite map_app, IH, map_length. f_equal.
  apply lower_small. lia.
Qed.

Lemma valid_sname_len63 n : valid_sname n -> Forall (fun l => length l <= 63) n.
Proof. intros [H _]. eapply Forall_impl; [|exact H]. simpl. intros l [[_ Hl] _]. exact Hl. Qed.

Lemma wire_of_length_canon n : length (canon_wire n) = wire_len n.
Proof.
  unfold canon_wire, wire_len, wire_of, canon. rewrite !app_length. f_equal.
  induction n as [|l r IH]; [reflexivity|]. simpl. rewrite !app_length, map_length, IH. reflexivity.
Qed.

Lemma wf_lwire n : Forall (fun l => 1 <= length l <= 63 /\ wf_bytes l) n -> wf_bytes (lwire n).
Proof.
  induction 1 as [|l r [Hl Hw] _ IH]; [constructor|].
  simpl. constructor; [unfold is_octet; lia|]. apply Forall_app. split; assumption.
Qed.

Lemma wf_wire_of n : valid_sname n -> wf_bytes (wire_of n).
Proof.
  intros [H _]. unfold wire_of. apply Forall_app. split; [apply wf_lwire; exact H|].
  constructor; [unfold is_octet; lia|constructor].
Qed.
