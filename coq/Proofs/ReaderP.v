(* The message reader of Model/Reader.v: under the invariant [rinv] (cursor and mark inside a message of 12
   octets or more) every operation returns a value or an error, an error leaves the reader as it was, the
   invariant is kept, and what is read is what the specification decodes at the cursor. *)
From QV Require Import Base.ListX Model.NameWire Model.Reader Spec.NameWireS Spec.NameRepr Spec.ReaderS
  Proofs.NameWireP.
Local Open Scope nat_scope.

Lemma header_size_val : header_size = 12.
Proof. reflexivity. Qed.

Lemma read_u16_from_cases b a : a <= length b ->
  match read_u16_from b a with
  | Ok v => a + 2 <= length b /\ sbe16 b a = Some v
  | Err _ => True
  | Panic => False
  end.
Proof.
  intros H. unfold read_u16_from, sbe16. destruct (Nat.ltb_spec (length b) a); [lia|].
  destruct (nth_error b a); [|exact I]. destruct (nth_error b (a + 1)) eqn:B; [|exact I].
  apply nth_error_Some_lt in B. split; [lia|reflexivity].
Qed.

Lemma read_u32_from_cases b a : a <= length b ->
  match read_u32_from b a with
  | Ok v => a + 4 <= length b /\ sbe32 b a = Some v
  | Err _ => True
  | Panic => False
  end.
Proof.
  intros H. unfold read_u32_from, sbe32, sbe16. destruct (Nat.ltb_spec (length b) a); [lia|].
  destruct (nth_error b a); [|exact I]. destruct (nth_error b (a + 1)); [|exact I].
  destruct (nth_error b (a + 2)); [|exact I]. replace (a + 2 + 1) with (a + 3) by lia.
  destruct (nth_error b (a + 3)) eqn:D; [|exact I].
  apply nth_error_Some_lt in D. split; [lia|]. f_equal. lia.
Qed.

Lemma read_u16_get_no_panic b a : read_u16_get b a <> Panic.
Proof.
  unfold read_u16_get. destruct (length b <? a); [discriminate|].
  destruct (nth_error b a); [|discriminate]. destruct (nth_error b (a + 1)); discriminate.
Qed.

Lemma read_u16_get_ok b a v : read_u16_get b a = Ok v -> a + 2 <= length b /\ sbe16 b a = Some v.
Proof.
  unfold read_u16_get, sbe16. destruct (length b <? a); [discriminate|].
  destruct (nth_error b a) eqn:A; [|discriminate].
  destruct (nth_error b (a + 1)) eqn:B; [|discriminate].
  intros H; inversion H; subst. apply nth_error_Some_lt in B. split; [lia|reflexivity].
Qed.

Lemma read_u16_get_of_read b a v : read_u16_from b a = Ok v -> read_u16_get b a = Ok v.
Proof. unfold read_u16_from, read_u16_get. destruct (length b <? a); [discriminate|auto]. Qed.

Lemma be16_at_of_read {E} b a v : read_u16_from b a = Ok v -> @be16_at E b a = Ok v.
Proof.
  unfold read_u16_from, be16_at. destruct (length b <? a); [discriminate|].
  destruct (nth_error b a); [|discriminate]. destruct (nth_error b (a + 1)) eqn:B; [|discriminate].
  apply nth_error_Some_lt in B. destruct (Nat.ltb_spec (length b) (a + 2)); [lia|]. intros [= <-]. reflexivity.
Qed.

Lemma be32_at_of_read {E} b a v : read_u32_from b a = Ok v -> @be32_at E b a = Ok v.
Proof.
  unfold read_u32_from, be32_at. destruct (length b <? a); [discriminate|].
  destruct (nth_error b a); [|discriminate]. destruct (nth_error b (a + 1)); [|discriminate].
  destruct (nth_error b (a + 2)); [|discriminate]. destruct (nth_error b (a + 3)) eqn:D; [|discriminate].
  apply nth_error_Some_lt in D. destruct (Nat.ltb_spec (length b) (a + 4)); [lia|]. intros [= <-]. reflexivity.
Qed.

Lemma be16_at_no_panic {E} b a : a + 2 <= length b -> @be16_at E b a <> Panic.
Proof.
  intros H. unfold be16_at. destruct (length b <? a + 2) eqn:X; [apply Nat.ltb_lt in X; lia|].
  destruct (nth_error b a) eqn:A; [|apply nth_error_None in A; lia].
  destruct (nth_error b (a + 1)) eqn:B; [discriminate|apply nth_error_None in B; lia].
Qed.

Lemma be16_at_not_err {E} b a e : @be16_at E b a <> Err e.
Proof.
  unfold be16_at. destruct (length b <? a + 2); [discriminate|].
  destruct (nth_error b a); [|discriminate]. destruct (nth_error b (a + 1)); discriminate.
Qed.

Lemma be32_at_no_panic {E} b a : a + 4 <= length b -> @be32_at E b a <> Panic.
Proof.
  intros H. unfold be32_at. destruct (length b <? a + 4) eqn:X; [apply Nat.ltb_lt in X; lia|].
  destruct (nth_error b a) eqn:A; [|apply nth_error_None in A; lia].
  destruct (nth_error b (a + 1)) eqn:B; [|apply nth_error_None in B; lia].
  destruct (nth_error b (a + 2)) eqn:C; [|apply nth_error_None in C; lia].
  destruct (nth_error b (a + 3)) eqn:D; [discriminate|apply nth_error_None in D; lia].
Qed.

Lemma be16_at_ok {E} b a : a + 2 <= length b -> exists v, @be16_at E b a = Ok v.
Proof.
  intros H. pose proof (@be16_at_no_panic E b a H). pose proof (@be16_at_not_err E b a).
  destruct (be16_at b a) as [v|e|]; [eauto|congruence..].
Qed.

Lemma be32_at_ok {E} b a : a + 4 <= length b -> exists v, @be32_at E b a = Ok v.
Proof.
  intros H. pose proof (@be32_at_no_panic E b a H) as P. unfold be32_at in *.
  destruct (length b <? a + 4); [congruence|].
  destruct (nth_error b a), (nth_error b (a + 1)), (nth_error b (a + 2)), (nth_error b (a + 3)); eauto; congruence.
Qed.

Lemma idx_ok {E} b i : i < length b -> exists x, @idx E b i = Ok x /\ nth_error b i = Some x.
Proof.
  intros H. unfold idx. destruct (nth_error b i) eqn:A; [eauto|apply nth_error_None in A; lia].
Qed.

(* a 4-bit field extracted with mask and shift is always a valid Opcode / Rcode *)
Lemma opcode_raw_lt x : (x < 256)%N -> (N.shiftr (N.land x OPCODE_MASK) OPCODE_SHIFT <? 16)%N = true.
Proof.
  intros H.
  assert (A : forallb (fun x => (N.shiftr (N.land x OPCODE_MASK) OPCODE_SHIFT <? 16)%N) (upto 256) = true)
    by (vm_compute; reflexivity).
  rewrite forallb_forall in A. exact (A x (upto_In 256 x H)).
Qed.

Lemma rcode_raw_lt x : (N.land x RCODE_MASK <? 16)%N = true.
Proof.
  change RCODE_MASK with (N.ones 4). rewrite N.land_ones. apply N.ltb_lt, N.mod_lt. discriminate.
Qed.

(* wf_bytes: the name parser and the 4-bit fields are specified on octets only; 12 <=: the header getters read
   fixed offsets below 12 wherever the cursor is (no operation needs the cursor to be past the header). *)
Definition rinv (r : reader) : Prop :=
  wf_bytes (r_octets r) /\ 12 <= length (r_octets r) /\ r_cursor r <= length (r_octets r) /\
  (forall m, r_mark r = Some m -> m <= length (r_octets r)).

Lemma rinv_with_cursor r c : rinv r -> c <= length (r_octets r) -> rinv (with_cursor r c).
Proof. intros (A & B & C & D) H. unfold rinv, with_cursor; simpl. auto. Qed.

(* An operation that returns an error together with the reader it was given: no panic, reader unchanged,
   invariant kept, and (failed4) no Ok value to be faithful about. *)
Lemma failed3 {A} r (e : reader_err) : rinv r ->
  snd (r, @Err _ A e) <> Panic /\ (forall e', snd (r, @Err _ A e) = Err e' -> fst (r, @Err _ A e) = r) /\
  rinv (fst (r, @Err _ A e)).
Proof. intros Hinv. cbn [fst snd]. split; [discriminate|split; [intros; reflexivity|exact Hinv]]. Qed.

Lemma failed4 {A} r (e : reader_err) (P : A -> Prop) : rinv r ->
  snd (r, @Err _ A e) <> Panic /\ (forall e', snd (r, @Err _ A e) = Err e' -> fst (r, @Err _ A e) = r) /\
  rinv (fst (r, @Err _ A e)) /\ (forall x, snd (r, @Err _ A e) = Ok x -> P x).
Proof.
  intros Hinv. cbn [fst snd].
  split; [discriminate|split; [intros; reflexivity|split; [exact Hinv|intros x X; discriminate X]]].
Qed.

Lemma lift_name_cases {A} wrap (x : res name_err A) :
  (exists a, x = Ok a /\ lift_name wrap x = Ok a) \/
  (exists e, x = Err e /\ lift_name wrap x = Err (wrap e)) \/
  (x = Panic /\ lift_name wrap x = Panic).
Proof. destruct x; simpl; eauto. Qed.

Lemma ttl_from_spec raw : ttl_from raw = spec_ttl raw.
Proof.
  unfold ttl_from, spec_ttl.
  destruct (N.ltb_spec 2147483647 raw), (N.ltb_spec raw 2147483648); (reflexivity || lia).
Qed.

Lemma read_question_facts r : rinv r ->
  snd (read_question r) <> Panic /\
  (forall e, snd (read_question r) = Err e -> fst (read_question r) = r) /\
  rinv (fst (read_question r)) /\
  (forall q, snd (read_question r) = Ok q ->
     exists ls, decodes_question (r_octets r) (r_cursor r) ls (q_type q) (q_class q)
                  (r_cursor (fst (read_question r))) /\
                q_name q = name_of ls /\
                r_octets (fst (read_question r)) = r_octets r /\
                r_mark (fst (read_question r)) = r_mark r).
Proof.
  intros Hinv. pose proof Hinv as (Hwf & H12 & Hc & Hm). unfold read_question.
  destruct (parse_compressed_total (r_octets r) (r_cursor r)) as [Hnp _].
  destruct (parse_compressed_name (r_octets r) (r_cursor r)) as [[nm l]|e|] eqn:P; cbn [lift_name map_err];
    [| exact (failed4 r _ _ Hinv) | congruence].
  pose proof (parse_ok_bound _ _ _ _ Hwf P) as [Hb Hl].
  pose proof (read_u16_from_cases (r_octets r) (r_cursor r + l) Hb) as R1.
  destruct (read_u16_from (r_octets r) (r_cursor r + l)) as [qt|e|]; [destruct R1 as [B1 S1]|exact (failed4 r _ _ Hinv)|destruct R1].
  pose proof (read_u16_from_cases (r_octets r) (r_cursor r + l + 2) ltac:(lia)) as R2.
  destruct (read_u16_from (r_octets r) (r_cursor r + l + 2)) as [qc|e|]; [destruct R2 as [B2 S2]|exact (failed4 r _ _ Hinv)|destruct R2].
  cbn [fst snd]. split; [discriminate|split; [intros e X; discriminate X|split]].
  - apply rinv_with_cursor; [exact Hinv|lia].
  - intros q Hq. inversion Hq; subst q. cbn.
    apply (parse_compressed_iff _ _ _ _ Hwf) in P. destruct P as (ls & D & ->).
    exists ls. split; [econstructor; eauto|]. repeat split; auto.
Qed.

Lemma skip_question_facts r : rinv r ->
  snd (skip_question r) <> Panic /\
  (forall e, snd (skip_question r) = Err e -> fst (skip_question r) = r) /\
  rinv (fst (skip_question r)).
Proof.
  intros Hinv. pose proof Hinv as (Hwf & H12 & Hc & Hm). unfold skip_question.
  destruct (length (r_octets r) <? r_cursor r) eqn:E; [apply Nat.ltb_lt in E; lia|].
  destruct (skip_compressed_total (skipn (r_cursor r) (r_octets r))) as [Hnp _].
  destruct (skip_compressed_name _) as [l|e|] eqn:P; cbn [lift_name map_err];
    [| exact (failed3 r _ Hinv) | congruence].
  destruct (length (r_octets r) <? r_cursor r + l + 4) eqn:F.
  - exact (failed3 r _ Hinv).
  - apply Nat.ltb_ge in F. cbn [fst snd]. split; [discriminate|split; [intros e X; discriminate X|]].
    apply rinv_with_cursor; auto.
Qed.

Section WithRd.
Variable rd : rdata_reader.
Hypothesis rd_total : forall c t b cur l, rd c t b cur l <> Panic.
Hypothesis rd_bounds : forall c t b cur l x, rd c t b cur l = Ok x -> cur + N.to_nat l <= length b.

Lemma read_rr_facts r : rinv r ->
  snd (read_rr rd r) <> Panic /\
  (forall e, snd (read_rr rd r) = Err e -> fst (read_rr rd r) = r) /\
  rinv (fst (read_rr rd r)) /\
  (forall rr, snd (read_rr rd r) = Ok rr ->
     exists ls raw_ttl rdlen rdstart,
       decodes_rr_fixed (r_octets r) (r_cursor r) ls (rr_type rr) (rr_class rr) raw_ttl rdlen rdstart
                        (r_cursor (fst (read_rr rd r))) /\
       rr_owner rr = name_of ls /\ rr_ttl rr = spec_ttl raw_ttl /\
       rd (rr_class rr) (rr_type rr) (r_octets r) rdstart rdlen = Ok (rr_rdata rr) /\
       r_octets (fst (read_rr rd r)) = r_octets r /\ r_mark (fst (read_rr rd r)) = r_mark r).
Proof.
  intros Hinv. pose proof Hinv as (Hwf & H12 & Hc & Hm). unfold read_rr.
  destruct (parse_compressed_total (r_octets r) (r_cursor r)) as [Hnp _].
  destruct (parse_compressed_name (r_octets r) (r_cursor r)) as [[nm l]|e|] eqn:P; cbn [lift_name map_err bind];
    [| exact (failed4 r _ _ Hinv) | congruence].
  pose proof (parse_ok_bound _ _ _ _ Hwf P) as [Hb Hl].
  pose proof (read_u16_from_cases (r_octets r) (r_cursor r + l) Hb) as R1.
  destruct (read_u16_from (r_octets r) (r_cursor r + l)) as [ty|e|]; cbn [bind];
    [destruct R1 as [B1 S1]|exact (failed4 r _ _ Hinv)|destruct R1].
  pose proof (read_u16_from_cases (r_octets r) (r_cursor r + l + 2) ltac:(lia)) as R2.
  destruct (read_u16_from (r_octets r) (r_cursor r + l + 2)) as [cl|e|]; cbn [bind];
    [destruct R2 as [B2 S2]|exact (failed4 r _ _ Hinv)|destruct R2].
  pose proof (read_u32_from_cases (r_octets r) (r_cursor r + l + 4) ltac:(lia)) as R3.
  destruct (read_u32_from (r_octets r) (r_cursor r + l + 4)) as [ttl|e|]; cbn [bind];
    [destruct R3 as [B3 S3]|exact (failed4 r _ _ Hinv)|destruct R3].
  pose proof (read_u16_from_cases (r_octets r) (r_cursor r + l + 8) ltac:(lia)) as R4.
  destruct (read_u16_from (r_octets r) (r_cursor r + l + 8)) as [rdlen|e|]; cbn [bind];
    [destruct R4 as [B4 S4]|exact (failed4 r _ _ Hinv)|destruct R4].
  pose proof (rd_total cl ty (r_octets r) (r_cursor r + l + 10) rdlen) as N5.
  destruct (rd cl ty (r_octets r) (r_cursor r + l + 10) rdlen) as [rdata|e|] eqn:R5; cbn [map_err bind];
    [| exact (failed4 r _ _ Hinv) | congruence].
  pose proof (rd_bounds _ _ _ _ _ _ R5) as B5.
  cbv [fst snd]. split; [discriminate|split; [intros e X; discriminate X|split]].
  - apply rinv_with_cursor; [exact Hinv|lia].
  - intros rr Hrr. inversion Hrr; subst rr. cbn.
    apply (parse_compressed_iff _ _ _ _ Hwf) in P. destruct P as (ls & D & ->).
    exists ls, ttl, rdlen, (r_cursor r + l + 10).
    split; [econstructor; eauto; lia|]. split; [reflexivity|]. split; [apply ttl_from_spec|repeat split; auto].
Qed.

(* the owner name takes one octet or more, so that skipping records makes progress *)
Lemma peek_core_facts r : rinv r ->
  peek_core r <> Panic /\
  (forall p, peek_core r = Ok p ->
     r_cursor r < p_owner_end p /\ p_owner_end p + 10 <= p_rr_end p /\ p_rr_end p <= length (r_octets r)).
Proof.
  intros (Hwf & H12 & Hc & Hm). unfold peek_core.
  destruct (length (r_octets r) <? r_cursor r) eqn:E; [apply Nat.ltb_lt in E; lia|].
  destruct (skip_compressed_total (skipn (r_cursor r) (r_octets r))) as [Hnp _].
  destruct (skip_compressed_name _) as [l|e|] eqn:P; cbn [lift_name map_err bind];
    [| split; [discriminate|intros p X; discriminate] | congruence].
  pose proof (read_u16_get_no_panic (r_octets r) (r_cursor r + l + 8)) as N1.
  destruct (read_u16_get (r_octets r) (r_cursor r + l + 8)) as [rdlen|e|] eqn:R1; cbn [bind];
    [| split; [discriminate|intros p X; discriminate] | congruence].
  destruct (length (r_octets r) <? r_cursor r + l + 10 + N.to_nat rdlen) eqn:F.
  - split; [discriminate|intros p X; discriminate].
  - apply Nat.ltb_ge in F. split; [discriminate|]. intros p X. inversion X; subst p. cbn.
    unfold skip_compressed_name in P. pose proof (skip_loop_gt _ _ _ _ P).
    lia.
Qed.

Lemma peek_fields_ok r p : rinv r -> peek_core r = Ok p ->
  exists ty cl ttl rl,
    @be16_at reader_err (r_octets r) (p_owner_end p) = Ok ty /\
    @be16_at reader_err (r_octets r) (p_owner_end p + 2) = Ok cl /\
    @be32_at reader_err (r_octets r) (p_owner_end p + 4) = Ok ttl /\
    @be16_at reader_err (r_octets r) (p_owner_end p + 8) = Ok rl.
Proof.
  intros Hinv P. destruct (peek_core_facts r Hinv) as [_ Hok]. destruct (Hok p P) as (A & B & C).
  destruct (@be16_at_ok reader_err (r_octets r) (p_owner_end p)) as [ty Ety]; [lia|].
  destruct (@be16_at_ok reader_err (r_octets r) (p_owner_end p + 2)) as [cl Ecl]; [lia|].
  destruct (@be32_at_ok reader_err (r_octets r) (p_owner_end p + 4)) as [ttl Ettl]; [lia|].
  destruct (@be16_at_ok reader_err (r_octets r) (p_owner_end p + 8)) as [rl Erl]; [lia|].
  exists ty, cl, ttl, rl. auto.
Qed.

Lemma skip_rr_facts r : rinv r ->
  snd (skip_rr r) <> Panic /\
  (forall e, snd (skip_rr r) = Err e -> fst (skip_rr r) = r) /\
  rinv (fst (skip_rr r)).
Proof.
  intros Hinv. destruct (peek_core_facts r Hinv) as [Hnp Hok]. unfold skip_rr.
  destruct (peek_core r) as [p|e|]; [| exact (failed3 r _ Hinv) | congruence].
  destruct (Hok p eq_refl) as (A & B & C). cbn [fst snd].
  split; [discriminate|split; [intros e X; discriminate X|]].
  apply rinv_with_cursor; [exact Hinv|exact C].
Qed.

Lemma peek_parse_facts r p : rinv r -> peek_core r = Ok p ->
  snd (peek_parse rd r p) <> Panic /\
  (forall e, snd (peek_parse rd r p) = Err e -> fst (peek_parse rd r p) = r) /\
  rinv (fst (peek_parse rd r p)).
Proof.
  intros Hinv Hp. destruct (peek_core_facts r Hinv) as [_ Hok].
  destruct (Hok p Hp) as (A & B & C). unfold peek_parse, peek_owner, peek_class, peek_type, peek_rdlength,
    peek_ttl, peek_raw_ttl.
  destruct (parse_compressed_total (r_octets r) (r_cursor r)) as [Hnp _].
  destruct (parse_compressed_name (r_octets r) (r_cursor r)) as [[nm l]|e|]; cbn [lift_name map_err map_ok bind fst];
    [| exact (failed3 r _ Hinv) | congruence].
  destruct (peek_fields_ok r p Hinv Hp) as (ty & cl & ttl & rl & -> & -> & Ettl & ->). cbn [bind].
  pose proof (rd_total cl ty (r_octets r) (p_owner_end p + 10) rl) as N4.
  destruct (rd cl ty (r_octets r) (p_owner_end p + 10) rl) as [rdata|e|]; cbn [map_err bind];
    [| exact (failed3 r _ Hinv) | congruence].
  rewrite Ettl. cbn [map_ok bind].
  cbv [fst snd]. split; [discriminate|split; [intros e X; discriminate X|]].
  apply rinv_with_cursor; [exact Hinv|exact C].
Qed.

Lemma hdr_offsets :
  N.to_nat ID_START = 0 /\ N.to_nat QDCOUNT_START = 4 /\ N.to_nat ANCOUNT_START = 6 /\
  N.to_nat NSCOUNT_START = 8 /\ N.to_nat ARCOUNT_START = 10 /\
  N.to_nat QR_BYTE = 2 /\ N.to_nat AA_BYTE = 2 /\ N.to_nat TC_BYTE = 2 /\ N.to_nat RD_BYTE = 2 /\
  N.to_nat RA_BYTE = 3 /\ N.to_nat OPCODE_BYTE = 2 /\ N.to_nat RCODE_BYTE = 3.
Proof. repeat split; reflexivity. Qed.

Definition op_ok (r : reader) (op : rop) : Prop :=
  match op with OpRewind => r_mark r <> None | _ => True end.

(* the operations that move the cursor are wrapped the same way *)
Lemma step_wrap {A} (p : reader * res reader_err A) (g : A -> rout) :
  (let (r', x) := p in (r', map_ok g x)) = (fst p, map_ok g (snd p)).
Proof. destruct p. reflexivity. Qed.

Lemma map_ok_panic {E A B} (f : A -> B) (x : res E A) : x <> Panic -> map_ok f x <> Panic.
Proof. destruct x; cbn; congruence. Qed.

Lemma map_ok_err {E A B} (f : A -> B) (x : res E A) e : map_ok f x = Err e -> x = Err e.
Proof. destruct x; simpl; congruence. Qed.

Theorem step_total r op : rinv r -> op_ok r op -> snd (step rd r op) <> Panic.
Proof.
  intros Hinv Hop. pose proof Hinv as (Hwf & H12 & Hc & Hm).
  destruct op; cbn [step].
  - (* header: every getter reads inside the first 12 octets *)
    cbn [snd]. unfold rd_id, rd_qr, rd_aa, rd_tc, rd_rd, rd_ra, rd_opcode, rd_rcode,
      rd_qdcount, rd_ancount, rd_nscount, rd_arcount, flag_at.
    destruct hdr_offsets as (O1 & O2 & O3 & O4 & O5 & O6 & O7 & O8 & O9 & O10 & O11 & O12).
    rewrite O1, O2, O3, O4, O5, O6, O7, O8, O9, O10, O11, O12.
    destruct (@idx_ok reader_err (r_octets r) 2) as (x & -> & X); [lia|].
    destruct (@idx_ok reader_err (r_octets r) 3) as (y & -> & Y); [lia|].
    destruct (@be16_at_ok reader_err (r_octets r) 0) as [? ->]; [lia|].
    destruct (@be16_at_ok reader_err (r_octets r) 4) as [? ->]; [lia|].
    destruct (@be16_at_ok reader_err (r_octets r) 6) as [? ->]; [lia|].
    destruct (@be16_at_ok reader_err (r_octets r) 8) as [? ->]; [lia|].
    destruct (@be16_at_ok reader_err (r_octets r) 10) as [? ->]; [lia|]. cbn [bind].
    rewrite opcode_raw_lt by exact (nth_error_Forall _ _ _ _ Hwf X).
    rewrite rcode_raw_lt. discriminate.
  - discriminate.
  - unfold rd_rewind. cbn [op_ok] in Hop. destruct (r_mark r); [cbn; discriminate|congruence].
  - rewrite step_wrap. destruct (read_question_facts r Hinv) as (NoPanic & _). apply map_ok_panic, NoPanic.
  - rewrite step_wrap. destruct (skip_question_facts r Hinv) as (NoPanic & _). apply map_ok_panic, NoPanic.
  - rewrite step_wrap. destruct (read_rr_facts r Hinv) as (NoPanic & _). apply map_ok_panic, NoPanic.
  - rewrite step_wrap. destruct (skip_rr_facts r Hinv) as (NoPanic & _). apply map_ok_panic, NoPanic.
  - cbn [snd]. unfold peek_rr. destruct (peek_core_facts r Hinv) as [Hnp _].
    destruct (peek_core r) as [p|e|] eqn:P; cbn [bind]; [|discriminate|congruence].
    unfold peek_type, peek_class, peek_ttl, peek_raw_ttl, peek_rdlength, message_to_cursor.
    destruct (peek_fields_ok r p Hinv P) as (ty & cl & ttl & rl & -> & -> & -> & ->). cbn [bind map_ok].
    destruct (length (r_octets r) <? r_cursor r) eqn:E; [apply Nat.ltb_lt in E; lia|]. cbn [bind]. discriminate.
  - unfold peek_rr. destruct (peek_core_facts r Hinv) as [Hnp _].
    destruct (peek_core r); cbn [snd]; congruence.
  - unfold peek_rr. destruct (peek_core_facts r Hinv) as [Hnp _].
    destruct (peek_core r) as [p|e|] eqn:P; cbn [snd]; try congruence.
    rewrite step_wrap. destruct (peek_parse_facts r p Hinv P) as (NoPanic & _). apply map_ok_panic, NoPanic.
  - discriminate.
  - cbn [snd]. unfold message_to_cursor.
    destruct (length (r_octets r) <? r_cursor r) eqn:E; [apply Nat.ltb_lt in E; lia|]. discriminate.
Qed.

Theorem step_atomic r op e : rinv r -> snd (step rd r op) = Err e -> fst (step rd r op) = r.
Proof.
  intros Hinv. destruct op; cbn [step]; try (intros; reflexivity); try (cbn [snd]; discriminate).
  - unfold rd_rewind. destruct (r_mark r); cbn; [discriminate|auto].
  - rewrite step_wrap. destruct (read_question_facts r Hinv) as (_ & Atomic & _). intros H. apply map_ok_err in H. exact (Atomic _ H).
  - rewrite step_wrap. destruct (skip_question_facts r Hinv) as (_ & Atomic & _). intros H. apply map_ok_err in H. exact (Atomic _ H).
  - rewrite step_wrap. destruct (read_rr_facts r Hinv) as (_ & Atomic & _). intros H. apply map_ok_err in H. exact (Atomic _ H).
  - rewrite step_wrap. destruct (skip_rr_facts r Hinv) as (_ & Atomic & _). intros H. apply map_ok_err in H. exact (Atomic _ H).
  - unfold peek_rr. destruct (peek_core r); cbn; auto; discriminate.
  - unfold peek_rr. destruct (peek_core r) as [p|e'|] eqn:P; cbn [fst snd]; auto.
    rewrite step_wrap. destruct (peek_parse_facts r p Hinv P) as (_ & Atomic & _). intros H. apply map_ok_err in H. exact (Atomic _ H).
Qed.

Theorem step_inv r op : rinv r -> rinv (fst (step rd r op)).
Proof.
  intros Hinv. pose proof Hinv as (Hwf & H12 & Hc & Hm).
  destruct op; cbn [step fst]; auto.
  - unfold rd_mark, rinv; simpl. repeat split; auto. intros m E; inversion E; subst; auto.
  - unfold rd_rewind. destruct (r_mark r) as [m|] eqn:E; cbn [fst]; auto.
    unfold rinv; simpl. repeat split; auto. discriminate.
  - rewrite step_wrap. destruct (read_question_facts r Hinv) as (_ & _ & Inv & _). exact Inv.
  - rewrite step_wrap. destruct (skip_question_facts r Hinv) as (_ & _ & Inv). exact Inv.
  - rewrite step_wrap. destruct (read_rr_facts r Hinv) as (_ & _ & Inv & _). exact Inv.
  - rewrite step_wrap. destruct (skip_rr_facts r Hinv) as (_ & _ & Inv). exact Inv.
  - unfold peek_rr. destruct (peek_core_facts r Hinv) as [_ Hok].
    destruct (peek_core r) as [p|e|] eqn:P; cbn [fst]; auto.
    destruct (Hok p eq_refl) as (A & B & C). apply rinv_with_cursor; auto.
  - unfold peek_rr. destruct (peek_core r) as [p|e|] eqn:P; cbn [fst]; auto.
    rewrite step_wrap. destruct (peek_parse_facts r p Hinv P) as (_ & _ & Inv). exact Inv.
Qed.

Fixpoint run (r : reader) (ops : list rop) : reader * list (res reader_err rout) :=
  match ops with
  | [] => (r, [])
  | op :: rest =>
    let (r', o) := step rd r op in
    let (r'', os) := run r' rest in (r'', o :: os)
  end.

(* rewind is only issued when a mark is set (its documented precondition) *)
Fixpoint ops_ok (r : reader) (ops : list rop) : Prop :=
  match ops with
  | [] => True
  | op :: rest => op_ok r op /\ ops_ok (fst (step rd r op)) rest
  end.

Theorem run_total ops : forall r, rinv r -> ops_ok r ops ->
  rinv (fst (run r ops)) /\ Forall (fun o => o <> Panic) (snd (run r ops)).
Proof.
  induction ops as [|op rest IH]; intros r Hinv Hok; cbn [run].
  - split; [exact Hinv|constructor].
  - destruct Hok as [H1 H2].
    pose proof (step_total r op Hinv H1) as T. pose proof (step_inv r op Hinv) as I.
    destruct (step rd r op) as [r' o]. cbn [fst snd] in *.
    destruct (IH r' I H2) as [I2 F]. destruct (run r' rest) as [r'' os]. cbn [fst snd] in *.
    split; [exact I2|constructor; assumption].
Qed.

(* what PeekRr::parse returns is what read_rr would have returned at the same cursor *)

Theorem peek_consistent r rr : rinv r -> snd (read_rr rd r) = Ok rr ->
  exists p, peek_rr r = Ok p /\ peek_parse rd r p = read_rr rd r.
Proof.
  intros Hinv H. pose proof Hinv as (Hwf & H12 & Hc & Hm).
  unfold read_rr in *.
  destruct (parse_compressed_name (r_octets r) (r_cursor r)) as [[nm l]|e|] eqn:P; cbn [lift_name map_err bind] in *;
    try discriminate.
  pose proof (skip_agrees _ _ _ _ Hwf P) as SK.
  destruct (read_u16_from (r_octets r) (r_cursor r + l)) as [ty|e|] eqn:R1; cbn [bind] in *; try discriminate.
  destruct (read_u16_from (r_octets r) (r_cursor r + l + 2)) as [cl|e|] eqn:R2; cbn [bind] in *; try discriminate.
  destruct (read_u32_from (r_octets r) (r_cursor r + l + 4)) as [ttl|e|] eqn:R3; cbn [bind] in *; try discriminate.
  destruct (read_u16_from (r_octets r) (r_cursor r + l + 8)) as [rdlen|e|] eqn:R4; cbn [bind] in *; try discriminate.
  destruct (rd cl ty (r_octets r) (r_cursor r + l + 10) rdlen) as [rdata|e|] eqn:R5; cbn [map_err bind] in *;
    try discriminate.
  pose proof (rd_bounds _ _ _ _ _ _ R5) as B5.
  exists (mkPeek (r_cursor r + l) (r_cursor r + l + 10 + N.to_nat rdlen)). split.
  - unfold peek_rr, peek_core. destruct (Nat.ltb_spec (length (r_octets r)) (r_cursor r)); [lia|].
    rewrite SK. cbn [lift_name map_err bind]. rewrite (read_u16_get_of_read _ _ _ R4). cbn [bind].
    destruct (Nat.ltb_spec (length (r_octets r)) (r_cursor r + l + 10 + N.to_nat rdlen)); [lia|reflexivity].
  - unfold peek_parse, peek_owner, peek_class, peek_type, peek_rdlength, peek_ttl, peek_raw_ttl.
    cbn [p_owner_end p_rr_end]. rewrite P. cbn [lift_name map_err map_ok bind fst].
    rewrite (be16_at_of_read _ _ _ R2), (be16_at_of_read _ _ _ R1), (be16_at_of_read _ _ _ R4). cbn [bind].
    rewrite R5. cbn [map_err bind]. rewrite (be32_at_of_read _ _ _ R3). reflexivity.
Qed.

End WithRd.

(* the pre-fix skip_rr/peek_rr panicked *)
Example peek_prefix_panics :
  let msg := [0;0;0;0; 0;0;0;1; 0;0;0;0; 0]%N in      (* 13 octets, ANCOUNT = 1, root owner *)
  peek_core_prefix (mkReader msg 12 None) = Panic /\
  peek_core (mkReader msg 12 None) = Err UnexpectedEomInField.
Proof. split; vm_compute; reflexivity. Qed.
