(* Top-level refinement statements for the zone store: lookups (C06) *)
From QV Require Import Base.Res Base.Octets Base.ListX Gen.ZoneConsts Model.ZoneTree Spec.ZoneLookupS
  Proofs.ZoneBaseP Proofs.ZoneRrsetP Proofs.ZoneViewP Proofs.ZoneInvP Proofs.ZoneLookupP.

Fixpoint ssorted (l : list N) : Prop :=
  match l with
  | [] => True
  | x :: l' => Forall (fun y => (x < y)%N) l' /\ ssorted l'
  end.

Lemma ins_u_In x l y : In y (ins_u x l) <-> y = x \/ In y l.
Proof.
  induction l as [|z l IH]; simpl.
  - intuition.
  - destruct (x <? z)%N eqn:L; [simpl; intuition|].
    destruct (x =? z)%N eqn:E.
    + apply N.eqb_eq in E. subst z. simpl. intuition.
    + simpl. rewrite IH. intuition.
Qed.

Lemma ins_u_sorted x l : ssorted l -> ssorted (ins_u x l).
Proof.
  induction l as [|z l IH]; simpl; intros H.
  - split; auto.
  - destruct H as [F S]. destruct (x <? z)%N eqn:L.
    + apply N.ltb_lt in L. simpl. split; [|split; auto].
      constructor; auto. eapply Forall_impl; [|exact F]. simpl. intros; lia.
    + apply N.ltb_ge in L. destruct (x =? z)%N eqn:E; [simpl; auto|].
      apply N.eqb_neq in E. simpl. split; [|apply IH; auto].
      rewrite Forall_forall. intros y Hy. apply ins_u_In in Hy. destruct Hy as [->|Hy]; [lia|].
      rewrite Forall_forall in F. auto.
Qed.

Lemma sort_u_In l y : In y (sort_u l) <-> In y l.
Proof.
  induction l as [|x l IH]; simpl; [tauto|]. rewrite ins_u_In, IH. intuition.
Qed.

Lemma sort_u_sorted l : ssorted (sort_u l).
Proof. induction l as [|x l IH]; simpl; auto. apply ins_u_sorted. exact IH. Qed.

Section Top.
Variable req : N -> N -> bytes -> bytes -> bool.
Variable apex : name.
Variable cls : N.

Section AllRrsets.
Variable R : list record.
Variable m : name.

Let g (ty : N) : rrset_list := match spec_rrset req cls R m ty with Some rs => [rs] | None => [] end.

Lemma spec_rrset_some_type ty rs : spec_rrset req cls R m ty = Some rs -> In ty (types_at R m).
Proof.
  intros H. destruct (spec_rrset_inv req _ _ _ _ _ H) as (r0 & Hin & Ho & Ht & _).
  apply sort_u_In, in_map_iff. exists r0. split; [exact Ht|]. apply filter_In. split; [exact Hin|].
  apply name_eqb_eq, Ho.
Qed.

Lemma flat_lookup tys ty :
  rr_lookup ty (flat_map g tys) = if existsb (N.eqb ty) tys then spec_rrset req cls R m ty else None.
Proof.
  induction tys as [|a tys IH]; simpl; auto.
  unfold g at 1. destruct (spec_rrset req cls R m a) as [rs|] eqn:Sa; simpl.
  - rewrite (spec_rrset_type req cls R m a rs Sa).
    rewrite (N.eqb_sym ty a). destruct (a =? ty)%N eqn:E; simpl.
    + apply N.eqb_eq in E. subst a. symmetry. exact Sa.
    + exact IH.
  - rewrite IH. destruct (ty =? a)%N eqn:E; simpl; auto.
    apply N.eqb_eq in E. subst a. rewrite Sa. destruct (existsb (N.eqb ty) tys); reflexivity.
Qed.

Lemma flat_types tys x : In x (flat_map g tys) -> In (rs_type x) tys.
Proof.
  intros H. apply in_flat_map in H. destruct H as (ty & Hty & Hx). unfold g in Hx.
  destruct (spec_rrset req cls R m ty) as [rs|] eqn:S; [|destruct Hx].
  destruct Hx as [<-|[]]. rewrite (spec_rrset_type req cls R m ty rs S). exact Hty.
Qed.

Lemma flat_sorted tys : ssorted tys -> sorted_rr (flat_map g tys).
Proof.
  induction tys as [|a tys IH]; simpl; auto. intros [F S].
  unfold g at 1. destruct (spec_rrset req cls R m a) as [rs|] eqn:Sa; simpl; auto.
  split; auto. rewrite Forall_forall. intros x Hx. apply flat_types in Hx.
  rewrite (spec_rrset_type req cls R m a rs Sa). rewrite Forall_forall in F. auto.
Qed.

Lemma spec_rrsets_ok : rrsets_ok req cls R m (spec_rrsets req cls R m).
Proof.
  unfold spec_rrsets. fold g. split.
  - apply flat_sorted. apply sort_u_sorted.
  - intros ty. rewrite flat_lookup.
    destruct (existsb (N.eqb ty) (types_at R m)) eqn:E; auto.
    destruct (spec_rrset req cls R m ty) as [rs|] eqn:S; auto.
    apply spec_rrset_some_type in S.
    assert (existsb (N.eqb ty) (types_at R m) = true).
    { apply existsb_exists. exists ty. split; auto. apply N.eqb_refl. }
    congruence.
Qed.

Lemma rrsets_ok_unique d : rrsets_ok req cls R m d -> d = spec_rrsets req cls R m.
Proof.
  intros [S L]. destruct spec_rrsets_ok as [S' L'].
  apply sorted_rr_ext; auto. intros ty. rewrite L, L'. reflexivity.
Qed.

End AllRrsets.

Lemma in_zone_skipn qn : in_zone apex qn = true ->
  skipn (length qn - length apex) (lc qn) = lc apex.
Proof. intros Z. apply is_suffixb_skipn in Z. rewrite !lc_length in Z. exact Z. Qed.

Lemma spec_lookup_base_in R qn u sbc : in_zone apex qn = true ->
  spec_lookup_base req apex cls R qn u sbc =
    Some (spec_from req apex cls R (lc qn) (length qn - length apex) false sbc).
Proof.
  intros Z. unfold spec_lookup_base. rewrite Z. cbn [negb]. f_equal.
  unfold spec_from, spec_tail, path_below, tailc. rewrite lc_length, (in_zone_skipn qn Z). reflexivity.
Qed.

Lemma lookup_base_spec z R qn u sbc : Inv req apex cls z R ->
  (u = true -> in_zone apex qn = true) ->
  exists b s, lookup_base z qn u sbc = Ok b /\
              spec_lookup_base req apex cls R qn u sbc = Some s /\
              base_rel req cls R b s.
Proof.
  intros HI Hu. unfold lookup_base. rewrite (Inv_name _ _ _ _ _ HI), eq_or_subdomain_of_in_zone.
  destruct (in_zone apex qn) eqn:Z.
  - rewrite andb_false_r.
    destruct (in_zone_descent apex qn Z) as [Hla _].
    unfold name_len. rewrite usub_ok by lia. cbn [bind].
    replace (S (length qn) - S (length apex)) with (length qn - length apex) by lia.
    rewrite (spec_lookup_base_in R qn u sbc Z).
    destruct (lookup_impl_spec req apex cls R qn sbc (length qn - length apex) (z_apex z) [] true)
      as (b & Hb & Hrel); [lia|intros p; apply (Inv_node _ _ _ _ _ p HI)|symmetry; apply in_zone_skipn; exact Z|discriminate|].
    exists b. eexists. split; [exact Hb|]. split; [reflexivity|exact Hrel].
  - destruct u; [specialize (Hu eq_refl); discriminate|]. simpl.
    exists BWrongZone, SWrongZone. split; [reflexivity|]. split; [|exact I].
    unfold spec_lookup_base. rewrite Z. reflexivity.
Qed.

Lemma single_of_lookup R m ty d : rrsets_ok req cls R m d ->
  single_of req cls R m ty = option_map to_single (rr_lookup ty d).
Proof.
  intros [_ L]. unfold single_of. rewrite L. destruct (spec_rrset req cls R m ty); reflexivity.
Qed.

(* each lookup selects its answer from lookup_base's, and its specification from spec_lookup_base's *)
Lemma refines_via_base {A} (sel : base_result -> A) (ssel : spec_base -> A) (norm : A -> A) z R qn u sbc :
  Inv req apex cls z R -> (u = true -> in_zone apex qn = true) ->
  (forall b s, base_rel req cls R b s -> ssel s = norm (sel b)) ->
  exists r, (let* b := lookup_base z qn u sbc in Ok (sel b)) = Ok r /\
            match spec_lookup_base req apex cls R qn u sbc with
            | None => None
            | Some s => Some (ssel s)
            end = Some (norm r).
Proof.
  intros HI Hu H. destruct (lookup_base_spec z R qn u sbc HI Hu) as (b & s & -> & -> & Hrel).
  exists (sel b). split; [reflexivity|]. f_equal. apply H, Hrel.
Qed.

Theorem zone_lookup_refines z R qn ty u sbc : Inv req apex cls z R ->
  (u = true -> in_zone apex qn = true) ->
  exists r, zone_lookup z qn ty u sbc = Ok r /\
            spec_lookup req apex cls R qn ty u sbc = Some (norm_lookup r).
Proof.
  intros HI Hu. apply (refines_via_base _ _ norm_lookup z R qn u sbc HI Hu).
  intros [data sos|c ns| |] [m sos'|c'| |] Hrel; simpl in Hrel; try contradiction; try reflexivity.
  - destruct Hrel as [Hok <-].
    rewrite (single_of_lookup R m ty data Hok), (single_of_lookup R m 5%N data Hok).
    change TYPE_CNAME with 5%N.
    destruct (rr_lookup ty data); simpl; auto.
    destruct (rr_lookup 5 data); reflexivity.
  - destruct Hrel as [<- <-]. reflexivity.
Qed.

Theorem zone_lookup_addrs_refines z R qn u sbc : Inv req apex cls z R ->
  (u = true -> in_zone apex qn = true) ->
  exists r, zone_lookup_addrs z qn u sbc = Ok r /\
            spec_lookup_addrs req apex cls R qn u sbc = Some (norm_addrs r).
Proof.
  intros HI Hu. apply (refines_via_base _ _ norm_addrs z R qn u sbc HI Hu).
  rewrite (Inv_class _ _ _ _ _ HI).
  intros [data sos|c ns| |] [m sos'|c'| |] Hrel; simpl in Hrel; try contradiction; try reflexivity.
  - destruct Hrel as [Hok <-].
    rewrite (single_of_lookup R m 1%N data Hok), (single_of_lookup R m 28%N data Hok).
    reflexivity.
  - destruct Hrel as [<- <-]. reflexivity.
Qed.

Theorem zone_lookup_all_refines z R qn u sbc : Inv req apex cls z R ->
  (u = true -> in_zone apex qn = true) ->
  exists r, zone_lookup_all z qn u sbc = Ok r /\
            spec_lookup_all req apex cls R qn u sbc = Some (norm_all r).
Proof.
  intros HI Hu. apply (refines_via_base _ _ norm_all z R qn u sbc HI Hu).
  intros [data sos|c ns| |] [m sos'|c'| |] Hrel; simpl in Hrel; try contradiction; try reflexivity.
  - destruct Hrel as [Hok <-]. simpl. rewrite (rrsets_ok_unique R m data Hok). reflexivity.
  - destruct Hrel as [<- <-]. reflexivity.
Qed.

End Top.

Lemma lookup_impl_names level : forall t nm nm' sbc at_apex,
  (forall l, l < level -> name_index nm l = name_index nm' l) ->
  lookup_impl level t nm sbc at_apex = lookup_impl level t nm' sbc at_apex.
Proof.
  induction level as [|l IH]; intros t nm nm' sbc at_apex H; rewrite !(lookup_impl_unfold _ t); auto.
  destruct (if negb at_apex && negb sbc then rr_lookup TYPE_NS (node_data t) else None); auto.
  rewrite (H l) by lia. destruct (name_index nm' l) as [lab| |]; simpl; auto.
  destruct (find_child lab (node_children t)); auto.
Qed.

Lemma nth_error_firstn_lt {A} (l : list A) n k : k < n -> nth_error (firstn n l) k = nth_error l k.
Proof.
  revert n k; induction l as [|x l IH]; intros n k H.
  - rewrite firstn_nil. reflexivity.
  - destruct n; [lia|]. destruct k; simpl; auto. apply IH. lia.
Qed.

Lemma lookup_base_unchecked_outside z qn sbc :
  (length qn < length (zone_name z) -> lookup_base z qn true sbc = Panic) /\
  (length (zone_name z) <= length qn ->
   lookup_base z qn true sbc =
   lookup_base z (firstn (length qn - length (zone_name z)) qn ++ zone_name z) true sbc).
Proof.
  unfold lookup_base. cbn [negb andb]. split; intros H.
  - unfold usub, name_len. destruct (S (length (zone_name z)) <=? S (length qn)) eqn:E; auto.
    apply Nat.leb_le in E. lia.
  - unfold name_len. rewrite !usub_ok by (try rewrite app_length, firstn_length; lia). cbn [bind].
    rewrite app_length, firstn_length.
    replace (S (Nat.min (length qn - length (zone_name z)) (length qn) + length (zone_name z)) - S (length (zone_name z)))
      with (S (length qn) - S (length (zone_name z))) by lia.
    apply lookup_impl_names. intros l Hl. unfold name_index.
    rewrite nth_error_app1 by (rewrite firstn_length; lia).
    rewrite nth_error_firstn_lt by lia.
    destruct (nth_error qn l) eqn:E; auto. apply nth_error_None in E. lia.
Qed.

Section Final.
Variable req : N -> N -> bytes -> bytes -> bool.
Hypothesis req_trans : forall cls ty a b c,
  req cls ty a b = true -> req cls ty b c = true -> req cls ty a c = true.

Lemma build_total apex cls wide recs :
  exists z, zone_build req (zone_new apex cls wide) recs = Some z.
Proof. destruct (zone_build_new req req_trans apex cls recs wide) as (z & H & _). eauto. Qed.

Lemma build_inv apex cls wide recs z : zone_build req (zone_new apex cls wide) recs = Some z ->
  Inv req apex cls z (accepted apex cls recs).
Proof.
  intros H. apply (zone_build_new_inv req req_trans apex cls recs wide z H).
Qed.

Lemma build_inv_sp apex cls wide recs z : zone_build req (zone_new apex cls wide) recs = Some z ->
  Inv_sp apex z (accepted apex cls recs).
Proof. intros H. apply (zone_build_new_inv req req_trans apex cls recs wide z H). Qed.

Lemma build_lookup_refines apex cls wide recs z qn ty u sbc :
  zone_build req (zone_new apex cls wide) recs = Some z ->
  (u = true -> in_zone apex qn = true) ->
  exists r, zone_lookup z qn ty u sbc = Ok r /\
            spec_lookup req apex cls (accepted apex cls recs) qn ty u sbc = Some (norm_lookup r).
Proof. intros H. apply zone_lookup_refines. eapply build_inv; eauto. Qed.

Lemma build_lookup_addrs_refines apex cls wide recs z qn u sbc :
  zone_build req (zone_new apex cls wide) recs = Some z ->
  (u = true -> in_zone apex qn = true) ->
  exists r, zone_lookup_addrs z qn u sbc = Ok r /\
            spec_lookup_addrs req apex cls (accepted apex cls recs) qn u sbc = Some (norm_addrs r).
Proof. intros H. apply zone_lookup_addrs_refines. eapply build_inv; eauto. Qed.

Lemma build_lookup_all_refines apex cls wide recs z qn u sbc :
  zone_build req (zone_new apex cls wide) recs = Some z ->
  (u = true -> in_zone apex qn = true) ->
  exists r, zone_lookup_all z qn u sbc = Ok r /\
            spec_lookup_all req apex cls (accepted apex cls recs) qn u sbc = Some (norm_all r).
Proof. intros H. apply zone_lookup_all_refines. eapply build_inv; eauto. Qed.

End Final.

Lemma unchecked_outside z qn ty sbc :
  (length qn < length (zone_name z) ->
     zone_lookup z qn ty true sbc = Panic /\ zone_lookup_addrs z qn true sbc = Panic /\
     zone_lookup_all z qn true sbc = Panic) /\
  (length (zone_name z) <= length qn ->
     let qn' := firstn (length qn - length (zone_name z)) qn ++ zone_name z in
     zone_lookup z qn ty true sbc = zone_lookup z qn' ty true sbc /\
     zone_lookup_addrs z qn true sbc = zone_lookup_addrs z qn' true sbc /\
     zone_lookup_all z qn true sbc = zone_lookup_all z qn' true sbc).
Proof.
  destruct (lookup_base_unchecked_outside z qn sbc) as [H1 H2].
  unfold zone_lookup, zone_lookup_addrs, zone_lookup_all. split; intros H.
  - rewrite (H1 H). auto.
  - cbv zeta. rewrite (H2 H). auto.
Qed.

(* req_simple, the instance the C04/C05/server runners use, satisfies the hypothesis of the theorems *)
Lemma req_simple_trans cls ty a b c :
  req_simple cls ty a b = true -> req_simple cls ty b c = true -> req_simple cls ty a c = true.
Proof.
  unfold req_simple. destruct (is_name_type ty); rewrite !bytes_eqb_eq; congruence.
Qed.
