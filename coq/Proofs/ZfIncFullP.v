(* C25 — the include machine instantiated with the full zone-file parser (Model/ZfParser.v): the spec's
   per-file budget always suffices, nothing panics, every record yielded through any nesting of includes
   is valid (C24's predicate), and the explicit form of what crosses an include boundary. *)
From QV Require Import Model.ZfParser Spec.ZfValidS Proofs.ZfReaderP Proofs.ZfParserP Proofs.ZfRecordP
  Model.ZfFs Spec.ZfFsS Model.ZfInc Spec.ZfIncS Proofs.ZfIncP.

Notation zctx := ZfParser.ctx.

Definition rec_ok (r : rr) : Prop :=
  good_name (rr_owner r) /\ type_allowed (rr_type r) /\
  rdata_validate (rr_class r) (rr_type r) (rr_rdata r) = Ok true.
Definition fitem_ok (it : full_item) : Prop := rec_ok (snd it).

(* "the includer path has been successfully opened ..., so this should be a safe assumption"
   (comment of compute_path): the path has a parent *)
Definition has_parent (p : path) : Prop := path_parent p <> None.

Lemma of_to_fctx (c : zctx) : of_fctx (to_fctx c) = c.
Proof. destruct c; reflexivity. Qed.
Lemma to_of_fctx (c : fctx) : to_fctx (of_fctx c) = c.
Proof. destruct c; reflexivity. Qed.

Lemma full_size_measure s : ps_error s = false -> measure s = full_size (FP s).
Proof. intros H. unfold measure, full_size. rewrite H. reflexivity. Qed.

Definition finv (s : fparser) : Prop :=
  match s with
  | FP p => pinv p /\ ps_error p = false
  | FUnreadable c => ctx_ok c
  end.

Lemma full_pnext_spec s : finv s ->
  match full_pnext s with
  | PNone _ _ _ _ _ s' => finv s'
  | PErr _ _ _ _ _ _ => True
  | PRec _ _ _ _ _ _ r s' => rec_ok r /\ finv s' /\ full_size s' < full_size s
  | PInc _ _ _ _ _ _ _ o s' => origin_ok o /\ finv s' /\ full_size s' < full_size s
  | PAbort _ _ _ _ _ _ => False
  end.
Proof.
  destruct s as [s|c]; [|intros _; exact I]. intros [Hi He].
  destruct (next_spec s Hi He) as (o & s' & Hn & Hi' & Ho).
  unfold full_pnext. rewrite Hn. destruct o as [[l|e]|].
  - destruct Ho as (Hl & He' & Hm). rewrite !full_size_measure in Hm by assumption.
    unfold line_ok in Hl. destruct (l_content l) as [ip o|r]; cbn [finv full_size].
    + auto.
    + split; [exact Hl|]. auto.
  - exact I.
  - split; assumption.
Qed.

Lemma finv_full_pnew o c : ctx_ok (of_fctx c) -> finv (full_pnew o c).
Proof.
  intros H. destruct o as [content|]; cbn; [|exact H].
  split; [|reflexivity]. split; [unfold wfr; cbn; lia|exact H].
Qed.

Lemma finv_ctx s : finv s -> ctx_ok (of_fctx (full_pctx s)).
Proof. destruct s as [p|c]; cbn; rewrite of_to_fctx; [intros [[_ H] _]; exact H|auto]. Qed.

Lemma finv_full_pwith s c : finv s -> ctx_ok (of_fctx c) -> finv (full_pwith s c) /\ full_size (full_pwith s c) = full_size s.
Proof.
  destruct s as [p|c0]; cbn; [|auto]. intros [[Hr _] He] Hc.
  split; [split; [split; [exact Hr|exact Hc]|exact He]|reflexivity].
Qed.

Lemma ctx_ok_start (c : fctx) o : ctx_ok (of_fctx c) -> origin_ok o ->
  ctx_ok (of_fctx (start_ctx _ _ _ _ c o)).
Proof. intros [H1 H2] Ho. destruct o; split; assumption. Qed.

Lemma ctx_ok_resume (c cend : fctx) : ctx_ok (of_fctx c) -> ctx_ok (of_fctx cend) ->
  ctx_ok (of_fctx (resume_ctx _ _ _ _ c cend)).
Proof. intros [H1 _] [_ H2]. split; assumption. Qed.

Lemma compute_path_parent p ip : has_parent p -> exists newp, compute_path p ip = Some newp.
Proof. unfold has_parent, compute_path. destruct (path_parent p); [eauto|congruence]. Qed.

Section Full.
  Variable fs : path -> option fobj.
  (* every file that can be opened has a parent directory (each opened file becomes an includer in turn) *)
  Hypothesis fs_parent : forall p c, fs p = Some c -> has_parent p.

  Notation fexpand := (full_expand fs).

  Definition out_ok (o : goutcome name name N N ferr N) : Prop :=
    match o with
    | GCtx _ _ _ _ _ _ cend => ctx_ok (of_fctx cend)
    | GBad _ _ _ _ _ _ _ _ => True
    | GAbort _ _ _ _ _ _ _ => False
    | GFuel _ _ _ _ _ _ => False
    end.

  Lemma full_size_pos s : 1 <= full_size s.
  Proof. destruct s; cbn; lia. Qed.

  (* the budget that suffices is the file's unread octets + 1 ([full_size]): the + 1 pays for the last
     call, which returns None *)
  Lemma full_expand_ok : forall d chain p k s,
    finv s -> full_size s <= k -> has_parent p ->
    Forall fitem_ok (fst (fexpand d chain p k s)) /\ out_ok (snd (fexpand d chain p k s)).
  Proof.
    induction d as [d IHd] using lt_wf_ind. intros chain p.
    induction k as [|k IHk]; intros s Hi Hk Hp; [pose proof (full_size_pos s); lia|].
    unfold full_expand. rewrite gexpand_S. fold (full_expand fs).
    pose proof (full_pnext_spec s Hi) as Hs.
    destruct (full_pnext s) as [s'|e|n r s'|n ip org s'|a]; cbn [fst snd].
    - split; [constructor|]. apply finv_ctx, Hs.
    - split; [constructor|exact I].
    - destruct Hs as (Hr & Hi' & Hm). destruct (IHk s' Hi') as [IH1 IH2]; [lia|exact Hp|].
      destruct (fexpand d chain p k s') as [it o]. split; [constructor; [exact Hr|exact IH1]|exact IH2].
    - destruct d as [|d]; [split; [constructor|exact I]|].
      destruct Hs as (Ho & Hi' & Hm). apply finv_ctx in Hi' as Hc'.
      destruct (compute_path_parent p ip Hp) as [newp ->].
      destruct (fs newp) as [content|] eqn:Hf; [|split; [constructor|exact I]].
      cbv zeta. set (child := full_pnew content (start_ctx _ _ _ _ (full_pctx s') org)).
      destruct (IHd d (Nat.lt_succ_diag_r d) (chain ++ [(p, n)]) newp (S (full_size child)) child) as [Hc1 Hc2];
        [apply finv_full_pnew, ctx_ok_start; assumption|lia|exact (fs_parent _ _ Hf)|].
      destruct (fexpand d (chain ++ [(p, n)]) newp (S (full_size child)) child) as [it [cend|bp be|a|]];
        try contradiction; [|split; [exact Hc1|exact I]].
      destruct (finv_full_pwith s' _ Hi' (ctx_ok_resume _ _ Hc' Hc2)) as [Hi2 Hsz2].
      destruct (IHk _ Hi2) as [IH1 IH2]; [lia|exact Hp|].
      destruct (fexpand (S d) chain p k _) as [it' o'].
      split; [apply Forall_app; split; [exact Hc1|exact IH1]|exact IH2].
    - contradiction.
  Qed.

  Variable max_depth : nat.
  Variables (p0 : path) (o0 : fobj).
  Hypothesis root_parent : has_parent p0.

  Notation items0 := (fst (full_expand_root fs max_depth p0 o0)).
  Notation out0 := (snd (full_expand_root fs max_depth p0 o0)).

  Lemma full_root_ok : Forall fitem_ok items0 /\ out_ok out0.
  Proof.
    unfold full_expand_root. apply full_expand_ok; [|lia|exact root_parent].
    unfold full_root. apply finv_full_pnew. split; intros n H; discriminate.
  Qed.

  Lemma full_root_budget : out0 <> GFuel _ _ _ _ _ _.
  Proof. intros E. pose proof full_root_ok as [_ H]. rewrite E in H. exact H. Qed.

  (* [run_eq_gexpand] for the zone-file parser, its budget hypothesis discharged by [full_root_budget] *)
  Theorem full_run_eq_expand :
    exists f0, forall fuel, f0 <= fuel ->
      full_run fs max_depth fuel [(p0, 0%N, full_root o0)] =
      (items0, gfinal_of _ _ _ _ _ _ out0).
  Proof. apply run_eq_gexpand, full_root_budget. Qed.

  Theorem full_run_any_fuel fuel :
    snd (full_run fs max_depth fuel [(p0, 0%N, full_root o0)]) <> FOutOfFuel _ _ ->
    full_run fs max_depth fuel [(p0, 0%N, full_root o0)] = (items0, gfinal_of _ _ _ _ _ _ out0).
  Proof. apply run_any_fuel, full_root_budget. Qed.
End Full.

(* What crosses an include boundary, in the fields of zone_file::Context: the state the included file
   starts in, the state the includer resumes in, and the expansion step written with both. *)
Lemma full_child_start content (s' : parser) (org : option name) :
  full_pnew (FFile content) (start_ctx _ _ _ _ (full_pctx (FP s')) org) =
  FP (mkParser false (rd_new content)
        (mkCtx (match org with Some o => Some o | None => ZfParser.c_origin (ps_ctx s') end)
               (c_prev_owner (ps_ctx s')) (c_prev_ttl (ps_ctx s')) (c_prev_class (ps_ctx s'))
               (c_default_ttl (ps_ctx s')))).
Proof. destruct org; reflexivity. Qed.

Lemma full_includer_resume (s' : parser) (cend : fctx) :
  full_pwith (FP s') (resume_ctx _ _ _ _ (full_pctx (FP s')) cend) =
  FP (mkParser (ps_error s') (ps_rd s')
        (mkCtx (ZfParser.c_origin (ps_ctx s'))
               (c_owner _ _ _ _ cend) (c_ttl _ _ _ _ cend) (c_class _ _ _ _ cend) (c_dttl _ _ _ _ cend))).
Proof. reflexivity. Qed.

Lemma full_expand_include fs d chain p k s n ip org s' newp content :
  full_pnext s = PInc _ _ _ _ _ n ip org (FP s') -> compute_path p ip = Some newp -> fs newp = Some (FFile content) ->
  full_expand fs (S d) chain p (S k) s =
  (let child := FP (mkParser false (rd_new content)
                  (mkCtx (match org with Some o => Some o | None => ZfParser.c_origin (ps_ctx s') end)
                         (c_prev_owner (ps_ctx s')) (c_prev_ttl (ps_ctx s')) (c_prev_class (ps_ctx s'))
                         (c_default_ttl (ps_ctx s')))) in
   let '(it, o) := full_expand fs d (chain ++ [(p, n)]) newp (S (full_size child)) child in
   match o with
   | GCtx _ _ _ _ _ _ cend =>
       let '(it', o') := full_expand fs (S d) chain p k
                           (FP (mkParser (ps_error s') (ps_rd s')
                              (mkCtx (ZfParser.c_origin (ps_ctx s')) (c_owner _ _ _ _ cend) (c_ttl _ _ _ _ cend)
                                     (c_class _ _ _ _ cend) (c_dttl _ _ _ _ cend)))) in
       (it ++ it', o')
   | bad => (it, bad)
   end).
Proof.
  intros H1 H2 H3. unfold full_expand. rewrite gexpand_S, H1, H2, H3. cbv zeta. rewrite full_child_start.
  destruct (gexpand _ _ _ _ _ _ _ _ _ _ _ _ _ _ _ d _ _ _ _) as [it [cend|bp be|a|]]; reflexivity.
Qed.

Lemma full_pnext_inc_fp s n ip org s' : full_pnext s = PInc _ _ _ _ _ n ip org s' -> exists q, s' = FP q.
Proof.
  destruct s as [p|c]; cbn; [|discriminate].
  destruct (parser_next p) as [[[[l|e]|] p']|e|]; try discriminate.
  destruct (l_content l); [|discriminate]. intros [= _ _ _ <-]. eauto.
Qed.

(* an $INCLUDE naming a directory: File::open succeeds, the first read fails; reported as the
   per-file parser's I/O error against the directory's path, nothing of the includer resumes *)
Lemma full_expand_include_dir fs d chain p k s n ip org s' newp :
  full_pnext s = PInc _ _ _ _ _ n ip org s' -> compute_path p ip = Some newp -> fs newp = Some FDir ->
  full_expand fs (S d) chain p (S k) s = ([], GBad _ _ _ _ _ _ newp (ISyntax _ _ EIo)).
Proof.
  intros H1 H2 H3. unfold full_expand. rewrite gexpand_S, H1, H2, H3. cbv zeta. cbn [full_pnew full_size].
  rewrite gexpand_S. reflexivity.
Qed.

(* the totality / validity statement with the record predicate spelled out as in C24 *)
Theorem full_run_total_valid fs max_depth p0 o0 :
  (forall p c, fs p = Some c -> has_parent p) -> has_parent p0 ->
  exists f0, forall fuel, f0 <= fuel ->
    exists items,
      (full_run fs max_depth fuel [(p0, 0%N, full_root o0)] = (items, FDone _ _) \/
       exists p e, full_run fs max_depth fuel [(p0, 0%N, full_root o0)] = (items, FBad _ _ p e)) /\
      Forall (fun it : full_item =>
                good_name (rr_owner (snd it)) /\ ~ In (rr_type (snd it)) forbidden_types /\
                rdata_validate (rr_class (snd it)) (rr_type (snd it)) (rr_rdata (snd it)) = Ok true) items.
Proof.
  intros Hfs Hp. destruct (full_run_eq_expand fs Hfs max_depth p0 o0 Hp) as [f0 H].
  exists f0. intros fuel Hf. rewrite (H fuel Hf).
  destruct (full_root_ok fs Hfs max_depth p0 o0 Hp) as [H1 H2]. eexists. split.
  - destruct (snd (full_expand_root fs max_depth p0 o0)); cbn in H2 |- *; try contradiction; eauto.
  - eapply Forall_impl; [|exact H1]. intros it (A & B & C). auto using type_allowed_forbidden.
Qed.
