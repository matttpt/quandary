(* Components laid out in a message: every name component as ANY encoding (compressed or not)
   that decodes, by the RFC 1035 §4.1.4 relation, to labels with that name's wire form; every
   other component verbatim.  The RDATA itself, anywhere in a message, is such a lay-out; that
   Rdata::read over a lay-out returns the RDATA is proved in RdataCompCiP.v. *)
From QV Require Import Base.ListX Model.NameWire Spec.NameWireS Spec.NameRepr Proofs.NameWireP
  Proofs.NameWireSP Model.RdataM Spec.RdataFormatS Spec.RdataCompS Proofs.RdNameP
  Proofs.RdataFormatSP Proofs.RdataVP Proofs.RdataRP Proofs.RdataWP Proofs.RdataCompP.
Local Open Scope nat_scope.

(* the writer's obligation, component by component; the RDATA occupies msg[pos..e] *)
Inductive laid_out (msg : bytes) (e : nat) : nat -> list component -> Prop :=
| lo_nil : laid_out msg e e []
| lo_name pos cb nm ls l rest :
    n_wire nm = wire_of ls -> decodes_name (firstn e msg) pos ls l ->
    laid_out msg e (pos + l) rest ->
    laid_out msg e pos (CName cb nm :: rest)
| lo_other pos b rest :
    pos + length b <= e -> slice msg pos (pos + length b) = b ->
    laid_out msg e (pos + length b) rest ->
    laid_out msg e pos (COther b :: rest).

Lemma firstn_slice {A} (l : list A) a b n : a + n <= b -> firstn n (slice l a b) = slice l a (a + n).
Proof.
  intros H. unfold slice. rewrite firstn_firstn. replace (Nat.min n (b - a)) with n by lia.
  replace (a + n - a) with n by lia. reflexivity.
Qed.

Lemma skipn_slice {A} (l : list A) a b n : skipn n (slice l a b) = slice l (a + n) b.
Proof.
  unfold slice. rewrite skipn_firstn_comm, skipn_plus. f_equal. lia.
Qed.

Lemma nameless_cmatches msg e : forall g r pos, simple g = true -> existsb is_FName g = false ->
  smatch g r = true -> pos + length r = e -> slice msg pos e = r -> cmatches msg e pos g r.
Proof.
  induction g as [|f g IH]; intros r pos Sg Ng M Hl Hs.
  - rewrite smatch_nil in M. destruct r; [|discriminate]. simpl in Hl. replace pos with e by lia. constructor.
  - cbn [simple forallb] in Sg. apply andb_true_iff in Sg. destruct Sg as [Sf Sg].
    cbn [existsb] in Ng. apply orb_false_iff in Ng. destruct Ng as [Nf Ng].
    destruct f; try discriminate.
    rewrite smatch_bytes in M. apply andb_true_iff in M. destruct M as [K M]. apply Nat.leb_le in K.
    rewrite <- (firstn_skipn n r).
    replace (firstn n r) with (slice msg pos (pos + n)) by (rewrite <- Hs, firstn_slice by lia; reflexivity).
    apply cm_bytes; [lia|].
    apply IH; auto.
    + rewrite skipn_length. lia.
    + rewrite <- Hs, skipn_slice. reflexivity.
Qed.

Lemma simple_tail f g : simple (f :: g) = true -> simple g = true.
Proof. cbn [simple forallb]. intros H. apply andb_true_iff in H. apply H. Qed.

Lemma slice_app_split {A} (l x b : list A) pos : slice l pos (pos + length (x ++ b)) = x ++ b ->
  slice l pos (pos + length x) = x /\ slice l (pos + length x) (pos + length x + length b) = b.
Proof.
  rewrite app_length, Nat.add_assoc. intros H. split.
  - apply (f_equal (firstn (length x))) in H.
    rewrite firstn_slice, firstn_app_exact in H by (reflexivity || lia). exact H.
  - apply (f_equal (skipn (length x))) in H.
    rewrite skipn_slice, skipn_app_exact in H by reflexivity. exact H.
Qed.

Lemma lo_peel msg e pos x comps comps' : peel x comps comps' -> laid_out msg e pos comps ->
  pos + length x <= e /\ slice msg pos (pos + length x) = x /\ laid_out msg e (pos + length x) comps'.
Proof.
  intros [->|(b & tl & -> & ->)] LO; inversion LO as [| |pos' b' rest Hle Hsl LO' E1 E2]; subst; [auto|].
  destruct (slice_app_split _ _ _ _ Hsl) as [H1 H2]. rewrite app_length, Nat.add_assoc in *.
  split; [lia|]. split; [exact H1|]. apply lo_other; assumption.
Qed.

Lemma firstn_slice_app {A} (l : list A) pos e : pos <= e -> firstn e l = firstn pos l ++ slice l pos e.
Proof. intros H. unfold slice. rewrite <- firstn_plus. f_equal. lia. Qed.

(* [laid_out] is satisfiable for every RDATA whose components exist: the RDATA itself,
   anywhere in a message (every name uncompressed), is a lay-out of its components. *)
Lemma laid_out_slice : forall types r comps msg e pos,
  e <= length msg -> pos + length r = e -> slice msg pos e = r ->
  comp_collect types r = Ok comps -> laid_out msg e pos comps.
Proof.
  induction types as [|ty rest IH]; intros r comps msg e pos He Hl Hs C.
  - rewrite comp_collect_nil in C. injection C as <-. destruct r as [|x r'].
    + simpl in Hl. replace pos with e by lia. constructor.
    + apply lo_other; rewrite Hl; [lia|exact Hs|constructor].
  - assert (Next : forall k tl, k <= length r -> comp_collect rest (skipn k r) = Ok tl ->
                     laid_out msg e (pos + k) tl).
    { intros k tl Hk C'. apply (IH (skipn k r)); auto; [rewrite skipn_length; lia|].
      rewrite <- Hs, skipn_slice. reflexivity. }
    destruct (ck_of ty) as [cb|n] eqn:K.
    + rewrite (comp_collect_name ty cb) in C by exact K.
      destruct (name_step_inv _ _ _ _ C) as (ls & tl & D & C' & ->).
      destruct (decode0_facts _ _ _ D) as (Hv & _ & Hr & _ & L).
      apply (lo_name _ _ pos cb _ ls (wire_len ls)); [reflexivity| |apply Next; assumption].
      rewrite (firstn_slice_app msg pos e), Hs, Hr by lia.
      exists (pos + wire_len ls). split; [|split; [lia|apply Hv]].
      pose proof (decodes_of_wire ls (proj1 Hv) (firstn pos msg) (skipn (wire_len ls) r) pos) as X.
      rewrite firstn_length_le in X by lia. exact X.
    + apply ck_of_fixed in K. subst ty. destruct (comp_collect_fixed_inv _ _ _ _ C) as (B & tl & C' & ->).
      assert (Lf : length (firstn n r) = n) by (apply firstn_length_le; exact B).
      apply lo_other; rewrite Lf; [lia| |apply Next; assumption].
      rewrite <- Hs, firstn_slice by lia. reflexivity.
Qed.

Theorem laid_out_uncompressed c t r comps pre post : wf_bytes r ->
  components c t r = Ok comps ->
  laid_out (pre ++ r ++ post) (length pre + length r) (length pre) comps.
Proof.
  intros Hwf C. unfold components in C.
  eapply laid_out_slice; [ |reflexivity| |exact C]; [rewrite !app_length; lia|].
  apply slice_app_mid; reflexivity.
Qed.
