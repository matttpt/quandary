(* The anchor invariant of C13 in a form that survives RDLENGTH back-patching and header writes.

   [S] is the (ghost) set of label starts of the names written so far.  [closed b lo c h S] says
   that S is closed under the decoding step and that every decoding step from a member of S reads
   only octets in [lo, c) outside the two-octet hole [h, h+2) -- the RDLENGTH field of the record
   being written (h >= c: no hole).  Decoding from a member of S therefore never looks at the
   header, at octets at or above c, or at the hole, and is unaffected by writes there. *)
From QV Require Import Base.ListX Model.MsgWriter Spec.NameWireS Proofs.NameWireP Proofs.MsgWriterP.

Local Open Scope nat_scope.

Definition okr (lo c h a e : nat) : Prop := lo <= a /\ e <= c /\ (e <= h \/ h + 2 <= a).

Definition ptr_step (b : bytes) (lo c h : nat) (S : nat -> Prop) (p : nat) : Prop :=
  exists hi l, nth_error b p = Some hi /\ is_pointer_octet hi = true /\ nth_error b (p + 1) = Some l /\
    okr lo c h p (p + 2) /\ ptr_target hi l < p /\ S (ptr_target hi l) /\ (hi < 256)%N.

Definition nextok (b : bytes) (lo c h : nat) (S : nat -> Prop) (p : nat) : Prop :=
  S p \/ ptr_step b lo c h S p.

Definition local_ok (b : bytes) (lo c h : nat) (S : nat -> Prop) (s : nat) : Prop :=
  exists x, nth_error b s = Some x /\ (x <= 63)%N /\ okr lo c h s (s + 1 + N.to_nat x) /\
            (x <> 0%N -> nextok b lo c h S (s + 1 + N.to_nat x)).

Definition closed (b : bytes) (lo c h : nat) (S : nat -> Prop) : Prop :=
  forall s, S s -> local_ok b lo c h S s.

Definition decodable (b : bytes) (c : nat) (S : nat -> Prop) : Prop :=
  forall s, S s -> exists ls, name_at b c s ls.

(* agreement of two buffers on the readable region *)
Definition ragree (lo c h : nat) (b b' : bytes) : Prop :=
  forall j, lo <= j -> j < c -> (j < h \/ h + 2 <= j) -> nth_error b' j = nth_error b j.

Lemma okr_mono lo c h a e c' : okr lo c h a e -> c <= c' -> okr lo c' h a e.
Proof. unfold okr. lia. Qed.

Lemma okr_rehole lo c h a e h2 : okr lo c h a e -> c <= h2 -> okr lo c h2 a e.
Proof. unfold okr. lia. Qed.

(* the set may grow, and the readable region may change as long as every allowed range stays allowed *)
Lemma local_mono b lo c h (S S' : nat -> Prop) s c' h' : (forall s, S s -> S' s) ->
  (forall a e, okr lo c h a e -> okr lo c' h' a e) ->
  local_ok b lo c h S s -> local_ok b lo c' h' S' s.
Proof.
  intros HS Ho [x [H1 [H2 [H3 H4]]]]. exists x. do 3 (split; [auto|]).
  intros Hx. destruct (H4 Hx) as [K|(hi & l & K1 & K2 & K3 & K4 & K5 & K6 & K7)]; [left; auto|right].
  exists hi, l. auto 10.
Qed.

Lemma closed_mono_c b lo c h S c' : closed b lo c h S -> c <= c' -> closed b lo c' h S.
Proof. intros H Hc s Hs. apply (local_mono b lo c h S S s); auto. intros a e O. eapply okr_mono; eauto. Qed.

Lemma closed_rehole b lo c h S h2 : closed b lo c h S -> c <= h2 -> closed b lo c h2 S.
Proof. intros H Hc s Hs. apply (local_mono b lo c h S S s); auto. intros a e O. eapply okr_rehole; eauto. Qed.

Lemma closed_equiv b lo c h (S S' : nat -> Prop) : (forall s, S s <-> S' s) -> closed b lo c h S ->
  closed b lo c h S'.
Proof. intros E H s Hs. apply E in Hs. apply (local_mono b lo c h S S' s); auto. intros; apply E; auto. Qed.

Lemma closed_real b lo c h S s : closed b lo c h S -> S s -> real_at b s.
Proof.
  intros H Hs. destruct (H s Hs) as [x [H1 [H2 _]]]. exists x. split; auto. apply small_not_pointer; auto.
Qed.

Lemma closed_bound b lo c h S s : closed b lo c h S -> S s -> lo <= s /\ s < c.
Proof. intros H Hs. destruct (H s Hs) as [x [_ [_ [[A [B _]] _]]]]. lia. Qed.

Lemma ragree_okr lo c h b b' a e j : ragree lo c h b b' -> okr lo c h a e -> a <= j -> j < e ->
  nth_error b' j = nth_error b j.
Proof. intros H [A [B C]] H1 H2. apply H; lia. Qed.

Lemma slice_ext (b b' : bytes) : forall n a, a + n <= length b ->
  (forall j, a <= j -> j < a + n -> nth_error b' j = nth_error b j) -> slice b' a (a + n) = slice b a (a + n).
Proof.
  induction n as [|n IH]; intros a Hle H.
  - rewrite Nat.add_0_r, !slice_nil. reflexivity.
  - destruct (nth_error b a) as [x|] eqn:E; [|apply nth_error_None in E; lia].
    rewrite (slice_cons b a x (a + S n) E) by lia.
    rewrite (slice_cons b' a x (a + S n)) by (try rewrite H; auto; lia).
    f_equal. replace (a + S n) with (S a + n) by lia. apply IH; auto; try lia.
    intros j J1 J2. apply H; lia.
Qed.

Lemma ragree_slice lo c h b b' a e : ragree lo c h b b' -> okr lo c h a e -> a <= e -> e <= length b ->
  slice b' a e = slice b a e.
Proof.
  intros R O Hae He. replace e with (a + (e - a)) by lia. apply slice_ext; [lia|].
  intros j J1 J2. eapply ragree_okr; eauto. lia.
Qed.

Lemma ptr_step_transfer b lo c h S b' p : ragree lo c h b b' -> ptr_step b lo c h S p -> ptr_step b' lo c h S p.
Proof.
  intros R [hi [l [K1 [K2 [K3 [K4 [K5 [K6 K7]]]]]]]]. exists hi, l. split; [|split; [auto|split; [|auto]]].
  - rewrite (ragree_okr _ _ _ _ _ _ _ p R K4); auto; lia.
  - rewrite (ragree_okr _ _ _ _ _ _ _ (p + 1) R K4); auto; lia.
Qed.

Lemma closed_transfer b lo c h S b' : closed b lo c h S -> ragree lo c h b b' -> closed b' lo c h S.
Proof.
  intros H R s Hs. destruct (H s Hs) as [x [H1 [H2 [H3 H4]]]]. exists x. split; [|split; [auto|split; [auto|]]].
  - rewrite (ragree_okr _ _ _ _ _ _ _ s R H3); auto; lia.
  - intros Hx. destruct (H4 Hx) as [K|K]; [left; auto|right]. eapply ptr_step_transfer; eauto.
Qed.

Lemma real_transfer b lo c h S b' s : closed b lo c h S -> ragree lo c h b b' -> S s -> real_at b' s.
Proof. intros H R Hs. eapply closed_real; [eapply closed_transfer; eauto|auto]. Qed.

(* what stands at a position the decoding may reach: a length octet with its label allowed and the next
   position reachable, or a pointer into S *)
Lemma nextok_cases b lo c h S i x : closed b lo c h S -> nextok b lo c h S i -> nth_error b i = Some x ->
  (is_pointer_octet x = false /\ (x <= 63)%N /\ okr lo c h i (i + 1 + N.to_nat x) /\
   (x <> 0%N -> nextok b lo c h S (i + 1 + N.to_nat x))) \/
  (is_pointer_octet x = true /\ (x < 256)%N /\ exists l, nth_error b (i + 1) = Some l /\
   okr lo c h i (i + 2) /\ ptr_target x l < i /\ S (ptr_target x l)).
Proof.
  intros H [Hs|(hi & l & K1 & K2 & K3 & K4 & K5 & K6 & K7)] E.
  - destruct (H i Hs) as (y & Y1 & Y2 & Y3 & Y4). rewrite E in Y1. injection Y1 as <-.
    left. auto using small_not_pointer.
  - rewrite E in K1. injection K1 as <-. right. eauto 10.
Qed.

Lemma name_at_transfer b lo c h S b' c0 : closed b lo c h S -> ragree lo c h b b' ->
  forall i ls, name_at b c0 i ls -> nextok b lo c h S i -> name_at b' c0 i ls.
Proof.
  intros H R. induction 1 as [i Hi E|i len rest E H0 H63 Hc Hn IH|i hi l rest E Hp E2 Hc Ht Hr Hn IH];
    intros Hk;
    destruct (nextok_cases _ _ _ _ _ _ _ H Hk E) as [(Np & N63 & O & Nx)|(Pp & Plt & l' & E2' & O & Pt & Ps)].
  - apply na_root; auto. rewrite (ragree_okr _ _ _ _ _ _ _ i R O); auto; simpl; lia.
  - rewrite is_pointer_octet_0 in Pp. discriminate.
  - pose proof (name_at_lt _ _ _ _ Hn) as [_ Hlb].
    rewrite <- (ragree_slice lo c h b b' (i + 1) (i + 1 + N.to_nat len) R); try lia;
      [|unfold okr in *; lia].
    apply na_label; auto.
    + rewrite (ragree_okr _ _ _ _ _ _ _ i R O); auto; lia.
    + apply IH, Nx. lia.
  - rewrite (small_not_pointer len H63) in Pp. discriminate.
  - congruence.
  - rewrite E2 in E2'. injection E2' as <-. eapply na_ptr; eauto.
    + rewrite (ragree_okr _ _ _ _ _ _ _ i R O); auto; lia.
    + rewrite (ragree_okr _ _ _ _ _ _ _ (i + 1) R O); auto; lia.
    + eapply real_transfer; eauto.
    + apply IH. left; auto.
Qed.

Lemma decodable_transfer b lo c h S b' c0 : closed b lo c h S -> ragree lo c h b b' ->
  decodable b c0 S -> decodable b' c0 S.
Proof.
  intros H R D s Hs. destruct (D s Hs) as [ls Hn]. exists ls.
  eapply name_at_transfer; eauto. left; auto.
Qed.

Lemma decodable_mono b c S c' : decodable b c S -> c <= c' -> decodable b c' S.
Proof.
  intros D Hc s Hs. destruct (D s Hs) as [ls Hn]. exists ls.
  eapply name_at_stable; eauto. apply agree_refl.
Qed.

Lemma agree_ragree lo c h b b' : agree c b b' -> ragree lo c h b b'.
Proof. intros A j _ Hj _. eapply agree_nth; eauto. Qed.

Lemma ragree_refl lo c h b : ragree lo c h b b.
Proof. intros j _ _ _. reflexivity. Qed.

Lemma ragree_le lo c h b b' c' : ragree lo c h b b' -> c' <= c -> ragree lo c' h b b'.
Proof. intros H Hc j J1 J2 J3. apply H; auto; lia. Qed.

(* a buffer write entirely inside the header, the hole, or at/above c *)
Lemma buf_write_ragree lo c h b pos d b' : buf_write b pos d = Some b' ->
  (pos + length d <= lo \/ c <= pos \/ (h <= pos /\ pos + length d <= h + 2)) -> ragree lo c h b b'.
Proof.
  intros W Hd j J1 J2 J3. apply buf_write_inv in W as [W1 ->].
  destruct (Nat.lt_ge_cases j pos) as [Hlt|Hge].
  - rewrite nth_error_app1 by (rewrite firstn_length; lia). apply nth_error_firstn_lt; auto.
  - assert (pos + length d <= j) by lia.
    rewrite nth_error_app2 by (rewrite firstn_length; lia). rewrite firstn_length.
    rewrite nth_error_app2 by lia. rewrite nth_error_skipn. f_equal. lia.
Qed.

Lemma name_at_bound b c i ls : name_at b c i ls -> forall c', c <= c' -> name_at b c' i ls.
Proof. intros H c' Hc. eapply name_at_stable; eauto. apply agree_refl. Qed.

Fixpoint lstarts (i : nat) (ls : list bytes) : list nat :=
  match ls with
  | [] => []
  | l :: r => i :: lstarts (i + 1 + length l) r
  end.

Lemma lstarts_bound ls : forall i s, In s (lstarts i ls) -> i <= s /\ s < i + length (nm_lwire ls).
Proof.
  induction ls as [|l r IH]; intros i s; simpl; [tauto|].
  rewrite app_length. intros [<-|H]; [lia|]. apply IH in H. lia.
Qed.

Lemma spec_target hi l : is_pointer_octet hi = true -> (hi < 256)%N ->
  (192 <= hi)%N /\ N.to_nat ((hi - 192) * 256 + l) = ptr_target hi l.
Proof.
  intros Hp Hlt. rewrite is_pointer_octet_spec in Hp by exact Hlt. apply N.leb_le in Hp.
  split; auto. unfold ptr_target. f_equal. f_equal. f_equal.
  replace hi with (192 + (hi - 192))%N at 2 by lia. rewrite land63; lia.
Qed.

Lemma name_at_fun b c i ls1 : name_at b c i ls1 -> forall c' ls2, name_at b c' i ls2 -> ls1 = ls2.
Proof.
  induction 1 as [i Hi E|i len rest E H0 H63 Hc Hn IH|i hi l rest E Hp E2 Hc Ht Hr Hn IH];
    intros c' ls2 H2.
  - inversion H2; subst; auto.
    + rewrite E in H. inversion H; subst. lia.
    + rewrite E in H. inversion H; subst. rewrite is_pointer_octet_0 in H0. discriminate.
  - inversion H2; subst.
    + rewrite E in H1. inversion H1; subst. lia.
    + rewrite E in H. inversion H; subst. f_equal. eapply IH; eauto.
    + rewrite E in H. inversion H; subst. rewrite (small_not_pointer _ H63) in H1. discriminate.
  - inversion H2; subst.
    + rewrite E in H0. inversion H0; subst. rewrite is_pointer_octet_0 in Hp. discriminate.
    + rewrite E in H. inversion H; subst. rewrite (small_not_pointer _ H1) in Hp. discriminate.
    + rewrite E in H. inversion H; subst. rewrite E2 in H1. inversion H1; subst. eapply IH; eauto.
Qed.

(* every member decodes under the specification's relation too (pointers lead strictly before
   the start of the label sequence that contains them), to the same labels *)
Definition sdec (b : bytes) (c : nat) (S : nat -> Prop) : Prop :=
  forall s, S s -> exists ls e, name_at b c s ls /\ decodes b s s ls e.

Lemma decodes_cs_mono b cs i ls e : decodes b cs i ls e -> forall cs', cs <= cs' -> decodes b cs' i ls e.
Proof.
  induction 1 as [cs i H | cs i len rest e H Hp Hl Hb Hd IH | cs i hi lo rest e' H Hh Hlo Ht Hd IH];
    intros cs' Hc.
  - constructor; auto.
  - constructor; auto.
  - eapply dec_ptr; eauto. lia.
Qed.

Lemma decodes_transfer b lo c h S b' : closed b lo c h S -> ragree lo c h b b' -> c <= length b' ->
  forall cs i ls e, decodes b cs i ls e -> nextok b lo c h S i -> decodes b' cs i ls e.
Proof.
  intros H R Hlen.
  induction 1 as [cs i E | cs i len rest e E Hp Hl Hb Hd IH | cs i hi l rest e' E Hh Hlo Ht Hd IH];
    intros Hk;
    destruct (nextok_cases _ _ _ _ _ _ _ H Hk E) as [(Np & N63 & O & Nx)|(Pp & Plt & l' & E2' & O & Pt & Ps)].
  - constructor. rewrite (ragree_okr _ _ _ _ _ _ _ i R O); auto; simpl; lia.
  - rewrite is_pointer_octet_0 in Pp. discriminate.
  - rewrite <- (ragree_slice lo c h b b' (i + 1) (i + 1 + N.to_nat len) R); try lia;
      [|unfold okr in *; lia].
    apply dec_label; auto.
    + rewrite (ragree_okr _ _ _ _ _ _ _ i R O); auto; lia.
    + unfold okr in O. lia.
    + apply IH, Nx. lia.
  - rewrite (small_not_pointer len Hl) in Pp. discriminate.
  - lia.
  - rewrite Hlo in E2'. injection E2' as <-.
    destruct (spec_target hi l Pp Plt) as [_ Et].
    eapply dec_ptr; eauto.
    + rewrite (ragree_okr _ _ _ _ _ _ _ i R O); auto; lia.
    + rewrite (ragree_okr _ _ _ _ _ _ _ (i + 1) R O); auto; lia.
    + apply IH. left. rewrite Et. exact Ps.
Qed.

Lemma sdec_transfer b lo c h S b' c0 : closed b lo c h S -> ragree lo c h b b' -> c <= length b' ->
  sdec b c0 S -> sdec b' c0 S.
Proof.
  intros H R Hl D s Hs. destruct (D s Hs) as [ls [e [Hn Hd]]]. exists ls, e. split.
  - eapply name_at_transfer; eauto. left; auto.
  - eapply decodes_transfer; eauto. left; auto.
Qed.

Lemma sdec_mono b c S c' : sdec b c S -> c <= c' -> sdec b c' S.
Proof.
  intros D Hc s Hs. destruct (D s Hs) as [ls [e [Hn Hd]]]. exists ls, e. split; auto.
  eapply name_at_stable; eauto. apply agree_refl.
Qed.

Lemma sdec_decodable b c S : sdec b c S -> decodable b c S.
Proof. intros D s Hs. destruct (D s Hs) as [ls [e [Hn _]]]. eauto. Qed.
