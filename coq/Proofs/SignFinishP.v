(* finish_with_mac for TsigMode::Response (Model/ServerWT.v: finish_signed): the analogue of C12's finish_ok2
   (Proofs/MsgWriterMsgP.v) for the SIGNING TSIG record.

   The Writer invariants of C12 (AInv / LInv) are stated for TsigMode::Unsigned: tsig_wf demands
   reserved_len = unsigned_len.  A writer on which Writer::set_tsig installed a SIGNING mode differs from such a state
   in two fields only: reserved_len (larger by the output size of the algorithm) and hence the limit the available
   space is measured against.  [real_of wh t lim] is that writer, given the "hypothetical" unsigned state [wh] (same
   buffer, cursor, available, anchors, counts, EDNS): the four header writes do not look at the two fields, and the
   invariants of names below the cursor (NInv, anch3, PLay) do not mention them, so the OPT record and the TSIG record
   are appended through C12's fin_ext_append on the REAL state.

   The record fits exactly because
     reserved_len = key name + algorithm name + 26 (+ 6 other data for BADTIME) + output size;
   with 6 octets less (BADTIME other data forgotten) or a MAC longer than the output size fin_ext_append would not apply. *)
From QV Require Import Model.ServerWT.
From QV Require Import Base.ListX Model.MsgWriter Spec.NameRepr Proofs.NameWireP Proofs.MsgWriterP
     Proofs.MsgWriterScanP Proofs.MsgWriterNameP Proofs.MsgWriterInvP Proofs.MsgWriterClosP
     Proofs.MsgWriterScanSP Proofs.MsgWriterNameSP Proofs.MsgWriterLayP Proofs.MsgWriterOpP Proofs.MsgWriterStepP
     Proofs.MsgWriterMsgP.
From QV Require Import Spec.MsgWriterAbsS.
From QV Require Model.TsigMsg Proofs.TsigEncP Proofs.TsigTotalP.

Local Open Scope nat_scope.

Lemma sf_alg_name_len a : length (TsigMsg.alg_name a) <= 13.
Proof. destruct a; cbv; lia. Qed.
Lemma sf_output_size_le a : TsigMsg.output_size a <= 32.
Proof. destruct a; cbv; lia. Qed.
Lemma sf_alg_name_wf a : wf_bytes (TsigMsg.alg_name a).
Proof. destruct a; apply wf_bytesb_spec; reflexivity. Qed.

Lemma sf_be_dec_be16 v : (v < 65536)%N -> TsigMsg.be_dec (MsgWriter.be16 v) = v.
Proof. exact (TsigEncP.be_dec_u16 v). Qed.

Lemma sf_wf_be16 v : wf_bytes (TsigMsg.be16 v).
Proof. exact (wf_bytes_be16 v). Qed.

Lemma ser_unchecked_wf an time fudge mac oid err other : wf_bytes an -> wf_bytes time -> wf_bytes mac -> wf_bytes other ->
  wf_bytes (TsigMsg.serialize_tsig_unchecked an time fudge mac oid err other).
Proof.
  intros H1 H2 H3 H4. unfold TsigMsg.serialize_tsig_unchecked.
  repeat (apply wf_bytes_app; [first [assumption|apply sf_wf_be16]|]). assumption.
Qed.

Lemma ser_unchecked_len an time fudge mac oid err other :
  length (TsigMsg.serialize_tsig_unchecked an time fudge mac oid err other) = length an + length time + 10 + length mac + length other.
Proof. unfold TsigMsg.serialize_tsig_unchecked. rewrite !app_length. unfold TsigMsg.be16. simpl length. lia. Qed.

Section Sign.
Variable hmac : TsigMsg.alg -> bytes -> bytes -> bytes.
Hypothesis hmac_len : forall a k d, length (hmac a k d) = TsigMsg.output_size a.

Lemma sign_response_ok p msg rmac a secret :
  (N.of_nat (length rmac) <= 65535)%N -> 12 <= length msg -> TsigMsg.be_dec (slice msg 10 12) <> 0%N ->
  length (TsigMsg.p_server_time p) = 6 ->
  exists d, TsigMsg.sign_digest p msg (TsigMsg.SResponse rmac) a = Ok d /\
    TsigMsg.sign hmac p msg (TsigMsg.SResponse rmac) a secret =
      Ok (TsigMsg.serialize_tsig_unchecked (TsigMsg.alg_name a) (TsigMsg.p_time_signed p) (TsigMsg.p_fudge p)
            (hmac a secret d) (TsigMsg.p_original_id p) (TsigMsg.p_error p) (TsigMsg.p_other p), hmac a secret d).
Proof.
  intros Hr Hm Har Hst. unfold TsigMsg.sign, TsigMsg.sign_digest.
  rewrite (proj2 (N.ltb_ge _ _) Hr).
  destruct (TsigTotalP.amm_total (E:=TsigMsg.verr) msg (TsigMsg.p_original_id p) Hm Har) as (mm & ->).
  cbn [bind]. eexists. split; [reflexivity|].
  rewrite TsigEncP.serialize_rdata_ok; [reflexivity|]. rewrite hmac_len.
  assert (Ho : length (TsigMsg.p_other p) <= 6).
  { unfold TsigMsg.p_other. destruct (TsigMsg.p_error p =? _)%N; [rewrite Hst|simpl]; lia. }
  pose proof (sf_alg_name_len a). pose proof (sf_output_size_le a). lia.
Qed.

End Sign.

Definition real_of (wh : writer) (t : tsigr) (lim : nat) : writer :=
  mkW (w_buf wh) (w_cursor wh) lim (w_avail wh) (w_rr_start wh) (w_section wh) (w_qd wh) (w_an wh) (w_ns wh) (w_ar wh)
      (w_qname wh) (w_mro wh) (w_mrn wh) (w_mode wh) (w_edns wh) (Some t).

Definition signed_of (tu : tsigr) (osz : nat) : tsigr :=
  mkTsig (t_alg tu) (t_reserved tu + osz) (t_key tu) (t_time tu) (t_fudge tu) (t_origid tu) (t_error tu) (t_server_time tu).

Definition prep_of (t : tsigr) : TsigMsg.prepared :=
  TsigMsg.mkPrepared (nm_wire (t_key t)) (t_time t) (t_fudge t) (t_origid t) (t_error t) (t_server_time t).

(* the signing set_tsig = a lowered limit + the unsigned set_tsig, up to reserved_len and limit *)
Lemma signed_steps_gen w1 osz alg key time fudge origid error stime w2 :
  Inv_n w1 -> w_tsig w1 = None -> 0 < osz ->
  set_tsig_signed osz alg key time fudge origid error stime w1 = Ok (tt, w2) ->
  exists w1' wh2,
    set_limit (w_limit w1 - osz) w1 = Ok w1' /\
    set_tsig alg key time fudge origid error stime w1' = Ok (tt, wh2) /\
    w2 = real_of wh2 (signed_of (mkTsig alg (tsig_unsigned_len key alg error) key time fudge origid error stime) osz)
                 (w_limit wh2 + osz) /\
    w_tsig wh2 = Some (mkTsig alg (tsig_unsigned_len key alg error) key time fudge origid error stime) /\
    w_limit wh2 + osz = w_limit w1 /\ w_buf wh2 = w_buf w1 /\
    w_edns wh2 = w_edns w1 /\ w_mode wh2 = w_mode w1.
Proof.
  intros [h1 h2 h3 h4 h5] Ht Ho E. unfold resv in h4. rewrite Ht in h4.
  unfold set_tsig_signed in E. rewrite Ht in E.
  set (ulen := tsig_unsigned_len key alg error) in *. set (lim := w_limit w1) in *.
  destruct (w_avail w1 <? w_cursor w1 + (ulen + osz)) eqn:X; [discriminate|]. apply Nat.ltb_ge in X.
  destruct (checked_add16 (w_ar w1) 1) as [ar|] eqn:Ea; [|discriminate]. inversion E; subst w2. clear E.
  (* set_limit takes its lowering branch, and lowers by exactly osz *)
  unfold set_limit. fold lim.
  rewrite (proj2 (Nat.leb_gt lim (lim - osz))), (proj2 (Nat.ltb_ge (w_cursor w1 + lim) (w_avail w1))) by lia.
  rewrite (Nat.max_l (lim - osz)), (proj2 (Nat.ltb_ge lim (lim - osz))) by lia.
  replace (lim - (lim - osz)) with osz by lia. rewrite (proj2 (Nat.ltb_ge (w_avail w1) osz)) by lia.
  exists (set_limit_avail w1 (lim - osz) (w_avail w1 - osz)). unfold set_tsig. cbn [w_tsig set_limit_avail]. rewrite Ht. cbn [w_avail w_cursor w_ar set_limit_avail].
  fold ulen. rewrite (proj2 (Nat.ltb_ge (w_avail w1 - osz) (w_cursor w1 + ulen))), Ea by lia.
  (* the hypothetical state written out field by field: left as the chain of setters set_tsig builds, Qed compares
     two nested chains of setters with each other and takes seconds *)
  exists (mkW (w_buf w1) (w_cursor w1) (lim - osz) (w_avail w1 - osz - ulen) (w_rr_start w1) (w_section w1) (w_qd w1) (w_an w1)
            (w_ns w1) ar (w_qname w1) (w_mro w1) (w_mrn w1) (w_mode w1) (w_edns w1)
            (Some (mkTsig alg ulen key time fudge origid error stime))).
  split; [reflexivity|]. split; [reflexivity|].
  split; [|cbn; repeat split; lia].
  unfold real_of, signed_of, set_tsig_f, set_avail, set_limit_avail, set_counts. cbn. fold lim ulen. f_equal; lia.
Qed.

Lemma NInv_real wh t lim h L : NInv wh h L -> NInv (real_of wh t lim) h L.
Proof. intros [H1 H2 H3 H4 H5 H6 H7 H8]. constructor; auto. Qed.

Definition pseudo_signed (wh : writer) (key : wname) (rdata : bytes) : list arr :=
  (match w_edns wh with
   | Some e => [mkAR [] (w_mode wh) TYPE_OPT (e_udp e) (e_upper e * 16777216)%N []]
   | None => [] end) ++
  [mkAR key (w_mode wh) TYPE_TSIG qclass_any (ttl_from 0) rdata].

Lemma opt_ext w L gq go gr :
  NInv w (length (w_buf w)) L -> anch3 w L gq go gr ->
  w_avail w + (if w_edns w then opt_record_size else 0) <= length (w_buf w) ->
  exists w5 L5 rs5,
    match w_edns w with
    | Some e => unwrap_w (add_rr HNone [] TYPE_OPT (e_udp e) (e_upper e * 16777216)%N [] None
                                 (set_avail w (w_avail w + opt_record_size)))
    | None => Ok w
    end = Ok w5 /\
    fin_ext w L gq gr w5 L5 rs5 /\
    Forall2 rr_desc2 rs5 (match w_edns w with
                          | Some e => [mkAR [] (w_mode w) TYPE_OPT (e_udp e) (e_upper e * 16777216)%N []]
                          | None => [] end) /\
    ext (w_cursor w) (set_avail w (w_avail w + if w_edns w then opt_record_size else 0)) w5.
Proof.
  intros Hi A Hav. pose proof (ni_nb _ _ _ Hi) as [K1 K2]. pose proof (fin_ext_refl w L _ _ _ Hi A) as F.
  destruct (w_edns w) as [e|] eqn:Ee.
  - destruct (fin_ext_append w L _ _ w L [] (set_avail w (w_avail w + opt_record_size)) []
                TYPE_OPT (e_udp e) (e_upper e * 16777216)%N [] F eq_refl eq_refl)
      as (v & w5 & L5 & r & E & F5 & D5 & X5); auto;
      [apply NInv_set_avail; [exact Hi|lia..]|split; [constructor|simpl; lia]|constructor|cbn; pose proof wconsts; lia|].
    rewrite E. exists w5, L5, [r]. split; [reflexivity|]. split; [exact F5|]. split; [|exact X5].
    constructor; [exact D5|constructor].
  - exists w, L, []. split; [reflexivity|]. split; [exact F|]. split; [constructor|].
    constructor; cbn; try reflexivity; lia.
Qed.

Section Fin.
Variable hmac : TsigMsg.alg -> bytes -> bytes -> bytes.
Hypothesis hmac_len : forall a k d, length (hmac a k d) = TsigMsg.output_size a.
Hypothesis hmac_wf : forall a k d, wf_bytes (hmac a k d).

(* Of the two algorithm names only the lengths need agree (they decide whether the record fits).  The last hypothesis
   is [i_lim] of the REAL state, whose limit lies the output size above the hypothetical one.  The message signed is a
   prefix [firstn c5] of the finished one: the statement says c5 <= its length, not that c5 is where the TSIG record
   starts. *)
Theorem finish_signed_ok2 dh g y A L tu a secret rmac :
  AInv dh g L -> LInv dh y A L -> w_tsig (d_w dh) = Some tu ->
  length (nm_wire (t_alg tu)) = length (TsigMsg.alg_name a) ->
  (N.of_nat (length rmac) <= 65535)%N ->
  w_limit (d_w dh) + TsigMsg.output_size a <= length (w_buf (d_w dh)) ->
  exists wF LF rsP c5 rdata mac,
    finish_signed hmac a secret rmac
      (real_of (d_w dh) (signed_of tu (TsigMsg.output_size a)) (w_limit (d_w dh) + TsigMsg.output_size a))
      = Ok (w_cursor wF, w_buf wF) /\
    NInv wF (length (w_buf wF)) LF /\
    PLay (w_buf wF) LF (mkLay (y_qs y) (y_rrs y ++ rsP)) (w_rr_start (d_w dh)) (w_cursor wF) /\
    Forall2 rr_desc2 rsP (pseudo_signed (d_w dh) (t_key tu) rdata) /\
    slice (w_buf wF) 4 12 = MsgWriter.be16 (w_qd (d_w dh)) ++ MsgWriter.be16 (w_an (d_w dh)) ++
                            MsgWriter.be16 (w_ns (d_w dh)) ++ MsgWriter.be16 (w_ar (d_w dh)) /\
    agree 4 (w_buf (d_w dh)) (w_buf wF) /\
    w_cursor wF <= w_limit (d_w dh) + TsigMsg.output_size a /\
    c5 <= w_cursor wF /\
    TsigMsg.sign hmac (prep_of tu) (firstn c5 (w_buf wF)) (TsigMsg.SResponse rmac) a secret = Ok (rdata, mac) /\
    length mac = TsigMsg.output_size a /\
    rdata = TsigMsg.serialize_tsig_unchecked (TsigMsg.alg_name a) (t_time tu) (t_fudge tu) mac (t_origid tu) (t_error tu)
              (if (t_error tu =? 18)%N then t_server_time tu else []).
Proof.
  intros Hi HL Etu Hal Hrm Hlimb.
  set (osz := TsigMsg.output_size a) in *. set (ts := signed_of tu osz). set (lim := w_limit (d_w dh) + osz).
  pose proof (a_n _ _ _ Hi) as Hn. pose proof wconsts as (Khs & Kopt & _).
  (* the header counts: the writes look at the buffer only *)
  destruct (hdr_counts_ok (real_of (d_w dh) ts lim)) as (b4 & Eh & Hl4 & Hdr & Hag4 & R4); [destruct Hn; cbn; lia|].
  unfold finish_signed, finish_head. rewrite Eh. clear Eh.
  cbn [w_buf w_qd w_an w_ns w_ar real_of] in Hl4, Hdr, Hag4, R4.
  change (set_buf (real_of (d_w dh) ts lim) b4) with (real_of (set_buf (d_w dh) b4) ts lim).
  assert (K4 : keeps dh g L (mkD (set_buf (d_w dh) b4) (d_regs dh)) g).
  { apply keeps_move; auto; [apply inv_set_buf; auto|apply (a_ts _ _ _ Hi)|]. intros y' A' HF. eapply FLay_fields; eauto. }
  destruct K4 as [Hi4 K4]. destruct (K4 y A HL) as [HP4 HF4]. clear K4.
  set (w4 := set_buf (d_w dh) b4) in *. set (c0 := w_cursor (d_w dh)).
  destruct Hn as [n1 n2 n3 n4 n5]. unfold resv in n4. rewrite Etu in n4. fold c0 in n2, n3.
  destruct (a_ts _ _ _ Hi tu Etu) as (T1 & _ & T3 & T4 & T5 & _ & T7 & T8 & _).
  (* ARCOUNT is at least 1: set_tsig counted the TSIG record *)
  assert (Harc : (1 <= w_ar (d_w dh) <= 65535)%N).
  { destruct HF4 as [_ _ _ _ _ _ Cr [_ [_ [_ Br]]] _ _]. cbn [d_w w4 set_buf w_ar w_tsig w_edns] in Cr, Br. rewrite Etu in Cr. simpl in Cr. lia. }
  destruct (opt_ext (real_of w4 ts lim) L (g_q g) (g_o g) (g_r g)) as (w5 & L5 & rs5 & E5 & F5 & D5 & X5);
    [apply NInv_real; exact (a_ni _ _ _ Hi4)|exact (a_an _ _ _ Hi4)|cbn; destruct (w_edns (d_w dh)); lia|].
  cbn [w_edns w_avail real_of] in E5 |- *. rewrite E5. cbn [bind]. rewrite (x_tsig _ _ _ X5). cbn [w_tsig set_avail set_limit_avail real_of].
  pose proof (fe_ag _ _ _ _ _ _ _ F5) as Ag5. pose proof (fe_cur _ _ _ _ _ _ _ F5) as Cu5. pose proof (x_av _ _ _ X5) as Av5.
  pose proof (x_len _ _ _ X5) as Ln5. pose proof (ni_nb _ _ _ (fe_ni _ _ _ _ _ _ _ F5)) as [Cav5 Nb5].
  cbn [w_cursor w_buf w_avail w_edns set_avail set_limit_avail real_of w4 set_buf] in Ag5, Cu5, Av5, Ln5. fold c0 in Ag5, Cu5.
  rewrite (proj2 (Nat.ltb_ge _ _)) by lia.
  change (TsigMsg.mkPrepared (nm_wire (t_key ts)) (t_time ts) (t_fudge ts) (t_origid ts) (MsgWriter.t_error ts) (t_server_time ts))
    with (prep_of tu).
  set (msg := firstn (w_cursor w5) (w_buf w5)).
  destruct (sign_response_ok hmac hmac_len (prep_of tu) msg rmac a secret Hrm) as (dg & _ & Esg);
    [unfold msg; rewrite firstn_length; lia| |exact T4|].
  { (* ARCOUNT of the message signed is the one just written, at least 1 *)
    unfold msg. rewrite slice_firstn by lia. rewrite (agree_slice c0 _ _ 10 12 Ag5) by lia.
    pose proof Hdr as Har. rewrite !app_assoc in Har.
    destruct (slice_app_l b4 4 10 12 _ _ Har) as [_ ->]; [reflexivity|lia..|]. rewrite sf_be_dec_be16; lia. }
  rewrite Esg. cbn [TsigMsg.p_time_signed TsigMsg.p_fudge TsigMsg.p_original_id TsigMsg.p_error prep_of] in Esg |- *.
  change (TsigMsg.p_other (prep_of tu)) with (if (t_error tu =? 18)%N then t_server_time tu else []) in Esg |- *.
  set (mac := hmac a secret dg) in *. set (other := if (t_error tu =? 18)%N then t_server_time tu else []) in *.
  set (rdata := TsigMsg.serialize_tsig_unchecked (TsigMsg.alg_name a) (t_time tu) (t_fudge tu) mac (t_origid tu) (t_error tu) other) in *.
  assert (Hother : wf_bytes other /\ length other = if (t_error tu =? badtime)%N then 6 else 0).
  { unfold other, badtime. destruct (t_error tu =? 18)%N; [split; [exact T8|exact T4]|split; [constructor|reflexivity]]. }
  destruct Hother as [Hob Hol].
  (* TSIG, in exactly the space reserved: reserved_len = unsigned_len + output size *)
  change (t_key ts) with (t_key tu). change (MsgWriter.t_reserved ts) with (t_reserved tu + osz).
  destruct (fin_ext_append _ L _ _ w5 L5 rs5 (set_avail (set_tsig_f w5 None) (w_avail w5 + (t_reserved tu + osz)))
              (t_key tu) TYPE_TSIG qclass_any (ttl_from 0) rdata F5 eq_refl eq_refl)
    as (v' & w6 & L6 & r6 & E6 & F6 & D6 & X6); auto;
    [apply NInv_set_avail; [apply NInv_clear_tsig, F5|cbn; lia..]|
     apply ser_unchecked_wf; [apply sf_alg_name_wf|exact T7|apply hmac_wf|exact Hob]| |].
  { unfold rdata. rewrite ser_unchecked_len, T3, Hol. unfold mac. rewrite hmac_len. fold osz. cbn.
    rewrite T5. unfold tsig_unsigned_len. rewrite Hal. lia. }
  rewrite E6. cbn [unwrap_w bind].
  pose proof (x_agree _ _ _ X6) as Ag6. pose proof (x_cur _ _ _ X6) as Cu6. pose proof (x_cav _ _ _ X6) as Cav6.
  rewrite (x_av _ _ _ X6) in Cav6. cbn [w_cursor w_buf w_avail set_avail set_limit_avail set_tsig_f] in Ag6, Cu6, Cav6.
  pose proof (fe_ag _ _ _ _ _ _ _ F6) as AgF. cbn [w_cursor w_buf real_of w4 set_buf] in AgF. fold c0 in AgF.
  exists w6, L6, (rs5 ++ [r6]), (w_cursor w5), rdata, mac.
  split; [reflexivity|]. split; [exact (fe_ni _ _ _ _ _ _ _ F6)|].
  split; [exact (fe_lay _ _ _ _ _ _ _ F6 y _ HP4 n2)|].
  split. { apply Forall2_app; [exact D5|]. constructor; [|constructor].
    cbn [w_mode set_avail set_limit_avail set_tsig_f] in D6. rewrite (x_mode _ _ _ X5) in D6. exact D6. }
  split; [rewrite (agree_slice c0 _ _ 4 12 AgF) by lia; exact Hdr|].
  split; [exact (agree_trans _ _ _ _ Hag4 (agree_le 4 _ _ _ AgF ltac:(lia)))|].
  split; [unfold lim; destruct (w_edns (d_w dh)); lia|]. split; [exact Cu6|].
  split; [unfold agree in Ag6; rewrite Ag6; exact Esg|]. split; [apply hmac_len|reflexivity].
Qed.

End Fin.
