(* C22: the representation invariant of the tree (duplicate-free child maps,
   every entry stored at the path spelled by its own name, node names, no dead leaf)
   and its preservation by insert / remove; listing of a tree. *)
From QV Require Import Model.CatTree Spec.CatTreeS Proofs.CatTreeP.
From QV Require Proofs.ZoneIterP.
From Coq Require Import Permutation.

Section Inv.
Variable V : Type.
Notation entry := (entry V).
Notation node := (node V).
Notation forest := (forest V).

(* a node that is neither an entry nor an ancestor of one must not exist *)
Definition node_live (n : node) : Prop :=
  is_none (node_data n) && f_is_empty (node_children n) = false.

(* [rp] = path from the class root to the node (lower-cased labels, root downwards).
   The refinement uses the duplicate-free child maps and the entry-at-its-own-path clause only; the
   node-name clause and [node_live] are kept because they hold of every reachable tree, no proof needs them. *)
Fixpoint wf_node (cls : N) (rp : list clabel) (n : node) : Prop :=
  match n with
  | Node nn d ch =>
    lower_name nn = rev rp /\
    (forall e, d = Some e -> e_class e = cls /\ lower_name (e_name e) = rev rp) /\
    wf_forest cls rp ch
  end
with wf_forest (cls : N) (rp : list clabel) (f : forest) : Prop :=
  match f with
  | FNil => True
  | FCons k c r => f_get k r = None /\ node_live c /\ wf_node cls (rp ++ [k]) c /\ wf_forest cls rp r
  end.

Lemma wf_node_unfold cls rp (n : node) :
  wf_node cls rp n <->
  lower_name (node_name n) = rev rp /\
  (forall e, node_data n = Some e -> e_class e = cls /\ lower_name (e_name e) = rev rp) /\
  wf_forest cls rp (node_children n).
Proof. destruct n; simpl; tauto. Qed.

Lemma wf_forest_get cls rp k (f : forest) c :
  wf_forest cls rp f -> f_get k f = Some c -> wf_node cls (rp ++ [k]) c /\ node_live c.
Proof.
  induction f as [|k' c' r IH]; simpl; intros Hwf Hg; [discriminate|].
  destruct Hwf as [Hnone [Hlive [Hc Hr]]].
  destruct (label_eq_dec k k') as [E|E].
  - inversion Hg; subst. auto.
  - auto.
Qed.

Lemma wf_forest_set cls rp k (f : forest) c :
  wf_forest cls rp f -> wf_node cls (rp ++ [k]) c -> node_live c -> wf_forest cls rp (f_set k c f).
Proof.
  induction f as [|k' c' r IH]; simpl; intros Hwf Hc Hlive.
  - auto.
  - destruct Hwf as [Hnone [Hlive' [Hc' Hr]]].
    destruct (label_eq_dec k k') as [E|E]; simpl.
    + subst. auto.
    + split; [|auto]. rewrite f_get_set. destruct (label_eq_dec k' k); congruence.
Qed.

Lemma wf_forest_remove cls rp k (f : forest) :
  wf_forest cls rp f -> wf_forest cls rp (f_remove k f).
Proof.
  induction f as [|k' c' r IH]; simpl; intros Hwf; auto.
  destruct Hwf as [Hnone [Hlive' [Hc' Hr]]].
  destruct (label_eq_dec k k') as [E|E]; simpl; auto.
  split; [|auto]. rewrite f_get_remove, Hnone. destruct (label_eq_dec k' k); reflexivity.
Qed.

Lemma f_set_not_empty k (c : node) f : f_is_empty (f_set k c f) = false.
Proof. destruct f; simpl; auto. destruct (label_eq_dec k k0); reflexivity. Qed.

(* the path invariant of a descent: at [level] the node sits at the name's suffix *)
Lemma path_step (nm : cname) l lab rp :
  nth_error nm l = Some lab -> rev rp = lower_name (skipn (S l) nm) ->
  rev (rp ++ [lower_label lab]) = lower_name (skipn l nm).
Proof.
  intros Hn Hrp. rewrite rev_app_distr. simpl. rewrite Hrp, (skipn_nth_cons _ _ _ Hn). reflexivity.
Qed.

Lemma wf_child_or_new cls rp k (ch : forest) s :
  wf_forest cls rp ch -> lower_name s = rev (rp ++ [k]) -> wf_node cls (rp ++ [k]) (child_or_new V k ch s).
Proof.
  intros Hch Hs. unfold child_or_new. destruct (f_get k ch) eqn:Hg; [eapply wf_forest_get; eauto|].
  split; [exact Hs|]. split; [discriminate|exact I].
Qed.

Lemma insert_desc_wf : forall level (n : node) nm e cls rp n' old,
  level <= length nm -> rev rp = lower_name (skipn level nm) ->
  e_name e = nm -> e_class e = cls -> wf_node cls rp n ->
  insert_desc n nm level e = Ok (n', old) -> wf_node cls rp n' /\ node_live n'.
Proof.
  induction level as [|l IH]; intros [nn d ch] nm e cls rp n' old Hl Hrp Hen Hec [Hnn [Hd Hch]] Hins.
  - injection Hins as <- _. split; [|reflexivity]. split; [exact Hnn|]. split; [|exact Hch].
    intros e0 [= <-]. rewrite Hen. auto.
  - destruct (name_index_lt nm l) as [lab [_ Hn]]; [lia|].
    rewrite (insert_desc_S _ _ _ _ _ _ _ _ Hn) in Hins. set (k := lower_label lab) in *.
    assert (Hpath : rev (rp ++ [k]) = lower_name (skipn l nm)) by (apply path_step; assumption).
    destruct (insert_desc (child_or_new V k ch (skipn l nm)) nm l e) as [[c' old']| |] eqn:Hrec; try discriminate.
    injection Hins as <- _.
    destruct (IH _ nm e cls (rp ++ [k]) c' old' ltac:(lia) Hpath Hen Hec (wf_child_or_new _ _ _ _ _ Hch (eq_sym Hpath)) Hrec)
      as [Hwfc' Hlivec'].
    split.
    + split; [exact Hnn|]. split; [exact Hd|]. apply wf_forest_set; assumption.
    + unfold node_live. simpl. rewrite f_set_not_empty. apply andb_false_r.
Qed.

Lemma remove_in_class_wf : forall level (n : node) nm cls rp n' old rm,
  level <= length nm -> wf_node cls rp n ->
  remove_in_class n nm level = Ok (n', old, rm) ->
  wf_node cls rp n' /\ (node_live n -> rm = false -> node_live n').
Proof.
  unfold remove_in_class.
  induction level as [|l IH]; intros [nn d ch] nm cls rp n' old rm Hl [Hnn [Hd Hch]] Hrem.
  - injection Hrem as <- _ <-. split; [|intros _ Hrm; exact Hrm].
    split; [exact Hnn|]. split; [discriminate|exact Hch].
  - destruct (name_index_lt nm l) as [lab [Hi _]]; [lia|].
    cbn [remove_in_class_gen] in Hrem. rewrite Hi in Hrem. set (k := lower_label lab) in *.
    destruct (f_get k ch) as [sub|] eqn:Hg.
    2:{ injection Hrem as <- _ <-. split; [split; auto|auto]. }
    destruct (wf_forest_get _ _ _ _ _ Hch Hg) as [Hwfsub Hlivesub].
    destruct (remove_in_class_gen true sub nm l) as [[[sub' old'] rm']| |] eqn:Hrec; try discriminate.
    destruct (IH sub nm cls (rp ++ [k]) sub' old' rm') as [Hwfsub' Hlive']; auto; [lia|].
    destruct rm'; injection Hrem as <- _ <-; (split; [split; [exact Hnn|split; [exact Hd|]]|]).
    + apply wf_forest_remove, Hch.
    + intros _ Hrm. unfold node_live. simpl. rewrite andb_comm. exact Hrm.
    + apply wf_forest_set; auto.
    + intros _ _. unfold node_live. simpl. rewrite f_set_not_empty. apply andb_false_r.
Qed.

Lemma adata_key : forall a (n : node) cls rp e,
  wf_node cls rp n -> adata n a = Some e -> e_class e = cls /\ lower_name (e_name e) = rev (rp ++ a).
Proof.
  induction a as [|k r IH]; intros n cls rp e Hwf Ha.
  - rewrite app_nil_r. apply wf_node_unfold in Hwf. destruct Hwf as [_ [Hd _]]. apply Hd. exact Ha.
  - rewrite adata_cons in Ha. apply wf_node_unfold in Hwf. destruct Hwf as [_ [_ Hch]].
    destruct (f_get k (node_children n)) as [c|] eqn:Hg; [|discriminate].
    destruct (wf_forest_get _ _ _ _ _ Hch Hg) as [Hwfc _].
    destruct (IH c cls (rp ++ [k]) e Hwfc Ha) as [H1 H2]. split; [exact H1|].
    rewrite H2. rewrite <- app_assoc. reflexivity.
Qed.

Notation ckey := (key_of (@e_name V) (@e_class V)).

Lemma filter_data_app (a b : list (cname * option entry)) :
  filter_data (a ++ b) = filter_data a ++ filter_data b.
Proof.
  induction a as [|[nn [e|]] a IH]; simpl; auto. rewrite IH. reflexivity.
Qed.

Lemma filter_data_cons nn d (l : list (cname * option entry)) :
  filter_data ((nn, d) :: l) = match d with Some e => [e] | None => [] end ++ filter_data l.
Proof. destruct d; reflexivity. Qed.

Lemma In_option_list {A} (o : option A) x :
  In x (match o with Some y => [y] | None => [] end) <-> o = Some x.
Proof.
  destruct o; simpl; split; try contradiction; try discriminate.
  - intros [->|[]]. reflexivity.
  - intros [= ->]. left. reflexivity.
Qed.

Lemma child_key cls rp (f : forest) k c a e :
  wf_forest cls rp f -> f_get k f = Some c -> adata c a = Some e ->
  e_class e = cls /\ lower_name (e_name e) = rev (rp ++ k :: a).
Proof.
  intros Hwf Hg Ha. destruct (wf_forest_get _ _ _ _ _ Hwf Hg) as [Hc _].
  change (rp ++ k :: a) with (rp ++ [k] ++ a). rewrite app_assoc. exact (adata_key _ _ _ _ _ Hc Ha).
Qed.

(* [Node::iter] lists exactly the entries reachable by a path, and no key twice: entries at
   different paths differ in their names *)
Lemma iter_spec :
  (forall (n : node) cls rp, wf_node cls rp n ->
     (forall e, In e (filter_data (node_iter n)) <-> exists a, adata n a = Some e) /\
     NoDup (map ckey (filter_data (node_iter n)))) /\
  (forall (f : forest) cls rp, wf_forest cls rp f ->
     (forall e, In e (filter_data (forest_iter f)) <->
                exists k c a, f_get k f = Some c /\ adata c a = Some e) /\
     NoDup (map ckey (filter_data (forest_iter f)))).
Proof.
  apply node_forest_ind.
  - intros nn d ch IH cls rp [_ [Hd Hch]]. destruct (IH _ _ Hch) as [Hin Hnd].
    change (node_iter (Node nn d ch)) with ((nn, d) :: forest_iter ch). rewrite filter_data_cons.
    split.
    + intros e. rewrite in_app_iff, In_option_list, Hin. split.
      * intros [H|(k & c & a & Hg & Ha)]; [exists []; exact H|].
        exists (k :: a). rewrite adata_cons. cbn [node_children]. rewrite Hg. exact Ha.
      * intros [[|k a] Ha]; [left; exact Ha|right]. rewrite adata_cons in Ha. cbn [node_children] in Ha.
        destruct (f_get k ch) as [c|] eqn:Hg; [eauto|discriminate].
    + rewrite map_app. apply ZoneIterP.NoDup_app_disjoint; [destruct d; repeat constructor; simpl; tauto|exact Hnd|].
      intros x H1 H2. apply in_map_iff in H1. destruct H1 as (e0 & <- & H1). apply In_option_list in H1.
      apply in_map_iff in H2. destruct H2 as (e1 & E & H2). apply Hin in H2. destruct H2 as (k & c & a & Hg & Ha).
      destruct (Hd _ H1) as [_ N0]. destruct (child_key _ _ _ _ _ _ _ Hch Hg Ha) as [_ N1].
      injection E as _ E. change (lower_name (e_name e1) = lower_name (e_name e0)) in E.
      rewrite N0, N1 in E. apply (f_equal (@length _)) in E.
      rewrite !rev_length, app_length in E. simpl in E. lia.
  - intros cls rp _. split; [|constructor]. intros e. split; [contradiction|]. intros (k & c & a & H & _). discriminate.
  - intros k c IHc r IHr cls rp [Hnone [_ [Hc Hr]]].
    destruct (IHc _ _ Hc) as [Hinc Hndc]. destruct (IHr _ _ Hr) as [Hinr Hndr].
    change (forest_iter (FCons k c r)) with (node_iter c ++ forest_iter r). rewrite filter_data_app. split.
    + intros e. rewrite in_app_iff, Hinc, Hinr. cbn [f_get]. split.
      * intros [[a Ha]|(k2 & c2 & a & Hg & Ha)].
        -- exists k, c, a. destruct (label_eq_dec k k); [auto|congruence].
        -- exists k2, c2, a. destruct (label_eq_dec k2 k); [congruence|auto].
      * intros (k2 & c2 & a & Hg & Ha). destruct (label_eq_dec k2 k); [left|right; eauto].
        injection Hg as <-. eauto.
    + rewrite map_app. apply ZoneIterP.NoDup_app_disjoint; [exact Hndc|exact Hndr|].
      intros x H1 H2. apply in_map_iff in H1. destruct H1 as (e1 & <- & H1). apply Hinc in H1. destruct H1 as [a1 H1].
      apply in_map_iff in H2. destruct H2 as (e2 & E & H2). apply Hinr in H2. destruct H2 as (k2 & c2 & a2 & Hg & H2).
      destruct (adata_key _ _ _ _ _ Hc H1) as [_ N1]. destruct (child_key _ _ _ _ _ _ _ Hr Hg H2) as [_ N2].
      injection E as _ E. change (lower_name (e_name e2) = lower_name (e_name e1)) in E.
      rewrite N1, N2, <- app_assoc in E. apply rev_inj, app_inv_head in E. injection E as -> _. congruence.
Qed.

End Inv.
