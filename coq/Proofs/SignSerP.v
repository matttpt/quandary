(* The inner expression of ServerWT.ser_tsig for TsigMode::Response (BADTIME; verified request answered NOTIMP /
   REFUSED / SERVFAIL / FORMERR): ser_prepare, Writer::set_tsig with reserved_len = signed_len, finish_with_mac.

   The state after set_tsig_signed is [real_of wh2 ..] (Proofs/SignFinishP.v) for the final state [wh2] of the
   contract-obeying run  ser_ops ++ [OSetLimit (limit - output size); OSetTsig ..]  of C12's operation language: the
   limit lowered by the output size stands for the part of the reservation the Unsigned-only model does not know, so
   C12's invariants hold of wh2 and finish_signed_ok2 applies. *)
From QV Require Import Base.ListX Gen.Consts Model.NameWire Model.Reader Model.RdataLite Model.Server Model.ServerW Model.ServerWT
  Model.MsgWriter Model.ZoneTree Model.Query Model.QueryW
  Spec.NameWireS Spec.MsgWriterS Spec.MsgWriterAbsS Spec.RdataFormatS Spec.RespS
  Proofs.MsgWriterP Proofs.MsgWriterScanP Proofs.MsgWriterNameP Proofs.MsgWriterInvP Proofs.MsgWriterClosP Proofs.MsgWriterNameSP Proofs.MsgWriterOpP
  Proofs.MsgWriterLayP Proofs.MsgWriterStepP Proofs.MsgWriterMsgP Proofs.MsgWriterDecP Proofs.MsgWriterHdrP Proofs.MsgWriterRtP
  Proofs.RdataFormatSP
  Proofs.ComposeTraceP Proofs.ComposeTopP Proofs.ComposeRespP Proofs.ComposeSerP Proofs.ComposeTsigP Proofs.ComposeTsigWfP
  Proofs.SignFinishP.
From QV Require Model.TsigMsg.
Local Open Scope nat_scope.

Lemma sg_osz a : TsigMsg.output_size (tsig_alg_of a) = alg_output_size a.
Proof. destruct a; reflexivity. Qed.
Lemma sg_alen a : length (TsigMsg.alg_name (tsig_alg_of a)) = length (alg_name_wire a).
Proof. destruct a; reflexivity. Qed.
Lemma sg_osz_pos a : 20 <= alg_output_size a <= 32.
Proof. destruct a; simpl; lia. Qed.

Section SW.
Variable hmac : TsigMsg.alg -> bytes -> bytes -> bytes.
Hypothesis hmac_len : forall a k d, length (hmac a k d) = TsigMsg.output_size a.
Hypothesis hmac_wf : forall a k d, wf_bytes (hmac a k d).
Variable buf : bytes.
Hypothesis Hb : 512 <= length buf.
Variable w : resp.
Hypothesis Hq : forall q, Server.w_question w = Some q ->
  good_name (labels_of (Reader.q_name q)) /\ (Reader.q_type q < 65536)%N /\ (Reader.q_class q < 65536)%N.
Variable tcp : bool.
Variable t : tsig_out.
Variable f : tsig_fields.
Hypothesis Hf : fields_ok t f.
Variable a : Server.tsig_alg.
Variable secret rmac : bytes.
Hypothesis Hrm : (N.of_nat (length rmac) <= 65535)%N.
Hypothesis Hal : length (nm_wire (tf_alg f)) = length (alg_name_wire a).
Hypothesis Hlim : Server.w_edns w <> None -> tcp = false -> first_limit tcp buf <= Server.w_limit w.
Hypothesis Hfit : wcur w + (length (nm_wire (tf_key f)) + length (nm_wire (tf_alg f)) + 26 +
                            (if (tf_error f =? 18)%N then 6 else 0) + alg_output_size a) + wres w <= wlim buf w tcp.

Definition osz : nat := alg_output_size a.
Definition ulen : nat := tsig_unsigned_len (nm_lower (tf_key f)) (nm_lower (tf_alg f)) (tf_error f).
(* the TSIG settings of the hypothetical (unsigned) run *)
Definition tu : tsigr :=
  mkTsig (nm_lower (tf_alg f)) ulen (nm_lower (tf_key f)) (tf_time f) TSIG_FUDGE (tf_origid f) (tf_error f) (tf_stime f).

Definition sig_ops : list wop :=
  ser_ops w tcp ++ [OSetLimit (wlim buf w tcp - osz); tsig_op f].
Definition sig_outs : list outcome := map (fun _ => RUnit) sig_ops.

Lemma ulen_val : ulen = length (nm_wire (tf_key f)) + length (nm_wire (tf_alg f)) + 26 + (if (tf_error f =? 18)%N then 6 else 0).
Proof. unfold ulen, tsig_unsigned_len, badtime. rewrite !wire_lower_length. reflexivity. Qed.

Lemma signed_steps w1 : Inv_n w1 -> MsgWriter.w_cursor w1 = wcur w -> MsgWriter.w_tsig w1 = None ->
  w_ar w1 = (match Server.w_edns w with Some _ => 1 | None => 0 end)%N ->
  MsgWriter.w_avail w1 + wres w = MsgWriter.w_limit w1 -> MsgWriter.w_limit w1 = wlim buf w tcp ->
  exists w1' wh2 w2,
    MsgWriter.set_limit (wlim buf w tcp - osz) w1 = Ok w1' /\
    MsgWriter.set_tsig (nm_lower (tf_alg f)) (nm_lower (tf_key f)) (tf_time f) TSIG_FUDGE (tf_origid f)
                       (tf_error f) (tf_stime f) w1' = Ok (tt, wh2) /\
    set_tsig_signed osz (nm_lower (tf_alg f)) (nm_lower (tf_key f)) (tf_time f) TSIG_FUDGE (tf_origid f)
                    (tf_error f) (tf_stime f) w1 = Ok (tt, w2) /\
    w2 = real_of wh2 (signed_of tu osz) (MsgWriter.w_limit wh2 + osz) /\
    MsgWriter.w_tsig wh2 = Some tu /\ MsgWriter.w_limit wh2 + osz = wlim buf w tcp /\
    w_buf wh2 = w_buf w1.
Proof.
  clear Hb Hrm Hal Hlim. intros Hn Hc Ht Ha Hav Hl. pose proof (sg_osz_pos a) as Ho. pose proof ulen_val as Hu. fold osz in Ho, Hfit.
  (* the pre-scan reserved what the signing set_tsig asks for *)
  assert (ES : exists w2, set_tsig_signed osz (nm_lower (tf_alg f)) (nm_lower (tf_key f)) (tf_time f) TSIG_FUDGE (tf_origid f)
                            (tf_error f) (tf_stime f) w1 = Ok (tt, w2)).
  { unfold set_tsig_signed. rewrite Ht. fold ulen. rewrite (proj2 (Nat.ltb_ge _ _)) by lia.
    rewrite Ha. destruct (Server.w_edns w); eexists; reflexivity. }
  destruct ES as (w2 & ES).
  destruct (signed_steps_gen w1 osz _ _ _ _ _ _ _ w2 Hn Ht ltac:(lia) ES) as (w1' & wh2 & EL & ET & Er & Etu & Elim & Eb & _).
  rewrite Hl in EL, Elim. exists w1', wh2, w2. auto 10.
Qed.

Lemma sig_replay :
  am_an (areplay am0 sig_ops sig_outs) = [] /\ am_ns (areplay am0 sig_ops sig_outs) = [] /\
  am_ar (areplay am0 sig_ops sig_outs) = [] /\ am_mode (areplay am0 sig_ops sig_outs) = Standard /\
  h_qr (hreplay ah0 sig_ops sig_outs) = true /\
  (h_edns (hreplay ah0 sig_ops sig_outs) = None <-> Server.w_edns w = None).
Proof.
  clear Hb Hq Hf Hrm Hal Hlim Hfit. unfold sig_outs, sig_ops, ser_ops, tsig_op.
  destruct (Server.w_question w) as [q|]; destruct (Server.w_edns w) as [[size upper]|]; try destruct tcp;
    cbn; repeat split; auto; intros X; try discriminate X; auto.
Qed.

Theorem ser_signed_run :
  exists w1 w2 w0 dh y L g,
    ser_prepare buf tcp w = Some w1 /\
    set_tsig_signed osz (nm_lower (tf_alg f)) (nm_lower (tf_key f)) (tf_time f) TSIG_FUDGE (tf_origid f)
                    (tf_error f) (tf_stime f) w1 = Ok (tt, w2) /\
    writer_new buf (if tcp then tcp_limit_w else udp_limit_w) = Ok w0 /\
    run (mkD w0 []) sig_ops = Ok (dh, sig_outs, true) /\
    Forall op_wf sig_ops /\ Forall op_wf2 sig_ops /\ Forall op_wf3 sig_ops /\
    AInv dh g L /\ LInv dh y (areplay am0 sig_ops sig_outs) L /\ MsgWriter.w_tsig (d_w dh) = Some tu /\
    w2 = real_of (d_w dh) (signed_of tu osz) (MsgWriter.w_limit (d_w dh) + osz) /\
    MsgWriter.w_limit (d_w dh) + osz = wlim buf w tcp /\ wlim buf w tcp <= length (w_buf (d_w dh)).
Proof.
  destruct (ser_prepare_shape buf Hb w Hq tcp Hlim) as (w1 & E1 & Hc & Ht & Ha & Hav & Hl).
  destruct (ser_Reach buf Hb w Hq 0%N tcp w1 E1) as (w0 & g1 & E0 & R1).
  apply (Reach_weaken (Pop2 0%N) (fun _ => True) (fun _ _ => I)) in R1.
  destruct (Reach_AInv _ _ _ _ _ _ _ R1 L0 (AInv_new _ _ _ E0)) as (L1 & Hi1).
  pose proof (a_n _ _ _ Hi1) as Hn1. cbn [d_w] in Hn1.
  destruct (signed_steps w1 Hn1 Hc Ht Ha Hav Hl) as (w1' & wh2 & w2 & EL & ET & ES & Ereal & Etu & Elim & Ebuf).
  assert (Hop1 : op_ok (fun _ => True) (OSetLimit (wlim buf w tcp - osz))) by (repeat split; exact I).
  assert (Hop2 : op_ok (fun _ => True) (tsig_op f)).
  { destruct Hf as [[Ga1 Ga2] Gab [Gk1 Gk2] [T1 T2] [S1 S2] _ _ _ _].
    split; [|split; [exact I|split; exact I]]. cbn [op_wf tsig_op]. repeat split; auto; try apply Ga1; try apply Gk1. }
  assert (R2 : Reach (fun _ => True) (mkD w1 []) g1 [OSetLimit (wlim buf w tcp - osz)] [RUnit] (mkD w1' [])
                     (gstep (mkD w1 []) g1 (OSetLimit (wlim buf w tcp - osz)) RUnit)).
  { apply Reach_one; [exact Hop1|exact I| |reflexivity]. cbn [step d_w]. rewrite EL. reflexivity. }
  assert (R3 : Reach (fun _ => True) (mkD w1' []) (gstep (mkD w1 []) g1 (OSetLimit (wlim buf w tcp - osz)) RUnit)
                     [tsig_op f] [RUnit] (mkD wh2 [])
                     (gstep (mkD w1' []) (gstep (mkD w1 []) g1 (OSetLimit (wlim buf w tcp - osz)) RUnit) (tsig_op f) RUnit)).
  { apply Reach_one; [exact Hop2|exact I| |reflexivity]. cbn [step tsig_op d_w]. rewrite ET. reflexivity. }
  pose proof (Reach_trans _ _ _ _ _ _ _ _ _ _ _ R1 (Reach_trans _ _ _ _ _ _ _ _ _ _ _ R2 R3)) as R.
  assert (Eouts : map (fun _ : wop => RUnit) (ser_ops w tcp) ++ [RUnit] ++ [RUnit] = sig_outs).
  { unfold sig_outs, sig_ops. rewrite map_app. reflexivity. }
  change ([OSetLimit (wlim buf w tcp - osz)] ++ [tsig_op f]) with [OSetLimit (wlim buf w tcp - osz); tsig_op f] in R.
  fold sig_ops in R. rewrite Eouts in R.
  destruct (Reach_run _ _ _ _ _ _ _ R) as (Hrun & Hrc & F1 & F2 & F3 & _ & Hlen).
  destruct (run_ok2 sig_ops _ _ _ _ _ (AInv_new _ _ _ E0) (LInv_new _ _ _ E0) Hrc)
    as (d' & outs' & alive' & g & y & L & Erun & Hi & HL).
  rewrite Hrun in Erun. inversion Erun; subst d' outs' alive'. clear Erun.
  exists w1, w2, w0, (mkD wh2 []), y, L, g. cbn [d_w]. rewrite Ebuf, <- Hl.
  split; [exact E1|]. split; [exact ES|]. split; [exact E0|]. split; [exact Hrun|]. split; [exact F1|]. split; [exact F2|].
  split; [exact F3|]. split; [exact Hi|]. split; [exact HL|]. split; [exact Etu|]. split; [exact Ereal|].
  split; [rewrite Hl; exact Elim|exact (i_lim _ Hn1)].
Qed.

Theorem ser_signed_total :
  exists w1 w2 len b,
    ser_prepare buf tcp w = Some w1 /\
    set_tsig_signed osz (nm_lower (tf_alg f)) (nm_lower (tf_key f)) (tf_time f) TSIG_FUDGE (tf_origid f)
                    (tf_error f) (tf_stime f) w1 = Ok (tt, w2) /\
    finish_signed hmac (tsig_alg_of a) secret rmac w2 = Ok (len, b) /\ len <= wlim buf w tcp.
Proof.
  destruct ser_signed_run as (w1 & w2 & w0 & dh & y & L & g & E1 & ES & _ & _ & _ & _ & _ & Hi & HL & Etu & -> & Elim & Hlb).
  destruct (finish_signed_ok2 hmac hmac_len hmac_wf dh g y _ L tu (tsig_alg_of a) secret rmac Hi HL Etu)
    as (wF & _ & _ & _ & _ & _ & EF & _ & _ & _ & _ & _ & Hcl & _);
    [cbn [tu t_alg]; rewrite wire_lower_length, sg_alen; exact Hal|exact Hrm|rewrite sg_osz; fold osz; lia|].
  rewrite sg_osz in EF, Hcl. fold osz in EF, Hcl. rewrite Elim in Hcl.
  exists w1, (real_of (d_w dh) (signed_of tu osz) (MsgWriter.w_limit (d_w dh) + osz)), (MsgWriter.w_cursor wF), (w_buf wF). auto.
Qed.

End SW.
