(* Model/RdataFull.v wraps Rdata::read (Model/RdataM.v) as a reader for the message walk of C15:
   totality and bounds from C18's read_total / read_iff. *)
From QV Require Import Base.ListX Model.NameWire Model.Reader Model.RdataM Model.RdataFull
  Spec.RdataFormatS Proofs.RdataRP.

Theorem rd_full_total c t b cur l : rd_full c t b cur l <> Panic.
Proof.
  unfold rd_full. destruct (wf_bytesb b) eqn:W; cbn [andb]; [|discriminate].
  destruct (l <? 65536)%N eqn:L; [|discriminate].
  apply wf_bytesb_spec in W. apply N.ltb_lt in L.
  destruct (read_total c t b cur l W L) as (NP & _).
  destruct (RdataM.read c t b cur l) as [r|e|]; [discriminate| |congruence].
  destruct e; discriminate.
Qed.

Theorem rd_full_bounds c t b cur l x : rd_full c t b cur l = Ok x -> cur + N.to_nat l <= length b.
Proof.
  unfold rd_full. destruct (wf_bytesb b) eqn:W; cbn [andb]; [|discriminate].
  destruct (l <? 65536)%N eqn:L; [|discriminate].
  apply wf_bytesb_spec in W. apply N.ltb_lt in L.
  destruct (RdataM.read c t b cur l) as [r|e|] eqn:R; [| destruct e; discriminate | discriminate].
  intros _. apply (read_iff c t b cur l r W L) in R. exact (proj1 R).
Qed.
