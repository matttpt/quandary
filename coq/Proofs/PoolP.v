(* [Inv] holds in every reachable state of the repaired LTS; the safety half of C29
   (exactly once, await_shutdown, rejection after shutdown, no usize underflow). *)
From Coq Require Import Lia Permutation.
From QV Require Import Model.Pool Spec.PoolS Proofs.PoolLemmas Proofs.PoolInv
  Proofs.PoolStepA Proofs.PoolStepB Proofs.PoolStepC Proofs.PoolStepD Proofs.PoolStepE Proofs.PoolMeasure.

Theorem inv_step s l s' : Inv s -> step true s l = Some s' -> Inv s'.
Proof.
  intros I H. destruct l.
  - eapply inv_submit; eassumption.
  - eapply inv_sos; eassumption.
  - eapply inv_spawn; eassumption.
  - eapply inv_work; eassumption.
  - eapply inv_task_done; eassumption.
  - eapply inv_drop; eassumption.
  - eapply inv_sdg; eassumption.
  - eapply inv_sdp; eassumption.
  - eapply inv_psd1; eassumption.
  - eapply inv_psd2; eassumption.
  - eapply inv_await; eassumption.
  - eapply inv_spurious; eassumption.
  - eapply inv_timer; eassumption.
Qed.

Lemma sumf_init w l : forallb init_pc l = true ->
  (forall p, init_pc p = true -> w p = 0) -> sumf w l = 0.
Proof.
  intros H Hw. apply sumf_all_zero. intros p Hp.
  apply Hw. rewrite forallb_forall in H. apply H; exact Hp.
Qed.

Lemma cnt_filter f l : cnt f l = length (filter f l).
Proof. induction l as [|p r IH]; simpl; [reflexivity|]. destruct (f p); simpl; rewrite IH; reflexivity. Qed.

Lemma cnt_live_init l : forallb init_pc l = true -> cnt is_live l = cnt is_perm_idle l.
Proof.
  induction l as [|p r IH]; simpl; intros H; [reflexivity|].
  apply andb_true_iff in H; destruct H as [H1 H2]. rewrite (IH H2).
  destruct p as [| | | |[]| | | | | | | | | | | | | | | | |]; simpl in *; try discriminate; reflexivity.
Qed.

Theorem inv_init s : initial s -> Inv s.
Proof.
  intros (lg & ths & Hall & ->). unfold init_state.
  assert (Z : forall w, (forall p, init_pc p = true -> w p = 0) -> sumf w ths = 0)
    by (intros w Hw; apply sumf_init; assumption).
  (* every sum [Inv] reads vanishes on initial pcs, except the count of live threads *)
  constructor; simpl; intros; try discriminate;
    rewrite ?Z in * by (intros []; simpl; intros; try discriminate; reflexivity);
    try reflexivity; try lia.
  rewrite cnt_live_init by exact Hall. symmetry; apply cnt_filter.
Qed.

Theorem inv_run ls : forall s s', Inv s -> run true s ls = Some s' -> Inv s'.
Proof.
  induction ls as [|l r IH]; simpl; intros s s' I H.
  - inversion H; subst; exact I.
  - destruct (step true s l) as [s1|] eqn:E; [|discriminate].
    eapply IH; [eapply inv_step; eassumption | exact H].
Qed.

Theorem inv_reachable s : reachable true s -> Inv s.
Proof.
  intros (s0 & ls & H0 & Hr). eapply inv_run; [apply inv_init; exact H0 | exact Hr].
Qed.


Lemma occ_running l t : occ (flat_map run_of l) t = sumf (occ_run t) l.
Proof.
  induction l as [|p r IH]; simpl; [reflexivity|].
  rewrite occ_app, IH. reflexivity.
Qed.

Lemma occ_seq n t : occ (seq 0 n) t = b2n (t <? n).
Proof.
  induction n as [|n IH]; [reflexivity|].
  rewrite seq_S, occ_app, IH, occ_cons, occ_nil; simpl.
  destruct (Nat.ltb_spec t n), (Nat.ltb_spec t (S n)), (Nat.eqb_spec n t); simpl; lia.
Qed.

Theorem exactly_one_place_inv s : Inv s -> exactly_one_place s.
Proof.
  intros I. unfold exactly_one_place, accepted, running.
  apply (Permutation_count_occ Nat.eq_dec). intros t.
  change (occ (queue s ++ flat_map run_of (thr s) ++ done s) t = occ (seq 0 (next s)) t).
  rewrite !occ_app, occ_running, occ_seq. pose proof (i_tasks s I t). lia.
Qed.

Theorem never_twice_inv s : Inv s -> never_twice s.
Proof.
  intros I. unfold never_twice, running. split.
  - apply (NoDup_count_occ Nat.eq_dec). intros t.
    change (occ (started s) t <= 1).
    pose proof (i_started s I t). pose proof (i_tasks s I t).
    destruct (t <? next s); simpl in *; lia.
  - apply (Permutation_count_occ Nat.eq_dec). intros t.
    change (occ (started s) t = occ (flat_map run_of (thr s) ++ done s) t).
    rewrite occ_app, occ_running. apply (i_started s I t).
Qed.

Lemma cnt_pos_intro f l i p : nth_error l i = Some p -> f p = true -> 1 <= cnt f l.
Proof.
  intros E Hf. pose proof (sumf_nth_le (fun p => b2n (f p)) l i p E) as H.
  cbn beta in H. rewrite Hf in H. exact H.
Qed.

Lemma cnt_zero_all f l : cnt f l = 0 -> forall p, In p l -> f p = false.
Proof.
  intros H p Hp. pose proof (sumf_zero_all _ _ H p Hp) as Hz. cbn beta in Hz.
  destruct (f p); [discriminate | reflexivity].
Qed.

Theorem await_ok_inv s : Inv s -> await_ok s.
Proof.
  intros I (i & E).
  pose proof (cnt_pos_intro is_awret _ _ _ E eq_refl) as Hpos.
  destruct (i_awret s I Hpos) as [Hg Ht].
  pose proof (i_live s I) as Hl. rewrite Ht in Hl. symmetry in Hl.
  assert (Hnl : forall p, In p (thr s) -> is_live p = false) by (apply cnt_zero_all; exact Hl).
  assert (Hrun : forall t, sumf (occ_run t) (thr s) = 0).
  { intros t. apply sumf_all_zero. intros p Hp. specialize (Hnl p Hp).
    destruct p; try discriminate; reflexivity. }
  assert (Hq : queue s = []).
  { pose proof (i_queue s I) as Hq.
    assert (Hw : cnt is_wwoken (thr s) = 0).
    { apply sumf_all_zero. intros p Hp. specialize (Hnl p Hp). destruct p; try discriminate; reflexivity. }
    destruct (queue s); [reflexivity | simpl in Hq; lia]. }
  assert (Hr : running s = []).
  { unfold running. destruct (flat_map run_of (thr s)) as [|t r] eqn:Ef; [reflexivity|].
    pose proof (occ_running (thr s) t) as Ho. rewrite Ef, Hrun, occ_cons, Nat.eqb_refl in Ho. simpl in Ho; lia. }
  split; [|split; [exact Hq | split; [exact Hr | split; [exact Ht | exact Hnl]]]].
  pose proof (exactly_one_place_inv s I) as P. unfold exactly_one_place in P.
  rewrite Hq, Hr in P. exact P.
Qed.

Theorem no_crash_inv s : Inv s -> crashed s = false.
Proof. apply i_crash. Qed.


Theorem rejects_after_shutdown_all fx : rejects_after_shutdown fx.
Proof.
  intros s l o s' Hp Hl H.
  destruct l; simpl in Hl; try discriminate; inversion Hl; subst o0; clear Hl; simpl in H.
  - destruct (sub_enter s i) as [r|]; [|discriminate].
    unfold submit_section in H. rewrite Hp in H.
    destruct o; try discriminate. inversion H; subst s'; simpl; auto.
  - destruct (sos_enter s i) as [r|]; [|discriminate].
    unfold submit_section in H. rewrite Hp in H.
    destruct o; try discriminate. inversion H; subst s'; simpl; auto.
Qed.

(* what end_thread and dec_avail of the model leave alone *)
Lemma next_end_thread s : next (end_thread s) = next s.
Proof.
  unfold end_thread. destruct (tcount s); [reflexivity|].
  destruct (gsd s && (n =? 0)); reflexivity.
Qed.

Lemma next_dec_avail s : next (dec_avail s) = next s.
Proof. unfold dec_avail. destruct (avail s); reflexivity. Qed.

Theorem closed_after_shutdown_all fx : closed_after_shutdown fx.
Proof. intros s l s' Hp Hg H. exact (proj1 (step_after_shutdown fx s l s' Hp Hg H)). Qed.

Theorem exactly_once_reachable s : reachable true s -> exactly_one_place s /\ never_twice s.
Proof.
  intros R. pose proof (inv_reachable s R) as I.
  split; [apply exactly_one_place_inv | apply never_twice_inv]; exact I.
Qed.

Theorem await_reachable s : reachable true s -> await_ok s.
Proof. intros R. apply await_ok_inv, inv_reachable, R. Qed.

Theorem no_crash_reachable s : reachable true s -> crashed s = false.
Proof. intros R. apply no_crash_inv, inv_reachable, R. Qed.

(* after ThreadGroup::shut_down (and any concurrent ThreadPool::shut_down) has released the
   group lock, the pool's flag is set as well *)
Theorem group_shutdown_closes_pool s : reachable true s -> gsd s = true -> glock s = false -> psd s = true.
Proof.
  intros R. apply inv_gsd_psd, inv_reachable, R.
Qed.
