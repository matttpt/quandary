(* C01 / C04 for the signing modes with [hmac_len] as the ONLY hypothesis on hmac: the theorems of Proofs/SignTopP.v
   (which need hmac's output to consist of octets) are applied to the
   octet-normalised function  hmac_oct a k d = map (mod 256) (hmac a k d)  - same output length, octets by construction -
   and transferred with Proofs/SignShapeP.v: panics and lengths do not depend on the MAC's octets. *)
From QV Require Import Base.ListX Gen.Consts Model.NameWire Model.Reader Model.RdataLite
  Model.Server Model.ServerW Model.ServerWT Proofs.ServerP Proofs.ServerLimitP Proofs.ServerTsigP
  Model.ZoneTree Model.Query Model.QueryW Proofs.ComposeTraceP Proofs.ComposeSrvP
  Proofs.SignShapeP Proofs.SignTopP.
From QV Require Model.TsigMsg.
Local Open Scope nat_scope.

Definition hmac_oct (hmac : TsigMsg.alg -> bytes -> bytes -> bytes) (a : TsigMsg.alg) (k d : bytes) : bytes :=
  map (fun x => (x mod 256)%N) (hmac a k d).

Lemma hmac_oct_wf hmac a k d : wf_bytes (hmac_oct hmac a k d).
Proof.
  unfold hmac_oct, wf_bytes. apply Forall_forall. intros x Hx. apply in_map_iff in Hx as (y & <- & _).
  unfold is_octet. apply N.mod_lt. discriminate.
Qed.

Section SrvL.
Variable hmac : TsigMsg.alg -> bytes -> bytes -> bytes.
Hypothesis hmac_len : forall a k d, length (hmac a k d) = TsigMsg.output_size a.
Variable zones : nat -> option zone.
Variable negttl : N -> N -> N.
Variable answer : answer_fn.
Variable verify : tsig_verifier.
Variable cfg : config.
Variable buf : bytes.
Hypothesis Hcfg : wf_cfg cfg.
Hypothesis Hbuf : length buf = c_buflen cfg.
Hypothesis Hnow : (c_now cfg < 281474976710656)%N.

Lemma oct_len : forall a k d, length (hmac_oct hmac a k d) = TsigMsg.output_size a.
Proof. intros a k d. unfold hmac_oct. rewrite map_length. apply hmac_len. Qed.
Lemma oct_same : forall a k d, length (hmac a k d) = length (hmac_oct hmac a k d).
Proof. intros a k d. unfold hmac_oct. rewrite map_length. reflexivity. Qed.

Theorem handle_message_wt_total_len Q req : catalog_okQ Q cfg zones -> wf_bytes req ->
  exists x, handle_message_wt hmac zones negttl answer verify cfg buf req = Ok x.
Proof.
  intros Hcat Hwf.
  destruct (handle_message_wt_total_all (hmac_oct hmac) oct_len (hmac_oct_wf hmac) zones negttl answer verify cfg buf Hcfg Hbuf Hnow Q req Hcat Hwf)
    as (x & E).
  pose proof (handle_message_wt_shape hmac (hmac_oct hmac) oct_same zones negttl answer verify cfg buf req) as S.
  rewrite E in S. destruct (handle_message_wt hmac zones negttl answer verify cfg buf req) as [x'|e|]; try contradiction. eauto.
Qed.

Theorem tsig_response_limit_len req wa t : wf_bytes req ->
  Server.handle_message answer verify cfg req = Ok (Some wa) -> Server.w_tsig wa = Some t ->
  handle_message_wt hmac zones negttl answer verify cfg buf req = Ok (Some (RAbs wa)) \/
  exists len b,
    handle_message_wt hmac zones negttl answer verify cfg buf req = Ok (Some (ROctets len b)) /\
    len <= Server.w_limit wa /\ lim_ok cfg req wa.
Proof.
  intros Hwf HA Et.
  pose proof (handle_message_wt_shape hmac (hmac_oct hmac) oct_same zones negttl answer verify cfg buf req) as S.
  destruct (tsig_response_limit_all (hmac_oct hmac) oct_len (hmac_oct_wf hmac) zones negttl answer verify cfg buf Hcfg Hbuf Hnow req wa t Hwf HA Et)
    as [E|(len & b & f & E & Hl & L & _)]; rewrite E in S.
  - left. destruct (handle_message_wt hmac zones negttl answer verify cfg buf req) as [[[x|l b']|]|e|]; simpl in S; try contradiction.
    subst x. reflexivity.
  - right. destruct (handle_message_wt hmac zones negttl answer verify cfg buf req) as [[[x|l b']|]|e|]; simpl in S; try contradiction.
    subst l. exists len, b'. auto.
Qed.

End SrvL.
