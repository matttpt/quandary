(* C25 — the include stack machine over files given as logical lines with a pure line parser
   (Model/ZfFs.v) computes the structural expansion of Spec/ZfFsS.v. *)
From QV Require Import Base.Octets Model.ZfFs Spec.ZfFsS.

Section FsP.
  Variables Origin Own Ttl Cls Rec SErr L : Type.
  Notation ctx := (ctx Origin Own Ttl Cls).
  Notation lres := (lres Origin Own Ttl Cls Rec SErr).
  Notation entry := (entry Origin Own Ttl Cls L).
  Notation item := (item Rec).
  Variable pline : ctx -> L -> lres.
  Variable fs : path -> option (list (nat * L)).
  Variable max_depth : nat.

  Notation nstep := (next_step Origin Own Ttl Cls Rec SErr L pline fs max_depth).
  Notation run := (run_stack Origin Own Ttl Cls Rec SErr L pline fs max_depth).
  Notation expand := (expand Origin Own Ttl Cls Rec SErr L pline fs).
  Notation outcome := (outcome Origin Own Ttl Cls SErr).
  Notation mchain := (make_chain Origin Own Ttl Cls L).

  Lemma start_ctx_eq (c : ctx) (o : option Origin) : ctx_for_include _ _ _ _ c o = start_ctx _ _ _ _ c o.
  Proof. destruct o; reflexivity. Qed.
  Lemma resume_ctx_eq (c e : ctx) : ctx_after_include _ _ _ _ c e = resume_ctx _ _ _ _ c e.
  Proof. reflexivity. Qed.

  (* complete executions of the machine: what the iterator yields until it returns None *)
  Inductive final := FDone | FBad (p : path) (e : fs_err SErr) | FPanic.
  Inductive steps : list entry -> list item -> final -> Prop :=
  | st_done : forall st, nstep st = SDone _ _ _ _ _ _ _ -> steps st [] FDone
  | st_fail : forall st p e, nstep st = SFail _ _ _ _ _ _ _ p e -> steps st [] (FBad p e)
  | st_panic : forall st, nstep st = SPanic _ _ _ _ _ _ _ -> steps st [] FPanic
  | st_emit : forall st it st' l f, nstep st = SEmit _ _ _ _ _ _ _ it st' -> steps st' l f -> steps st (it :: l) f
  | st_silent : forall st st' l f, nstep st = SSilent _ _ _ _ _ _ _ st' -> steps st' l f -> steps st l f.

  Definition final_of (o : outcome) : final :=
    match o with OCtx _ _ _ _ _ _ => FDone | OBad _ _ _ _ _ p e => FBad p e | OPanic _ _ _ _ _ => FPanic end.

  (* [expand] is a fixpoint on d with an inner one on the lines: its two equations for any d *)
  Lemma expand_nil d chain p c : expand d chain p c [] = ([], OCtx _ _ _ _ _ c).
  Proof. destruct d; reflexivity. Qed.

  Lemma expand_cons d chain p c n l t :
    expand d chain p c ((n, l) :: t) =
    match pline c l with
    | LSkip _ _ _ _ _ _ c' => expand d chain p c' t
    | LErr _ _ _ _ _ _ e => ([], OBad _ _ _ _ _ p (ESyntax _ e))
    | LRec _ _ _ _ _ _ r c' => let '(it, o) := expand d chain p c' t in ((p, n, r) :: it, o)
    | LInc _ _ _ _ _ _ ip org c' =>
        match d with
        | O => ([], OBad _ _ _ _ _ p (ETooDeep _ n (chain ++ [(p, n)])))
        | S d' =>
            match compute_path p ip with
            | None => ([], OPanic _ _ _ _ _)
            | Some newp =>
                match fs newp with
                | None => ([], OBad _ _ _ _ _ p (EOpen _ n newp))
                | Some t2 =>
                    let '(it, o) := expand d' (chain ++ [(p, n)]) newp (start_ctx _ _ _ _ c' org) t2 in
                    match o with
                    | OCtx _ _ _ _ _ cend =>
                        let '(it', o') := expand d chain p (resume_ctx _ _ _ _ c' cend) t in (it ++ it', o')
                    | bad => (it, bad)
                    end
                end
            end
        end
    end.
  Proof. destruct d; reflexivity. Qed.

  (* what may follow an expansion that ended with o, K being the continuation after a file read to its end *)
  Definition then_steps (o : outcome) (K : ctx -> list item -> final -> Prop) (l : list item) (f : final) : Prop :=
    match o with
    | OCtx _ _ _ _ _ cend => K cend l f
    | _ => l = [] /\ f = final_of o
    end.

  (* the file on top of the stack, run by the machine, behaves like its expansion, and then like
     the machine once that file has been read to its end *)
  Lemma file_steps : forall d p fl rest t c,
    length rest + d = max_depth -> forall l f,
    then_steps (snd (expand d (mchain rest fl) p c t)) (fun cend => steps ((p, fl, cend, []) :: rest)) l f ->
    steps ((p, fl, c, t) :: rest) (fst (expand d (mchain rest fl) p c t) ++ l) f.
  Proof.
    induction d as [d IHd] using lt_wf_ind. intros p fl rest t.
    induction t as [|[n ln] t IHt]; intros c Hd l f; [rewrite expand_nil; exact (fun H => H)|].
    rewrite expand_cons. destruct (pline c ln) as [c'|e|r c'|ip o c'] eqn:Hp.
    - intros H. eapply st_silent; [cbn; rewrite Hp; reflexivity|]. apply IHt; assumption.
    - intros [-> ->]. apply st_fail. cbn. rewrite Hp. reflexivity.
    - specialize (IHt c' Hd l f). destruct (expand d (mchain rest fl) p c' t) as [it o].
      intros H. eapply st_emit; [cbn; rewrite Hp; reflexivity|]. apply IHt, H.
    - destruct d as [|d].
      { intros [-> ->]. apply st_fail. cbn. rewrite Hp.
        replace (max_depth <=? length rest) with true by (symmetry; apply Nat.leb_le; lia). reflexivity. }
      assert (E : (max_depth <=? length rest) = false) by (apply Nat.leb_gt; lia).
      destruct (compute_path p ip) as [newp|] eqn:Hc.
      2:{ intros [-> ->]. apply st_panic. cbn. rewrite Hp, E, Hc. reflexivity. }
      destruct (fs newp) as [t2|] eqn:Hf.
      2:{ intros [-> ->]. apply st_fail. cbn. rewrite Hp, E, Hc, Hf. reflexivity. }
      (* the included file runs on top of the includer's entry, which resumes when it has ended *)
      assert (Hd' : length ((p, fl, c', t) :: rest) + d = max_depth)
        by (cbn [length]; unfold ZfFs.entry in *; lia).
      pose proof (IHd d (Nat.lt_succ_diag_r d) newp n _ t2 (start_ctx _ _ _ _ c' o) Hd') as Hinc.
      cbn [make_chain] in Hinc.
      destruct (expand d (mchain rest fl ++ [(p, n)]) newp (start_ctx _ _ _ _ c' o) t2) as [it [cend|bp be|]];
        intros H; (eapply st_silent; [cbn; rewrite Hp, E, Hc, Hf, start_ctx_eq; reflexivity|]).
      + specialize (IHt (resume_ctx _ _ _ _ c' cend) Hd l f).
        destruct (expand (S d) (mchain rest fl) p (resume_ctx _ _ _ _ c' cend) t) as [it' o'].
        cbn [fst]. rewrite <- app_assoc. apply Hinc. eapply st_silent; [reflexivity|]. apply IHt, H.
      + apply Hinc, H.
      + apply Hinc, H.
  Qed.

  Definition result_of (l : list item) (f : final) : res fs_fuel_err (list item * option (path * fs_err SErr)) :=
    match f with
    | FDone => Ok (l, None)
    | FBad p e => Ok (l, Some (p, e))
    | FPanic => Panic
    end.

  Lemma result_of_cons it l f :
    map_ok (fun '(l, o) => (it :: l, o)) (result_of l f) = result_of (it :: l) f.
  Proof. destruct f; reflexivity. Qed.

  Lemma steps_run st l f : steps st l f -> exists f0, forall fuel, f0 <= fuel -> run fuel st = result_of l f.
  Proof.
    induction 1 as [st H|st p e H|st H|st it st' l f H _ [f0 IH]|st st' l f H _ [f0 IH]].
    1-3: exists 1; intros [|fuel] Hf; [lia|]; cbn [run_stack]; rewrite H; reflexivity.
    - exists (S f0). intros [|fuel] Hf; [lia|]. cbn [run_stack]. rewrite H, IH by lia. apply result_of_cons.
    - exists (S f0). intros [|fuel] Hf; [lia|]. cbn [run_stack]. rewrite H. apply IH. lia.
  Qed.

  Lemma run_eq_expand p0 c0 t0 :
    exists f0, forall fuel, f0 <= fuel ->
      run fuel [(p0, 0, c0, t0)] =
      result_of (fst (expand max_depth [] p0 c0 t0)) (final_of (snd (expand max_depth [] p0 c0 t0))).
  Proof.
    apply steps_run. rewrite <- (app_nil_r (fst _)). apply (file_steps max_depth p0 0 [] t0 c0); [reflexivity|].
    cbn [make_chain]. destruct (snd (expand max_depth [] p0 c0 t0)); cbn; auto. apply st_done. reflexivity.
  Qed.

  Lemma expand_too_deep chain p c n l t ip o c' :
    pline c l = LInc _ _ _ _ _ _ ip o c' ->
    expand 0 chain p c ((n, l) :: t) = ([], OBad _ _ _ _ _ p (ETooDeep _ n (chain ++ [(p, n)]))).
  Proof. intros H. rewrite expand_cons, H. reflexivity. Qed.

  Lemma resume_origin (c e : ctx) : c_origin _ _ _ _ (resume_ctx _ _ _ _ c e) = c_origin _ _ _ _ c.
  Proof. reflexivity. Qed.
End FsP.
