(* C02, the part that composes from C12's frame lemmas: the four section counts that
   Writer::finish writes into the header are the Writer's counters (the reserved OPT / TSIG records,
   already counted in ARCOUNT, are appended above the header and leave it alone). *)
From QV Require Import Base.ListX Gen.Consts Model.MsgWriter Proofs.MsgWriterP Proofs.MsgWriterNameP
  Proofs.MsgWriterInvP Proofs.MsgWriterDecP Spec.MsgWriterS.
Local Open Scope nat_scope.

(* a 16-bit field written at pos reads back there; nothing below pos changes, nor do the an/ns/ar counters *)
Lemma w_write_get16 w pos v w' : w_write w pos (be16 v) = Ok w' -> (v < 65536)%N ->
  get16 (w_buf w') pos = Some v /\ agree pos (w_buf w) (w_buf w') /\
  w_an w' = w_an w /\ w_ns w' = w_ns w /\ w_ar w' = w_ar w.
Proof.
  intros H Hv. apply w_write_inv in H as (b' & Hb & ->). cbn [w_buf w_an w_ns w_ar set_buf].
  split; [|split; [eapply buf_write_agree; eauto|auto]].
  apply get16_be16; [|exact Hv]. exact (buf_write_data _ _ _ _ Hb).
Qed.

Lemma get16_agree c b b' i : agree c b b' -> i + 2 <= c -> get16 b' i = get16 b i.
Proof. intros Ha Hi. unfold get16. rewrite !(agree_nth c b b') by (auto; lia). reflexivity. Qed.

Theorem finish_header_counts w len b : Inv_n w -> finish w = Ok (len, b) ->
  (w_qd w < 65536)%N -> (w_an w < 65536)%N -> (w_ns w < 65536)%N -> (w_ar w < 65536)%N ->
  get16 b 4 = Some (w_qd w) /\ get16 b 6 = Some (w_an w) /\ get16 b 8 = Some (w_ns w) /\ get16 b 10 = Some (w_ar w).
Proof.
  intros Hi Hf Hqd Han Hns Har.
  destruct (finish_gen_ext _ w len b Hi Hf) as (w1 & w2 & w3 & w4 & E1 & E2 & E3 & E4 & Hfin & _).
  apply w_write_get16 in E1 as (G1 & _ & A1 & N1 & R1); [|exact Hqd]. rewrite A1 in E2.
  apply w_write_get16 in E2 as (G2 & F2 & _ & N2 & R2); [|exact Han]. rewrite N2, N1 in E3.
  apply w_write_get16 in E3 as (G3 & F3 & _ & _ & R3); [|exact Hns]. rewrite R3, R2, R1 in E4.
  apply w_write_get16 in E4 as (G4 & F4 & _); [|exact Har].
  (* each later write, and the records appended by finish, lie above the field *)
  repeat split.
  - rewrite (get16_agree 12 _ _ 4 Hfin), (get16_agree 10 _ _ 4 F4), (get16_agree 8 _ _ 4 F3),
      (get16_agree 6 _ _ 4 F2) by lia. exact G1.
  - rewrite (get16_agree 12 _ _ 6 Hfin), (get16_agree 10 _ _ 6 F4), (get16_agree 8 _ _ 6 F3) by lia. exact G2.
  - rewrite (get16_agree 12 _ _ 8 Hfin), (get16_agree 10 _ _ 8 F4) by lia. exact G3.
  - rewrite (get16_agree 12 _ _ 10 Hfin) by lia. exact G4.
Qed.
