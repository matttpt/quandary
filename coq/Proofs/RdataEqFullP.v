(* Rdata::equals (model, with the repaired names_equal) equals the characterisation
   spec_equals for EVERY class and type: the five multi-field handlers
   equals_as_{soa, minfo, mx, in_srv, ch_a} (test_n_name_fields with n = 1, 2; the
   fixed-prefix handlers), on top of Proofs/RdataEqP.v (names_equal, bitwise). *)
From QV Require Import Base.ListX Model.NameWire Spec.NameWireS Spec.NameRepr Proofs.NameWireP
  Proofs.NameWireSP Model.RdataM Spec.RdataFormatS Spec.RdataEqS Proofs.RdNameP Proofs.RdataFormatSP
  Proofs.RdataVP Proofs.RdataRP Proofs.RdNameEqP Proofs.RdataEqSP Model.RdataSetM Proofs.RdataSetP
  Proofs.RdataEqP.
Local Open Scope nat_scope.

Lemma octets_eqb_split n a b :
  octets_eqb a b = octets_eqb (firstn n a) (firstn n b) && octets_eqb (skipn n a) (skipn n b).
Proof.
  destruct (octets_eqb a b) eqn:E.
  - apply octets_eqb_eq in E. subst b. rewrite !octets_eqb_refl. reflexivity.
  - symmetry. apply andb_false_iff.
    destruct (octets_eqb (firstn n a) (firstn n b)) eqn:F; [|left; reflexivity]. right.
    destruct (octets_eqb (skipn n a) (skipn n b)) eqn:S; [|reflexivity]. exfalso.
    apply octets_eqb_eq in F. apply octets_eqb_eq in S.
    assert (X : a = b) by (rewrite <- (firstn_skipn n a), <- (firstn_skipn n b), F, S; reflexivity).
    subst b. rewrite octets_eqb_refl in E. discriminate.
Qed.

Lemma ci_fields_nonames g : existsb is_FName g = false ->
  forall a b, ci_fields g a b = octets_eqb a b.
Proof.
  induction g as [|f g IH]; intros H a b; [reflexivity|].
  cbn [existsb] in H. apply orb_false_iff in H. destruct H as [Hf Hg].
  destruct f; try discriminate; try reflexivity.
  rewrite ci_fields_bytes, (IH Hg). symmetry. apply octets_eqb_split.
Qed.

Lemma ci_fields_bytes_merge x y g a b :
  ci_fields (FBytes x :: FBytes y :: g) a b = ci_fields (FBytes (x + y) :: g) a b.
Proof.
  rewrite !ci_fields_bytes.
  rewrite (octets_eqb_split x (firstn (x + y) a) (firstn (x + y) b)).
  rewrite !firstn_firstn, !skipn_firstn_comm, !skipn_plus.
  replace (Nat.min x (x + y)) with x by lia. replace (x + y - x) with y by lia.
  rewrite andb_assoc. reflexivity.
Qed.

Lemma eq_spec_merge x y g a b :
  eq_spec (FBytes x :: FBytes y :: g) a b = eq_spec (FBytes (x + y) :: g) a b.
Proof. unfold eq_spec. rewrite !smatch_bytes_merge, ci_fields_bytes_merge. reflexivity. Qed.

Lemma ci_fields_len g : forall a b, smatch g a = true -> smatch g b = true ->
  ci_fields g a b = true -> length a = length b.
Proof.
  induction g as [|f g IH]; intros a b Ma Mb C.
  - cbn [ci_fields] in C. apply octets_eqb_eq in C. subst. reflexivity.
  - destruct f; try (cbn [ci_fields] in C; apply octets_eqb_eq in C; subst; reflexivity).
    + rewrite smatch_name in Ma, Mb. unfold sname in Ma, Mb. rewrite ci_fields_name in C.
      destruct (spec_decode_name a 0) as [[la na]|] eqn:Sa; [|discriminate].
      destruct (spec_decode_name b 0) as [[lb nb]|] eqn:Sb; [|discriminate].
      apply andb_true_iff in C. destruct C as [L C].
      pose proof (decode0_facts a la na Sa) as (_ & Na & _ & _ & La).
      pose proof (decode0_facts b lb nb Sb) as (_ & Nb & _ & _ & Lb).
      pose proof (labels_ci_wire_len la lb L) as W.
      pose proof (IH _ _ Ma Mb C) as E. rewrite !skipn_length in E. lia.
    + rewrite smatch_bytes in Ma, Mb. rewrite ci_fields_bytes in C.
      apply andb_true_iff in Ma. destruct Ma as [Ka Ma]. apply andb_true_iff in Mb. destruct Mb as [Kb Mb].
      apply andb_true_iff in C. destruct C as [_ C]. apply Nat.leb_le in Ka. apply Nat.leb_le in Kb.
      pose proof (IH _ _ Ma Mb C) as E. rewrite !skipn_length in E. lia.
Qed.

Lemma eq_spec_len g a b : length a <> length b -> eq_spec g a b = false.
Proof.
  intros N. unfold eq_spec.
  destruct (smatch g a) eqn:Ma; cbn [andb]; [|apply octets_eqb_false_len; exact N].
  destruct (smatch g b) eqn:Mb; [|apply octets_eqb_false_len; exact N].
  destruct (ci_fields g a b) eqn:C; [|reflexivity]. exfalso. apply N. eapply ci_fields_len; eauto.
Qed.

(* all five give up at once on RDATA of different lengths *)
Lemma len_guard g a b (x : res rd_err bool) :
  (length a = length b -> x = Ok (eq_spec g a b)) ->
  (if negb (length a =? length b) then Ok false else x) = Ok (eq_spec g a b).
Proof.
  intros H. destruct (Nat.eqb_spec (length a) (length b)) as [L|L]; cbn [negb]; [exact (H L)|].
  rewrite eq_spec_len by exact L. reflexivity.
Qed.

Theorem minfo_char a b :
  equals_as_minfo a b = Ok (eq_spec [FName; FName] a b).
Proof.
  apply len_guard. intros L. apply (tnf_handler 2 []). intros len La Lb.
  rewrite nil_tail, <- L, andb_diag, bytes_eqb_octets by assumption. reflexivity.
Qed.

Theorem soa_char a b :
  equals_as_soa a b = Ok (eq_spec [FName; FName; FBytes 4; FBytes 4; FBytes 4; FBytes 4; FBytes 4] a b).
Proof.
  apply len_guard. intros L.
  apply (tnf_handler 2 [FBytes 4; FBytes 4; FBytes 4; FBytes 4; FBytes 4]). intros len La Lb.
  rewrite usub_ok by exact La. cbn [bind].
  rewrite !smatch_fixed20, !skipn_length, ci_fields_nonames, <- L, bytes_eqb_octets by reflexivity.
  destruct (length a - len =? 20); cbn [negb andb]; [|reflexivity].
  rewrite !slice_from_ok by lia. cbn [bind]. rewrite bytes_eqb_octets. reflexivity.
Qed.

Theorem ch_a_char a b :
  equals_as_ch_a a b = Ok (eq_spec [FName; FBytes 2] a b).
Proof.
  apply len_guard. intros L. apply (tnf_handler 1 [FBytes 2]). intros len La Lb.
  rewrite !smatch_bytes_last, !skipn_length, ci_fields_nonames, <- L, bytes_eqb_octets by reflexivity.
  destruct (Nat.eqb_spec (len + 2) (length a)), (Nat.eqb_spec (length a - len) 2); try lia; cbn [andb];
    [|reflexivity].
  rewrite !slice_from_ok by lia. cbn [bind]. rewrite bytes_eqb_octets. reflexivity.
Qed.

(* equals_as_mx (k = 2) and equals_as_in_srv (k = 6) *)
Theorem fixed_then_name_char k a b :
  equals_fixed_then_name k a b = Ok (eq_spec [FBytes k; FName] a b).
Proof.
  apply len_guard. intros L.
  destruct (Nat.ltb_spec k (length a)) as [K|K].
  - rewrite !slice_range_ok by lia. cbn [bind]. rewrite !slice_0, bytes_eqb_octets.
    destruct (octets_eqb (firstn k a) (firstn k b)) eqn:P.
    + rewrite !slice_from_ok by lia. cbn [bind].
      rewrite names_equal_char. f_equal.
      unfold eq_spec. rewrite !smatch_bytes, ci_fields_bytes, P.
      rewrite !(proj2 (Nat.leb_le k _)) by lia. cbn [andb].
      rewrite (octets_eqb_split k a b), P. reflexivity.
    + f_equal. symmetry. apply eq_spec_false.
      * intros X. subst b. rewrite octets_eqb_refl in P. discriminate.
      * rewrite ci_fields_bytes, P. reflexivity.
  - rewrite bytes_eqb_octets. f_equal. symmetry.
    apply eq_spec_invalid. left. rewrite smatch_bytes.
    destruct (Nat.leb_spec0 k (length a)); [|reflexivity]. rewrite skipn_all2 by lia. reflexivity.
Qed.

Theorem equals_char c t a b : wf_bytes a -> wf_bytes b ->
  equals c t a b = Ok (spec_equals c t a b).
Proof.
  intros _ _. unfold equals. pose proof (dispatch_equals c t) as D.
  destruct (lookup equals_arms equals_default c t); cbn [run_equals]; destruct D as [C G];
    try rewrite (spec_equals_eq_spec c t a b C), G.
  - apply names_equal_char.
  - apply ch_a_char.
  - apply soa_char.
  - apply minfo_char.
  - apply fixed_then_name_char.
  - rewrite !eq_spec_merge. apply fixed_then_name_char.
  - unfold spec_equals. rewrite C, bytes_eqb_octets. reflexivity.
Qed.

Theorem equals_total c t a b : wf_bytes a -> wf_bytes b -> exists v, equals c t a b = Ok v.
Proof. intros Ha Hb. eexists. apply equals_char; auto. Qed.

Theorem equals_laws c t :
  (forall a, wf_bytes a -> equals c t a a = Ok true) /\
  (forall a b, wf_bytes a -> wf_bytes b -> equals c t a b = equals c t b a) /\
  (forall a b d, wf_bytes a -> wf_bytes b -> wf_bytes d ->
     equals c t a b = Ok true -> equals c t b d = Ok true -> equals c t a d = Ok true).
Proof. apply laws_of_char, equals_char. Qed.

(* equal RDATA are octet-identical outside the case-insensitive types, and the
   case-insensitive comparison only ever applies to two valid RDATA *)
Theorem equals_octetwise c t a b : wf_bytes a -> wf_bytes b ->
  ci_type c t && spec_valid c t a && spec_valid c t b = false ->
  equals c t a b = Ok (octets_eqb a b).
Proof.
  intros Ha Hb H. rewrite (equals_char c t a b Ha Hb). unfold spec_equals. rewrite H. reflexivity.
Qed.

(* RdataSetOwned::from_iter keeps the first member of each class of the
   characterisation, in insertion order, with no hypothesis on equals *)
Theorem set_full c t be rs : Forall small rs -> Forall wf_bytes rs ->
  from_iter be c t rs =
    Ok (match rs with [] => None | _ => Some (inner_of be (nodup_by (spec_equals c t) [] rs)) end) /\
  (forall inner, from_iter be c t rs = Ok (Some inner) ->
     set_iter be inner = nodup_by (spec_equals c t) [] rs).
Proof.
  intros Hs Hw.
  apply (from_iter_spec c t (spec_equals c t) rs); auto; [|apply incl_refl].
  intros x y Hx Hy. rewrite Forall_forall in Hw. apply equals_char; auto.
Qed.

(* RdataSetOwned::insert on a set holding [kept]: the RDATA is appended iff no member is
   equal to it (the characterisation), and the flag says which *)
Theorem set_insert_full c t be kept r :
  Forall small kept -> Forall wf_bytes kept -> small r -> wf_bytes r ->
  set_insert be c t (inner_of be kept) r =
  Ok (if existsb (fun y => spec_equals c t r y) kept
      then (inner_of be kept, false)
      else (inner_of be (kept ++ [r]), true)).
Proof.
  intros Hs Hw Hr Hwr. unfold set_insert. rewrite set_iter_inner by exact Hs.
  assert (Heq : forall x y, In x (r :: kept) -> In y (r :: kept) ->
                equals c t x y = Ok (spec_equals c t x y)).
  { assert (W : Forall wf_bytes (r :: kept)) by (constructor; assumption).
    rewrite Forall_forall in W. intros x y Hx Hy. apply equals_char; auto. }
  rewrite (any_equal_spec c t (spec_equals c t) (r :: kept) Heq r kept);
    [|left; reflexivity|intros z Hz; right; exact Hz].
  cbn [bind]. destruct (existsb (fun y => spec_equals c t r y) kept); [reflexivity|].
  rewrite inner_snoc. reflexivity.
Qed.

(* ... so a set whose members are pairwise unequal stays so, and iterates in insertion order *)
Theorem set_insert_iter c t be kept r inner' flag :
  Forall small kept -> Forall wf_bytes kept -> small r -> wf_bytes r ->
  set_insert be c t (inner_of be kept) r = Ok (inner', flag) ->
  set_iter be inner' = (if flag then kept ++ [r] else kept) /\
  flag = negb (existsb (fun y => spec_equals c t r y) kept).
Proof.
  intros Hs Hw Hr Hwr H. rewrite (set_insert_full c t be kept r Hs Hw Hr Hwr) in H.
  destruct (existsb (fun y => spec_equals c t r y) kept); inversion H; subst; cbn [negb].
  - split; [apply set_iter_inner; exact Hs|reflexivity].
  - split; [|reflexivity]. apply set_iter_inner. apply Forall_app. split; [exact Hs|]. constructor; auto.
Qed.
