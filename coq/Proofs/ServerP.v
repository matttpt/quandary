(* The server model (Model/Server.v): what the pre-scan of a request guarantees.  The paths through process_additional,
   prescan_rest and prescan ([pa_out], [prescan_rest_inv], [prescan_path]), the lifting of an invariant through them
   ([prescan_lift]), the dispatch and handle_message. *)
From QV Require Import Base.ListX Model.NameWire Model.Reader Model.RdataLite Model.Server
  Proofs.NameWireP Proofs.ReaderP Proofs.RdataLiteP.
Local Open Scope nat_scope.

Ltac inv H := inversion H; subst; clear H.

Lemma set_edns_Ok w sz w' : set_edns w sz = Ok w' ->
  w' = mkResp (w_id w) (w_opcode w) (w_rd w) (w_rcode w) (w_aa w) (w_tc w) (w_question w) (Some (sz, 0%N))
              (w_tsig w) (w_body w) (w_cursor w) (w_limit w) (w_avail w - opt_record_size) (w_buflen w)
              (w_arcount w + 1).
Proof.
  unfold set_edns. destruct (w_edns w); [discriminate|]. destruct (_ <? _); [discriminate|].
  destruct (_ <=? _)%N; [discriminate|]. intros E; inv E. reflexivity.
Qed.

Lemma set_tsig_Ok w t w' : set_tsig w t = Ok w' ->
  w' = mkResp (w_id w) (w_opcode w) (w_rd w) (w_rcode w) (w_aa w) (w_tc w) (w_question w) (w_edns w)
              (Some t) (w_body w) (w_cursor w) (w_limit w) (w_avail w - t_reserved t) (w_buflen w)
              (w_arcount w + 1).
Proof.
  unfold set_tsig. destruct (w_tsig w); [discriminate|]. destruct (_ <? _); [discriminate|].
  destruct (_ <=? _)%N; [discriminate|]. intros E; inv E. reflexivity.
Qed.

(* growing: up to the buffer *)
Lemma set_limit_Ok w l w' : set_limit w l = Ok w' ->
  exists nl av,
    w' = mkResp (w_id w) (w_opcode w) (w_rd w) (w_rcode w) (w_aa w) (w_tc w) (w_question w) (w_edns w)
                (w_tsig w) (w_body w) (w_cursor w) nl av (w_buflen w) (w_arcount w) /\
    (nl = Nat.min l (w_buflen w) \/ l < w_limit w).
Proof.
  unfold set_limit. destruct (Nat.leb_spec (w_limit w) l).
  - destruct (_ <? _); [discriminate|]. intros E; inv E. eauto.
  - destruct (_ <? _); [discriminate|]. destruct (_ <? _); [discriminate|]. destruct (_ <? _); [discriminate|].
    intros E; inv E. eauto.
Qed.

Lemma set_extended_rcode_Ok w raw w' : set_extended_rcode w raw = Ok w' ->
  exists sz up, w_edns w = Some (sz, up) /\
    w' = mkResp (w_id w) (w_opcode w) (w_rd w) (N.land raw 15) (w_aa w) (w_tc w) (w_question w)
                (Some (sz, N.shiftr raw 4)) (w_tsig w) (w_body w) (w_cursor w) (w_limit w) (w_avail w)
                (w_buflen w) (w_arcount w).
Proof.
  unfold set_extended_rcode. destruct (w_edns w) as [[sz up]|]; [|discriminate].
  destruct (_ <? _)%N; [discriminate|]. intros E; inv E. eauto.
Qed.

Lemma add_question_Ok w q w' : add_question w q = Ok w' ->
  w' = mkResp (w_id w) (w_opcode w) (w_rd w) (w_rcode w) (w_aa w) (w_tc w) (Some q) (w_edns w) (w_tsig w) (w_body w)
              (w_cursor w + (length (n_wire (q_name q)) + 4)) (w_limit w) (w_avail w) (w_buflen w) (w_arcount w).
Proof.
  unfold add_question. destruct (_ <? _); [discriminate|]. destruct (_ <? _); [discriminate|].
  destruct (_ <? _); [discriminate|]. intros E; inv E. reflexivity.
Qed.

Lemma set_tsig_or_truncate_cases w t :
  (exists w', set_tsig w t = Ok w' /\ set_tsig_or_truncate w t = (w', true)) \/
  set_tsig_or_truncate w t = (set_tc w, false).
Proof. unfold set_tsig_or_truncate. destruct (set_tsig w t); eauto. Qed.

(* the fields the property C03 is about, and the opaque body *)
Definition same_core (w w' : resp) : Prop :=
  w_id w' = w_id w /\ w_opcode w' = w_opcode w /\ w_rd w' = w_rd w /\ w_question w' = w_question w /\
  w_body w' = w_body w /\ w_aa w' = w_aa w.

Lemma same_core_refl w : same_core w w.
Proof. repeat split. Qed.
Lemma same_core_trans a b c : same_core a b -> same_core b c -> same_core a c.
Proof. unfold same_core. intuition congruence. Qed.

Lemma set_rcode_core w rc : same_core w (set_rcode w rc).
Proof. repeat split. Qed.
Lemma set_edns_core w sz w' : set_edns w sz = Ok w' -> same_core w w'.
Proof. intros H. pose proof (set_edns_Ok _ _ _ H) as ->. repeat split. Qed.
Lemma set_limit_core w l w' : set_limit w l = Ok w' -> same_core w w'.
Proof. intros H. destruct (set_limit_Ok _ _ _ H) as (nl & av & -> & _). repeat split. Qed.
Lemma set_extended_rcode_core w raw w' : set_extended_rcode w raw = Ok w' -> same_core w w'.
Proof. intros H. destruct (set_extended_rcode_Ok _ _ _ H) as (sz & up & _ & ->). repeat split. Qed.
Lemma set_tsig_or_truncate_core w t : same_core w (fst (set_tsig_or_truncate w t)).
Proof.
  destruct (set_tsig_or_truncate_cases w t) as [(w' & E & ->)| ->]; [|repeat split].
  pose proof (set_tsig_Ok _ _ _ E) as ->. repeat split.
Qed.

Definition edns_ok (cfg : config) (w : resp) : Prop :=
  match w_edns w with None => True | Some (sz, _) => sz = c_edns_size cfg end.

Lemma set_rcode_edns w rc : w_edns (set_rcode w rc) = None <-> w_edns w = None.
Proof. cbn. destruct (w_edns w) as [[sz up]|]; split; auto; discriminate. Qed.

Lemma edns_set_rcode cfg w rc : edns_ok cfg w -> edns_ok cfg (set_rcode w rc).
Proof. unfold edns_ok. cbn. destruct (w_edns w) as [[sz up]|]; auto. Qed.
Lemma edns_set_tc cfg w : edns_ok cfg w -> edns_ok cfg (set_tc w).
Proof. auto. Qed.
Lemma edns_set_limit cfg w l w' : set_limit w l = Ok w' -> edns_ok cfg w -> edns_ok cfg w'.
Proof. intros H. destruct (set_limit_Ok _ _ _ H) as (nl & av & -> & _). auto. Qed.
Lemma set_tsig_or_truncate_tsig w t : snd (set_tsig_or_truncate w t) = true ->
  w_tsig (fst (set_tsig_or_truncate w t)) <> None /\ w_rcode (fst (set_tsig_or_truncate w t)) = w_rcode w.
Proof.
  destruct (set_tsig_or_truncate_cases w t) as [(w' & E & ->)| ->]; [|discriminate].
  pose proof (set_tsig_Ok _ _ _ E) as ->. split; [discriminate|reflexivity].
Qed.
Lemma set_tsig_or_truncate_keeps w t : let w' := fst (set_tsig_or_truncate w t) in
  w_edns w' = w_edns w /\ w_limit w' = w_limit w /\ w_buflen w' = w_buflen w.
Proof.
  destruct (set_tsig_or_truncate_cases w t) as [(w' & E & ->)| ->]; [|repeat split].
  pose proof (set_tsig_Ok _ _ _ E) as ->. repeat split.
Qed.

Definition wf_cfg (cfg : config) : Prop :=
  (512 <= c_edns_size cfg)%N /\ (c_edns_size cfg <= 65535)%N /\
  match c_transport cfg with Tcp => tcp_limit | Udp => N.to_nat (c_edns_size cfg) end <= c_buflen cfg.

Definition reserved (w : resp) : nat := match w_edns w with Some _ => 11 | None => 0 end.

(* [seen] is the loop's seen_opt flag *)
(* 271 = 12 + 255 + 4: header, the longest name, QTYPE and QCLASS; with the limit at least 512 an OPT (11 octets) and
   its reservation always fit behind the question, which is what set_edns_total and add_question_total need *)
Definition srv_inv (cfg : config) (seen : bool) (w : resp) : Prop :=
  edns_ok cfg w /\ (seen = true <-> w_edns w <> None) /\ w_tsig w = None /\
  w_cursor w <= 271 /\ 512 <= w_limit w /\ w_limit w <= w_buflen w /\
  w_avail w + reserved w = w_limit w /\
  w_arcount w = (match w_edns w with Some _ => 1 | None => 0 end)%N /\ w_body w = empty_body.

Lemma srv_inv_no_edns cfg w : srv_inv cfg false w -> w_edns w = None.
Proof. intros (_ & B & _). destruct (w_edns w); [|reflexivity]. destruct B as [_ B]. discriminate B. discriminate. Qed.

Lemma srv_inv_edns cfg w : srv_inv cfg true w -> exists up, w_edns w = Some (c_edns_size cfg, up).
Proof.
  intros (A & B & _). unfold edns_ok in A. destruct (w_edns w) as [[sz up]|]; [subst sz; eauto|].
  destruct (proj1 B eq_refl eq_refl).
Qed.

Lemma srv_inv_set_rcode cfg seen w rc : srv_inv cfg seen w -> srv_inv cfg seen (set_rcode w rc).
Proof.
  intros (A & B & I). split; [apply edns_set_rcode; exact A|]. split.
  - rewrite B. pose proof (set_rcode_edns w rc). tauto.
  - unfold reserved in *. cbn. destruct (w_edns w) as [[sz up]|]; exact I.
Qed.

Lemma set_edns_total cfg w : srv_inv cfg false w ->
  exists w1, set_edns w (c_edns_size cfg) = Ok w1 /\ srv_inv cfg true w1 /\ w_rcode w1 = w_rcode w.
Proof.
  intros I. pose proof (srv_inv_no_edns cfg w I) as En. destruct I as (A & B & C & D & E & F & G & H & J).
  unfold reserved in G. rewrite En in G, H.
  unfold set_edns. rewrite En. change opt_record_size with 11.
  destruct (Nat.ltb_spec (w_avail w) (w_cursor w + 11)); [lia|].
  destruct (N.leb_spec 65535 (w_arcount w)); [lia|].
  eexists. split; [reflexivity|]. split; [|reflexivity].
  unfold srv_inv, edns_ok, reserved. cbn. rewrite H. repeat split; auto; try lia; discriminate.
Qed.

(* the limit negotiation of process_additional (UDP only) *)
Definition negotiate (cfg : config) (w1 : resp) (their : N) : res reader_err resp :=
  match c_transport cfg with
  | Udp => if (c_edns_size cfg <? 512)%N then Panic
           else match set_limit w1 (N.to_nat (N.max 512 (N.min their (c_edns_size cfg)))) with
                | Ok w2 => Ok w2 | Err _ => Panic | Panic => Panic
                end
  | Tcp => Ok w1
  end.

Lemma negotiate_Ok cfg w1 their w2 : negotiate cfg w1 their = Ok w2 ->
  (c_transport cfg = Tcp /\ w2 = w1) \/
  (c_transport cfg = Udp /\ set_limit w1 (N.to_nat (N.max 512 (N.min their (c_edns_size cfg)))) = Ok w2).
Proof.
  unfold negotiate. destruct (c_transport cfg); [intros E; inv E; auto|].
  destruct (_ <? _)%N; [discriminate|]. destruct (set_limit w1 _); try discriminate. intros E; inv E. auto.
Qed.

Lemma negotiate_core cfg w1 their w2 : negotiate cfg w1 their = Ok w2 -> same_core w1 w2.
Proof.
  intros H. destruct (negotiate_Ok _ _ _ _ H) as [[_ ->]|[_ E]]; [apply same_core_refl|eapply set_limit_core; eauto].
Qed.

(* it never fails, and keeps the invariant: the negotiated size is between 512 and the buffer *)
Lemma negotiate_inv cfg w1 their : wf_cfg cfg -> srv_inv cfg true w1 ->
  exists w2, negotiate cfg w1 their = Ok w2 /\ srv_inv cfg true w2.
Proof.
  intros (H512 & H64k & Hbuf) I1. unfold negotiate. destruct (c_transport cfg); [eauto|].
  destruct (N.ltb_spec (c_edns_size cfg) 512); [lia|].
  destruct (srv_inv_edns cfg w1 I1) as [up Ed]. destruct I1 as (A & B & C & D & E & F & G & H1 & J).
  unfold reserved in G. rewrite Ed in G.
  set (neg := N.to_nat (N.max 512 (N.min their (c_edns_size cfg)))).
  assert (Hneg : 512 <= neg <= N.to_nat (c_edns_size cfg)) by (unfold neg; lia).
  assert (Inv : forall nl av, 512 <= nl <= w_buflen w1 -> av + 11 = nl ->
            srv_inv cfg true (mkResp (w_id w1) (w_opcode w1) (w_rd w1) (w_rcode w1) (w_aa w1) (w_tc w1) (w_question w1)
              (w_edns w1) (w_tsig w1) (w_body w1) (w_cursor w1) nl av (w_buflen w1) (w_arcount w1))).
  { intros nl av Hnl Hav. unfold srv_inv, edns_ok, reserved in *. cbn. rewrite Ed in *. repeat split; auto; try lia; discriminate. }
  unfold set_limit. destruct (Nat.leb_spec (w_limit w1) neg).
  - destruct (Nat.ltb_spec (Nat.min neg (w_buflen w1)) (w_limit w1)); [lia|].
    eexists. split; [reflexivity|]. apply Inv; lia.
  - destruct (Nat.ltb_spec (w_cursor w1 + w_limit w1) (w_avail w1)); [lia|].
    destruct (Nat.ltb_spec (w_limit w1) (Nat.max neg (w_cursor w1 + w_limit w1 - w_avail w1))); [lia|].
    destruct (Nat.ltb_spec (w_avail w1) (w_limit w1 - Nat.max neg (w_cursor w1 + w_limit w1 - w_avail w1))); [lia|].
    eexists. split; [reflexivity|]. apply Inv; lia.
Qed.

Lemma flag_at_ok {E} b byte mask : N.to_nat byte < length b -> exists v, @flag_at E b byte mask = Ok v.
Proof.
  intros H. unfold flag_at, idx. destruct (nth_error b (N.to_nat byte)) eqn:X; [cbn [bind]; eauto|].
  apply nth_error_None in X. lia.
Qed.

Lemma message_to_cursor_ok r : rinv r -> exists m, message_to_cursor r = Ok m.
Proof.
  intros (_ & _ & Hc & _). unfold message_to_cursor.
  destruct (Nat.ltb_spec (length (r_octets r)) (r_cursor r)); [lia|eauto].
Qed.

Lemma rd_opcode_ok r : rinv r -> exists v, rd_opcode r = Ok v.
Proof.
  intros (Hwf & H12 & _). unfold rd_opcode, idx.
  destruct (nth_error (r_octets r) (N.to_nat OPCODE_BYTE)) as [x|] eqn:X.
  - cbn [bind]. pose proof (opcode_raw_lt x (nth_error_Forall _ _ _ _ Hwf X)) as L. rewrite L.
    eexists. reflexivity.
  - apply nth_error_None in X. change (N.to_nat OPCODE_BYTE) with 2 in X. lia.
Qed.

(* the TSIG settings process_additional hands to the Writer: PreparedTsigRr::unsigned_len / signed_len *)
Definition tsig_out_of (rr : read_rr_t) (mode : tsig_mode) (err : N) : tsig_out :=
  let kw := lower_wire (n_wire (rr_owner rr)) in
  let len := fun aw : bytes => length kw + length aw + 26 + (if (err =? XRC_BADTIME)%N then 6 else 0) in
  mkTsigOut kw mode err
    (match mode with TUnsigned aw => len aw | TResponse a _ _ => len (alg_name_wire a) + alg_output_size a end)
    (rr_rdata rr).

Section OneRecord.
Variables (verify : tsig_verifier) (cfg : config) (r : reader) (w : resp) (seen last : bool).

(* The paths through [process_additional] that end in [Ok]: the reader it leaves, the step, the new flag. *)
(* deliberately lossy: which test sent a record down a path, and the values the path does not use, are not kept *)
Inductive pa_out : reader -> step_result -> bool -> Prop :=
| pa_undelim e : peek_core r = Err e -> pa_out r (Return (set_rcode w RC_FORMERR)) seen
| pa_second_opt p : peek_core r = Ok p -> peek_type r p = Ok TYPE_OPT -> seen = true ->
    pa_out r (Return (set_rcode w RC_FORMERR)) true
| pa_opt_full p e : peek_core r = Ok p -> peek_type r p = Ok TYPE_OPT -> seen = false ->
    set_edns w (c_edns_size cfg) = Err e -> pa_out r (Return (set_rcode w RC_SERVFAIL)) true
| pa_opt_unparsed p w1 : peek_core r = Ok p -> peek_type r p = Ok TYPE_OPT -> seen = false ->
    set_edns w (c_edns_size cfg) = Ok w1 -> pa_out r (Return (set_rcode w1 RC_FORMERR)) true
| pa_opt p w1 raw r' rr w2 s : peek_core r = Ok p -> peek_type r p = Ok TYPE_OPT -> seen = false ->
    set_edns w (c_edns_size cfg) = Ok w1 -> peek_parse rd_lite r p = (r', Ok rr) ->
    negotiate cfg w1 (rr_class rr) = Ok w2 ->
    match validate_opt (rr_owner rr) raw with
    | Some rc => exists w3, set_extended_rcode w2 rc = Ok w3 /\ s = Return w3
    | None => s = Continue w2
    end -> pa_out r' s true
| pa_tsig_formerr p r' : peek_core r = Ok p -> peek_type r p = Ok TYPE_TSIG ->
    r' = r \/ r' = fst (peek_parse rd_lite r p) -> pa_out r' (Return (set_rcode w RC_FORMERR)) seen
| pa_tsig_error p r' rr rc aw err : peek_core r = Ok p -> peek_type r p = Ok TYPE_TSIG ->
    peek_parse rd_lite r p = (r', Ok rr) ->
    aw = lower_wire (firstn (tsig_alg_len (rr_rdata rr)) (rr_rdata rr)) \/ (exists a, aw = alg_name_wire a) ->
    err <> XRC_BADTIME ->
    pa_out r' (Return (fst (set_tsig_or_truncate (set_rcode w rc) (tsig_out_of rr (TUnsigned aw) err)))) seen
| pa_tsig_badtime p r' rr m a k : peek_core r = Ok p -> peek_type r p = Ok TYPE_TSIG ->
    peek_parse rd_lite r p = (r', Ok rr) ->
    verify (rr_rdata rr) (rr_owner rr) m a (k_secret k) (c_now cfg) = VBadTime ->
    pa_out r' (Return (fst (set_tsig_or_truncate (set_rcode w RC_NOTAUTH)
                 (tsig_out_of rr (TResponse a (k_secret k) (tsig_mac (rr_rdata rr))) XRC_BADTIME)))) seen
| pa_tsig_ok p r' rr m a k : peek_core r = Ok p -> peek_type r p = Ok TYPE_TSIG -> last = true ->
    peek_parse rd_lite r p = (r', Ok rr) ->
    verify (rr_rdata rr) (rr_owner rr) m a (k_secret k) (c_now cfg) = VOk ->
    let wo := set_tsig_or_truncate (set_rcode w 0) (tsig_out_of rr (TResponse a (k_secret k) (tsig_mac (rr_rdata rr))) 0) in
    pa_out r' (if snd wo then Continue (fst wo) else Return (fst wo)) seen
| pa_skip p ty : peek_core r = Ok p -> peek_type r p = Ok ty -> ty <> TYPE_OPT -> ty <> TYPE_TSIG ->
    pa_out (peek_skip r p) (Continue w) seen.

Lemma process_additional_inv r' s seen' :
  process_additional verify cfg r w seen last = Ok (r', s, seen') -> pa_out r' s seen'.
Proof.
  unfold process_additional, peek_rr. intros H.
  destruct (peek_core r) as [p|e|] eqn:P; [|inv H; eapply pa_undelim; eauto|discriminate].
  destruct (peek_type r p) as [ty|e|] eqn:T; cbn [bind] in H; try discriminate.
  destruct (N.eqb_spec ty TYPE_OPT) as [->|NO].
  - destruct seen eqn:S; [inv H; eapply pa_second_opt; eauto|].
    destruct (set_edns w (c_edns_size cfg)) as [w1|e|] eqn:E1; [|inv H; eapply pa_opt_full; eauto|discriminate].
    destruct (peek_raw_ttl r p) as [raw|e|] eqn:R; cbn [bind] in H; try discriminate.
    destruct (peek_parse rd_lite r p) as [r0 [rr|e|]] eqn:PP; [|inv H; eapply pa_opt_unparsed; eauto|discriminate].
    change (bind (negotiate cfg w1 (rr_class rr)) (fun w2 =>
              match validate_opt (rr_owner rr) raw with
              | Some rc => match set_extended_rcode w2 rc with Ok w3 => Ok (r0, Return w3, true) | _ => Panic end
              | None => Ok (r0, Continue w2, true)
              end) = Ok (r', s, seen')) in H.
    destruct (negotiate cfg w1 (rr_class rr)) as [w2|e|] eqn:Ng; cbn [bind] in H; try discriminate.
    assert (r' = r0 /\ seen' = true /\
            match validate_opt (rr_owner rr) raw with
            | Some rc => exists w3, set_extended_rcode w2 rc = Ok w3 /\ s = Return w3
            | None => s = Continue w2
            end) as (-> & -> & V).
    { destruct (validate_opt _ _); [destruct (set_extended_rcode w2 _) eqn:X; try discriminate|]; inv H; eauto. }
    eapply pa_opt; eauto.
  - destruct (N.eqb_spec ty TYPE_TSIG) as [->|NT]; [|inv H; eapply pa_skip; eauto].
    destruct last eqn:L; cbn [negb] in H; [|inv H; eapply pa_tsig_formerr; eauto].
    destruct (message_to_cursor r) as [m|e|]; cbn [bind] in H; try discriminate.
    destruct (peek_parse rd_lite r p) as [r0 [rr|e|]] eqn:PP; [|inv H; eapply pa_tsig_formerr; eauto|discriminate].
    destruct (_ || _); [inv H; eapply pa_tsig_formerr; eauto; right; rewrite PP; reflexivity|].
    destruct (alg_of_name _) as [a|];
      [|inv H; eapply (pa_tsig_error p r' rr RC_NOTAUTH _ XRC_BADKEY); eauto; discriminate].
    destruct (find_key _ _ _) as [k|];
      [|inv H; eapply (pa_tsig_error p r' rr RC_NOTAUTH _ XRC_BADKEY); eauto; discriminate].
    destruct (verify _ _ _ _ _ _) eqn:V; inv H.
    + eapply pa_tsig_ok; eauto.
    + eapply (pa_tsig_error p r' rr RC_NOTAUTH (alg_name_wire a) XRC_BADVERSBADSIG); eauto; discriminate.
    + eapply pa_tsig_badtime; eauto.
    + eapply (pa_tsig_error p r' rr RC_FORMERR (alg_name_wire a) XRC_BADVERSBADSIG); eauto; discriminate.
Qed.
End OneRecord.

Lemma validate_opt_rcode owner raw rc : validate_opt owner raw = Some rc -> rc = RC_FORMERR \/ rc = XRC_BADVERSBADSIG.
Proof. unfold validate_opt. destruct (negb _); [|destruct (negb _)]; intros E; inv E; auto. Qed.

Lemma process_additional_total verify cfg r w seen last : wf_cfg cfg -> rinv r -> srv_inv cfg seen w ->
  exists x, process_additional verify cfg r w seen last = Ok x.
Proof.
  intros Hcfg Hinv I. unfold process_additional, peek_rr. destruct (peek_core_facts r Hinv) as [Hnp Hok].
  destruct (peek_core r) as [p|e|] eqn:P; [|eauto|congruence]. destruct (Hok p eq_refl) as (B1 & B2 & B3).
  unfold peek_type. destruct (@be16_at_ok reader_err (r_octets r) (p_owner_end p) ltac:(lia)) as [ty ->]. cbn [bind].
  pose proof (peek_parse_facts rd_lite rd_lite_total r p Hinv P) as (PP & _).
  destruct (ty =? TYPE_OPT)%N.
  - destruct seen; [eauto|]. destruct (set_edns_total cfg w I) as (w1 & -> & I1 & _).
    unfold peek_raw_ttl. destruct (@be32_at_ok reader_err (r_octets r) (p_owner_end p + 4) ltac:(lia)) as [raw ->]. cbn [bind].
    destruct (peek_parse rd_lite r p) as [r0 [rr|e|]]; [|eauto|contradiction].
    destruct (negotiate_inv cfg w1 (rr_class rr) Hcfg I1) as (w2 & Ng & I2).
    unfold negotiate in Ng. cbv zeta. rewrite Ng. cbn [bind].
    destruct (validate_opt (rr_owner rr) raw) as [rc|] eqn:V; [|eauto].
    unfold set_extended_rcode. destruct (srv_inv_edns cfg w2 I2) as [up ->].
    destruct (validate_opt_rcode _ _ _ V) as [-> | ->]; cbn; eauto.
  - destruct (ty =? TYPE_TSIG)%N; [|eauto]. destruct last; cbn [negb]; [|eauto].
    destruct (message_to_cursor_ok r Hinv) as [m ->]. cbn [bind].
    destruct (peek_parse rd_lite r p) as [r0 [rr|e|]]; [|eauto|contradiction].
    destruct (_ || _); [eauto|]. destruct (alg_of_name _); [|eauto]. destruct (find_key _ _ _); [|eauto].
    destruct (verify _ _ _ _ _ _); eauto.
Qed.

(* a verified TSIG on the last record reserves space, after which srv_inv no longer holds: hence the second disjunct,
   and the `if last` of prescan_lift's K_step *)
Definition result_ok (cfg : config) (w : resp) (last : bool) (s : step_result) (seen' : bool) : Prop :=
  match s with
  | Silent => False
  | Continue w' => same_core w w' /\ (srv_inv cfg seen' w' \/ last = true /\ w_tsig w' <> None) /\ edns_ok cfg w' /\
                   (seen' = true <-> w_edns w' <> None)
  | Return w' => same_core w w' /\ edns_ok cfg w' /\ (seen' = true <-> w_edns w' <> None)
  end.

Lemma srv_inv_result cfg seen w w' last : srv_inv cfg seen w' -> same_core w w' ->
  result_ok cfg w last (Return w') seen /\ result_ok cfg w last (Continue w') seen.
Proof. intros I C. pose proof I as (A & B & _). cbn. auto 6. Qed.

Lemma tsig_result cfg seen w rc t :
  srv_inv cfg seen w ->
  let w' := fst (set_tsig_or_truncate (set_rcode w rc) t) in
  same_core w w' /\ edns_ok cfg w' /\ (seen = true <-> w_edns w' <> None).
Proof.
  intros I. pose proof (srv_inv_set_rcode cfg seen w rc I) as (A & B & _).
  cbv zeta. unfold edns_ok. rewrite (proj1 (set_tsig_or_truncate_keeps _ t)). split; [|split; assumption].
  eapply same_core_trans; [apply set_rcode_core|apply set_tsig_or_truncate_core].
Qed.

Lemma pa_out_ok verify cfg r w seen last r' s seen' : wf_cfg cfg -> rinv r -> srv_inv cfg seen w ->
  pa_out verify cfg r w seen last r' s seen' -> rinv r' /\ result_ok cfg w last s seen'.
Proof.
  intros Hcfg Hinv I O.
  assert (Hp : forall p, peek_core r = Ok p -> rinv (fst (peek_parse rd_lite r p)) /\ rinv (peek_skip r p)).
  { intros p P. split; [apply (peek_parse_facts rd_lite rd_lite_total r p Hinv P)|].
    apply rinv_with_cursor; [exact Hinv|apply (peek_core_facts r Hinv), P]. }
  assert (Ret : forall rc, result_ok cfg w last (Return (set_rcode w rc)) seen)
    by (intros rc; apply srv_inv_result; [apply srv_inv_set_rcode; exact I|apply set_rcode_core]).
  assert (Ed : forall w1, seen = false -> set_edns w (c_edns_size cfg) = Ok w1 -> srv_inv cfg true w1 /\ same_core w w1).
  { intros w1 -> E. destruct (set_edns_total cfg w I) as (w1' & E1 & I1 & _). rewrite E in E1. inv E1.
    split; [exact I1|apply (set_edns_core _ _ _ E)]. }
  assert (Ng2 : forall w1 their w2, srv_inv cfg true w1 -> negotiate cfg w1 their = Ok w2 -> srv_inv cfg true w2).
  { intros w1 their w2 I1 Ng. destruct (negotiate_inv cfg w1 their Hcfg I1) as (w2' & Ng' & I2). congruence. }
  destruct O as [e P|p P T S|p e P T S E|p w1 P T S E|p w1 raw r' rr w2 s P T S E PP Ng V|p r' P T Hr
                |p r' rr rc aw err P T PP _ _|p r' rr m a k P T PP _|p r' rr m a k P T L PP _|p ty P T _ _];
    try (apply (f_equal fst) in PP; cbn [fst] in PP; subst r').
  - auto.
  - subst seen. auto.
  - subst seen. destruct (set_edns_total cfg w I) as (w1 & E1 & _). congruence.
  - split; [exact Hinv|]. destruct (Ed w1 S E) as [I1 C1].
    apply srv_inv_result; [apply srv_inv_set_rcode; exact I1|]. eapply same_core_trans; [exact C1|apply set_rcode_core].
  - split; [apply Hp; exact P|]. destruct (Ed w1 S E) as [I1 C1]. pose proof (Ng2 _ _ _ I1 Ng) as I2.
    assert (C2 : same_core w w2) by (eapply same_core_trans; [exact C1|eapply negotiate_core; eauto]).
    destruct (validate_opt (rr_owner rr) raw) as [rc|]; [|subst s; apply srv_inv_result; assumption].
    destruct V as (w3 & E3 & ->). destruct (set_extended_rcode_Ok _ _ _ E3) as (sz & up & Ed3 & ->).
    pose proof I2 as (A2 & _). unfold edns_ok in A2. rewrite Ed3 in A2.
    cbn. split; [exact C2|]. split; [exact A2|split; [discriminate|reflexivity]].
  - split; [destruct Hr as [-> | ->]; [exact Hinv|apply Hp; exact P]|apply Ret].
  - split; [apply Hp; exact P|]. apply tsig_result. exact I.
  - split; [apply Hp; exact P|]. apply tsig_result. exact I.
  - split; [apply Hp; exact P|]. destruct (tsig_result cfg seen w 0%N (tsig_out_of rr (TResponse a (k_secret k) (tsig_mac (rr_rdata rr))) 0) I) as (A & B & C).
    cbv zeta in *. destruct (snd _) eqn:Sn; cbn [result_ok]; [|auto]. apply set_tsig_or_truncate_tsig in Sn.
    split; [exact A|]. split; [right; split; [exact L|apply Sn]|]. split; assumption.
  - split; [apply Hp; exact P|]. apply srv_inv_result; [exact I|apply same_core_refl].
Qed.

Lemma process_additional_facts verify cfg r w seen last :
  wf_cfg cfg -> rinv r -> srv_inv cfg seen w ->
  exists r' s seen', process_additional verify cfg r w seen last = Ok (r', s, seen') /\
                     rinv r' /\ result_ok cfg w last s seen'.
Proof.
  intros Hcfg Hinv I. destruct (process_additional_total verify cfg r w seen last Hcfg Hinv I) as ([[r' s] seen'] & E).
  exists r', s, seen'. split; [exact E|]. eapply pa_out_ok; eauto. apply process_additional_inv. exact E.
Qed.

Definition reader_same (r r' : reader) : Prop := r_octets r' = r_octets r /\ r_mark r' = r_mark r.
Lemma reader_same_refl r : reader_same r r. Proof. split; reflexivity. Qed.
Lemma reader_same_trans a b c : reader_same a b -> reader_same b c -> reader_same a c.
Proof. unfold reader_same. intuition congruence. Qed.
Lemma with_cursor_same r c : reader_same r (with_cursor r c). Proof. split; reflexivity. Qed.
Lemma peek_parse_same rd r p : reader_same r (fst (peek_parse rd r p)).
Proof.
  unfold peek_parse.
  match goal with |- context [match ?b with Ok _ => _ | Err _ => _ | Panic => _ end] => destruct b end;
    cbn [fst]; try apply with_cursor_same; apply reader_same_refl.
Qed.

Lemma process_additional_same verify cfg r w seen last r' s seen' :
  process_additional verify cfg r w seen last = Ok (r', s, seen') -> reader_same r r'.
Proof.
  intros H. apply process_additional_inv in H.
  destruct H as [| | | |p w1 raw r' rr w2 s P T S E PP Ng V|p r' P T [-> | ->]
                |p r' rr rc aw err P T PP _ _|p r' rr m a k P T PP _|p r' rr m a k P T L PP _|];
    try (apply (f_equal fst) in PP; cbn [fst] in PP; subst r');
    first [apply reader_same_refl | apply peek_parse_same | apply with_cursor_same].
Qed.

Lemma scan_additional_same verify cfg n : forall r w seen r' s,
  scan_additional verify cfg n r w seen = Ok (r', s) -> reader_same r r'.
Proof.
  induction n as [|n IH]; intros r w seen r' s H; cbn [scan_additional] in H.
  - inv H. apply reader_same_refl.
  - destruct (process_additional verify cfg r w seen (n =? 0)) as [[[r1 s1] seen1]|e|] eqn:E; cbn [bind] in H;
      try discriminate.
    pose proof (process_additional_same _ _ _ _ _ _ _ _ _ E) as S1.
    destruct s1; try (inv H; exact S1).
    eapply reader_same_trans; [exact S1|]. eapply IH; eauto.
Qed.

(* "processing reaches an OPT record": scanning forward over delimitable ordinary records
   meets a record of type OPT before an undelimitable record, a TSIG record or the end *)
Fixpoint opt_reachable (n : nat) (r : reader) : bool :=
  match n with
  | O => false
  | S n' =>
    match peek_core r with
    | Ok p =>
      match @be16_at reader_err (r_octets r) (p_owner_end p) with
      | Ok ty =>
        if (ty =? TYPE_OPT)%N then true
        else if (ty =? TYPE_TSIG)%N then false
        else opt_reachable n' (peek_skip r p)
      | _ => false
      end
    | _ => false
    end
  end.

Lemma opt_reachable_S n r p ty : peek_core r = Ok p -> peek_type r p = Ok ty ->
  opt_reachable (S n) r =
    if (ty =? TYPE_OPT)%N then true else if (ty =? TYPE_TSIG)%N then false else opt_reachable n (peek_skip r p).
Proof. intros P T. cbn [opt_reachable]. unfold peek_type in T. rewrite P, T. reflexivity. Qed.

(* one record against [opt_reachable]: an OPT sets the flag; an undelimitable record or a TSIG ends the scan
   (a TSIG lets it continue only as the last record); an ordinary record is skipped *)
Lemma pa_out_reach verify cfg r w seen last r' s seen' n : pa_out verify cfg r w seen last r' s seen' ->
  (seen' = true /\ opt_reachable (S n) r = true) \/
  (seen' = seen /\ opt_reachable (S n) r = false /\ forall w', s = Continue w' -> last = true) \/
  (seen' = seen /\ s = Continue w /\ opt_reachable (S n) r = opt_reachable n r').
Proof.
  intros O.
  destruct O as [e P|p P T S|p e P T S E|p w1 P T S E|p w1 raw r' rr w2 s P T S E PP Ng V|p r' P T Hr
                |p r' rr rc aw err P T PP _ _|p r' rr m a k P T PP _|p r' rr m a k P T L PP _|p ty P T NO NT];
    try rewrite (opt_reachable_S n r _ _ P T).
  - right; left. cbn [opt_reachable]. rewrite P. repeat split. discriminate.
  - left. auto.
  - left. auto.
  - left. auto.
  - left. auto.
  - right; left. repeat split. discriminate.
  - right; left. repeat split. discriminate.
  - right; left. repeat split. discriminate.
  - right; left. repeat split. intros _ _. exact L.
  - right; right. apply N.eqb_neq in NO, NT. rewrite NO, NT. auto.
Qed.

Definition final_ok (cfg : config) (w : resp) (s : step_result) (reached : Prop) : Prop :=
  match s with
  | Silent => False
  | Continue w' | Return w' =>
    same_core w w' /\ edns_ok cfg w' /\ (w_edns w' <> None <-> reached)
  end.

Lemma step_final cfg w last s seen' reached :
  result_ok cfg w last s seen' -> (seen' = true <-> reached) -> final_ok cfg w s reached.
Proof. destruct s; cbn; tauto. Qed.

Lemma final_ok_trans cfg w w1 s (A B : Prop) : same_core w w1 -> (A <-> B) -> final_ok cfg w1 s A -> final_ok cfg w s B.
Proof.
  intros C AB. destruct s as [w'|w'|]; cbn; [| |tauto];
    intros (C' & E & F); (split; [eapply same_core_trans; eauto|tauto]).
Qed.

Lemma scan_additional_facts verify cfg : wf_cfg cfg ->
  forall n r w seen, rinv r -> srv_inv cfg seen w ->
  exists r' s, scan_additional verify cfg n r w seen = Ok (r', s) /\ rinv r' /\
               final_ok cfg w s (seen = true \/ opt_reachable n r = true).
Proof.
  intros Hcfg. induction n as [|n IH]; intros r w seen Hinv I.
  - exists r, (Continue w). split; [reflexivity|]. split; [exact Hinv|].
    apply (step_final cfg w true _ seen); [apply srv_inv_result; [exact I|apply same_core_refl]|].
    cbn [opt_reachable]. intuition discriminate.
  - cbn [scan_additional].
    destruct (process_additional_facts verify cfg r w seen (n =? 0) Hcfg Hinv I) as (r1 & s1 & seen1 & E & Hinv1 & RO).
    rewrite E. cbn [bind].
    pose proof (pa_out_reach _ _ _ _ _ _ _ _ _ n (process_additional_inv _ _ _ _ _ _ _ _ _ E)) as K.
    (* the scan goes on after this record: the rest is covered by the induction hypothesis *)
    assert (Go : forall w1, s1 = Continue w1 -> n <> 0 ->
              (seen1 = true \/ opt_reachable n r1 = true <-> seen = true \/ opt_reachable (S n) r = true) ->
              exists r' s, scan_additional verify cfg n r1 w1 seen1 = Ok (r', s) /\ rinv r' /\
                           final_ok cfg w s (seen = true \/ opt_reachable (S n) r = true)).
    { intros w1 -> Hn FI. destruct RO as (C1 & [I1|[L1 _]] & _); [|apply Nat.eqb_eq in L1; contradiction].
      destruct (IH r1 w1 seen1 Hinv1 I1) as (r2 & s2 & E2 & Hinv2 & F2).
      exists r2, s2. split; [exact E2|]. split; [exact Hinv2|]. eapply final_ok_trans; eauto. }
    assert (Stop : (seen1 = true <-> seen = true \/ opt_reachable (S n) r = true) ->
              (forall w1, s1 = Continue w1 -> n = 0) ->
              exists r' s, match s1 with Continue w' => scan_additional verify cfg n r1 w' seen1 | other => Ok (r1, other) end
                           = Ok (r', s) /\ rinv r' /\ final_ok cfg w s (seen = true \/ opt_reachable (S n) r = true)).
    { intros FI Hn. exists r1, s1. split; [destruct s1 as [w1|w1|]; [rewrite (Hn w1 eq_refl)|..]; reflexivity|].
      split; [exact Hinv1|]. eapply step_final; eauto. }
    destruct K as [[-> Rc]|[(-> & Rc & L)|(-> & -> & Rc)]]; rewrite Rc in Go, Stop |- *.
    + destruct s1 as [w1|w1|]; [destruct n|..]; try (apply Stop; [tauto|congruence]).
      apply Go; [reflexivity|discriminate|tauto].
    + apply Stop; [intuition discriminate|]. intros w1 Hs. apply Nat.eqb_eq. exact (L w1 Hs).
    + destruct n; [apply Stop; [cbn; intuition discriminate|reflexivity]|].
      apply Go; [reflexivity|discriminate|tauto].
Qed.

(* the an/ns scan as a pure reader walk *)
Fixpoint an_ns_reader (n : nat) (r : reader) : option reader :=
  match n with
  | O => Some r
  | S n' =>
    match peek_core r with
    | Ok p =>
      match @be16_at reader_err (r_octets r) (p_owner_end p) with
      | Ok ty => if (ty =? TYPE_OPT)%N || (ty =? TYPE_TSIG)%N then None else an_ns_reader n' (peek_skip r p)
      | _ => None
      end
    | _ => None
    end
  end.

Lemma scan_an_ns_reader n : forall r w r' s, scan_an_ns n r w = Ok (r', s) ->
  (s = Continue w /\ an_ns_reader n r = Some r') \/ (s = Return (set_rcode w RC_FORMERR) /\ an_ns_reader n r = None).
Proof.
  induction n as [|n IH]; intros r w r' s H; cbn [scan_an_ns an_ns_reader] in *.
  - inv H. left. auto.
  - unfold peek_rr, peek_type in H. destruct (peek_core r) as [p|e|]; [| inv H; right; auto | discriminate].
    destruct (be16_at (r_octets r) (p_owner_end p)) as [ty|e|]; cbn [bind] in H; try discriminate.
    destruct ((ty =? TYPE_OPT)%N || (ty =? TYPE_TSIG)%N); [inv H; right; auto|].
    eapply IH; eauto.
Qed.

Lemma scan_an_ns_facts n : forall r w, rinv r ->
  match an_ns_reader n r with
  | Some r' => scan_an_ns n r w = Ok (r', Continue w) /\ rinv r' /\ reader_same r r'
  | None => exists r', scan_an_ns n r w = Ok (r', Return (set_rcode w RC_FORMERR))
  end.
Proof.
  induction n as [|n IH]; intros r w Hinv; cbn [scan_an_ns an_ns_reader].
  - split; [reflexivity|]. split; [exact Hinv|apply reader_same_refl].
  - unfold peek_rr, peek_type. destruct (peek_core_facts r Hinv) as [Hnp Hok].
    destruct (peek_core r) as [p|e|] eqn:P; [|eauto|congruence]. destruct (Hok p eq_refl) as (B1 & B2 & B3).
    destruct (@be16_at_ok reader_err (r_octets r) (p_owner_end p) ltac:(lia)) as [ty ->]. cbn [bind].
    destruct (_ || _); [eauto|].
    specialize (IH (peek_skip r p) w (rinv_with_cursor r _ Hinv B3)).
    destruct (an_ns_reader n (peek_skip r p)) as [r'|]; [|exact IH]. destruct IH as (E & I' & S').
    split; [exact E|]. split; [exact I'|]. eapply reader_same_trans; [apply with_cursor_same|exact S'].
Qed.

Definition r0_of (req : bytes) : reader := mkReader req 12 None.

Lemma r0_inv req : wf_bytes req -> 12 <= length req -> rinv (r0_of req).
Proof. intros Hwf H. unfold rinv, r0_of; simpl. repeat split; auto. discriminate. Qed.

Lemma reader_new_r0 req : 12 <= length req -> reader_new req = Ok (r0_of req).
Proof.
  intros H. unfold reader_new. change header_size with 12.
  destruct (Nat.leb_spec 12 (length req)); [reflexivity|lia].
Qed.

Lemma rd_mark_inv r : rinv r -> rinv (rd_mark r).
Proof. intros (A & B & C & D). unfold rinv, rd_mark; simpl. repeat split; auto. intros m E; inv E; auto. Qed.

Lemma rd_accessors_mark r : rd_ancount (rd_mark r) = rd_ancount r /\ rd_nscount (rd_mark r) = rd_nscount r.
Proof. split; reflexivity. Qed.

Lemma header_same_octets r r' : r_octets r' = r_octets r ->
  rd_arcount r' = rd_arcount r /\ rd_opcode r' = rd_opcode r /\ rd_ancount r' = rd_ancount r /\
  rd_nscount r' = rd_nscount r.
Proof. intros E. unfold rd_arcount, rd_opcode, rd_ancount, rd_nscount. rewrite E. auto. Qed.

Lemma rd_counts_ok r : rinv r -> exists qd an ns ar,
  rd_qdcount r = Ok qd /\ rd_ancount r = Ok an /\ rd_nscount r = Ok ns /\ rd_arcount r = Ok ar.
Proof.
  intros (_ & H12 & _).
  destruct (@be16_at_ok reader_err (r_octets r) 4 ltac:(lia)) as [qd Q].
  destruct (@be16_at_ok reader_err (r_octets r) 6 ltac:(lia)) as [an A].
  destruct (@be16_at_ok reader_err (r_octets r) 8 ltac:(lia)) as [ns N].
  destruct (@be16_at_ok reader_err (r_octets r) 10 ltac:(lia)) as [ar R]. eauto 8.
Qed.

Lemma prescan_rest_inv verify cfg r1 w1 p : prescan_rest verify cfg r1 w1 = Ok p ->
  exists an ns, rd_ancount r1 = Ok an /\ rd_nscount r1 = Ok ns /\
  match an_ns_reader (N.to_nat an + N.to_nat ns) (rd_mark r1) with
  | None => p = PEarly (set_rcode w1 RC_FORMERR)
  | Some r2 => exists ar r3 s3, rd_arcount r2 = Ok ar /\
      scan_additional verify cfg (N.to_nat ar) r2 w1 false = Ok (r3, s3) /\
      match s3 with
      | Silent => p = PNone
      | Return w => p = PEarly w
      | Continue w3 => if at_eom r3 then exists o, rd_opcode r3 = Ok o /\ p = PClean o w3
                       else p = PEarly (set_rcode w3 RC_FORMERR)
      end
  end.
Proof.
  unfold prescan_rest. cbv zeta. destruct (rd_accessors_mark r1) as [-> ->]. intros H.
  destruct (rd_ancount r1) as [an|e|]; cbn [bind] in H; try discriminate.
  destruct (rd_nscount r1) as [ns|e|]; cbn [bind] in H; try discriminate.
  exists an, ns. split; [reflexivity|]. split; [reflexivity|].
  destruct (scan_an_ns _ (rd_mark r1) w1) as [[r2 s2]|e|] eqn:E2; cbn [bind] in H; try discriminate.
  destruct (scan_an_ns_reader _ _ _ _ _ E2) as [[-> ->]|[-> ->]]; [|inv H; reflexivity].
  destruct (rd_arcount r2) as [ar|e|] eqn:Ear; cbn [bind] in H; try discriminate.
  destruct (scan_additional verify cfg (N.to_nat ar) r2 w1 false) as [[r3 s3]|e|] eqn:E3; cbn [bind] in H; try discriminate.
  exists ar, r3, s3. split; [reflexivity|]. split; [exact E3|].
  destruct s3 as [w3|w|]; try (inv H; reflexivity).
  destruct (at_eom r3); cbn [negb] in H; [|inv H; reflexivity].
  unfold rd_rewind in H. destruct (r_mark r3); [|discriminate].
  match type of H with context [rd_opcode ?r4] => change (rd_opcode r4) with (rd_opcode r3) in H end.
  destruct (rd_opcode r3) as [o|e|]; inv H. eauto.
Qed.

Lemma prescan_rest_total verify cfg r1 w1 : wf_cfg cfg -> rinv r1 -> srv_inv cfg false w1 ->
  exists p, prescan_rest verify cfg r1 w1 = Ok p.
Proof.
  intros Hcfg Hinv1 I1. unfold prescan_rest. cbv zeta. destruct (rd_accessors_mark r1) as [-> ->].
  destruct (rd_counts_ok r1 Hinv1) as (qd & an & ns & ar & _ & -> & -> & Ear). cbn [bind].
  pose proof (scan_an_ns_facts (N.to_nat an + N.to_nat ns) (rd_mark r1) w1 (rd_mark_inv r1 Hinv1)) as S2.
  destruct (an_ns_reader _ (rd_mark r1)) as [r2|]; [|destruct S2 as [r2 ->]; cbn [bind]; eauto].
  destruct S2 as (-> & Hinv2 & So & Sm). cbn [bind].
  destruct (header_same_octets r1 r2 So) as (-> & _). rewrite Ear. cbn [bind].
  destruct (scan_additional_facts verify cfg Hcfg (N.to_nat ar) r2 w1 false Hinv2 I1) as (r3 & s3 & E3 & Hinv3 & _).
  rewrite E3. cbn [bind]. destruct s3 as [w3|w|]; eauto. destruct (at_eom r3); cbn [negb]; eauto.
  (* the mark set before the scans is still there *)
  destruct (scan_additional_same _ _ _ _ _ _ _ _ E3) as [_ S3m]. unfold rd_rewind. rewrite S3m, Sm. cbn [rd_mark r_mark].
  match goal with |- context [rd_opcode ?r4] => change (rd_opcode r4) with (rd_opcode r3) end.
  destruct (rd_opcode_ok r3 Hinv3) as (o & ->). cbn [bind]. eauto.
Qed.

(* "processing reaches an OPT record" from a reader positioned after the question *)
Definition reach_from (r1 : reader) : bool :=
  match rd_ancount r1, rd_nscount r1 with
  | Ok an, Ok ns =>
    match an_ns_reader (N.to_nat an + N.to_nat ns) (rd_mark r1) with
    | Some r2 => match rd_arcount r2 with Ok ar => opt_reachable (N.to_nat ar) r2 | _ => false end
    | None => false
    end
  | _, _ => false
  end.

Lemma prescan_rest_facts verify cfg r1 w1 : wf_cfg cfg -> rinv r1 -> srv_inv cfg false w1 ->
  exists p, prescan_rest verify cfg r1 w1 = Ok p /\
  match p with
  | PNone => False
  | PEarly w => same_core w1 w /\ edns_ok cfg w /\ (w_edns w <> None <-> reach_from r1 = true)
  | PClean o w => same_core w1 w /\ edns_ok cfg w /\ (w_edns w <> None <-> reach_from r1 = true) /\
                  rd_opcode r1 = Ok o
  end.
Proof.
  intros Hcfg Hinv1 I1. destruct (prescan_rest_total verify cfg r1 w1 Hcfg Hinv1 I1) as [p E].
  exists p. split; [exact E|].
  destruct (prescan_rest_inv _ _ _ _ _ E) as (an & ns & Ean & Ens & R). unfold reach_from. rewrite Ean, Ens.
  pose proof (scan_an_ns_facts (N.to_nat an + N.to_nat ns) (rd_mark r1) w1 (rd_mark_inv r1 Hinv1)) as S2.
  pose proof I1 as (A1 & _). pose proof (srv_inv_no_edns cfg w1 I1) as En1.
  assert (Fe : forall w (X : Prop), same_core w1 w -> edns_ok cfg w -> (w_edns w <> None <-> X) ->
            same_core w1 (set_rcode w RC_FORMERR) /\ edns_ok cfg (set_rcode w RC_FORMERR) /\
            (w_edns (set_rcode w RC_FORMERR) <> None <-> X)).
  { intros w X C EO OR. split; [eapply same_core_trans; [exact C|apply set_rcode_core]|].
    split; [apply edns_set_rcode; exact EO|]. rewrite (set_rcode_edns w RC_FORMERR). exact OR. }
  destruct (an_ns_reader _ (rd_mark r1)) as [r2|].
  2:{ subst p. apply Fe; [apply same_core_refl|exact A1|]. rewrite En1. intuition discriminate. }
  destruct S2 as (_ & Hinv2 & So & _). destruct R as (ar & r3 & s3 & Ear & E3 & R). rewrite Ear.
  destruct (scan_additional_facts verify cfg Hcfg (N.to_nat ar) r2 w1 false Hinv2 I1) as (r3' & s3' & E3' & _ & F3).
  rewrite E3 in E3'. injection E3' as <- <-.
  apply (final_ok_trans cfg w1 w1 _ _ (opt_reachable (N.to_nat ar) r2 = true) (same_core_refl w1)) in F3;
    [|intuition discriminate].
  destruct s3 as [w3|w|]; cbn [final_ok] in F3; [| |contradiction].
  - destruct F3 as (C3 & EO3 & OR3). destruct (at_eom r3).
    + destruct R as (o & Eo & ->). repeat (split; [assumption|]).
      destruct (scan_additional_same _ _ _ _ _ _ _ _ E3) as [S3o _].
      destruct (header_same_octets r1 r3 (eq_trans S3o So)) as (_ & <- & _). exact Eo.
    + subst p. apply Fe; assumption.
  - subst p. exact F3.
Qed.

Definition hdr_echo (req : bytes) (w : resp) : Prop :=
  rd_id (r0_of req) = Ok (w_id w) /\ rd_opcode (r0_of req) = Ok (w_opcode w) /\
  exists rdf, rd_rd (r0_of req) = Ok rdf /\ w_rd w = (if (w_opcode w =? OPCODE_QUERY)%N then rdf else false).

Definition question_echo (req : bytes) (w : resp) : Prop :=
  w_question w = None \/
  (rd_qdcount (r0_of req) = Ok 1%N /\
   exists r1 q, read_question (r0_of req) = (r1, Ok q) /\ w_question w = Some q).

Definition opt_reached (req : bytes) : bool :=
  if length req <? 12 then false else
  match rd_qdcount (r0_of req) with
  | Ok qd =>
    if (qd =? 0)%N then reach_from (r0_of req)
    else if (qd =? 1)%N then
      match read_question (r0_of req) with (r1, Ok _) => reach_from r1 | _ => false end
    else false
  | _ => false
  end.

Definition early_or_clean (cfg : config) (req : bytes) (w : resp) : Prop :=
  12 <= length req /\ rd_qr (r0_of req) = Ok false /\
  hdr_echo req w /\ question_echo req w /\ w_body w = empty_body /\ w_aa w = false /\
  edns_ok cfg w /\ (w_edns w <> None <-> opt_reached req = true).

(* a request that gets a response: its header has been read and the response started, [Writer::new] *)
Definition started (cfg : config) (req : bytes) (w0 : resp) : Prop :=
  12 <= length req /\ rd_qr (r0_of req) = Ok false /\
  exists id opc rdf, rd_id (r0_of req) = Ok id /\ rd_opcode (r0_of req) = Ok opc /\ rd_rd (r0_of req) = Ok rdf /\
                     initial_resp cfg id opc rdf = Ok w0.

Inductive prescan_path (verify : tsig_verifier) (cfg : config) (req : bytes) : prescan_result -> Prop :=
| pp_short : length req < 12 -> prescan_path verify cfg req PNone
| pp_response : 12 <= length req -> rd_qr (r0_of req) = Ok true -> prescan_path verify cfg req PNone
| pp_many w0 qd : started cfg req w0 -> rd_qdcount (r0_of req) = Ok qd -> (2 <= qd)%N -> prescan_path verify cfg req PNone
| pp_no_question w0 p : started cfg req w0 -> rd_qdcount (r0_of req) = Ok 0%N ->
    prescan_rest verify cfg (r0_of req) w0 = Ok p -> prescan_path verify cfg req p
| pp_bad_question w0 r1 e : started cfg req w0 -> rd_qdcount (r0_of req) = Ok 1%N ->
    read_question (r0_of req) = (r1, Err e) -> prescan_path verify cfg req (PEarly (set_rcode w0 RC_FORMERR))
| pp_long_question w0 r1 q e : started cfg req w0 -> rd_qdcount (r0_of req) = Ok 1%N ->
    read_question (r0_of req) = (r1, Ok q) -> add_question w0 q = Err e ->
    prescan_path verify cfg req (PEarly (set_rcode w0 RC_SERVFAIL))
| pp_question w0 r1 q w1 p : started cfg req w0 -> rd_qdcount (r0_of req) = Ok 1%N ->
    read_question (r0_of req) = (r1, Ok q) -> add_question w0 q = Ok w1 ->
    prescan_rest verify cfg r1 w1 = Ok p -> prescan_path verify cfg req p.

Lemma prescan_inv verify cfg req p : prescan verify cfg req = Ok p -> prescan_path verify cfg req p.
Proof.
  unfold prescan, reader_new. change header_size with 12. intros H. destruct (_ <? _); [discriminate|].
  destruct (Nat.leb_spec 12 (length req)) as [H12|]; [|inv H; apply pp_short; assumption].
  change (mkReader req 12 None) with (r0_of req) in H.
  destruct (rd_qr (r0_of req)) as [[|]|e|] eqn:Eqr; cbn [bind] in H; try discriminate.
  { inv H. apply pp_response; assumption. }
  destruct (rd_id (r0_of req)) as [id|e|] eqn:Eid; cbn [bind] in H; try discriminate.
  destruct (rd_opcode (r0_of req)) as [opc|e|] eqn:Eopc; cbn [bind] in H; try discriminate.
  destruct (rd_rd (r0_of req)) as [rdf|e|] eqn:Erd; cbn [bind] in H; try discriminate.
  destruct (initial_resp cfg id opc rdf) as [w0|e|] eqn:E0; cbn [bind] in H; try discriminate.
  assert (St : started cfg req w0) by (split; [assumption|]; split; [assumption|]; eauto 8).
  destruct (rd_qdcount (r0_of req)) as [qd|e|] eqn:Eqd; cbn [bind] in H; try discriminate.
  destruct (N.eqb_spec qd 0) as [->|N0]; [eapply pp_no_question; eauto|].
  destruct (N.eqb_spec qd 1) as [->|N1]; [|inv H; eapply pp_many; eauto; lia].
  destruct (read_question (r0_of req)) as [r1 [q|e|]] eqn:RQ; [|inv H; eapply pp_bad_question; eauto|discriminate].
  destruct (add_question w0 q) as [w1|e|] eqn:EA; [|inv H; eapply pp_long_question; eauto|discriminate].
  eapply pp_question; eauto.
Qed.

Lemma initial_resp_Ok cfg id opc rdf w0 : initial_resp cfg id opc rdf = Ok w0 ->
  let limit := Nat.min (match c_transport cfg with Tcp => tcp_limit | Udp => udp_limit end) (c_buflen cfg) in
  w0 = mkResp id opc (if (opc =? OPCODE_QUERY)%N then rdf else false) 0 false false None None None
              empty_body 12 limit limit (c_buflen cfg) 0.
Proof. unfold initial_resp. destruct (_ <? _); [discriminate|]. intros E; inv E. reflexivity. Qed.

Lemma initial_resp_total cfg id opc rdf : wf_cfg cfg -> exists w0, initial_resp cfg id opc rdf = Ok w0.
Proof.
  intros (H512 & _ & Hbuf). unfold initial_resp, tcp_limit, udp_limit in *. change header_size with 12.
  destruct (Nat.ltb_spec (Nat.min (match c_transport cfg with Tcp => N.to_nat 65535 | Udp => N.to_nat 512 end) (c_buflen cfg)) 12);
    [destruct (c_transport cfg); lia|eauto].
Qed.

Lemma started_inv cfg req w0 : wf_cfg cfg -> started cfg req w0 ->
  srv_inv cfg false w0 /\ w_cursor w0 = 12 /\ w_question w0 = None /\ w_rcode w0 = 0%N.
Proof.
  intros (H512 & H64k & Hbuf) (_ & _ & id & opc & rdf & _ & _ & _ & E0). rewrite (initial_resp_Ok _ _ _ _ _ E0).
  unfold srv_inv, edns_ok, reserved, tcp_limit, udp_limit in *. cbn.
  repeat split; auto; try discriminate; try (intros X; destruct X; reflexivity); destruct (c_transport cfg); lia.
Qed.

Lemma add_question_inv cfg w0 q w1 : srv_inv cfg false w0 -> w_cursor w0 = 12 -> add_question w0 q = Ok w1 ->
  length (n_wire (q_name q)) <= 255 -> srv_inv cfg false w1.
Proof.
  intros I C E Hq. pose proof (add_question_Ok _ _ _ E) as ->.
  unfold srv_inv, edns_ok, reserved in *. cbn. rewrite C. intuition lia.
Qed.

Lemma read_question_wire_bound r r1 q : rinv r -> read_question r = (r1, Ok q) ->
  length (n_wire (q_name q)) <= 255 /\ rinv r1.
Proof.
  intros Hinv E. pose proof (read_question_facts r Hinv) as (_ & _ & I & F).
  rewrite E in *. cbn [fst snd] in *. split; [|exact I].
  destruct (F q eq_refl) as (ls & D & Hn & _). inversion D as [ls' l qt qc DN _ _]; subst.
  destruct DN as (e & _ & _ & Hw). rewrite Hn. exact Hw.
Qed.

(* a question of at most 255 + 4 octets always fits a response of at least 512 *)
Lemma add_question_total cfg w0 q : srv_inv cfg false w0 -> w_cursor w0 = 12 ->
  length (n_wire (q_name q)) <= 255 -> exists w1, add_question w0 q = Ok w1.
Proof.
  intros I C Hq. pose proof (srv_inv_no_edns cfg w0 I) as En. destruct I as (_ & _ & _ & _ & L & _ & G & _).
  unfold reserved in G. rewrite En in G. unfold add_question. rewrite C.
  destruct (Nat.ltb_spec (w_avail w0) 12); [lia|].
  destruct (Nat.ltb_spec (w_avail w0 - 12) (length (n_wire (q_name q)))); [lia|].
  destruct (Nat.ltb_spec (w_avail w0 - (12 + length (n_wire (q_name q)))) 4); [lia|eauto].
Qed.

Lemma started_ready cfg req w0 : wf_cfg cfg -> wf_bytes req -> started cfg req w0 ->
  rinv (r0_of req) /\ srv_inv cfg false w0 /\ w_cursor w0 = 12 /\ w_question w0 = None.
Proof.
  intros Hcfg Hwf St. destruct (started_inv cfg req w0 Hcfg St) as (I0 & C0 & Q0 & _).
  split; [exact (r0_inv req Hwf (proj1 St))|auto].
Qed.

Lemma question_ready cfg req w0 r1 q w1 : wf_cfg cfg -> wf_bytes req -> started cfg req w0 ->
  read_question (r0_of req) = (r1, Ok q) -> add_question w0 q = Ok w1 ->
  rinv r1 /\ srv_inv cfg false w1 /\ length (n_wire (q_name q)) <= 255.
Proof.
  intros Hcfg Hwf St RQ EA. destruct (started_ready cfg req w0 Hcfg Hwf St) as (Hinv0 & I0 & C0 & _).
  destruct (read_question_wire_bound _ _ _ Hinv0 RQ) as [Hwire Hinv1].
  split; [exact Hinv1|]. split; [exact (add_question_inv cfg w0 q w1 I0 C0 EA Hwire)|exact Hwire].
Qed.

Lemma an_ns_reader_inv n r1 r2 (w : resp) : rinv r1 -> an_ns_reader n (rd_mark r1) = Some r2 -> rinv r2.
Proof. intros Hinv1 A. pose proof (scan_an_ns_facts n (rd_mark r1) w (rd_mark_inv r1 Hinv1)) as S2. rewrite A in S2. apply S2. Qed.

(* What the pre-scan does to the response, once: it starts it, adds the question, feeds it through one
   process_additional per additional record, and ends a path early by set_rcode.  So a property [K] of the state
   before a record that those steps maintain gives [C] of every response that reaches the dispatch and [E] of
   every early one. *)
Section PrescanLift.
Variables (verify : tsig_verifier) (cfg : config) (req : bytes).
Variable K : reader -> bool -> resp -> Prop.
Variables C E : resp -> Prop.
Hypothesis K_step : forall r w seen last r' s seen', K r seen w ->
  process_additional verify cfg r w seen last = Ok (r', s, seen') ->
  match s with Continue w' => if last then C w' else K r' seen' w' | Return w' => E w' | Silent => True end.
Hypothesis K_end : forall r seen w, K r seen w -> C w.
Hypothesis K_rcode : forall r seen w rc, K r seen w -> E (set_rcode w rc).
Hypothesis C_formerr : forall w, C w -> E (set_rcode w RC_FORMERR).
Hypothesis K_an_ns : forall r1 n r2 w, K r1 false w -> an_ns_reader n (rd_mark r1) = Some r2 -> K r2 false w.
Hypothesis K_start : forall w0, started cfg req w0 -> K (r0_of req) false w0.
Hypothesis K_question : forall w0 r1 q w1, started cfg req w0 -> read_question (r0_of req) = (r1, Ok q) ->
  add_question w0 q = Ok w1 -> K r1 false w1.

Lemma scan_additional_lift : forall n r w seen r' s, K r seen w ->
  scan_additional verify cfg n r w seen = Ok (r', s) ->
  match s with Continue w' => C w' | Return w' => E w' | Silent => True end.
Proof.
  induction n as [|n IH]; intros r w seen r' s Hi H; cbn [scan_additional] in H; [inv H; exact (K_end _ _ _ Hi)|].
  destruct (process_additional verify cfg r w seen (n =? 0)) as [[[r1 s1] seen1]|e|] eqn:E1; cbn [bind] in H; try discriminate.
  pose proof (K_step _ _ _ _ _ _ _ Hi E1) as S1. destruct s1 as [w1|w1|]; [|inv H; exact S1..].
  destruct n; [inv H; exact S1|exact (IH _ _ _ _ _ S1 H)].
Qed.

Lemma prescan_rest_lift r1 w1 p : K r1 false w1 -> prescan_rest verify cfg r1 w1 = Ok p ->
  match p with PEarly w => E w | PClean _ w => C w | PNone => True end.
Proof.
  intros Hi H. destruct (prescan_rest_inv _ _ _ _ _ H) as (an & ns & _ & _ & R).
  destruct (an_ns_reader _ (rd_mark r1)) as [r2|] eqn:A; [|subst p; exact (K_rcode _ _ _ _ Hi)].
  destruct R as (ar & r3 & s3 & _ & E3 & R). pose proof (scan_additional_lift _ _ _ _ _ _ (K_an_ns _ _ _ _ Hi A) E3) as L3.
  destruct s3 as [w3|w3|]; [|subst p; exact L3..].
  destruct (at_eom r3); [destruct R as (o & _ & ->); exact L3|subst p; exact (C_formerr _ L3)].
Qed.

Theorem prescan_lift p : prescan verify cfg req = Ok p ->
  match p with PEarly w => E w | PClean _ w => C w | PNone => True end.
Proof.
  intros H.
  destruct (prescan_inv _ _ _ _ H) as [| | |w0 p St Eqd ER|w0 r1 e St Eqd RQ|w0 r1 q e St Eqd RQ EA|w0 r1 q w1 p St Eqd RQ EA ER];
    [exact I..| | | |].
  - exact (prescan_rest_lift _ _ _ (K_start w0 St) ER).
  - exact (K_rcode _ _ _ _ (K_start w0 St)).
  - exact (K_rcode _ _ _ _ (K_start w0 St)).
  - exact (prescan_rest_lift _ _ _ (K_question _ _ _ _ St RQ EA) ER).
Qed.
End PrescanLift.

Lemma prescan_total verify cfg req : wf_cfg cfg -> wf_bytes req -> exists p, prescan verify cfg req = Ok p.
Proof.
  intros Hcfg Hwf. pose proof Hcfg as (H512 & H64k & Hbuf). unfold prescan.
  destruct (Nat.ltb_spec (c_buflen cfg) (match c_transport cfg with Tcp => tcp_limit | Udp => N.to_nat (c_edns_size cfg) end)); [lia|].
  unfold reader_new. change header_size with 12.
  destruct (Nat.leb_spec 12 (length req)) as [H12|]; [|eauto]. change (mkReader req 12 None) with (r0_of req).
  pose proof (r0_inv req Hwf H12) as Hinv0.
  destruct (@flag_at_ok reader_err req QR_BYTE QR_MASK) as [qr Eqr]; [change (N.to_nat QR_BYTE) with 2; lia|].
  change (rd_qr (r0_of req)) with (@flag_at reader_err req QR_BYTE QR_MASK). rewrite Eqr. cbn [bind]. destruct qr; [eauto|].
  destruct (@be16_at_ok reader_err req (N.to_nat ID_START)) as [id Eid]; [simpl; lia|].
  change (rd_id (r0_of req)) with (@be16_at reader_err req (N.to_nat ID_START)). rewrite Eid. cbn [bind].
  destruct (rd_opcode_ok _ Hinv0) as (opc & Eopc). rewrite Eopc. cbn [bind].
  destruct (@flag_at_ok reader_err req RD_BYTE RD_MASK) as [rdf Erd]; [change (N.to_nat RD_BYTE) with 2; lia|].
  change (rd_rd (r0_of req)) with (@flag_at reader_err req RD_BYTE RD_MASK). rewrite Erd. cbn [bind].
  destruct (initial_resp_total cfg id opc rdf Hcfg) as [w0 E0]. rewrite E0. cbn [bind].
  destruct (started_inv cfg req w0 Hcfg) as (I0 & C0 & _).
  { split; [assumption|]. split; [exact Eqr|]. exists id, opc, rdf. auto. }
  destruct (rd_counts_ok _ Hinv0) as (qd & an & ns & ar & -> & _). cbn [bind].
  destruct (qd =? 0)%N; [apply prescan_rest_total; assumption|].
  destruct (qd =? 1)%N; [|eauto].
  pose proof (read_question_facts _ Hinv0) as (NP & _).
  destruct (read_question (r0_of req)) as [r1 [q|e|]] eqn:RQ; [|eauto|contradiction].
  destruct (read_question_wire_bound _ _ _ Hinv0 RQ) as [Hq Hinv1].
  destruct (add_question_total cfg w0 q I0 C0 Hq) as [w1 EA]. rewrite EA.
  apply prescan_rest_total; eauto using add_question_inv.
Qed.

Lemma opt_reached_eq req : 12 <= length req ->
  opt_reached req =
    match rd_qdcount (r0_of req) with
    | Ok qd =>
      if (qd =? 0)%N then reach_from (r0_of req)
      else if (qd =? 1)%N then match read_question (r0_of req) with (r1, Ok _) => reach_from r1 | _ => false end
      else false
    | _ => false
    end.
Proof. intros H. unfold opt_reached. destruct (Nat.ltb_spec (length req) 12); [lia|reflexivity]. Qed.

(* [w1]: the started response [w0], possibly with the question; [w]: what the pre-scan made of it *)
Lemma early_or_clean_intro cfg req w0 w1 w : started cfg req w0 ->
  w_id w1 = w_id w0 /\ w_opcode w1 = w_opcode w0 /\ w_rd w1 = w_rd w0 /\ w_body w1 = w_body w0 /\ w_aa w1 = w_aa w0 ->
  question_echo req w1 -> same_core w1 w -> edns_ok cfg w -> (w_edns w <> None <-> opt_reached req = true) ->
  early_or_clean cfg req w.
Proof.
  intros St (K1 & K2 & K3 & K4 & K5) QE (C1 & C2 & C3 & C4 & C5 & C6) EO OR.
  destruct St as (H12 & Eqr & id & opc & rdf & Eid & Eopc & Erd & E0). rewrite (initial_resp_Ok _ _ _ _ _ E0) in *.
  cbn in K1, K2, K3, K4, K5. unfold early_or_clean, hdr_echo, question_echo in *.
  rewrite C1, C2, C3, C4, C5, C6, K1, K2, K3, K4, K5. 
  split; [exact H12|]. split; [exact Eqr|]. split; [|auto]. split; [exact Eid|]. split; [exact Eopc|]. exists rdf. auto.
Qed.

Lemma prescan_rest_early_or_clean verify cfg req w0 r1 w1 p : wf_cfg cfg -> started cfg req w0 ->
  rinv r1 -> srv_inv cfg false w1 ->
  w_id w1 = w_id w0 /\ w_opcode w1 = w_opcode w0 /\ w_rd w1 = w_rd w0 /\ w_body w1 = w_body w0 /\ w_aa w1 = w_aa w0 ->
  question_echo req w1 -> opt_reached req = reach_from r1 -> rd_opcode r1 = rd_opcode (r0_of req) ->
  prescan_rest verify cfg r1 w1 = Ok p ->
  match p with
  | PNone => length req < 12 \/ rd_qr (r0_of req) = Ok true \/
             (exists qd, rd_qdcount (r0_of req) = Ok qd /\ (2 <= qd)%N)
  | PEarly w => early_or_clean cfg req w
  | PClean opc w => early_or_clean cfg req w /\ rd_opcode (r0_of req) = Ok opc
  end.
Proof.
  intros Hcfg St Hinv1 I1 K QE OR OP E. destruct (prescan_rest_facts verify cfg r1 w1 Hcfg Hinv1 I1) as (p' & E' & F).
  rewrite E in E'. injection E' as <-. rewrite <- OR in F. rewrite OP in F.
  destruct p as [|w|o w]; [contradiction| |]; [destruct F as (C & EO & R)|destruct F as (C & EO & R & O); split; [|exact O]];
    eapply early_or_clean_intro; eauto.
Qed.

Theorem prescan_facts verify cfg req : wf_cfg cfg -> wf_bytes req ->
  exists p, prescan verify cfg req = Ok p /\
  match p with
  | PNone => length req < 12 \/ rd_qr (r0_of req) = Ok true \/
             (exists qd, rd_qdcount (r0_of req) = Ok qd /\ (2 <= qd)%N)
  | PEarly w => early_or_clean cfg req w
  | PClean opc w => early_or_clean cfg req w /\ rd_opcode (r0_of req) = Ok opc
  end.
Proof.
  intros Hcfg Hwf. destruct (prescan_total verify cfg req Hcfg Hwf) as [p E]. exists p. split; [exact E|].
  destruct (prescan_inv _ _ _ _ E) as [|H12 Eqr|w0 qd St Eqd|w0 p St Eqd ER|w0 r1 e St Eqd RQ|w0 r1 q e St Eqd RQ EA|w0 r1 q w1 p St Eqd RQ EA ER];
    auto; try (right; right; eauto; fail);
    pose proof St as (H12 & _); pose proof (r0_inv req Hwf H12) as Hinv0;
    destruct (started_inv cfg req w0 Hcfg St) as (I0 & C0 & Q0 & _).
  - apply (prescan_rest_early_or_clean verify cfg req w0 (r0_of req) w0); auto; [left; exact Q0|].
    rewrite (opt_reached_eq req H12), Eqd. reflexivity.
  - 
    pose proof I0 as (A0 & _). pose proof (srv_inv_no_edns cfg w0 I0) as En.
    apply (early_or_clean_intro cfg req w0 w0); auto; [left; exact Q0|apply set_rcode_core|apply edns_set_rcode; exact A0|].
    rewrite (set_rcode_edns w0 RC_FORMERR), En, (opt_reached_eq req H12), Eqd, RQ. cbn. intuition discriminate.
  - destruct (read_question_wire_bound _ _ _ Hinv0 RQ) as [Hq _].
    destruct (add_question_total cfg w0 q I0 C0 Hq) as [w1 EA']. congruence.
  - destruct (read_question_wire_bound _ _ _ Hinv0 RQ) as [Hq Hinv1].
    pose proof (add_question_inv cfg w0 q w1 I0 C0 EA Hq) as I1. pose proof (add_question_Ok _ _ _ EA) as Ew.
    apply (prescan_rest_early_or_clean verify cfg req w0 r1 w1); auto.
    + rewrite Ew. cbn. auto.
    + right. split; [exact Eqd|]. exists r1, q. rewrite Ew. auto.
    + rewrite (opt_reached_eq req H12), Eqd, RQ. reflexivity.
    + pose proof (read_question_facts _ Hinv0) as (_ & _ & _ & F). rewrite RQ in F. cbn [fst snd] in F.
      destruct (F q eq_refl) as (ls & _ & _ & Ho & _). apply (header_same_octets _ _ Ho).
Qed.

Lemma prescan_silent verify cfg req : wf_cfg cfg -> wf_bytes req ->
  (length req < 12 \/ rd_qr (r0_of req) = Ok true \/ (exists qd, rd_qdcount (r0_of req) = Ok qd /\ (2 <= qd)%N)) ->
  prescan verify cfg req = Ok PNone.
Proof.
  intros Hcfg Hwf H. destruct (prescan_facts verify cfg req Hcfg Hwf) as (p & E & F). rewrite E. f_equal.
  assert (X : forall w0 qd, started cfg req w0 -> rd_qdcount (r0_of req) = Ok qd -> (qd <= 1)%N -> False).
  { intros w0 qd (H12 & Eqr & _) Eqd Hqd. destruct H as [H|[H|(qd' & H1 & H2)]]; [lia|congruence|].
    rewrite Eqd in H1. inv H1. lia. }
  destruct (prescan_inv _ _ _ _ E); try reflexivity; exfalso; eapply X; eauto; lia.
Qed.

Lemma eqb_combine_spec {A} (eqb : A -> A -> bool) (Heq : forall x y, eqb x y = true <-> x = y) (a : list A) :
  forall b, (length a =? length b) && forallb (fun p => eqb (fst p) (snd p)) (combine a b) = true <-> a = b.
Proof.
  induction a as [|x a IH]; intros [|y b]; simpl.
  - split; reflexivity.
  - split; discriminate.
  - split; discriminate.
  - split.
    + intros H. apply andb_true_iff in H. destruct H as [H1 H2]. apply andb_true_iff in H2. destruct H2 as [H2 H3].
      apply Heq in H2. subst y. f_equal. apply IH. rewrite H1, H3. reflexivity.
    + intros H. inversion H; subst. pose proof (proj2 (IH b) eq_refl) as T.
      apply andb_true_iff in T. destruct T as [T1 T2]. rewrite T1, T2, (proj2 (Heq y y) eq_refl). reflexivity.
Qed.

Lemma bytes_eqb_spec a b : bytes_eqb a b = true <-> a = b.
Proof. unfold bytes_eqb. apply (eqb_combine_spec N.eqb N.eqb_eq). Qed.

Lemma labels_eqb_spec a b : labels_eqb a b = true <-> a = b.
Proof. unfold labels_eqb. apply (eqb_combine_spec bytes_eqb bytes_eqb_spec). Qed.

Definition no_data (w : resp) : Prop := w_body w = empty_body /\ w_aa w = false.

Lemma set_rcode_no_data w rc : no_data w -> no_data (set_rcode w rc) /\ w_rcode (set_rcode w rc) = rc.
Proof. intros [A B]. repeat split; assumption. Qed.

Lemma cat_lookup_spec es : forall qname class best r,
  cat_lookup es qname class best = r ->
  match r with
  | None => best = None /\ forall e, In e es -> ~ ((e_class e =? class)%N = true /\ is_suffix (e_name e) qname = true)
  | Some e =>
    (Some e = best \/ (In e es /\ (e_class e =? class)%N = true /\ is_suffix (e_name e) qname = true)) /\
    (forall b, best = Some b -> length (e_name b) <= length (e_name e)) /\
    (forall e', In e' es -> (e_class e' =? class)%N = true -> is_suffix (e_name e') qname = true ->
                length (e_name e') <= length (e_name e))
  end.
Proof.
  induction es as [|x es IH]; intros qname class best r H; cbn [cat_lookup] in H.
  - subst r. destruct best as [b|]; [|split; [reflexivity|intros e []]].
    split; [left; reflexivity|]. split; [intros b' X; inv X; lia|intros e' []].
  - set (better := (e_class x =? class)%N && is_suffix (e_name x) qname &&
                   match best with None => true | Some b => length (e_name b) <? length (e_name x) end) in H.
    specialize (IH qname class (if better then Some x else best) r H).
    destruct r as [e|].
    + destruct IH as (A & B & C). split; [|split].
      * destruct A as [A|(A1 & A2 & A3)]; [|right; split; [right; exact A1|split; assumption]].
        destruct better eqn:Eb; [|left; exact A].
        inv A. right. unfold better in Eb. apply andb_true_iff in Eb. destruct Eb as [Eb _].
        apply andb_true_iff in Eb. destruct Eb. split; [left; reflexivity|split; assumption].
      * intros b Hb. subst best. destruct better eqn:Eb.
        -- specialize (B x eq_refl). unfold better in Eb. apply andb_true_iff in Eb. destruct Eb as [_ Eb].
           apply Nat.ltb_lt in Eb. lia.
        -- apply B. reflexivity.
      * intros e' [->|He'] Hc Hs; [|apply C; assumption].
        destruct better eqn:Eb; [apply B; reflexivity|].
        unfold better in Eb. rewrite Hc, Hs in Eb. cbn [andb] in Eb.
        destruct best as [b|]; [|discriminate]. apply Nat.ltb_ge in Eb.
        specialize (B b eq_refl). lia.
    + destruct IH as (A & C). destruct better eqn:Eb; [discriminate|]. split; [exact A|].
      intros e [->|He] [Hc Hs]; [|apply (C e He); split; assumption].
      unfold better in Eb. rewrite Hc, Hs, A in Eb. discriminate.
Qed.

Theorem handle_query_table answer cfg w : no_data w ->
  match w_question w with
  | None => handle_query answer cfg w = set_rcode w RC_FORMERR
  | Some q =>
    if existsb (N.eqb (q_type q)) [QTYPE_IXFR; QTYPE_AXFR; QTYPE_MAILB; QTYPE_MAILA] || (q_class q =? QCLASS_ANY)%N
    then handle_query answer cfg w = set_rcode w RC_NOTIMP
    else match cat_lookup (c_catalog cfg) (name_key (q_name q)) (q_class q) None with
         | None => handle_query answer cfg w = set_rcode w RC_REFUSED
         | Some e =>
           match e_kind e with
           | ELoaded z => handle_query answer cfg w =
                          apply_body w (answer z q (c_transport cfg) (w_avail w - w_cursor w))
           | _ => handle_query answer cfg w = set_rcode w RC_SERVFAIL
           end
         end
  end.
Proof.
  intros _. unfold handle_query. destruct (w_question w) as [q|]; [|reflexivity].
  destruct (existsb _ _); cbn [orb]; [reflexivity|].
  destruct (q_class q =? QCLASS_ANY)%N; [reflexivity|].
  destruct (cat_lookup _ _ _ _) as [e|]; [|reflexivity]. destruct (e_kind e); reflexivity.
Qed.

Definition keeps (cfg : config) (w w' : resp) : Prop :=
  w_id w' = w_id w /\ w_opcode w' = w_opcode w /\ w_rd w' = w_rd w /\ w_question w' = w_question w /\
  (w_edns w' <> None <-> w_edns w <> None) /\ (edns_ok cfg w -> edns_ok cfg w') /\ w_tsig w' = w_tsig w.

Lemma set_rcode_keeps cfg w rc : keeps cfg w (set_rcode w rc).
Proof.
  pose proof (set_rcode_edns w rc) as E. pose proof (edns_set_rcode cfg w rc) as EO.
  unfold keeps. repeat split; auto; tauto.
Qed.

(* [keeps] only looks at fields that apply_body copies from the response after its set_rcode *)
Lemma apply_body_keeps cfg w b : keeps cfg w (apply_body w b).
Proof.
  unfold apply_body. destruct (b_rcode b) as [rc|]; [exact (set_rcode_keeps cfg w rc)|]. repeat split; auto.
Qed.

Lemma handle_query_keeps answer cfg w : keeps cfg w (handle_query answer cfg w).
Proof.
  unfold handle_query. destruct (w_question w) as [q|]; [|apply set_rcode_keeps].
  destruct (existsb _ _); [apply set_rcode_keeps|]. destruct (q_class q =? QCLASS_ANY)%N; [apply set_rcode_keeps|].
  destruct (cat_lookup _ _ _ _) as [e|]; [|apply set_rcode_keeps].
  destruct (e_kind e); try apply set_rcode_keeps. apply apply_body_keeps.
Qed.

Theorem handle_message_total answer verify cfg req : wf_cfg cfg -> wf_bytes req ->
  exists x, handle_message answer verify cfg req = Ok x.
Proof.
  intros Hcfg Hwf. unfold handle_message. destruct (prescan_facts verify cfg req Hcfg Hwf) as (p & E & _).
  rewrite E. cbn [bind]. destruct p as [|w|o w]; eauto. destruct (o =? OPCODE_QUERY)%N; eauto.
Qed.

Theorem handle_message_silent_iff answer verify cfg req : wf_cfg cfg -> wf_bytes req ->
  (handle_message answer verify cfg req = Ok None <->
   (length req < 12 \/ rd_qr (r0_of req) = Ok true \/ (exists qd, rd_qdcount (r0_of req) = Ok qd /\ (2 <= qd)%N))).
Proof.
  intros Hcfg Hwf. split.
  - intros H. unfold handle_message in H. destruct (prescan_facts verify cfg req Hcfg Hwf) as (p & E & F).
    rewrite E in H. cbn [bind] in H. destruct p as [|w|o w]; [exact F|discriminate|].
    destruct (o =? OPCODE_QUERY)%N; discriminate.
  - intros H. unfold handle_message. rewrite (prescan_silent verify cfg req Hcfg Hwf H). reflexivity.
Qed.

Theorem handle_message_response answer verify cfg req w : wf_cfg cfg -> wf_bytes req ->
  handle_message answer verify cfg req = Ok (Some w) ->
  hdr_echo req w /\ question_echo req w /\ edns_ok cfg w /\ (w_edns w <> None <-> opt_reached req = true).
Proof.
  intros Hcfg Hwf H. unfold handle_message in H. destruct (prescan_facts verify cfg req Hcfg Hwf) as (p & E & F).
  rewrite E in H. cbn [bind] in H. destruct p as [|w0|o w0]; [discriminate| |].
  - inv H. destruct F as (_ & _ & A & B & _ & _ & C & D). auto.
  - destruct F as ((_ & _ & A & B & _ & _ & C & D) & _).
    assert (K : keeps cfg w0 w).
    { destruct (o =? OPCODE_QUERY)%N; inv H; [apply handle_query_keeps|apply set_rcode_keeps]. }
    destruct K as (K1 & K2 & K3 & K4 & K5 & K6 & _).
    split. { unfold hdr_echo in *. rewrite K1, K2, K3. exact A. }
    split. { unfold question_echo in *. rewrite K4. exact B. }
    split; [apply K6; exact C|]. rewrite K5. exact D.
Qed.

Theorem early_is_final answer verify cfg req w : wf_cfg cfg -> wf_bytes req ->
  prescan verify cfg req = Ok (PEarly w) ->
  handle_message answer verify cfg req = Ok (Some w) /\ no_data w.
Proof.
  intros Hcfg Hwf E. unfold handle_message. rewrite E. split; [reflexivity|].
  destruct (prescan_facts verify cfg req Hcfg Hwf) as (p & E' & F). rewrite E in E'. inv E'.
  destruct F as (_ & _ & _ & _ & A & B & _). split; assumption.
Qed.

Theorem clean_dispatch answer verify cfg req o w0 : wf_cfg cfg -> wf_bytes req ->
  prescan verify cfg req = Ok (PClean o w0) ->
  rd_opcode (r0_of req) = Ok o /\ no_data w0 /\
  handle_message answer verify cfg req =
    Ok (Some (if (o =? OPCODE_QUERY)%N then handle_query answer cfg w0 else set_rcode w0 RC_NOTIMP)).
Proof.
  intros Hcfg Hwf E. destruct (prescan_facts verify cfg req Hcfg Hwf) as (p & E' & F). rewrite E in E'. inv E'.
  destruct F as ((_ & _ & _ & _ & A & B & _) & C). split; [exact C|]. split; [split; assumption|].
  unfold handle_message. rewrite E. cbn [bind]. destruct (o =? OPCODE_QUERY)%N; reflexivity.
Qed.

(* data (answer/authority/additional records, AA) only ever comes from answering a clean QUERY
   out of a Loaded zone *)
Lemma handle_query_cases answer cfg w :
  (exists rc, handle_query answer cfg w = set_rcode w rc) \/
  (exists q e z, w_question w = Some q /\ cat_lookup (c_catalog cfg) (name_key (q_name q)) (q_class q) None = Some e /\
                 e_kind e = ELoaded z /\
                 handle_query answer cfg w = apply_body w (answer z q (c_transport cfg) (w_avail w - w_cursor w))).
Proof.
  unfold handle_query. destruct (w_question w) as [q|]; [|eauto]. destruct (existsb _ _); [eauto|].
  destruct (_ =? _)%N; [eauto|]. destruct (cat_lookup _ _ _ _) as [e|] eqn:L; [|eauto].
  destruct (e_kind e) as [z| |] eqn:K; eauto 8.
Qed.

Theorem data_only_from_loaded_zone answer verify cfg req w : wf_cfg cfg -> wf_bytes req ->
  handle_message answer verify cfg req = Ok (Some w) -> ~ no_data w ->
  exists w0 q e z, prescan verify cfg req = Ok (PClean OPCODE_QUERY w0) /\ w_question w0 = Some q /\
    cat_lookup (c_catalog cfg) (name_key (q_name q)) (q_class q) None = Some e /\ e_kind e = ELoaded z /\
    w = apply_body w0 (answer z q (c_transport cfg) (w_avail w0 - w_cursor w0)).
Proof.
  intros Hcfg Hwf H ND. unfold handle_message in H.
  destruct (prescan verify cfg req) as [p|e|] eqn:E; cbn [bind] in H; try discriminate.
  destruct p as [|w0|o w0]; [discriminate| |].
  - inv H. destruct ND. exact (proj2 (early_is_final answer verify cfg req w Hcfg Hwf E)).
  - destruct (clean_dispatch answer verify cfg req o w0 Hcfg Hwf E) as (_ & N0 & _).
    assert (X : forall rc, no_data (set_rcode w0 rc)) by (intros rc; apply set_rcode_no_data, N0).
    destruct (N.eqb_spec o OPCODE_QUERY) as [->|]; inv H; [|destruct ND; apply X].
    destruct (handle_query_cases answer cfg w0) as [[rc Hq]|(q & e & z & Q & L & K & Hq)]; rewrite Hq in *;
      [destruct ND; apply X|]. exists w0, q, e, z. auto.
Qed.

Lemma validate_opt_spec owner raw :
  validate_opt owner raw =
    if negb (length (n_offsets owner) =? 1) then Some RC_FORMERR
    else if negb ((N.shiftr raw 16 mod 256) =? 0)%N then Some XRC_BADVERSBADSIG else None.
Proof. reflexivity. Qed.

(* the pre-fix code looked at the clamped Ttl: version 1 with the top bit of the field set was missed *)
Example validate_opt_prefix_refuted :
  let root := mkName [0%N] [0%N] in
  validate_opt_prefix root 2147549184 = None /\ validate_opt root 2147549184 = Some XRC_BADVERSBADSIG.
Proof. split; vm_compute; reflexivity. Qed.

(* a second OPT, or a TSIG that is not the last record, is FORMERR (from pa_out_reach / the definition) *)
Lemma second_opt_formerr verify cfg r w last p :
  peek_core r = Ok p -> @be16_at reader_err (r_octets r) (p_owner_end p) = Ok TYPE_OPT ->
  process_additional verify cfg r w true last = Ok (r, Return (set_rcode w RC_FORMERR), true).
Proof.
  intros P T. unfold process_additional, peek_rr, peek_type. rewrite P, T. cbn [bind]. reflexivity.
Qed.

Lemma tsig_not_last_formerr verify cfg r w seen p :
  peek_core r = Ok p -> @be16_at reader_err (r_octets r) (p_owner_end p) = Ok TYPE_TSIG ->
  process_additional verify cfg r w seen false = Ok (r, Return (set_rcode w RC_FORMERR), seen).
Proof.
  intros P T. unfold process_additional, peek_rr, peek_type. rewrite P, T. cbn [bind]. reflexivity.
Qed.

Lemma undelimitable_additional_formerr verify cfg r w seen last e :
  peek_core r = Err e ->
  process_additional verify cfg r w seen last = Ok (r, Return (set_rcode w RC_FORMERR), seen).
Proof. intros P. unfold process_additional, peek_rr. rewrite P. reflexivity. Qed.
