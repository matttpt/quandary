(* The server model against the spec-level reading of a request (Spec/MsgWalkS.v): the Reader's record delimiting,
   fixed fields and question against the spec decoders, the answer/authority walk, and C09's "processing reaches an
   OPT" ([opt_reached] of Proofs/ServerP.v = [s_opt_reached]). *)
From QV Require Import Base.ListX Model.NameWire Model.Reader Model.RdataLite Model.Server
  Spec.NameWireS Spec.NameRepr Spec.ReaderS Spec.MsgWalkS
  Proofs.NameWireP Proofs.NameWireSP Proofs.ReaderP Proofs.RdataLiteP Proofs.ServerP.
Local Open Scope nat_scope.

Lemma s_name_end_over fuel b : forall i used, 255 <= used -> s_name_end fuel b i used = None.
Proof.
  induction fuel as [|f IH]; intros i used Hu; [reflexivity|]. cbn [s_name_end].
  destruct (nth_error b i) as [len|]; [|reflexivity]. destruct (Nat.leb_spec (used + 1) 255); [lia|].
  destruct (len =? 0)%N; [reflexivity|]. destruct (len <=? 63)%N; [apply IH; lia|]. destruct (192 <=? len)%N; reflexivity.
Qed.

(* both sides test the same octet; they differ in the order of the tests and in how they count to 255 *)
Lemma skip_loop_spec b c : wf_bytes b -> forall fuel o fuel', 256 - o < fuel -> length b - (c + o) < fuel' ->
  match skip_loop fuel (skipn c b) o with
  | Ok l => exists flag, s_name_end fuel' b (c + o) o = Some (c + l, flag)
  | Err _ => s_name_end fuel' b (c + o) o = None
  | Panic => False
  end.
Proof.
  intros Hw. destruct consts_vals as (C63 & C255 & _).
  induction fuel as [|f IH]; intros o fuel' Hf Hf'; [lia|].
  destruct fuel' as [|f']; [lia|]. cbn [skip_loop s_name_end]. rewrite nth_error_skipn.
  destruct (nth_error b (c + o)) as [l|] eqn:Hn; [|reflexivity].
  pose proof (nth_error_Forall _ _ _ _ Hw Hn) as Hl. pose proof (nth_error_Some_lt _ _ _ Hn) as Hlt.
  rewrite (is_pointer_octet_spec l Hl). unfold skip_fin. rewrite C63, C255.
  destruct (N.leb_spec 192 l), (N.ltb_spec 63 l), (N.eqb_spec l 0), (N.leb_spec l 63); try lia; try reflexivity.
  - destruct (Nat.ltb_spec 255 (o + 1)), (Nat.leb_spec (o + 1) 255); try lia; [reflexivity|exists true; do 2 f_equal; lia].
  - destruct (Nat.ltb_spec 255 (o + 1)), (Nat.leb_spec (o + 1) 255); try lia; [reflexivity|exists false; do 2 f_equal; lia].
  - destruct (Nat.ltb_spec 255 (o + 1 + N.to_nat l)); [apply s_name_end_over; lia|].
    specialize (IH (o + 1 + N.to_nat l) f' ltac:(lia) ltac:(lia)).
    replace (c + (o + 1 + N.to_nat l)) with (c + o + 1 + N.to_nat l) in IH by lia. exact IH.
Qed.

Lemma skip_first_name b c : wf_bytes b ->
  match skip_compressed_name (skipn c b) with
  | Ok l => exists flag, s_first_name b c = Some (c + l, flag)
  | Err _ => s_first_name b c = None
  | Panic => False
  end.
Proof.
  intros Hw. unfold skip_compressed_name, s_first_name, unc_fuel. destruct consts_vals as (_ & C255 & _). rewrite C255.
  pose proof (skip_loop_spec b c Hw (S (S 255)) 0 (S (length b)) ltac:(lia) ltac:(lia)) as H.
  rewrite Nat.add_0_r in H. exact H.
Qed.

Lemma be16_at_sbe16 {E} b a : a + 2 <= length b -> exists v, @be16_at E b a = Ok v /\ sbe16 b a = Some v.
Proof.
  intros H. unfold be16_at, sbe16. destruct (length b <? a + 2) eqn:X; [apply Nat.ltb_lt in X; lia|].
  destruct (nth_error b a) eqn:A; [|apply nth_error_None in A; lia].
  destruct (nth_error b (a + 1)) eqn:B; [|apply nth_error_None in B; lia]. eauto.
Qed.

Lemma be32_at_sbe32 {E} b a : a + 4 <= length b -> exists v, @be32_at E b a = Ok v /\ sbe32 b a = Some v.
Proof.
  intros H. unfold be32_at, sbe32, sbe16. destruct (length b <? a + 4) eqn:X; [apply Nat.ltb_lt in X; lia|].
  destruct (nth_error b a) as [b0|] eqn:A; [|apply nth_error_None in A; lia].
  destruct (nth_error b (a + 1)) as [b1|] eqn:B; [|apply nth_error_None in B; lia].
  replace (a + 2 + 1) with (a + 3) by lia.
  destruct (nth_error b (a + 2)) as [b2|] eqn:C; [|apply nth_error_None in C; lia].
  destruct (nth_error b (a + 3)) as [b3|] eqn:D; [|apply nth_error_None in D; lia].
  eexists. split; [reflexivity|]. f_equal. lia.
Qed.

Lemma read_u16_get_sbe16 b a :
  match read_u16_get b a with
  | Ok v => sbe16 b a = Some v
  | Err _ => sbe16 b a = None
  | Panic => False
  end.
Proof.
  unfold read_u16_get, sbe16. destruct (length b <? a) eqn:X.
  - apply Nat.ltb_lt in X. destruct (nth_error b a) eqn:A; [apply nth_error_Some_lt in A; lia|reflexivity].
  - destruct (nth_error b a); [|reflexivity]. destruct (nth_error b (a + 1)); reflexivity.
Qed.

Lemma sbe16_read_u16_from b a v : sbe16 b a = Some v -> read_u16_from b a = Ok v.
Proof.
  unfold sbe16, read_u16_from. destruct (nth_error b a) eqn:A; [|discriminate].
  destruct (nth_error b (a + 1)); [|discriminate]. intros X; inversion X; subst.
  apply nth_error_Some_lt in A. destruct (length b <? a) eqn:Y; [apply Nat.ltb_lt in Y; lia|reflexivity].
Qed.

Lemma peek_core_spec r : rinv r ->
  match peek_core r with
  | Ok p => s_delimit (r_octets r) (r_cursor r) = Some (p_owner_end p, p_rr_end p)
  | Err _ => s_delimit (r_octets r) (r_cursor r) = None
  | Panic => False
  end.
Proof.
  intros (Hw & H12 & Hc & Hm). unfold peek_core, s_delimit.
  destruct (length (r_octets r) <? r_cursor r) eqn:E; [apply Nat.ltb_lt in E; lia|].
  pose proof (skip_first_name (r_octets r) (r_cursor r) Hw) as S1.
  destruct (skip_compressed_name (skipn (r_cursor r) (r_octets r))) as [l|e|]; cbn [lift_name map_err bind];
    [|rewrite S1; reflexivity|contradiction].
  destruct S1 as [flag S1]. rewrite S1.
  pose proof (read_u16_get_sbe16 (r_octets r) (r_cursor r + l + 8)) as S2.
  destruct (read_u16_get (r_octets r) (r_cursor r + l + 8)) as [rdlen|e|]; cbn [bind];
    [|rewrite S2; reflexivity|contradiction].
  rewrite S2. destruct (Nat.ltb_spec (length (r_octets r)) (r_cursor r + l + 10 + N.to_nat rdlen)),
    (Nat.leb_spec (r_cursor r + l + 10 + N.to_nat rdlen) (length (r_octets r))); try lia; reflexivity.
Qed.

Lemma delimited_fields r p : rinv r -> peek_core r = Ok p ->
  s_delimit (r_octets r) (r_cursor r) = Some (p_owner_end p, p_rr_end p) /\
  r_cursor r < p_owner_end p /\ p_owner_end p + 10 <= p_rr_end p /\ p_rr_end p <= length (r_octets r) /\
  exists ty cl raw rdlen,
    @be16_at reader_err (r_octets r) (p_owner_end p) = Ok ty /\ sbe16 (r_octets r) (p_owner_end p) = Some ty /\
    @be16_at reader_err (r_octets r) (p_owner_end p + 2) = Ok cl /\ sbe16 (r_octets r) (p_owner_end p + 2) = Some cl /\
    @be32_at reader_err (r_octets r) (p_owner_end p + 4) = Ok raw /\ sbe32 (r_octets r) (p_owner_end p + 4) = Some raw /\
    @be16_at reader_err (r_octets r) (p_owner_end p + 8) = Ok rdlen /\ sbe16 (r_octets r) (p_owner_end p + 8) = Some rdlen /\
    p_rr_end p = p_owner_end p + 10 + N.to_nat rdlen.
Proof.
  intros Hinv P. pose proof (peek_core_spec r Hinv) as HS. rewrite P in HS.
  destruct (peek_core_facts r Hinv) as [_ Hok]. destruct (Hok p P) as (B1 & B2 & B3).
  split; [exact HS|]. split; [exact B1|]. split; [exact B2|]. split; [exact B3|].
  destruct (@be16_at_sbe16 reader_err (r_octets r) (p_owner_end p) ltac:(lia)) as (ty & T1 & T2).
  destruct (@be16_at_sbe16 reader_err (r_octets r) (p_owner_end p + 2) ltac:(lia)) as (cl & C1 & C2).
  destruct (@be32_at_sbe32 reader_err (r_octets r) (p_owner_end p + 4) ltac:(lia)) as (raw & R1 & R2).
  destruct (@be16_at_sbe16 reader_err (r_octets r) (p_owner_end p + 8) ltac:(lia)) as (rdlen & L1 & L2).
  exists ty, cl, raw, rdlen. repeat (split; [assumption|]).
  unfold s_delimit in HS. destruct (s_first_name _ _) as [[oe fl]|]; [|discriminate].
  destruct (sbe16 (r_octets r) (oe + 8)) as [rl|] eqn:X; [|discriminate].
  destruct (_ <=? _); [|discriminate]. inversion HS; subst oe. rewrite L2 in X. inversion X; subst rl. lia.
Qed.

Lemma type_consts : TYPE_OPT = 41%N /\ TYPE_TSIG = 250%N /\ CLASS_ANY = 255%N.
Proof. repeat split. Qed.

(* what both walks look at: whether the record can be delimited, and its type *)
Lemma record_type_spec r : rinv r ->
  match peek_core r with
  | Ok p => exists ty, @be16_at reader_err (r_octets r) (p_owner_end p) = Ok ty /\
                       s_delimit (r_octets r) (r_cursor r) = Some (p_owner_end p, p_rr_end p) /\
                       sbe16 (r_octets r) (p_owner_end p) = Some ty /\ rinv (peek_skip r p)
  | Err _ => s_delimit (r_octets r) (r_cursor r) = None
  | Panic => False
  end.
Proof.
  intros Hinv. pose proof (peek_core_spec r Hinv) as HS. destruct (peek_core r) as [p|e|] eqn:P; try exact HS.
  destruct (delimited_fields r p Hinv P) as (_ & _ & _ & B3 & ty & _ & _ & _ & T1 & T2 & _).
  exists ty. split; [exact T1|]. split; [exact HS|]. split; [exact T2|]. apply rinv_with_cursor; assumption.
Qed.

Lemma an_ns_reader_spec n : forall r idx, rinv r ->
  match an_ns_reader n r with
  | Some r' => s_walk_an_ns n (r_octets r) (r_cursor r) idx = inr (r_cursor r') /\ rinv r' /\ reader_same r r'
  | None => exists p, s_walk_an_ns n (r_octets r) (r_cursor r) idx = inl p
  end.
Proof.
  induction n as [|n IH]; intros r idx Hinv; cbn [an_ns_reader s_walk_an_ns].
  - split; [reflexivity|]. split; [exact Hinv|apply reader_same_refl].
  - pose proof (record_type_spec r Hinv) as RS.
    destruct (peek_core r) as [p|e|]; [|rewrite RS; eauto|contradiction].
    destruct RS as (ty & -> & -> & -> & Hinv'). change TYPE_OPT with 41%N. change TYPE_TSIG with 250%N.
    destruct ((ty =? 41)%N || (ty =? 250)%N); [eauto|].
    specialize (IH (peek_skip r p) (S idx) Hinv'). cbn [peek_skip with_cursor r_octets r_cursor] in IH.
    destruct (an_ns_reader n (peek_skip r p)) as [r'|]; [|exact IH].
    destruct IH as (A & B & C). split; [exact A|]. split; [exact B|].
    eapply reader_same_trans; [apply with_cursor_same|exact C].
Qed.

Lemma opt_reachable_spec n : forall r, rinv r -> opt_reachable n r = s_opt_ahead n (r_octets r) (r_cursor r).
Proof.
  induction n as [|n IH]; intros r Hinv; cbn [opt_reachable s_opt_ahead]; [reflexivity|].
  pose proof (record_type_spec r Hinv) as RS.
  destruct (peek_core r) as [p|e|]; [|rewrite RS; reflexivity|contradiction].
  destruct RS as (ty & -> & -> & -> & Hinv'). change TYPE_OPT with 41%N. change TYPE_TSIG with 250%N.
  destruct (ty =? 41)%N; [reflexivity|]. destruct (ty =? 250)%N; [reflexivity|]. apply IH, Hinv'.
Qed.

Lemma hdr_counts r : rinv r ->
  exists qd an ns ar,
    rd_qdcount r = Ok qd /\ sbe16 (r_octets r) 4 = Some qd /\ rd_ancount r = Ok an /\ sbe16 (r_octets r) 6 = Some an /\
    rd_nscount r = Ok ns /\ sbe16 (r_octets r) 8 = Some ns /\ rd_arcount r = Ok ar /\ sbe16 (r_octets r) 10 = Some ar.
Proof.
  intros (_ & H12 & _).
  destruct (@be16_at_sbe16 reader_err (r_octets r) 4 ltac:(lia)) as (qd & Q1 & Q2).
  destruct (@be16_at_sbe16 reader_err (r_octets r) 6 ltac:(lia)) as (an & A1 & A2).
  destruct (@be16_at_sbe16 reader_err (r_octets r) 8 ltac:(lia)) as (ns & N1 & N2).
  destruct (@be16_at_sbe16 reader_err (r_octets r) 10 ltac:(lia)) as (ar & R1 & R2).
  exists qd, an, ns, ar. repeat split; assumption.
Qed.

Lemma reach_from_spec r1 : rinv r1 -> reach_from r1 = s_reach_from (r_octets r1) (r_cursor r1).
Proof.
  intros Hinv. unfold reach_from, s_reach_from.
  destruct (hdr_counts r1 Hinv) as (qd & an & ns & ar & _ & _ & A1 & A2 & N1 & N2 & R1 & R2).
  rewrite A1, N1, A2, N2, R2.
  pose proof (an_ns_reader_spec (N.to_nat an + N.to_nat ns) (rd_mark r1) 0 (rd_mark_inv r1 Hinv)) as W.
  cbn [rd_mark r_octets r_cursor] in W.
  destruct (an_ns_reader (N.to_nat an + N.to_nat ns) (rd_mark r1)) as [r2|].
  - destruct W as (W1 & W2 & [So Sm]). rewrite W1.
    assert (R1' : rd_arcount r2 = Ok ar) by (unfold rd_arcount in *; rewrite So; exact R1).
    rewrite R1'. rewrite (opt_reachable_spec _ r2 W2), So. reflexivity.
  - destruct W as [p W]. rewrite W. reflexivity.
Qed.

Lemma read_question_spec req : wf_bytes req -> 12 <= length req ->
  match read_question (r0_of req) with
  | (r1, Ok q) => s_question_end req = Some (r_cursor r1)
  | (_, Err _) => s_question_end req = None
  | (_, Panic) => False
  end.
Proof.
  intros Hw H12. pose proof (read_question_facts (r0_of req) (r0_inv req Hw H12)) as (NP & _ & _ & F).
  destruct (read_question (r0_of req)) as [r1 x] eqn:RQ. cbn [fst snd] in *.
  destruct x as [q|e|]; [| |congruence].
  - destruct (F q eq_refl) as (ls & D & _). cbn [r_octets r_cursor r0_of] in D.
    remember (r_cursor r1) as c1. inversion D as [ls' l qt qc DN Sq Sc Hend]; subst.
    unfold s_question_end. rewrite (proj2 (spec_decode_name_iff req 12 ls l) DN), Sq, Sc. reflexivity.
  - unfold s_question_end. destruct (spec_decode_name req 12) as [[ls l]|] eqn:SD; [|reflexivity].
    destruct (sbe16 req (12 + l)) as [qt|] eqn:Sq; [|reflexivity].
    destruct (sbe16 req (12 + l + 2)) as [qc|] eqn:Sc; [|reflexivity]. exfalso.
    apply spec_decode_name_iff in SD.
    assert (P : parse_compressed_name req 12 = Ok (name_of ls, l)) by (apply (parse_compressed_iff _ _ _ _ Hw); eauto).
    unfold read_question in RQ. cbn [r_octets r_cursor r0_of] in RQ. rewrite P in RQ. cbn [lift_name map_err] in RQ.
    rewrite (sbe16_read_u16_from _ _ _ Sq), (sbe16_read_u16_from _ _ _ Sc) in RQ. discriminate.
Qed.

Theorem opt_reached_spec req : wf_bytes req -> opt_reached req = s_opt_reached req.
Proof.
  intros Hw. unfold opt_reached, s_opt_reached. destruct (length req <? 12) eqn:L; [reflexivity|].
  apply Nat.ltb_ge in L. pose proof (r0_inv req Hw L) as Hinv0.
  destruct (hdr_counts (r0_of req) Hinv0) as (qd & an & ns & ar & Q1 & Q2 & _). cbn [r_octets r0_of] in Q2.
  rewrite Q1, Q2. destruct (qd =? 0)%N; [apply (reach_from_spec (r0_of req) Hinv0)|].
  destruct (qd =? 1)%N; [|reflexivity].
  pose proof (read_question_spec req Hw L) as RS.
  pose proof (read_question_facts (r0_of req) Hinv0) as (_ & _ & I1 & F).
  destruct (read_question (r0_of req)) as [r1 x]. cbn [fst snd] in *.
  destruct x as [q|e|]; [|rewrite RS; reflexivity|contradiction].
  rewrite RS. destruct (F q eq_refl) as (ls & _ & _ & Ho & _). cbn [r_octets r0_of] in Ho.
  rewrite (reach_from_spec r1 I1), Ho. reflexivity.
Qed.
