(* Top-level statements of C12/C13 assembled from the lemma libraries. *)
From QV Require Import Base.ListX Model.MsgWriter Proofs.MsgWriterP Proofs.MsgWriterScanP
     Proofs.MsgWriterNameP Proofs.MsgWriterInvP.

Lemma top_invariant : forall buf limit w0 ops d outs alive,
  writer_new buf limit = Ok w0 -> run (mkD w0 []) ops = Ok (d, outs, alive) -> Inv_n (d_w d).
Proof.
  intros buf limit w0 ops d outs alive H0 H1.
  exact (run_inv ops (mkD w0 []) d outs alive (writer_new_inv _ _ _ H0) H1).
Qed.

Lemma top_limit : forall buf limit ops rr len b,
  run_writer buf limit ops = Ok rr -> rr_final rr = Some (len, b) ->
  exists w0 d outs, writer_new buf limit = Ok w0 /\ run (mkD w0 []) ops = Ok (d, outs, true)
    /\ len <= w_limit (d_w d) /\ w_limit (d_w d) <= length b.
Proof.
  intros buf limit ops rr len b H1 H2.
  destruct (run_writer_limit finish buf limit ops rr len b H1 H2
              (fun w l b' Hi Hf => finish_gen_limit _ w l b' Hi Hf)) as [w0 [d [outs [A [B [_ [C D]]]]]]].
  exists w0, d, outs. auto.
Qed.

Lemma top_atomic : forall buf limit w0 ops d outs o d' e,
  writer_new buf limit = Ok w0 -> run (mkD w0 []) ops = Ok (d, outs, true) ->
  step d o = Ok (d', RErr e) -> obs_eq (d_w d) (d_w d').
Proof.
  intros buf limit w0 ops d outs o d' e H0 H1 H2.
  pose proof (step_good_all d o (top_invariant _ _ _ _ _ _ _ H0 H1)) as G.
  rewrite H2 in G. exact G.
Qed.

Lemma top_hinted_emitted : forall h n w, nb w -> wf_name n -> priors_ok w ->
  hint_contract h n w ->
  match write_hinted_name h n w with
  | Ok (_, w') => emitted (exactf (w_mode w)) n (w_buf w') (w_cursor w) (w_cursor w')
  | Err (e, _) => e = Truncation
  | Panic => False
  end.
Proof.
  intros h n w Hnb Hwf Hp Hc.
  pose proof (write_hinted_spec h n w Hnb Hwf Hp Hc) as S.
  destruct (write_hinted_name h n w) as [[pr w']|[e w']|]; simpl in S; auto; apply S.
Qed.

Lemma top_unhinted_emitted : forall n w, nb w -> wf_name n -> priors_ok w ->
  match write_unhinted_name n w with
  | Ok (_, w') => emitted (exactf (w_mode w)) n (w_buf w') (w_cursor w) (w_cursor w')
  | Err (e, _) => e = Truncation
  | Panic => False
  end.
Proof.
  intros n w Hnb Hwf Hp.
  pose proof (write_unhinted_spec n w Hnb Hwf Hp) as S.
  destruct (write_unhinted_name n w) as [[pr w']|[e w']|]; simpl in S; auto; apply S.
Qed.

Lemma top_hinted_roundtrip : forall h n w, nb w -> wf_name n -> priors_ok w ->
  hint_contract h n w ->
  match write_hinted_name h n w with
  | Ok (_, w') => named (exactf (w_mode w)) n (w_buf w') (w_cursor w') (w_cursor w)
  | Err (e, _) => e = Truncation
  | Panic => False
  end.
Proof.
  intros h n w Hnb Hwf Hp Hc.
  pose proof (write_hinted_spec h n w Hnb Hwf Hp Hc) as S.
  destruct (write_hinted_name h n w) as [[pr w']|[e w']|]; simpl in S; auto; [|apply S].
  destruct S as [X [_ [Hem _]]]. apply emitted_named; auto.
  destruct (ext_nb _ _ _ X Hnb). lia.
Qed.

Lemma top_unhinted_roundtrip : forall n w, nb w -> wf_name n -> priors_ok w ->
  match write_unhinted_name n w with
  | Ok (_, w') => named (exactf (w_mode w)) n (w_buf w') (w_cursor w') (w_cursor w)
  | Err (e, _) => e = Truncation
  | Panic => False
  end.
Proof.
  intros n w Hnb Hwf Hp.
  pose proof (write_unhinted_spec n w Hnb Hwf Hp) as S.
  destruct (write_unhinted_name n w) as [[pr w']|[e w']|]; simpl in S; auto; [|apply S].
  destruct S as [X [_ [Hem _]]]. apply emitted_named; auto.
  destruct (ext_nb _ _ _ X Hnb). lia.
Qed.

Lemma top_anchor : forall h n w pr p w', nb w -> wf_name n -> priors_ok w ->
  hint_contract h n w -> write_hinted_name h n w = Ok (pr, w') -> pr = Some p ->
  prior_ok (w_buf w') (w_cursor w') p.
Proof.
  intros h n w pr p w' Hnb Hwf Hp Hc E Hpr.
  pose proof (write_hinted_spec h n w Hnb Hwf Hp Hc) as S.
  rewrite E in S. destruct S as [_ [_ [_ S]]]. apply (S p Hpr).
Qed.
