(* Under which hypothesis on the cursor Rdata::read is total over a bounded usize:
   exactly when cursor + RDLENGTH fits a usize; in particular for every cursor inside
   a message held in memory. *)
From QV Require Import Base.ListX Spec.NameWireS Model.RdataM Model.RdataUsz Spec.RdataFormatS
  Proofs.RdNameP Proofs.RdataFormatSP Proofs.RdataVP Proofs.RdataRP.
Local Open Scope nat_scope.

Theorem read_starts_with_prepare c t msg cur rdlen :
  read c t msg cur rdlen =
  let* _ := prepare_to_read_rdata msg cur rdlen in read c t msg cur rdlen.
Proof.
  unfold read. destruct (lookup read_arms read_default c t) as [d|v].
  - destruct d; cbn [run_reader];
      unfold read_name_rdata, read_ch_a, read_soa, read_minfo, read_mx, read_in_srv, read_fixed_then_name;
      destruct (prepare_to_read_rdata msg cur rdlen); reflexivity.
  - unfold without_decompression. destruct (prepare_to_read_rdata msg cur rdlen); reflexivity.
Qed.

Lemma prepare_usz_fits umax msg cur rdlen : (N.of_nat cur + rdlen <= umax)%N ->
  prepare_to_read_rdata_usz umax msg cur rdlen = prepare_to_read_rdata msg cur rdlen.
Proof.
  intros H. unfold prepare_to_read_rdata_usz, uadd_usize, prepare_to_read_rdata.
  destruct (umax <? N.of_nat cur + rdlen)%N eqn:X; [apply N.ltb_lt in X; lia|]. reflexivity.
Qed.

Lemma prepare_usz_overflow umax msg cur rdlen : (umax < N.of_nat cur + rdlen)%N ->
  prepare_to_read_rdata_usz umax msg cur rdlen = Panic.
Proof.
  intros H. unfold prepare_to_read_rdata_usz, uadd_usize.
  destruct (umax <? N.of_nat cur + rdlen)%N eqn:X; [reflexivity|]. apply N.ltb_ge in X. lia.
Qed.

Theorem read_usz_fits umax c t msg cur rdlen : (N.of_nat cur + rdlen <= umax)%N ->
  read_usz umax c t msg cur rdlen = read c t msg cur rdlen.
Proof.
  intros H. unfold read_usz. rewrite (prepare_usz_fits umax msg cur rdlen H).
  symmetry. apply read_starts_with_prepare.
Qed.

(* the ONLY panic of Rdata::read: the overflow of cursor + RDLENGTH *)
Theorem read_usz_panic_iff umax c t msg cur rdlen : wf_bytes msg -> (rdlen < 65536)%N ->
  (read_usz umax c t msg cur rdlen = Panic <-> (umax < N.of_nat cur + rdlen)%N).
Proof.
  intros Hwf Hlen. split.
  - intros P. destruct (N.ltb_spec umax (N.of_nat cur + rdlen)) as [L|L]; [exact L|]. exfalso.
    rewrite (read_usz_fits umax c t msg cur rdlen L) in P.
    destruct (read_total c t msg cur rdlen Hwf Hlen) as (NP & _). contradiction.
  - intros L. unfold read_usz. rewrite (prepare_usz_overflow umax msg cur rdlen L). reflexivity.
Qed.

(* total for every cursor inside a message held in memory: a slice is at most
   isize::MAX octets long and isize::MAX + 65535 <= usize::MAX *)
Theorem read_usz_in_message umax imax c t msg cur rdlen :
  wf_bytes msg -> (rdlen < 65536)%N ->
  (N.of_nat (length msg) <= imax)%N -> (imax + 65535 <= umax)%N -> cur <= length msg ->
  read_usz umax c t msg cur rdlen = read c t msg cur rdlen /\
  read_usz umax c t msg cur rdlen <> Panic.
Proof.
  intros Hwf Hlen Hm Hu Hc.
  assert (F : (N.of_nat cur + rdlen <= umax)%N) by lia.
  split; [apply read_usz_fits; exact F|].
  rewrite (read_usz_fits umax c t msg cur rdlen F). apply (read_total c t msg cur rdlen Hwf Hlen).
Qed.
