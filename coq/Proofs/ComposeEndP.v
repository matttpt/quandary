(* Composition (C04): the three endings of handle_non_axfr_query read off the finished octets: the answering logic
   succeeded <=> the decoded response has TC clear and an RCODE other than SERVFAIL.  This turns the model-level
   premise of the clause (iv) theorem into a statement about the response itself. *)
From QV Require Import Base.ListX Gen.Consts Model.NameWire Model.MsgWriter Model.ZoneTree
  Spec.ZoneLookupS Proofs.ZoneInvP Model.Query Model.QueryW
  Spec.NameWireS Spec.MsgWriterS Spec.MsgWriterAbsS Spec.RdataFormatS Spec.RespS
  Proofs.MsgWriterP Proofs.MsgWriterScanP Proofs.MsgWriterNameP Proofs.MsgWriterInvP Proofs.MsgWriterOpP
  Proofs.MsgWriterStepP Proofs.MsgWriterDecP Proofs.MsgWriterHdrP Proofs.MsgWriterRtP
  Proofs.ComposeTraceP Proofs.ComposeWfP Proofs.ComposeNameP Proofs.ComposeKeyP Proofs.ComposeTopP Proofs.ComposeRdataP
  Proofs.ComposeRespP Proofs.ComposeTcP Proofs.ComposeGlueP Proofs.ComposeAbsP.
From QV Require Proofs.QueryTopP Spec.ResolveS Spec.ResolveRepr.
Local Open Scope nat_scope.

Lemma land15 x : N.land x 15 = (x mod 16)%N.
Proof. change 15%N with (N.ones 4). rewrite N.land_ones. reflexivity. Qed.

(* the answering logic itself: no TC, no TSIG, and the only RCODE it sets is NXDOMAIN *)
Definition Pop_r (o : wop) : Prop :=
  match o with
  | OSetTc _ | OSetMode _ | OSetTsig _ _ _ _ _ _ _ | OUpdateTime _ | OTemplate _ | OTemplateSubsequent | OSetXrcode _ => False
  | OSetRcode v => v = RCODE_NXDOMAIN
  | _ => True
  end.
Lemma Pop_r_q o : Pop_r o -> Pop_q o.
Proof. destruct o; cbn; auto. Qed.

Definition Good_r (H : ahdr) : Prop := h_tc H = false /\ (h_rcode H = 0%N \/ h_rcode H = 3%N).
Lemma Good_r_replay ops outs H : Forall Pop_r ops -> Good_r H -> Good_r (hreplay H ops outs).
Proof.
  apply (hreplay_inv Pop_r Good_r). clear. intros H o r (A & C) P.
  destruct o; cbn [Pop_r] in P; try contradiction; destruct r; cbn [hstep]; try (split; assumption).
  subst v. split; [exact A|right; reflexivity].
Qed.

Section End.
Variable reqf : N -> N -> bytes -> bytes -> bool.
Variable apex : name.
Variable cls : N.
Variable R : list record.
Variable z : zone.
Hypothesis Hinv : Inv reqf apex cls z R.
Hypothesis Hapex : good_name apex.
Hypothesis Hclass : (cls < 65536)%N.
Hypothesis HR : Forall (fun r => Pz (fun _ _ => True) (r_type r) (r_rdata r)) R.
Variable negttl : N -> N -> N.

Theorem respond_w_endings buf tcp id rd qname qtype qclass edns limit :
  512 <= length buf -> good_name qname -> in_zone apex qname = true ->
  (id < 65536)%N -> (qtype < 65536)%N -> (qclass < 65536)%N -> (forall s, edns = Some s -> (s < 65536)%N) ->
  exists w len b m,
    prepare_w buf tcp id rd qname qtype qclass edns limit = Some w /\
    respond_w negttl buf tcp id rd qname qtype qclass edns limit z = Some (len, b) /\
    decode_msg (firstn len b) = Some m /\
    match answering z negttl w_iface qname qtype w with
    | Ok _ => tc_bit m = false /\ rcode_of_msg m <> 2%N
    | Err _ => tc_bit m = true \/ rcode_of_msg m = 2%N
    | Panic => False
    end.
Proof.
  intros Hb Gq Hz Hid Hqt Hqc Hed.
  destruct (respond_decode buf tcp id rd qname qtype qclass edns limit negttl z Hb Gq Hid Hqt Hqc Hed) as (w & Lp & Ew & Hip & Dec).
  exists w.
  (* whatever run finishes the response: TC and RCODE of the decoded message are those of the replay *)
  assert (Fin : forall ops outs d' g', Traced Pop_t (mkD w []) (g_prepared qname) ops outs d' g' ->
            handle_non_axfr_query w_iface negttl z qname qtype tcp w = Some (d_w d') ->
            exists len b m, prepare_w buf tcp id rd qname qtype qclass edns limit = Some w /\
              respond_w negttl buf tcp id rd qname qtype qclass edns limit z = Some (len, b) /\
              decode_msg (firstn len b) = Some m /\
              tc_bit m = h_tc (hreplay (pre_hdr id rd edns) ops outs) /\
              rcode_of_msg m = h_rcode (hreplay (pre_hdr id rd edns) ops outs)).
  { intros ops outs d' g' HT Eh. destruct (Dec ops outs d' g' HT Eh) as (len & b & m & Er & Em & Hh & _).
    exists len, b, m. split; [exact Ew|]. split; [exact Er|]. split; [exact Em|].
    destruct Hh as (_ & _ & _ & _ & Htc & _ & _ & _ & Hrc). split; [exact Htc|]. unfold rcode_of_msg. rewrite land15. exact Hrc. }
  change (answering z negttl w_iface qname qtype w)
    with (if (qtype =? QTYPE_ANY)%N then answer_any w_iface negttl z qname w else answer w_iface negttl z qname qtype w).
  destruct (if (qtype =? QTYPE_ANY)%N then answer_any w_iface negttl z qname w else answer w_iface negttl z qname qtype w)
    as [[u w1]|[e w1]|] eqn:Eq.
  - (* the answering logic succeeded: it ran under Pop_r, so TC is clear and the RCODE is 0 or NXDOMAIN.  The _S
       lemmas need every set_rcode in Pop; the _C lemmas only NXDOMAIN, so the simulation is run for its trace alone
       (from am0: the abstract message plays no part here) *)
    assert (Q : QC Pop_r (mkD w []) (g_prepared qname) am0 (mkD w []) (g_prepared qname) RelO
                   (Ok (u, w1)) (answering z negttl rec_iface qname qtype rec_empty)).
    { rewrite <- Eq. pose proof (StA_nil Pop_r _ _ am0 Lp Hip) as Sp.
      assert (HRel0 : RelE am0 rec_empty) by (unfold RelE, Rel; cbn; auto).
      unfold answering. destruct (qtype =? QTYPE_ANY)%N.
      - apply (answer_any_C reqf apex cls R z Hinv HR Hapex Hclass Pop_r (fun _ _ _ _ _ _ _ _ => I) (fun _ _ _ _ _ _ _ _ => I)
                 (fun _ => I) eq_refl negttl _ _ am0 qname Gq Hz (mkD w []) (g_prepared qname) am0 rec_empty Sp HRel0 eq_refl eq_refl).
      - apply (answer_C reqf apex cls R z Hinv HR Hapex Hclass Pop_r (fun _ _ _ _ _ _ _ _ => I) (fun _ _ _ _ _ _ _ _ => I)
                 (fun _ => I) eq_refl negttl _ _ am0 qname Gq Hz qtype (mkD w []) (g_prepared qname) am0 rec_empty Sp HRel0 eq_refl eq_refl). }
    cbn [QC] in Q.
    destruct Q as (d1 & g1 & A1 & r1 & (ops1 & outs1 & HT1 & _) & <- & _).
    destruct (Good_r_replay ops1 outs1 (pre_hdr id rd edns) (Traced_Forall _ _ _ _ _ _ _ HT1) (conj eq_refl (or_introl eq_refl))) as [G1 G3].
    destruct (Fin _ _ _ _ (Traced_weaken _ _ _ _ _ _ _ _ (fun o H => Pop_q_t o (Pop_r_q o H)) HT1)) as (len & b & m & E1 & E2 & Em & Htc & Hrc);
      [unfold handle_non_axfr_query; rewrite Eq; reflexivity|].
    exists len, b, m. split; [exact E1|]. split; [exact E2|]. split; [exact Em|].
    split; [congruence|]. rewrite Hrc. destruct G3 as [-> | ->]; discriminate.
  - (* an error arm: the operations appended end with set_rcode(SERVFAIL) or set_tc(true) *)
    pose proof (answering_q reqf apex cls R z Hinv Hapex Hclass HR negttl qname qtype w Lp _ Gq Hz Hip Eq) as Q. cbn [QS] in Q.
    destruct Q as (d1 & g1 & HS1 & <- & _). apply St_Traced in HS1 as (ops1 & outs1 & HT1).
    pose proof (Traced_len _ _ _ _ _ _ _ HT1) as Hl1. apply (Traced_weaken _ _ _ _ _ _ _ _ Pop_q_t) in HT1.
    destruct (handle_ending _ _ negttl z qname qtype tcp w e _ _ _ _ Eq HT1) as (d' & g' & Eh & HT').
    destruct (Fin _ _ _ _ HT' Eh) as (len & b & m & E1 & E2 & Em & Htc & Hrc).
    exists len, b, m. split; [exact E1|]. split; [exact E2|]. split; [exact Em|].
    rewrite Htc, Hrc, hreplay_app by exact Hl1. destruct e; [|destruct tcp]; cbn; auto.
  - destruct (answering_q reqf apex cls R z Hinv Hapex Hclass HR negttl qname qtype w Lp _ Gq Hz Hip Eq).
Qed.

End End.

(* clause (iv) with its premise read off the response: TC clear and not SERVFAIL *)
Theorem respond_w_clause_iv reqf apex cls wide recs z buf tcp id rd qname qtype qclass edns limit :
  (forall c t a b d, reqf c t a b = true -> reqf c t b d = true -> reqf c t a d = true) ->
  zone_build reqf (zone_new apex cls wide) recs = Some z ->
  Forall (fun r => good_rd (r_rdata r) /\ (r_type r < 65536)%N) recs -> good_name apex -> (cls < 65536)%N ->
  512 <= length buf -> good_name qname -> in_zone apex qname = true ->
  (id < 65536)%N -> (qtype < 65536)%N -> (qclass < 65536)%N -> (forall s, edns = Some s -> (s < 65536)%N) ->
  exists len b m,
    respond_w neg_ttl buf tcp id rd qname qtype qclass edns limit z = Some (len, b) /\
    decode_msg (firstn len b) = Some m /\
    (tc_bit m = false -> rcode_of_msg m <> 2%N ->
     exists r, (forall tcp', answer_rec z qname qtype tcp' = Some r) /\
       ResolveRepr.norm_rec r = ResolveS.resolve reqf apex cls (accepted apex cls recs) qname qtype /\
       decoded_up_to_optional r m).
Proof.
  intros Ht Hb Hrecs Ga Hc Hbuf Gq Hz Hid Hqt Hqc Hed.
  destruct (respond_w_vs_resolve reqf apex cls wide recs z buf tcp id rd qname qtype qclass edns limit
              Ht Hb Hrecs Ga Hc Hbuf Gq Hz Hid Hqt Hqc Hed) as (w & len & b & m & E1 & E2 & E3 & Hm).
  destruct (respond_w_endings reqf apex cls (accepted apex cls recs) z (ZoneTopP.build_inv reqf Ht apex cls wide recs z Hb) Ga Hc
              (accepted_Pz apex cls recs Hrecs) neg_ttl buf tcp id rd qname qtype qclass edns limit Hbuf Gq Hz Hid Hqt Hqc Hed) as (w' & len' & b' & m' & F1 & F2 & F3 & Hend).
  rewrite E1 in F1. inversion F1; subst w'. rewrite E2 in F2. inversion F2; subst len' b'. rewrite E3 in F3. inversion F3; subst m'.
  exists len, b, m. split; [exact E2|]. split; [exact E3|]. intros Htc Hrc.
  destruct (answering z neg_ttl w_iface qname qtype w) as [[u w1]|e|].
  - exact Hm.
  - destruct Hend as [H|H]; congruence.
  - contradiction.
Qed.
