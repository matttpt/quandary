(* The numbers of the server model's abstract Writer when query answering starts.
   For a request that passes the pre-processing as a clean QUERY without TSIG, the response under
   construction satisfies the full invariant [srv_inv] (so available + reservation = limit, 512 <= limit
   <= buffer) and its cursor is exactly 12 + the question's size: nothing but the question has been
   written. *)
From QV Require Import Base.ListX Model.NameWire Model.Reader Model.RdataLite Model.Server
  Proofs.NameWireP Proofs.ReaderP Proofs.RdataLiteP Proofs.ServerP.
Local Open Scope nat_scope.

(* cursor and buffer never change; the limit changes only by the EDNS negotiation over UDP *)
Definition keepc (cfg : config) (w w' : resp) : Prop :=
  w_cursor w' = w_cursor w /\ w_buflen w' = w_buflen w /\
  (w_edns w' = None -> w_limit w' = w_limit w /\ w_edns w = None) /\
  (c_transport cfg = Tcp -> w_limit w' = w_limit w).

Lemma keepc_refl cfg w : keepc cfg w w.
Proof. repeat split; auto. Qed.

Lemma pa_out_keepc verify cfg r w seen last r' w' seen' :
  pa_out verify cfg r w seen last r' (Continue w') seen' -> keepc cfg w w'.
Proof.
  intros O. remember (Continue w') as s eqn:Es. revert Es.
  destruct O as [| | | |p w1 raw r' rr w2 s P T S E PP Ng V| | | |p r' rr m a k P T L PP Vf|]; intros Es; try discriminate.
  - (* OPT: only the negotiation over UDP touches the limit, and then the response has EDNS *)
    destruct (validate_opt _ _); [destruct V as (w3 & _ & ->); discriminate|]. subst s. injection Es as <-.
    pose proof (set_edns_Ok _ _ _ E) as ->.
    destruct (negotiate_Ok _ _ _ _ Ng) as [[_ ->]|[Tr SL]];
      [|destruct (set_limit_Ok _ _ _ SL) as (nl & av & -> & _)]; repeat split; cbn in *; congruence.
  - (* TSIG: a reservation changes neither cursor, limit nor EDNS *)
    subst wo. destruct (set_tsig_or_truncate_cases (set_rcode w 0) (tsig_out_of rr (TResponse a (k_secret k) (tsig_mac (rr_rdata rr))) 0))
      as [(w1 & E1 & Eq)|Eq]; rewrite Eq in Es; cbn [fst snd] in Es; [|discriminate].
    pose proof (set_tsig_Ok _ _ _ E1) as ->. injection Es as <-.
    split; [reflexivity|]. split; [reflexivity|]. split; [|reflexivity]. intros X. split; [reflexivity|]. apply (set_rcode_edns w 0), X.
  - injection Es as <-. apply keepc_refl.
Qed.

(* the numbers in absolute terms: the buffer is the configured one, the limit is the initial one unless an OPT was
   negotiated over UDP, and nothing but the question has been written *)
Definition numbers (cfg : config) (w : resp) : Prop :=
  w_buflen w = c_buflen cfg /\
  (let L0 := Nat.min (match c_transport cfg with Tcp => tcp_limit | Udp => udp_limit end) (c_buflen cfg) in
   (w_edns w = None -> w_limit w = L0) /\ (c_transport cfg = Tcp -> w_limit w = L0)) /\
  match w_question w with
  | Some q => w_cursor w = 12 + length (n_wire (q_name q)) + 4 /\ length (n_wire (q_name q)) <= 255
  | None => w_cursor w = 12
  end.

Lemma numbers_keepc cfg w w' : numbers cfg w -> keepc cfg w w' -> w_question w' = w_question w -> numbers cfg w'.
Proof.
  intros (A & (B & C) & D) (K1 & K2 & K3 & K4) Q. unfold numbers. rewrite Q, K1, K2. split; [exact A|]. split; [|exact D].
  split; [intros X; destruct (K3 X) as [-> Y]; exact (B Y)|intros T; rewrite (K4 T); exact (C T)].
Qed.

Theorem clean_query_numbers verify cfg req o w q : wf_cfg cfg -> wf_bytes req ->
  prescan verify cfg req = Ok (PClean o w) -> w_tsig w = None -> w_question w = Some q ->
  (exists seen, srv_inv cfg seen w) /\
  w_cursor w = 12 + length (n_wire (q_name q)) + 4 /\ w_buflen w = c_buflen cfg /\
  length (n_wire (q_name q)) <= 255 /\
  let L0 := Nat.min (match c_transport cfg with Tcp => tcp_limit | Udp => udp_limit end) (c_buflen cfg) in
  (w_edns w = None -> w_limit w = L0) /\ (c_transport cfg = Tcp -> w_limit w = L0).
Proof.
  intros Hcfg Hwf H Hts Hq.
  assert (N0 : forall w0, started cfg req w0 -> numbers cfg w0).
  { intros w0 (_ & _ & id & opc & rdf & _ & _ & _ & E0). rewrite (initial_resp_Ok _ _ _ _ _ E0). repeat split. }
  assert (L : (w_tsig w = None -> exists seen, srv_inv cfg seen w) /\ numbers cfg w).
  { refine (prescan_lift verify cfg req (fun r seen w => rinv r /\ srv_inv cfg seen w /\ numbers cfg w)
              (fun w => (w_tsig w = None -> exists seen, srv_inv cfg seen w) /\ numbers cfg w) (fun _ => True)
              _ _ _ _ _ _ _ (PClean o w) H); try (intros; exact I).
    - intros r w1 seen last r' s seen' (Hinv & Iv & Nw) E.
      destruct (process_additional_facts verify cfg r w1 seen last Hcfg Hinv Iv) as (r1 & s1 & seen1 & E' & Hinv1 & RO).
      rewrite E in E'. injection E' as <- <- <-. destruct s as [w'|w'|]; try exact I.
      destruct RO as ((_ & _ & _ & Q & _) & Iv' & _).
      pose proof (numbers_keepc cfg w1 w' Nw (pa_out_keepc _ _ _ _ _ _ _ _ _ (process_additional_inv _ _ _ _ _ _ _ _ _ E)) Q) as N'.
      destruct last; [split; [|exact N']|]; destruct Iv' as [I1|[L1 T1]]; eauto; try discriminate. intros X. contradiction.
    - intros r seen w1 (_ & Iv & Nw). eauto.
    - intros r1 n r2 w1 (Hinv1 & R) A.
      exact (conj (an_ns_reader_inv n r1 r2 w1 Hinv1 A) R).
    - intros w0 St. destruct (started_ready cfg req w0 Hcfg Hwf St) as (A & B & _). auto.
    - intros w0 r1 q' w1 St RQ EA. destruct (question_ready cfg req w0 r1 q' w1 Hcfg Hwf St RQ EA) as (Hinv1 & I1 & Hwire).
      destruct (started_ready cfg req w0 Hcfg Hwf St) as (_ & _ & C0 & _). destruct (N0 w0 St) as (Nb & Nl & _).
      split; [exact Hinv1|]. split; [exact I1|].
      pose proof (add_question_Ok _ _ _ EA) as ->. unfold numbers. cbn. rewrite C0. split; [exact Nb|]. split; [exact Nl|]. split; [lia|exact Hwire]. }
  destruct L as (Iw & Nb & (Ne & Nt) & Nq). rewrite Hq in Nq. destruct Nq. auto 8.
Qed.
