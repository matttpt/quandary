(* RrsetList / RdataSet: the model's incremental, sorted, de-duplicating list of RRsets at a node
   against the spec's per-(owner,type) reading of the flat record list. *)
From QV Require Import Base.Res Base.Octets Base.ListX Model.ZoneTree Spec.ZoneLookupS Proofs.ZoneBaseP.

Fixpoint sorted_rr (l : rrset_list) : Prop :=
  match l with
  | [] => True
  | r :: l' => Forall (fun x => (rs_type r < rs_type x)%N) l' /\ sorted_rr l'
  end.

Lemma rr_lookup_type ty l r : rr_lookup ty l = Some r -> rs_type r = ty.
Proof.
  induction l as [|x l IH]; simpl; [discriminate|].
  destruct (rs_type x =? ty)%N eqn:E; auto. intros H. inversion H; subst. apply N.eqb_eq. exact E.
Qed.

Lemma rr_lookup_In ty l r : rr_lookup ty l = Some r -> In r l.
Proof.
  induction l as [|x l IH]; simpl; [discriminate|].
  destruct (rs_type x =? ty)%N; auto. intros H. inversion H; auto.
Qed.

Lemma rr_lookup_none_above ty l :
  Forall (fun x => (ty < rs_type x)%N) l -> rr_lookup ty l = None.
Proof.
  induction 1 as [|x l H _ IH]; simpl; auto.
  destruct (rs_type x =? ty)%N eqn:E; auto. apply N.eqb_eq in E. lia.
Qed.

Lemma rr_lookup_sorted_self r l : sorted_rr l -> In r l -> rr_lookup (rs_type r) l = Some r.
Proof.
  induction l as [|x l IH]; simpl; [tauto|]. intros [Hx Hs] [->|Hin].
  - rewrite N.eqb_refl. reflexivity.
  - destruct (rs_type x =? rs_type r)%N eqn:E; auto.
    apply N.eqb_eq in E. rewrite Forall_forall in Hx. specialize (Hx r Hin). lia.
Qed.

Lemma sorted_rr_ext l1 l2 : sorted_rr l1 -> sorted_rr l2 ->
  (forall ty, rr_lookup ty l1 = rr_lookup ty l2) -> l1 = l2.
Proof.
  revert l2; induction l1 as [|x l1 IH]; intros l2 S1 S2 H.
  - destruct l2 as [|y l2]; auto. specialize (H (rs_type y)). simpl in H. rewrite N.eqb_refl in H. discriminate.
  - destruct l2 as [|y l2].
    + specialize (H (rs_type x)). simpl in H. rewrite N.eqb_refl in H. discriminate.
    + simpl in S1, S2. destruct S1 as [F1 S1], S2 as [F2 S2].
      assert (Exy : x = y).
      { pose proof (H (rs_type x)) as Hx. pose proof (H (rs_type y)) as Hy. simpl in Hx, Hy.
        rewrite N.eqb_refl in Hx, Hy.
        destruct (rs_type y =? rs_type x)%N eqn:E.
        - inversion Hx; auto.
        - rewrite N.eqb_sym in E. rewrite E in Hy.
          symmetry in Hx. apply rr_lookup_In in Hx. apply rr_lookup_In in Hy.
          rewrite Forall_forall in F1, F2. specialize (F1 _ Hy). specialize (F2 _ Hx). lia. }
      subst y. f_equal. apply IH; auto.
      intros ty. specialize (H ty). simpl in H.
      destruct (rs_type x =? ty)%N eqn:E; auto.
      apply N.eqb_eq in E. subst ty.
      rewrite (rr_lookup_none_above _ _ F1), (rr_lookup_none_above _ _ F2). reflexivity.
Qed.

Section WithReq.
Variable req : N -> N -> bytes -> bytes -> bool.
(* model and specification both test [req new existing]; transitivity is needed only to see that dropping
   a later equal RDATA does not change what a new one is equal to (existsb_keep_last) *)
Hypothesis req_trans : forall cls ty a b c,
  req cls ty a b = true -> req cls ty b c = true -> req cls ty a c = true.

(* RrsetList::add on a sorted list: refused iff the type is present with another TTL; otherwise the
   list stays sorted and only the lookup of [ty] changes *)
Lemma rrsets_add_spec cls ty ttl rd l : sorted_rr l ->
  let old := rr_lookup ty l in
  if match old with Some rs => (rs_ttl rs =? ttl)%N | None => true end then
    exists l', rrsets_add req cls ty ttl rd l = Ok l' /\ sorted_rr l' /\
      forall ty', rr_lookup ty' l' =
        if (ty' =? ty)%N
        then Some (mk_rrset ty ttl match old with
                                   | Some rs => rdataset_insert req cls ty (rs_rdatas rs) rd
                                   | None => [rd]
                                   end)
        else rr_lookup ty' l
  else rrsets_add req cls ty ttl rd l = Err TtlMismatch.
Proof.
  induction l as [|x l IH]; intros S; simpl.
  - eexists; split; [reflexivity|]. split; [simpl; auto|].
    intros ty'. simpl. rewrite (N.eqb_sym ty ty'). destruct (ty' =? ty)%N; reflexivity.
  - destruct S as [F S]. destruct (rs_type x =? ty)%N eqn:E.
    + destruct (rs_ttl x =? ttl)%N eqn:T; simpl; [|reflexivity].
      apply N.eqb_eq in E. apply N.eqb_eq in T. eexists; split; [reflexivity|]. split; [simpl; auto|].
      intros ty'. simpl. rewrite E, T, (N.eqb_sym ty ty'). destruct (ty' =? ty)%N; reflexivity.
    + destruct (ty <? rs_type x)%N eqn:L.
      * apply N.ltb_lt in L.
        assert (F' : Forall (fun y => (ty < rs_type y)%N) l) by (eapply Forall_impl; [|exact F]; simpl; intros; lia).
        rewrite (rr_lookup_none_above ty l F'). eexists; split; [reflexivity|]. split; [simpl; auto|].
        intros ty'. simpl. rewrite (N.eqb_sym ty ty'). destruct (ty' =? ty)%N; reflexivity.
      * specialize (IH S). cbv zeta in IH.
        destruct (match rr_lookup ty l with Some rs => (rs_ttl rs =? ttl)%N | None => true end);
          [|rewrite IH; reflexivity].
        destruct IH as (l' & -> & S' & L'). eexists; split; [reflexivity|]. split.
        -- (* an element of l' is the new RRset (type ty > type of x) or an element of l *)
           split; auto. rewrite Forall_forall. intros r Hr.
           pose proof (rr_lookup_sorted_self r l' S' Hr) as Hs. rewrite L' in Hs.
           destruct (rs_type r =? ty)%N eqn:Er.
           ++ apply N.eqb_eq in Er. apply N.eqb_neq in E. apply N.ltb_ge in L. lia.
           ++ apply rr_lookup_In in Hs. rewrite Forall_forall in F. auto.
        -- intros ty'. simpl. rewrite L'. destruct (rs_type x =? ty')%N eqn:E2; auto.
           apply N.eqb_eq in E2. subst ty'. rewrite E. reflexivity.
Qed.

Lemma rrsets_add_no_panic cls ty ttl rd l : rrsets_add req cls ty ttl rd l <> Panic.
Proof.
  induction l as [|x l IH]; simpl; [discriminate|].
  destruct (rs_type x =? ty)%N.
  - destruct (negb (rs_ttl x =? ttl)%N); discriminate.
  - destruct (ty <? rs_type x)%N; [discriminate|].
    destruct (rrsets_add req cls ty ttl rd l); simpl; try discriminate. congruence.
Qed.

Lemma existsb_keep_last cls ty x l :
  existsb (fun e => req cls ty x e) (keep_last req cls l ty) = existsb (fun e => req cls ty x e) l.
Proof.
  induction l as [|y l IH]; simpl; auto.
  destruct (existsb (fun e => req cls ty y e) l) eqn:Ey; simpl; rewrite IH; auto.
  destruct (req cls ty x y) eqn:Exy; simpl; auto.
  apply existsb_exists in Ey. destruct Ey as (e & He & Hye).
  apply existsb_exists. exists e. split; auto. eapply req_trans; eauto.
Qed.

Lemma existsb_rev {A} (P : A -> bool) l : existsb P (rev l) = existsb P l.
Proof.
  induction l as [|x l IH]; simpl; auto. rewrite existsb_app. simpl. rewrite IH.
  rewrite orb_false_r. apply orb_comm.
Qed.

Lemma dedup_first_snoc cls ty l x :
  dedup_first req cls (l ++ [x]) ty = rdataset_insert req cls ty (dedup_first req cls l ty) x.
Proof.
  unfold dedup_first, rdataset_insert. rewrite rev_app_distr. simpl.
  rewrite (existsb_rev _ (keep_last req cls (rev l) ty)), existsb_keep_last.
  destruct (existsb (fun e => req cls ty x e) (rev l)); simpl; reflexivity.
Qed.

Lemma dedup_first_single cls ty x : dedup_first req cls [x] ty = [x].
Proof. reflexivity. Qed.

Definition rec_at (m : name) (ty : N) (r : record) : bool :=
  name_eqb (lc (r_owner r)) m && (r_type r =? ty)%N.

Lemma records_at_snoc R r m ty :
  records_at (R ++ [r]) m ty = records_at R m ty ++ (if rec_at m ty r then [r] else []).
Proof. unfold records_at. rewrite filter_app. reflexivity. Qed.

Lemma spec_rrset_snoc_other cls R r m ty : rec_at m ty r = false ->
  spec_rrset req cls (R ++ [r]) m ty = spec_rrset req cls R m ty.
Proof. intros H. unfold spec_rrset. rewrite records_at_snoc, H, app_nil_r. reflexivity. Qed.

Lemma spec_rrset_snoc_same cls R r m ty : rec_at m ty r = true ->
  spec_rrset req cls (R ++ [r]) m ty =
    Some match spec_rrset req cls R m ty with
         | Some rs => mk_rrset ty (rs_ttl rs) (rdataset_insert req cls ty (rs_rdatas rs) (r_rdata r))
         | None => mk_rrset ty (r_ttl r) [r_rdata r]
         end.
Proof.
  intros H. unfold spec_rrset. rewrite records_at_snoc, H.
  destruct (records_at R m ty) as [|r0 rest]; [reflexivity|].
  cbn [app rs_ttl rs_rdatas]. rewrite <- dedup_first_snoc.
  change [r_rdata r] with (map r_rdata [r]). rewrite <- map_app. reflexivity.
Qed.

Lemma dedup_first_In cls ty l x : In x (dedup_first req cls l ty) -> In x l.
Proof.
  unfold dedup_first. rewrite <- in_rev, (in_rev l). generalize (rev l). clear l.
  induction l as [|y l IH]; simpl; [tauto|].
  destruct (existsb (fun e => req cls ty y e) l); simpl; tauto.
Qed.

Lemma spec_rrset_rdatas cls R m ty rs rd : spec_rrset req cls R m ty = Some rs -> In rd (rs_rdatas rs) ->
  exists r, In r R /\ r_rdata r = rd.
Proof.
  unfold spec_rrset. destruct (records_at R m ty) as [|r0 rest] eqn:E; [discriminate|]. rewrite <- E.
  intros [= <-] H. apply dedup_first_In, in_map_iff in H. destruct H as (r & Hr & Hin).
  apply filter_In in Hin. exists r. tauto.
Qed.

Lemma spec_rrset_inv cls R m ty rs : spec_rrset req cls R m ty = Some rs ->
  exists r0, In r0 R /\ lc (r_owner r0) = m /\ r_type r0 = ty /\
             rs = mk_rrset ty (r_ttl r0) (dedup_first req cls (map r_rdata (records_at R m ty)) ty).
Proof.
  unfold spec_rrset. destruct (records_at R m ty) as [|r0 rest] eqn:E; [discriminate|]. intros [= <-].
  assert (Hin : In r0 (records_at R m ty)) by (rewrite E; left; reflexivity).
  apply filter_In in Hin. destruct Hin as [Hin Hp]. apply andb_true_iff in Hp.
  rewrite name_eqb_eq, N.eqb_eq in Hp. exists r0. tauto.
Qed.

Lemma spec_rrset_type cls R m ty rs : spec_rrset req cls R m ty = Some rs -> rs_type rs = ty.
Proof. intros H. destruct (spec_rrset_inv _ _ _ _ _ H) as (r0 & _ & _ & _ & ->). reflexivity. Qed.

Lemma ttl_ok_spec cls R r :
  ttl_ok R r =
    match spec_rrset req cls R (lc (r_owner r)) (r_type r) with
    | Some rs => (rs_ttl rs =? r_ttl r)%N
    | None => true
    end.
Proof.
  unfold ttl_ok, spec_rrset, records_at. rewrite find_filter_hd.
  unfold same_rrset.
  destruct (filter _ R) as [|r0 rest]; reflexivity.
Qed.

(* the node-level invariant, in the pointwise form that an add preserves and a lookup uses; it determines
   [d] (ZoneTopP.rrsets_ok_unique) *)
Definition rrsets_ok (cls : N) (R : list record) (m : name) (d : rrset_list) : Prop :=
  sorted_rr d /\ forall ty, rr_lookup ty d = spec_rrset req cls R m ty.

Lemma rrsets_ok_rdatas cls R m d rs rd : rrsets_ok cls R m d -> In rs d -> In rd (rs_rdatas rs) ->
  exists r, In r R /\ r_rdata r = rd.
Proof.
  intros [S L] Hrs. apply (spec_rrset_rdatas cls R m (rs_type rs)). rewrite <- L.
  apply rr_lookup_sorted_self; assumption.
Qed.

Lemma rrsets_ok_other cls R r m d : lc (r_owner r) <> m ->
  rrsets_ok cls R m d -> rrsets_ok cls (R ++ [r]) m d.
Proof.
  intros H [S L]. split; auto. intros ty. rewrite spec_rrset_snoc_other; auto.
  unfold rec_at. apply name_eqb_neq in H. rewrite H. reflexivity.
Qed.

Lemma rrsets_ok_add R r d : rrsets_ok (r_class r) R (lc (r_owner r)) d ->
  if ttl_ok R r then
    exists d', rrsets_add req (r_class r) (r_type r) (r_ttl r) (r_rdata r) d = Ok d' /\
               rrsets_ok (r_class r) (R ++ [r]) (lc (r_owner r)) d'
  else rrsets_add req (r_class r) (r_type r) (r_ttl r) (r_rdata r) d = Err TtlMismatch.
Proof.
  intros [S L]. rewrite (ttl_ok_spec (r_class r)).
  pose proof (rrsets_add_spec (r_class r) (r_type r) (r_ttl r) (r_rdata r) d S) as H.
  cbv zeta in H. rewrite L in H.
  set (old := spec_rrset req (r_class r) R (lc (r_owner r)) (r_type r)) in *.
  destruct (match old with Some rs => (rs_ttl rs =? r_ttl r)%N | None => true end) eqn:T; [|exact H].
  destruct H as (d' & Hadd & S' & L'). exists d'. split; [exact Hadd|]. split; [exact S'|].
  intros ty. rewrite L'. destruct (ty =? r_type r)%N eqn:E.
  - apply N.eqb_eq in E. subst ty.
    rewrite spec_rrset_snoc_same by (unfold rec_at; rewrite name_eqb_refl, N.eqb_refl; reflexivity).
    fold old. destruct old as [rs|]; [apply N.eqb_eq in T; rewrite T|]; reflexivity.
  - rewrite spec_rrset_snoc_other; [apply L|]. unfold rec_at. rewrite N.eqb_sym, E. apply andb_false_r.
Qed.

End WithReq.
