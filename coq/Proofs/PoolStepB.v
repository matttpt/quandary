(* Preservation of [Inv]: a worker's section from the top of pool_worker_loop. *)
From Coq Require Import Lia Permutation.
From QV Require Import Model.Pool Proofs.PoolLemmas Proofs.PoolInv.

Lemma inv_work_top s i k dl o c s' :
  Inv s -> nth_error (thr s) i = Some (WIdle k) ->
  step true s (LWork i dl o c) = Some s' -> Inv s'.
Proof.
  intros I E H. simpl in H. rewrite E in H.
  (* first available_wakeup.notify_one, then the worker, counted available, enters the loop *)
  destruct (notify_one on_avail c (thr s)) as [l'|] eqn:En; [|discriminate].
  assert (E' : nth_error l' i = Some (WIdle k)) by (eapply notify_one_nth; [exact En | exact E | reflexivity]).
  pose proof (inv_notify_one _ _ _ _ I En) as I1. clear I E En.
  destruct s as [? ? ? ? qu av ps th ? ? ? ? ?]; unfold work_loop in H; simpl in *.
  (* WExitSd: i_cnt_le only (the +1 is not taken back; i_cnt_eq is off, the pool is closed).
     WExitDl: nothing moves. WWaitO: i_cnt_le, i_cnt_eq, and i_psd_w (a new waiter, the pool is open).
     WTake: i_queue, i_tasks, i_started (the task goes from queued to running). *)
  destruct qu as [|t qu]; [destruct ps; [|destruct (is_aux k && dl)]|]; destruct o; try discriminate;
    inversion H; subst s'; clear H;
    (eapply (inv_set I1 E'); [reflexivity|]; clear I1 E'; intros R I; inv_clauses I).
Qed.
