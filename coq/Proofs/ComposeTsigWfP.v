(* Composition: a response with an UNSIGNED TSIG record (BADKEY, BADSIG, FORMERR for a bad MAC size).
   ser_prepare + Writer::set_tsig + finish never fail given the pre-scan's reservation (ser_tsig_unsigned_run),
   are a contract-obeying run of the operation language (so C12's theorems apply), stay within the limit, and
   decode - under the independent decoder - to a well-formed response whose last additional record is the TSIG
   record with the RFC 8945 fields, preceded by the OPT record iff the response is an EDNS one. *)
From QV Require Import Base.ListX Gen.Consts Model.NameWire Model.Reader Model.RdataLite Model.Server Model.ServerW Model.ServerWT
  Model.MsgWriter Model.ZoneTree Model.Query Model.QueryW
  Spec.NameWireS Spec.MsgWriterS Spec.MsgWriterAbsS Spec.RdataFormatS Spec.RespS Spec.TsigRespS
  Proofs.MsgWriterP Proofs.MsgWriterScanP Proofs.MsgWriterNameP Proofs.MsgWriterInvP Proofs.MsgWriterOpP
  Proofs.MsgWriterLayP Proofs.MsgWriterStepP Proofs.MsgWriterDecP Proofs.MsgWriterHdrP Proofs.MsgWriterRtP Proofs.RdataFormatSP
  Proofs.ComposeTraceP Proofs.ComposeTopP Proofs.ComposeRespP Proofs.ComposeSerP Proofs.ComposeTsigP.
Local Open Scope nat_scope.

Lemma wf_nm_wire ls : Forall wf_label ls -> Forall wf_bytes ls -> wf_bytes (wire_of ls).
Proof.
  intros Hl Hb. change (wire_of ls) with (nm_wire ls). unfold nm_wire. apply wf_bytes_app; [|repeat constructor; unfold is_octet; lia].
  induction Hb as [|l r Hlb _ IH]; [constructor|]. inversion Hl as [|? ? [H1 H63] Hl']; subst.
  cbn [nm_lwire flat_map]. apply wf_bytes_app; [|apply IH; exact Hl']. constructor; [unfold is_octet; lia|exact Hlb].
Qed.

(* RFC 8945 4.2: the RDATA of an unsigned TSIG record is generated by the TSIG grammar *)
Lemma tsig_rdata_valid (a : atsig) : good_name (at_alg a) -> Forall wf_bytes (at_alg a) -> length (at_time a) = 6 -> wf_bytes (at_time a) ->
  length (at_stime a) = 6 -> wf_bytes (at_stime a) ->
  wf_bytes (tsig_rdata_of a) /\ spec_valid 255 250 (tsig_rdata_of a) = true.
Proof.
  intros [[Hl Hn] Hw] Hb Ht Htb Hs Hsb.
  assert (Hb16 : forall v, wf_bytes (be16s v)).
  { intros v. unfold be16s. repeat constructor; unfold is_octet; apply N.mod_lt; discriminate. }
  set (other := if (at_error a =? 18)%N then at_stime a else []).
  assert (Hob : wf_bytes other) by (unfold other; destruct (_ =? _)%N; [exact Hsb|constructor]).
  assert (Hol : length other <= 6) by (unfold other; destruct (_ =? _)%N; simpl; lia).
  assert (Hwf : wf_bytes (tsig_rdata_of a)).
  { unfold tsig_rdata_of. fold other. apply wf_bytes_app; [apply wf_nm_wire; assumption|]. repeat (apply wf_bytes_app; auto). }
  split; [exact Hwf|]. apply (spec_valid_iff 255 250 _ Hwf).
  change (grammar 255 250) with [FName; FBytes 6; FBytes 2; FBlob16; FBytes 2; FBytes 2; FBlob16].
  unfold tsig_rdata_of. fold other.
  apply m_name.
  { split; [|exact Hw]. eapply Forall_impl; [|exact Hl]. intros l [A B]. split; assumption. }
  apply m_bytes; [exact Ht|]. apply (m_bytes 2 (be16s (at_fudge a))); [reflexivity|].
  change (be16s 0) with (blob16 []). rewrite <- (app_nil_r (blob16 [])) at 1. rewrite <- app_assoc. cbn [app].
  change (blob16 [] ++ be16s (at_origid a) ++ be16s (at_error a) ++ be16s (N.of_nat (length other)) ++ other)
    with (blob16 [] ++ (be16s (at_origid a) ++ be16s (at_error a) ++ be16s (N.of_nat (length other)) ++ other)).
  apply m_blob16; [unfold valid_blob16; simpl; lia|].
  apply (m_bytes 2 (be16s (at_origid a))); [reflexivity|]. apply (m_bytes 2 (be16s (at_error a))); [reflexivity|].
  assert (Eo : be16s (N.of_nat (length other)) ++ other = blob16 other ++ []).
  { rewrite app_nil_r. unfold blob16, be16s, RdataFormatS.be16. rewrite (N.mod_small (N.of_nat (length other) / 256) 256); [reflexivity|].
    apply N.div_lt_upper_bound; lia. }
  rewrite Eo. apply m_blob16; [unfold valid_blob16; lia|constructor].
Qed.

Lemma wf_decoded_tsig m ps ts : qr_bit m = true -> m_an m = [] -> m_ns m = [] -> m_ar m = ps ++ [ts] -> length ps <= 1 ->
  Forall (fun d => rr_rdata_ok d = true /\ is_tsig d = false) ps -> rr_rdata_ok ts = true -> is_tsig ts = true ->
  wf_decoded m = true.
Proof.
  intros Hq Han Hns Har Hl Hps Hr Ht. unfold wf_decoded. rewrite Hq, Han, Hns, Har. cbn [app andb].
  assert (Ho : is_opt ts = false).
  { unfold is_tsig in Ht. unfold is_opt. apply N.eqb_eq in Ht. rewrite Ht. reflexivity. }
  destruct ps as [|p [|p2 ps]]; [| |simpl in Hl; lia].
  - cbn [app forallb rev count filter length]. rewrite Hr, Ht, Ho. reflexivity.
  - inversion Hps as [|? ? [Hp1 Hp2] _]; subst.
    cbn [app forallb rev]. rewrite Hp1, Hr. unfold count. cbn [filter app]. rewrite Hp2, Ht, Ho.
    destruct (is_opt p); reflexivity.
Qed.

Lemma tsig_rr_decoded (key : wname) rd d :
  rr_rel xparts (mkAR (nm_lower key) Standard TYPE_TSIG qclass_any (ttl_from 0) rd) d ->
  length rd <> 0 -> spec_valid 255 250 rd = true ->
  rr_rdata_ok d = true /\ is_tsig d = true /\ names_eq_ci (dr_owner d) key /\ dr_type d = 250%N /\
  dr_class d = 255%N /\ dr_ttl d = 0%N /\ dr_parts d = [PRaw rd].
Proof.
  intros (Hn & Hty & Hcl & Httl & Hp) Hne Vv.
  cbn [ar_ty ar_cl ar_ttl ar_owner ar_exact ar_mode exact_of] in Hn, Hty, Hcl, Httl.
  change TYPE_TSIG with 250%N in *. change qclass_any with 255%N in *. change (ttl_from 0) with 0%N in Httl.
  unfold xparts in Hp. cbn [ar_cl ar_ty ar_rd] in Hp. change (component_types 255 250) with (@nil ctype) in Hp. cbn [rd_parts] in Hp.
  apply Nat.eqb_neq in Hne. rewrite Hne in Hp. cbn [map xp] in Hp. apply Forall2_one_l in Hp as (p & Eps & Hx).
  destruct p as [|r]; cbn [part_rel] in Hx; [contradiction|]. subst r.
  split. { unfold rr_rdata_ok, is_opt. rewrite Hty, Hcl. unfold rdata_of_parts. rewrite Eps. cbn [flat_map N.eqb Pos.eqb]. rewrite app_nil_r. exact Vv. }
  split; [unfold is_tsig; rewrite Hty; reflexivity|]. split; [|auto].
  unfold names_eq_ci. unfold name_rel in Hn. rewrite <- Hn. unfold nm_lower.
  rewrite map_map. apply map_ext. intros l. rewrite map_map. apply map_ext. intros x. apply lower_idem.
Qed.

Section TW.
Variable buf : bytes.
Hypothesis Hb : 512 <= length buf.
Variable w : resp.
Hypothesis Hq : forall q, Server.w_question w = Some q ->
  good_name (labels_of (Reader.q_name q)) /\ (Reader.q_type q < 65536)%N /\ (Reader.q_class q < 65536)%N.
Variable tcp : bool.
Variable t : tsig_out.
Variable f : tsig_fields.
Hypothesis Hf : fields_ok t f.
(* an unsigned record never carries BADTIME other data; 26 = 10 fixed octets of the RR + 16 of the TSIG RDATA *)
Hypothesis Hnb : tf_error f <> 18%N.
Hypothesis Hlim : Server.w_edns w <> None -> tcp = false -> first_limit tcp buf <= Server.w_limit w.
Hypothesis Hfit : wcur w + (length (nm_wire (tf_key f)) + length (nm_wire (tf_alg f)) + 26) + wres w <= wlim buf w tcp.

Definition tsig_op : wop :=
  OSetTsig (tf_alg f) (tf_key f) (tf_time f) TSIG_FUDGE (tf_origid f) (tf_error f) (tf_stime f).
Definition all_ops : list wop := ser_ops w tcp ++ [tsig_op].
Definition all_outs : list outcome := map (fun _ => RUnit) all_ops.

Lemma set_tsig_fits w1 : MsgWriter.w_cursor w1 = wcur w -> MsgWriter.w_tsig w1 = None ->
  w_ar w1 = (match Server.w_edns w with Some _ => 1 | None => 0 end)%N ->
  MsgWriter.w_avail w1 + wres w = MsgWriter.w_limit w1 -> MsgWriter.w_limit w1 = wlim buf w tcp ->
  exists w2, MsgWriter.set_tsig (nm_lower (tf_alg f)) (nm_lower (tf_key f)) (tf_time f) TSIG_FUDGE (tf_origid f)
               (tf_error f) (tf_stime f) w1 = Ok (tt, w2) /\ MsgWriter.w_limit w2 = wlim buf w tcp.
Proof.
  intros Hc Ht Ha Hav Hl. unfold MsgWriter.set_tsig. rewrite Ht. unfold tsig_unsigned_len. rewrite !wire_lower_length.
  destruct (tf_error f =? badtime)%N eqn:E; [apply N.eqb_eq in E; contradiction|].
  destruct (MsgWriter.w_avail w1 <? _) eqn:X; [apply Nat.ltb_lt in X; lia|].
  assert (Hadd : exists ar, checked_add16 (w_ar w1) 1 = Some ar).
  { rewrite Ha. destruct (Server.w_edns w); eexists; reflexivity. }
  destruct Hadd as (ar & ->). eexists. split; [reflexivity|]. exact Hl.
Qed.

Theorem ser_tsig_unsigned_run :
  exists w1 w2 w0 g,
    ser_prepare buf tcp w = Some w1 /\
    MsgWriter.set_tsig (nm_lower (tf_alg f)) (nm_lower (tf_key f)) (tf_time f) TSIG_FUDGE (tf_origid f)
                       (tf_error f) (tf_stime f) w1 = Ok (tt, w2) /\
    MsgWriter.w_limit w2 = wlim buf w tcp /\
    writer_new buf (if tcp then tcp_limit_w else udp_limit_w) = Ok w0 /\
    Traced (fun _ => True) (mkD w0 []) g0 all_ops all_outs (mkD w2 []) g.
Proof.
  destruct (ser_prepare_shape buf Hb w Hq tcp Hlim) as (w1 & E1 & Hc & Ht & Ha & Hav & Hl).
  destruct (set_tsig_fits w1 Hc Ht Ha Hav Hl) as (w2 & E2 & Hl2).
  destruct (ser_Reach buf Hb w Hq 0%N tcp w1 E1) as (w0 & g & E0 & R1).
  apply (Reach_weaken (Pop2 0%N) (fun _ => True) (fun _ _ => I)) in R1.
  assert (Hop : op_ok (fun _ => True) tsig_op).
  { destruct Hf as [[Ga1 Ga2] Gab [Gk1 Gk2] [T1 T2] [S1 S2] _ _ _ _].
    split; [|split; [exact I|split; exact I]]. cbn [op_wf tsig_op]. repeat split; auto; try apply Ga1; try apply Gk1. }
  assert (R2 : Reach (fun _ => True) (mkD w1 []) g [tsig_op] [RUnit] (mkD w2 []) (gstep (mkD w1 []) g tsig_op RUnit)).
  { apply Reach_one; [exact Hop|exact I| |reflexivity]. cbn [step tsig_op d_w]. rewrite E2. reflexivity. }
  pose proof (Reach_trans _ _ _ _ _ _ _ _ _ _ _ R1 R2) as R.
  destruct (Reach_AInv _ _ _ _ _ _ _ R L0 (AInv_new _ _ _ E0)) as (L & Hi).
  exists w1, w2, w0, (gstep (mkD w1 []) g tsig_op RUnit).
  split; [exact E1|]. split; [exact E2|]. split; [exact Hl2|]. split; [exact E0|]. exists L. split; [|exact Hi].
  unfold all_outs, all_ops. rewrite map_app. exact R.
Qed.

Lemma replay_tsig :
  am_an (areplay am0 all_ops all_outs) = [] /\ am_ns (areplay am0 all_ops all_outs) = [] /\
  am_ar (areplay am0 all_ops all_outs) = [] /\ am_mode (areplay am0 all_ops all_outs) = Standard /\
  h_qr (hreplay ah0 all_ops all_outs) = true /\
  h_tsig (hreplay ah0 all_ops all_outs) =
    Some (mkAT (lower_name (tf_alg f)) (lower_name (tf_key f)) (tf_time f) TSIG_FUDGE (tf_origid f) (tf_error f) (tf_stime f)) /\
  (h_edns (hreplay ah0 all_ops all_outs) = None <-> Server.w_edns w = None).
Proof.
  unfold all_outs, all_ops, ser_ops, tsig_op.
  destruct (Server.w_question w) as [q|]; destruct (Server.w_edns w) as [[size upper]|]; try destruct tcp;
    cbn; repeat split; auto; intros X; try discriminate X; auto.
Qed.

(* the inner expression of ServerWT.ser_tsig for TsigMode::Unsigned *)
Theorem ser_tsig_unsigned_wf :
  exists w1 w2 len b,
    ser_prepare buf tcp w = Some w1 /\
    MsgWriter.set_tsig (nm_lower (tf_alg f)) (nm_lower (tf_key f)) (tf_time f) TSIG_FUDGE (tf_origid f)
                       (tf_error f) (tf_stime f) w1 = Ok (tt, w2) /\
    finish w2 = Ok (len, b) /\ len <= wlim buf w tcp /\
    wf_response (firstn len b) = true /\
    unsigned_tsig_response (firstn len b) (match Server.w_edns w with Some _ => true | None => false end)
      (tf_key f) (nm_lower (tf_alg f)) (tf_time f) TSIG_FUDGE (tf_origid f) (tf_error f) [].
Proof.
  destruct ser_tsig_unsigned_run as (w1 & w2 & w0 & g & E1 & E2 & Hl2 & E0 & Htr).
  destruct (run_decode _ buf _ w0 _ _ _ _ E0 Htr) as (len & b & m & EF & Em & Hh & Han & Hns & Har). cbn [d_w] in EF.
  exists w1, w2, len, b. split; [exact E1|]. split; [exact E2|]. split; [exact EF|].
  split. { destruct Htr as (L & _ & Hi). destruct (finish_gen_limit _ _ _ _ (a_n _ _ _ Hi) EF) as [X _]. cbn [d_w] in X. lia. }
  destruct replay_tsig as (A1 & A2 & A3 & A4 & A5 & A6 & A8).
  rewrite A1 in Han. rewrite A2 in Hns. rewrite A3, A4 in Har. cbn [app] in Har. inversion Han; subst. inversion Hns; subst.
  unfold pseudo_of in Har. rewrite A6 in Har.
  destruct Hf as [Ga Gab Gk [T1 T2] [S1 S2] _ _ _ _].
  set (a := mkAT (lower_name (tf_alg f)) (lower_name (tf_key f)) (tf_time f) TSIG_FUDGE (tf_origid f) (tf_error f) (tf_stime f)) in *.
  destruct (tsig_rdata_valid a) as (Vw & Vv); cbn [a at_alg at_time at_stime]; auto.
  { apply good_name_lower. exact Ga. } { apply wf_bytes_lower. exact Gab. }
  assert (Hother : (if (at_error a =? 18)%N then at_stime a else []) = []).
  { cbn [a at_error]. destruct (tf_error f =? 18)%N eqn:X; [apply N.eqb_eq in X; contradiction|reflexivity]. }
  assert (Hne : length (tsig_rdata_of a) <> 0).
  { unfold tsig_rdata_of. rewrite !app_length. cbn [a at_time]. rewrite T1. lia. }
  assert (Hqr : qr_bit m = true) by (unfold qr_bit; destruct Hh as (_ & Hqr & _); rewrite Hqr; exact A5).
  (* the additional section: the OPT record iff the response is an EDNS one, then the TSIG record *)
  apply Forall2_app_inv_l in Har as (ps & tsl & Hps & Hts & Ear).
  apply Forall2_one_l in Hts as (ts & -> & Hd2).
  destruct (tsig_rr_decoded (tf_key f) _ ts Hd2 Hne Vv) as (R1 & R2 & R3 & R4 & R5 & R6 & R7).
  assert (Hopt : length ps <= 1 /\ Forall (fun d => rr_rdata_ok d = true /\ is_tsig d = false) ps /\
                 if (match Server.w_edns w with Some _ => true | None => false end) then exists o, ps = [o] /\ dr_type o = 41%N else ps = []).
  { destruct (h_edns (hreplay ah0 all_ops all_outs)) as [[u up]|] eqn:A7.
    - apply Forall2_one_l in Hps as (d1 & -> & Hd1). destruct (opt_decoded _ _ _ _ Hd1) as (O1 & _ & O3).
      split; [simpl; lia|]. split; [repeat constructor; assumption|].
      destruct (Server.w_edns w) as [e|]; [|exfalso; assert (X : Some (u, up) = None) by (apply A8; reflexivity); discriminate X].
      exists d1. split; [reflexivity|]. destruct Hd1 as (_ & Hty & _). exact Hty.
    - inversion Hps; subst. split; [simpl; lia|]. split; [constructor|].
      destruct (Server.w_edns w) as [e|] eqn:Ee; [|reflexivity]. assert (X : Some e = None) by (apply A8; reflexivity). discriminate X. }
  destruct Hopt as (Hl & Hf1 & Hedns). split.
  - unfold wf_response. rewrite Em. apply (wf_decoded_tsig m ps ts); auto.
  - exists m, ps, ts. split; [exact Em|]. repeat split; auto.
    rewrite R7. unfold tsig_rdata_of, tsig_rdata_unsigned. rewrite Hother. reflexivity.
Qed.

End TW.
