(* A schedule on which the worker loop as it was ([fx = false]) strands an accepted task:
   0 permanent workers, linger on.  A worker lingers and is counted available; its
   timer fires; before it re-acquires the mutex a submitter sees available 1 > queue 0,
   enqueues and notifies nobody; the worker wakes with timed_out(), decrements and
   leaves without looking at the queue; shutdown; await_shutdown returns; the task was
   accepted and never run.  Threads: 0 submitter (two submit_or_spawn calls),
   1 ThreadGroup::shut_down caller, 2 await_shutdown caller, 3 the auxiliary worker. *)
From Coq Require Import Lia Permutation.
From QV Require Import Model.Pool Spec.PoolS.

Definition w_init : state := init_state true [SIdle [OSpawn; OSpawn]; GIdle; AwIdle].

Definition w_prefix : list label :=
  [ LSos 0 SNeed None;            (* no worker available: spawn an auxiliary worker *)
    LSpawn 0 POk;                 (* task 0 accepted, thread 3 runs it *)
    LTaskDone 3 false;
    LWork 3 false WWaitO None;    (* lingers: available_workers = 1, wait_timeout *)
    LTimer 3;                     (* the linger timer fires; 3 has to re-acquire the mutex *)
    LSos 0 SPush None ].          (* available 1 > queue 0: task 1 accepted, notify_one wakes nobody *)

Definition w_old_suffix : list label :=
  [ LWork 3 false WExitTo None;   (* old loop: timed_out() => available -= 1; return *)
    LDrop 3 DEnd;
    LSdG 1; LSdP 1;
    LAwait 2 ARet ].

Lemma w_initial : initial w_init.
Proof. exists true, [SIdle [OSpawn; OSpawn]; GIdle; AwIdle]. split; reflexivity. Qed.

Lemma old_loop_strands_task :
  exists s, run false w_init (w_prefix ++ w_old_suffix) = Some s /\
            await_returned s /\ next s = 2 /\ queue s = [1] /\ started s = [0] /\ done s = [0] /\
            tcount s = 0 /\ ~ await_ok s.
Proof.
  eexists. split; [vm_compute; reflexivity|].
  assert (A : await_returned
    (mkState 0 true false false [1] 0 true [SIdle []; GDone; AwRet; WExited] 2 [0] [0] true false))
    by (exists 2; reflexivity).
  repeat split; try reflexivity; try exact A.
  intros H. destruct (H A) as (_ & Hq & _). discriminate.
Qed.

Lemma fixed_loop_takes_task :
  exists s, run true w_init w_prefix = Some s /\
            step true s (LWork 3 false WExitTo None) = None /\
            exists s', step true s (LWork 3 false WTake None) = Some s' /\
                       nth_error (thr s') 3 = Some (WRun Aux 1) /\ queue s' = [].
Proof.
  eexists. split; [vm_compute; reflexivity|]. split; [vm_compute; reflexivity|].
  eexists. split; [vm_compute; reflexivity|]. split; reflexivity.
Qed.

(* repaired loop, a complete run: both tasks run, shutdown, the worker is woken by the
   shutdown's notify_all, exits, await_shutdown returns *)
Definition w_fixed_suffix : list label :=
  [ LWork 3 false WTake None; LTaskDone 3 false; LWork 3 false WWaitO None;
    LSdG 1; LSdP 1; LWork 3 false WExitSd None; LDrop 3 DEnd; LAwait 2 ARet ].

Lemma fixed_loop_full_run :
  exists s, run true w_init (w_prefix ++ w_fixed_suffix) = Some s /\
            reachable true s /\ await_returned s /\ next s = 2 /\ done s = [1; 0] /\
            psd s = true /\ gsd s = true.
Proof.
  eexists. split; [vm_compute; reflexivity|].
  split; [exists w_init, (w_prefix ++ w_fixed_suffix); split; [exact w_initial | vm_compute; reflexivity]|].
  split; [exists 2; reflexivity|]. repeat split; reflexivity.
Qed.
