(* Node::iter's explicit-stack state machine yields exactly the pre-order walk, and the model's
   fuel suffices. *)
From QV Require Import Base.Res Base.Octets Base.ListX Model.ZoneTree Proofs.ZoneIterP.

Definition ccost (ch : list (label * node)) : nat :=
  list_sum (map (fun kc => 2 + iter_cost (snd kc)) ch).

Lemma iter_cost_unfold nm ch d : iter_cost (Node nm ch d) = S (ccost ch).
Proof.
  simpl. f_equal. unfold ccost.
  induction ch as [|[k c] ch IH]; simpl; auto.
Qed.

(* continuation form: [ISChildren [] st] is where the machine stands once the subtree of [t] is exhausted *)
Definition sm_node_ok (t : node) : Prop :=
  forall st f l, iter_run f (ISChildren [] st) = Some l ->
                 iter_run (iter_cost t + f) (ISNode t st) = Some (node_iter t ++ l).

Lemma sm_children ch : Forall (fun kc => sm_node_ok (snd kc)) ch ->
  forall st f l, iter_run f (ISChildren [] st) = Some l ->
                 iter_run (ccost ch + f) (ISChildren ch st) = Some (iter_children ch ++ l).
Proof.
  induction ch as [|[k c] ch IH]; intros HF st f l H.
  - exact H.
  - inversion HF as [|? ? Hc Hch]; subst. simpl in Hc.
    change (ccost ((k, c) :: ch)) with (2 + iter_cost c + ccost ch).
    replace (2 + iter_cost c + ccost ch + f) with (S (iter_cost c + S (ccost ch + f))) by lia.
    cbn [iter_run iter_step].
    change (iter_children ((k, c) :: ch)) with (node_iter c ++ iter_children ch). rewrite <- app_assoc.
    apply Hc. cbn [iter_run iter_step]. apply IH; auto.
Qed.

Lemma sm_node t : sm_node_ok t.
Proof.
  induction t as [nm ch d IH] using node_ind'. intros st f l H.
  rewrite iter_cost_unfold, node_iter_unfold. cbn [plus iter_run iter_step node_children node_name node_data].
  rewrite (sm_children ch IH st f l H). reflexivity.
Qed.

Theorem node_iter_sm_correct t : node_iter_sm t = Some (node_iter t).
Proof.
  unfold node_iter_sm. replace (S (iter_cost t)) with (iter_cost t + 1) by lia.
  rewrite (sm_node t [] 1 []); [rewrite app_nil_r; reflexivity|reflexivity].
Qed.
