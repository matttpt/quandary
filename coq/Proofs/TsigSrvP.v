(* Proofs about Model/TsigSrv.v against Spec/TsigSrvS.v (on top of the C11 lemmas). *)
From QV Require Import Base.ListX Model.TsigMsg Model.TsigSrv Spec.Tsig8945S Spec.TsigRepr Spec.TsigSrvS Spec.TsigSrvRepr
  Proofs.TsigEncP Proofs.TsigMsgP.

Lemma srv_consts : tsig_fudge = 300%N /\ XRCODE_NOERROR = 0%N /\ XRCODE_FORMERR = 1%N /\ XRCODE_NOTAUTH = 9%N
  /\ XRCODE_BADVERSBADSIG = 16%N /\ XRCODE_BADKEY = 17%N /\ XRCODE_BADTIME = 18%N.
Proof. repeat split; reflexivity. Qed.

Lemma alg_eqb_s a b : alg_eqb a b = salg_eqb (alg_s a) (alg_s b).
Proof. destruct a, b; reflexivity. Qed.

Lemma new_from_read_spec {E} t now fudge err : wf_stsig t ->
  @new_from_read E (read_of t) (be48 now) fudge err =
  Ok (mkPrepared (canon_wire (t_key t))
                 (if (err =? 18)%N then u48 (t_time t) else u48 now) fudge (t_orig_id t) err (u48 now)).
Proof.
  intros W. destruct (read_fields t W) as (F1 & _ & _ & F4 & _).
  unfold new_from_read. destruct type_class_val as (_ & _ & -> & _).
  rewrite be48_u48.
  destruct (err =? 18)%N; rewrite ?F1, F4; reflexivity.
Qed.

Lemma prepared_resp_repr t r now :
  (sr_error r = 18%N -> sr_time r = t_time t /\ sr_other r = u48 now) ->
  (sr_error r <> 18%N -> sr_time r = now /\ sr_other r = []) ->
  prepared_repr (mkPrepared (canon_wire (t_key t))
                            (if (sr_error r =? 18)%N then u48 (t_time t) else u48 now) 300 (t_orig_id t)
                            (sr_error r) (u48 now))
                (resp_tsig t r).
Proof.
  intros H18 Hn. unfold prepared_repr, resp_tsig, p_other.
  cbn [p_key_name p_time_signed p_fudge p_original_id p_error p_server_time
       t_key t_time t_fudge t_orig_id t_error t_other].
  destruct type_class_val as (_ & _ & -> & _).
  assert (Hc : canon_wire (canon (t_key t)) = canon_wire (t_key t)).
  { unfold canon_wire, canon. rewrite map_map. f_equal. apply map_ext. intros l. apply map_lower_idem. }
  rewrite Hc.
  destruct (sr_error r =? 18)%N eqn:E.
  - apply N.eqb_eq in E. destruct (H18 E) as [-> ->]. repeat split; reflexivity.
  - apply N.eqb_neq in E. destruct (Hn E) as [-> ->]. repeat split; reflexivity.
Qed.

Lemma canon_idem n : canon (canon n) = canon n.
Proof. unfold canon. rewrite map_map. apply map_ext. intros l. apply map_lower_idem. Qed.

Lemma wire_len_canon n : wire_len (canon n) = wire_len n.
Proof. unfold wire_len at 1. change (wire_of (canon n)) with (canon_wire n). apply wire_of_length_canon. Qed.

Lemma unsigned_spec p tr :
  prepared_repr p tr -> t_mac tr = [] -> (N.of_nat (length (t_other tr)) < 65536)%N ->
  (N.of_nat (wire_len (t_alg tr) + 16 + length (t_other tr)) <= 65535)%N ->
  unsigned p (wire_of (t_alg tr)) = Ok (spec_rdata tr).
Proof.
  intros (H1 & H2 & H3 & H4 & H5 & H6) Hm Ho Hlen. unfold unsigned.
  rewrite serialize_rdata_ok by (rewrite H6; unfold wire_len in Hlen; cbn [length]; lia).
  unfold serialize_tsig_unchecked, spec_rdata.
  rewrite H2, H3, H4, H5, H6, Hm. rewrite (len_u16_small (t_other tr)) by exact Ho. reflexivity.
Qed.

Section Srv.
Variable hmac : alg -> bytes -> bytes -> bytes.
Hypothesis hmac_len : forall a k d, length (hmac a k d) = output_size a.

Lemma bad_key_spec t now : wf_stsig t ->
  bad_key (read_of t) (be48 now) = Ok (decision_of t (mkSresp 9 false 17 false now []) None [] now).
Proof.
  intros W. unfold bad_key. destruct srv_consts as (-> & _ & _ & -> & _ & -> & _).
  rewrite (new_from_read_spec t now 300 17 W). reflexivity.
Qed.

Theorem handle_tsig_spec keys t m now sent_id :
  wf_stsig t -> wf_smsg m -> (now < 281474976710656)%N ->
  let r := read_of t in
  let a := alg_from_name (r_algorithm r) in
  let k := find_key keys (r_key_name r) in
  (forall a', a = Some a' -> canon (t_alg t) = salg_name (alg_s a')) ->
  let sr := spec_server (mac_fn_of hmac) (option_map alg_s a)
                        (option_map (fun k => (alg_s (k_alg k), k_secret k)) k) m t now in
  handle_tsig hmac keys r (sent_prefix sent_id m) (be48 now) =
  Ok (decision_of t sr
        (match a, k with Some a', Some k' => if alg_eqb (k_alg k') a' then Some a' else a | _, _ => a end)
        (match k with Some k' => k_secret k' | None => [] end) now)
  \/ (* the BADKEY answers name the algorithm as the request did *)
  (sr = mkSresp 9 false 17 false now [] /\
   handle_tsig hmac keys r (sent_prefix sent_id m) (be48 now) = Ok (decision_of t sr None [] now)).
Proof.
  intros W Hm Hnow r a k Halg sr. subst sr. unfold handle_tsig. fold r. fold a. fold k.
  destruct a as [a'|] eqn:Ea; cbn [option_map spec_server].
  2: { right. split; [reflexivity|]. apply bad_key_spec. exact W. }
  destruct k as [k'|] eqn:Ek; cbn [option_map spec_server].
  2: { right. split; [reflexivity|]. apply bad_key_spec. exact W. }
  rewrite alg_eqb_s. destruct (salg_eqb (alg_s (k_alg k')) (alg_s a')) eqn:Eq; cbn [negb].
  2: { right. split; [reflexivity|]. apply bad_key_spec. exact W. }
  left.
  pose proof (verify_spec hmac t DRequest m a' (k_secret k') now sent_id W Hm (Halg a' eq_refl) Hnow) as V.
  cbn [vmode_of dmode_mac length] in V. specialize (V ltac:(cbn; lia)).
  unfold r. rewrite V.
  destruct (read_fields t W) as (_ & _ & F3 & _).
  destruct srv_consts as (-> & -> & -> & -> & -> & _ & ->).
  destruct (spec_verify (mac_fn_of hmac) DRequest m t (alg_s a') (k_secret k') now); cbn [res_of];
    rewrite ?F3; cbn [unwrap bind]; rewrite new_from_read_spec by exact W; reflexivity.
Qed.

End Srv.

(* the server's answer to each verdict of RFC 8945 5.2 on a request whose key and algorithm are configured *)
Definition sresp_of (t : stsig) (now : N) (sv : sresult) : sresp :=
  match sv with
  | SOk => mkSresp 0 true 0 true now []
  | SFormErr => mkSresp 1 false 16 false now []
  | SBadSig => mkSresp 9 false 16 false now []
  | SBadTime => mkSresp 9 false 18 true (t_time t) (u48 now)
  end.

Lemma spec_server_found mac_fn a secret m t now :
  spec_server mac_fn (Some a) (Some (a, secret)) m t now = sresp_of t now (spec_verify mac_fn DRequest m t a secret now).
Proof. unfold spec_server. destruct a; reflexivity. Qed.

(* Used in the statements of Props/C10.v.  decision_of (Spec/TsigSrvRepr.v) does not read sr_time and sr_other: it
   recomputes them from [sr_error =? 18]; sresp_wf says the two agree. *)
Definition sresp_wf (t : stsig) (r : sresp) (now : N) : Prop :=
  (sr_error r < 65536)%N /\
  (sr_error r = 18%N -> sr_time r = t_time t /\ sr_other r = u48 now) /\
  (sr_error r <> 18%N -> sr_time r = now /\ sr_other r = []).

Lemma spec_server_wf mac_fn alg key m t now : sresp_wf t (spec_server mac_fn alg key m t now) now.
Proof.
  unfold spec_server, sresp_wf.
  destruct alg as [a|]; [destruct key as [[ka secret]|]; [destruct (salg_eqb ka a);
    [destruct (spec_verify mac_fn DRequest m t a secret now)|]|]|];
    cbn [sr_error sr_time sr_other]; (split; [lia|split; intros H; try discriminate; try lia; auto]).
Qed.

Section Resp.
Variable hmac : alg -> bytes -> bytes -> bytes.
Hypothesis hmac_len : forall a k d, length (hmac a k d) = output_size a.

Lemma other_small t r now : sresp_wf t r now -> (N.of_nat (length (sr_other r)) < 65536)%N /\ length (sr_other r) <= 6.
Proof.
  intros (_ & H18 & Hn). destruct (N.eq_dec (sr_error r) 18) as [E|E].
  - destruct (H18 E) as [_ ->]. rewrite (be_enc_length 6). split; [vm_compute; reflexivity|lia].
  - destruct (Hn E) as [_ ->]. split; [vm_compute; reflexivity|simpl; lia].
Qed.

Theorem response_tsig_spec t r (a : option alg) secret now resp rid :
  wf_stsig t -> wf_smsg resp -> sresp_wf t r now ->
  (forall a', a = Some a' -> canon (t_alg t) = salg_name (alg_s a')) ->
  response_tsig hmac (decision_of t r a secret now) (sent_prefix rid resp) =
  Ok (spec_rdata (with_mac (resp_tsig t r)
                           (match a with Some a' => resp_mac (mac_fn_of hmac) t r (alg_s a') secret resp | None => [] end)),
      match a with
      | Some a' => if sr_signed r then Some (resp_mac (mac_fn_of hmac) t r (alg_s a') secret resp) else None
      | None => None
      end).
Proof.
  intros W Hresp Hr Halg.
  pose proof (other_small t r now Hr) as [Ho Ho6].
  destruct Hr as (He & H18 & Hn).
  pose proof (prepared_resp_repr t r now H18 Hn) as Hp.
  pose proof W as (Hk & Ha & _ & _ & _ & Lm & _).
  assert (Hwl : wire_len (canon (t_alg t)) <= 255) by (rewrite wire_len_canon; apply Ha).
  unfold response_tsig, decision_of. cbn [d_mode d_rr].
  assert (Huns : forall algw, algw = wire_of (canon (t_alg t)) ->
            finish_tsig hmac (sent_prefix rid resp) (TmUnsigned algw)
              (mkPrepared (canon_wire (t_key t)) (if (sr_error r =? 18)%N then u48 (t_time t) else u48 now) 300
                          (t_orig_id t) (sr_error r) (u48 now))
            = Ok (spec_rdata (with_mac (resp_tsig t r) []), None)).
  { intros algw ->. cbn [finish_tsig].
    change (wire_of (canon (t_alg t))) with (wire_of (t_alg (resp_tsig t r))).
    rewrite (unsigned_spec _ (resp_tsig t r) Hp eq_refl); [reflexivity| |].
    - cbn [resp_tsig t_other]. exact Ho.
    - cbn [resp_tsig t_other t_alg]. lia. }
  destruct a as [a'|].
  - specialize (Halg a' eq_refl). unfold resp_mac.
    destruct (sr_signed r) eqn:Es.
    + cbn [finish_tsig].
      pose proof (sign_spec hmac hmac_len _ (resp_tsig t r) (DResponse (t_mac t)) resp a' secret rid Hp) as S.
      cbn [resp_tsig t_alg t_other dmode_mac smode_of] in S.
      rewrite S; try assumption; try lia.
      * cbn [bind]. unfold spec_sign, with_mac. cbn [resp_tsig t_key t_alg t_time t_fudge t_orig_id t_error t_other].
        reflexivity.
      * pose proof (output_size_small a'). lia.
    + apply Huns. rewrite alg_name_wire, Halg. reflexivity.
  - apply Huns. reflexivity.
Qed.

End Resp.

Lemma alg_known t a : canon (t_alg t) = salg_name (alg_s a) -> alg_from_name (canon_wire (t_alg t)) = Some a.
Proof. intros H. unfold canon_wire. rewrite H. destruct a; reflexivity. Qed.

Section Cases.
Variable hmac : alg -> bytes -> bytes -> bytes.
Variables (keys : list key_entry) (t : stsig) (m : smsg) (now sent_id : N).
Hypothesis W : wf_stsig t.
Hypothesis Hm : wf_smsg m.
Hypothesis Hnow : (now < 281474976710656)%N.

Let run := handle_tsig hmac keys (read_of t) (sent_prefix sent_id m) (be48 now).

Lemma case_unknown_alg :
  alg_from_name (canon_wire (t_alg t)) = None ->
  run = Ok (decision_of t (mkSresp 9 false 17 false now []) None [] now).
Proof.
  intros Hn. unfold run, handle_tsig. cbn [read_of r_algorithm]. rewrite Hn. apply bad_key_spec. exact W.
Qed.

Lemma case_unknown_key a :
  canon (t_alg t) = salg_name (alg_s a) ->
  (find_key keys (canon_wire (t_key t)) = None \/
   exists k, find_key keys (canon_wire (t_key t)) = Some k /\ k_alg k <> a) ->
  run = Ok (decision_of t (mkSresp 9 false 17 false now []) None [] now).
Proof.
  intros Ha Hk. pose proof (alg_known t a Ha) as Hal.
  unfold run, handle_tsig. cbn [read_of r_algorithm r_key_name]. rewrite Hal.
  destruct Hk as [Hk|(k & Hk & Hne)]; rewrite Hk.
  - apply bad_key_spec. exact W.
  - assert (E : alg_eqb (k_alg k) a = false) by (destruct (k_alg k), a; try reflexivity; congruence).
    rewrite E. cbn [negb]. apply bad_key_spec. exact W.
Qed.

Lemma case_key_found a k (sv : sresult) :
  canon (t_alg t) = salg_name (alg_s a) ->
  find_key keys (canon_wire (t_key t)) = Some k -> k_alg k = a ->
  spec_verify (mac_fn_of hmac) DRequest m t (alg_s a) (k_secret k) now = sv ->
  run = Ok (decision_of t (sresp_of t now sv) (Some a) (k_secret k) now).
Proof.
  intros Ha Hk Hka Hsv. pose proof (alg_known t a Ha) as Hal.
  destruct (handle_tsig_spec hmac keys t m now sent_id W Hm Hnow) as [H|[Hbad _]];
    cbn [read_of r_algorithm r_key_name] in *; rewrite ?Hal, ?Hk in *; cbn [option_map] in *;
    rewrite ?Hka, ?spec_server_found, ?Hsv in *.
  - intros a' E. inversion E; subst. exact Ha.
  - assert (E2 : alg_eqb a a = true) by (destruct a; reflexivity). rewrite E2 in H. exact H.
  - destruct sv; discriminate Hbad.
Qed.

End Cases.

Section Table.
Variable hmac : alg -> bytes -> bytes -> bytes.
Hypothesis hmac_len : forall a k d, length (hmac a k d) = output_size a.

(* the outcome of the TSIG step together with the TSIG RR of whatever response is then written (the vocabulary of
   Props/C10.v) *)
Definition tsig_outcome (keys : list key_entry) (t : stsig) (m : smsg) (now sent_id : N)
           (sr : sresp) (a : option alg) (secret : bytes) : Prop :=
  exists d, handle_tsig hmac keys (read_of t) (sent_prefix sent_id m) (be48 now) = Ok d /\
    d_rcode d = sr_rcode sr /\ d_authenticated d = sr_process sr /\
    forall resp rid, wf_smsg resp ->
      let mac := match a with Some a' => resp_mac (mac_fn_of hmac) t sr (alg_s a') secret resp | None => [] end in
      response_tsig hmac d (sent_prefix rid resp) =
      Ok (spec_rdata (with_mac (resp_tsig t sr) mac),
          match a with Some _ => if sr_signed sr then Some mac else None | None => None end).

Lemma outcome_of keys t m now sent_id sr a secret :
  wf_stsig t -> sresp_wf t sr now ->
  (forall a', a = Some a' -> canon (t_alg t) = salg_name (alg_s a')) ->
  handle_tsig hmac keys (read_of t) (sent_prefix sent_id m) (be48 now) = Ok (decision_of t sr a secret now) ->
  tsig_outcome keys t m now sent_id sr a secret.
Proof.
  intros W Hr Ha H. exists (decision_of t sr a secret now). split; [exact H|].
  split; [reflexivity|]. split; [reflexivity|].
  intros resp rid Hresp. cbv zeta.
  rewrite (response_tsig_spec hmac hmac_len t sr a secret now resp rid W Hresp Hr Ha).
  destruct a; reflexivity.
Qed.

Lemma wf_lit t now e : (e < 65536)%N -> e <> 18%N -> sresp_wf t (mkSresp 9 false e false now []) now.
Proof. intros H1 H2. unfold sresp_wf. cbn. repeat split; try assumption; try contradiction; intros; contradiction. Qed.

Lemma c10_found keys t m now sent_id a k sv :
  wf_stsig t -> wf_smsg m -> (now < 281474976710656)%N ->
  canon (t_alg t) = salg_name (alg_s a) -> find_key keys (canon_wire (t_key t)) = Some k -> k_alg k = a ->
  spec_verify (mac_fn_of hmac) DRequest m t (alg_s a) (k_secret k) now = sv ->
  tsig_outcome keys t m now sent_id (sresp_of t now sv) (Some a) (k_secret k).
Proof.
  intros W Hm Hnow Ha Hk Hka Hsv. apply outcome_of; try assumption.
  - destruct sv; unfold sresp_wf; cbn; repeat split; try lia; intros; try discriminate; try contradiction; auto.
  - intros a' E. inversion E; subst. exact Ha.
  - exact (case_key_found hmac keys t m now sent_id W Hm Hnow a k sv Ha Hk Hka Hsv).
Qed.

Theorem c10_accept_l keys t m now sent_id a k :
  wf_stsig t -> wf_smsg m -> (now < 281474976710656)%N ->
  canon (t_alg t) = salg_name (alg_s a) -> find_key keys (canon_wire (t_key t)) = Some k -> k_alg k = a ->
  spec_accepts (mac_fn_of hmac) DRequest m t (alg_s a) (k_secret k) now ->
  tsig_outcome keys t m now sent_id (mkSresp 0 true 0 true now []) (Some a) (k_secret k).
Proof.
  intros W Hm Hnow Ha Hk Hka Hacc. apply spec_verify_ok_iff in Hacc.
  exact (c10_found keys t m now sent_id a k SOk W Hm Hnow Ha Hk Hka Hacc).
Qed.

Theorem c10_badsig_l keys t m now sent_id a k :
  wf_stsig t -> wf_smsg m -> (now < 281474976710656)%N ->
  canon (t_alg t) = salg_name (alg_s a) -> find_key keys (canon_wire (t_key t)) = Some k -> k_alg k = a ->
  mac_len_ok (alg_s a) (length (t_mac t)) -> ~ mac_matches (mac_fn_of hmac) DRequest m t (alg_s a) (k_secret k) ->
  tsig_outcome keys t m now sent_id (mkSresp 9 false 16 false now []) (Some a) (k_secret k).
Proof.
  intros W Hm Hnow Ha Hk Hka Hl Hmac. apply (c10_found keys t m now sent_id a k SBadSig); try assumption.
  apply spec_verify_errors. split; assumption.
Qed.

Theorem c10_mac_len_l keys t m now sent_id a k :
  wf_stsig t -> wf_smsg m -> (now < 281474976710656)%N ->
  canon (t_alg t) = salg_name (alg_s a) -> find_key keys (canon_wire (t_key t)) = Some k -> k_alg k = a ->
  ~ mac_len_ok (alg_s a) (length (t_mac t)) ->
  tsig_outcome keys t m now sent_id (mkSresp 1 false 16 false now []) (Some a) (k_secret k).
Proof.
  intros W Hm Hnow Ha Hk Hka Hl. apply (c10_found keys t m now sent_id a k SFormErr); try assumption.
  apply spec_verify_errors. exact Hl.
Qed.

Theorem c10_badtime_l keys t m now sent_id a k :
  wf_stsig t -> wf_smsg m -> (now < 281474976710656)%N ->
  canon (t_alg t) = salg_name (alg_s a) -> find_key keys (canon_wire (t_key t)) = Some k -> k_alg k = a ->
  mac_len_ok (alg_s a) (length (t_mac t)) -> mac_matches (mac_fn_of hmac) DRequest m t (alg_s a) (k_secret k) ->
  ~ time_ok t now ->
  tsig_outcome keys t m now sent_id (mkSresp 9 false 18 true (t_time t) (u48 now)) (Some a) (k_secret k).
Proof.
  intros W Hm Hnow Ha Hk Hka Hl Hmac Ht. apply (c10_found keys t m now sent_id a k SBadTime); try assumption.
  apply spec_verify_errors. auto.
Qed.

Theorem c10_badkey_l keys t m now sent_id :
  wf_stsig t -> wf_smsg m -> (now < 281474976710656)%N ->
  (alg_from_name (canon_wire (t_alg t)) = None \/
   exists a, canon (t_alg t) = salg_name (alg_s a) /\
     (find_key keys (canon_wire (t_key t)) = None \/
      exists k, find_key keys (canon_wire (t_key t)) = Some k /\ k_alg k <> a)) ->
  tsig_outcome keys t m now sent_id (mkSresp 9 false 17 false now []) None [].
Proof.
  intros W Hm Hnow H.
  apply outcome_of; try assumption.
  - apply wf_lit; [lia|discriminate].
  - discriminate.
  - destruct H as [H|(a & Ha & Hk)].
    + exact (case_unknown_alg hmac keys t m now sent_id W H).
    + exact (case_unknown_key hmac keys t m now sent_id W a Ha Hk).
Qed.

(* the signed responses verify: a client that checks the response per RFC 8945 5.3 with the request MAC
   accepts the MAC the server produced *)
Lemma response_mac_matches t sr a secret resp :
  sr_signed sr = true ->
  mac_matches (mac_fn_of hmac) (DResponse (t_mac t)) resp
    (with_mac (resp_tsig t sr) (resp_mac (mac_fn_of hmac) t sr (alg_s a) secret resp)) (alg_s a) secret.
Proof.
  intros Hs. unfold mac_matches, resp_mac. rewrite Hs. cbn [with_mac t_mac].
  rewrite firstn_all. reflexivity.
Qed.

End Table.
