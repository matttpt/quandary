(* Facts about the std-parser models used by the zone-file proofs. *)
From QV Require Import Base.ListX Model.ZfStd.

Local Open Scope N_scope.

Lemma uint_loop_le max : forall ds acc v, acc <= max -> uint_loop max ds acc = inl v -> v <= max.
Proof.
  induction ds as [|c ds IH]; intros acc v Hacc H; simpl in H.
  - inversion H; subst; exact Hacc.
  - destruct (is_digit c); [|discriminate].
    destruct (max <? acc * 10) eqn:E1; [discriminate|].
    destruct (max <? acc * 10 + (c - 48)) eqn:E2; [discriminate|].
    apply N.ltb_ge in E2. eapply IH; [|exact H]. exact E2.
Qed.

Lemma parse_uint_le max s v : parse_uint max s = inl v -> v <= max.
Proof.
  unfold parse_uint. destruct s as [|c [|d r]]; [discriminate| |].
  - destruct ((c =? 43) || (c =? 45)); [discriminate|]. apply uint_loop_le. lia.
  - destruct (c =? 43); apply uint_loop_le; lia.
Qed.

Lemma parse_uint_nil max : parse_uint max [] = inr IeEmpty.
Proof. reflexivity. Qed.

Lemma ipv4_from_str_length s a : ipv4_from_str s = Some a -> length a = 4%nat.
Proof.
  unfold ipv4_from_str. destruct (15 <? length s)%nat; [discriminate|].
  destruct (read_ipv4_addr s) as [[[[[x y] z] w] [|? ?]]|]; try discriminate.
  intros H; inversion H; reflexivity.
Qed.

(* read_groups never returns more groups than the slice it fills *)
Lemma read_groups_length : forall n i limit l acc gs v4 l',
  length acc = i -> (i + n = limit)%nat ->
  read_groups n i limit l acc = (gs, v4, l') -> (length gs <= limit)%nat.
Proof.
  induction n as [|n IH]; intros i limit l acc gs v4 l' Ha Hl H; simpl in H.
  - inversion H; subst. lia.
  - (* either an embedded IPv4 address ends the groups, or the next group is read *)
    destruct (if (i <? limit - 1)%nat then read_sep 58 i read_ipv4_addr l else None) as [[[[[a b] c] d] l1]|] eqn:E4.
    + destruct (i <? limit - 1)%nat eqn:E; [|discriminate]. apply Nat.ltb_lt in E.
      inversion H; subst. rewrite app_length. simpl. lia.
    + destruct (read_sep 58 i (read_number 16 4 true U16_MAX) l) as [[g l1]|].
      * eapply (IH (S i)); [| |exact H]; [rewrite app_length; simpl; lia|lia].
      * inversion H; subst. lia.
Qed.

Lemma flat_map_group_length gs : length (flat_map group_octets gs) = (2 * length gs)%nat.
Proof. induction gs as [|g gs IH]; simpl; [reflexivity|]. rewrite IH. lia. Qed.

Lemma ipv6_from_str_length s a : ipv6_from_str s = Some a -> length a = 16%nat.
Proof.
  unfold ipv6_from_str, read_ipv6_addr.
  destruct (read_groups 8 0 8 s []) as [[head hv4] l1] eqn:E1.
  pose proof (read_groups_length 8 0 8 s [] head hv4 l1 eq_refl eq_refl E1) as Hh.
  destruct (length head =? 8)%nat eqn:E8.
  - apply Nat.eqb_eq in E8. destruct l1; [|discriminate]. intros [= <-].
    rewrite flat_map_group_length. lia.
  - destruct hv4; [discriminate|].
    destruct l1 as [|c1 [|c2 l2]]; try discriminate.
    destruct ((c1 =? 58) && (c2 =? 58)); [|discriminate].
    apply Nat.eqb_neq in E8.
    destruct (read_groups (8 - (length head + 1)) 0 (8 - (length head + 1)) l2 []) as [[tail tv4] l3] eqn:E2.
    pose proof (read_groups_length _ 0 _ l2 [] tail tv4 l3 eq_refl eq_refl E2) as Ht.
    destruct l3; [|discriminate].
    remember (8 - length head - length tail)%nat as k eqn:Hk. intros [= <-].
    rewrite flat_map_group_length, !app_length, repeat_length. lia.
Qed.

Lemma type_from_str_nil : type_from_str [] = inr SeUnknown.
Proof. vm_compute. reflexivity. Qed.
