(* C22, spec-internal proofs: the executable list-based reference map of
   Spec/CatTreeS.v implements the function-level specification (so it can serve as
   the oracle), and the specification determines its answers. *)
From QV Require Import Spec.CatTreeS.
From Coq Require Import Permutation.

Lemma canon_length (p : sname) : length (canon p) = length p.
Proof. unfold canon. apply map_length. Qed.

Lemma is_suffix_length p q : is_suffix p q -> length p <= length q.
Proof. intros [pre H]. subst. rewrite app_length. lia. Qed.

Lemma is_suffix_skipn p q : is_suffix p q -> p = skipn (length q - length p) q.
Proof.
  intros [pre ->]. rewrite app_length, Nat.add_sub, skipn_app, skipn_all, Nat.sub_diag. reflexivity.
Qed.

Lemma is_suffixb_spec p q : is_suffixb p q = true <-> is_suffix p q.
Proof.
  unfold is_suffixb. split.
  - intros H. apply andb_true_iff in H. destruct H as [_ H].
    destruct (sname_eq_dec (skipn (length q - length p) q) p) as [E|E]; [|discriminate].
    exists (firstn (length q - length p) q). rewrite <- E at 2. symmetry. apply firstn_skipn.
  - intros H. rewrite <- (is_suffix_skipn _ _ H). apply andb_true_iff. split.
    + apply Nat.leb_le, is_suffix_length, H.
    + destruct (sname_eq_dec p p); congruence.
Qed.

Lemma is_suffix_same_length p p' q : is_suffix p q -> is_suffix p' q -> length p = length p' -> p = p'.
Proof.
  intros H H' L. rewrite (is_suffix_skipn _ _ H), (is_suffix_skipn _ _ H'), L. reflexivity.
Qed.

Lemma fold_left_filter {A B} (f : B -> A -> B) (p : A -> bool) l : forall acc,
  fold_left (fun b x => if p x then f b x else b) l acc = fold_left f (filter p l) acc.
Proof. induction l as [|x l IH]; intros acc; simpl; [reflexivity|]. destruct (p x); apply IH. Qed.

Section SP.
Variable E : Type.
Variable ename : E -> sname.
Variable eclass : E -> N.
Notation key_of := (key_of ename eclass).
Notation l_get := (l_get ename eclass).
Notation l_insert := (l_insert ename eclass).
Notation l_remove := (l_remove ename eclass).
Notation l_lookup := (l_lookup ename eclass).
Notation has_key := (has_key ename eclass).
Notation rm_insert := (rm_insert ename eclass).
Notation rm_is_iter := (rm_is_iter ename eclass).
Notation rm_consistent := (rm_consistent ename eclass).

Definition lm_ok (m : lmap E) : Prop := NoDup (map key_of m).
Definition view (m : lmap E) : refmap E := l_get m.

Lemma has_key_true k e : has_key k e = true <-> key_of e = k.
Proof. unfold CatTreeS.has_key. destruct (skey_eq_dec (key_of e) k); split; congruence. Qed.

Lemma has_key_false k e : has_key k e = false <-> key_of e <> k.
Proof. unfold CatTreeS.has_key. destruct (skey_eq_dec (key_of e) k); split; congruence. Qed.

Lemma view_some m k e : view m k = Some e -> In e m /\ key_of e = k.
Proof.
  unfold view, CatTreeS.l_get. intros H. apply find_some in H. destruct H as [H1 H2].
  split; [exact H1|]. apply has_key_true. exact H2.
Qed.

Lemma view_consistent m : rm_consistent (view m).
Proof. intros k e H. apply view_some in H. tauto. Qed.

Lemma view_in m e : lm_ok m -> In e m -> view m (key_of e) = Some e.
Proof.
  unfold lm_ok, view, CatTreeS.l_get. induction m as [|x m IH]; simpl; intros Hnd Hin; [tauto|].
  inversion Hnd as [|? ? Hx Hm]; subst.
  destruct (has_key (key_of e) x) eqn:Hk.
  - apply has_key_true in Hk. destruct Hin as [Hin|Hin]; [congruence|].
    exfalso. apply Hx. rewrite Hk. apply in_map. exact Hin.
  - destruct Hin as [Hin|Hin].
    + subst x. apply has_key_false in Hk. congruence.
    + apply IH; assumption.
Qed.

Lemma view_none m k : view m k = None <-> forall e, In e m -> key_of e <> k.
Proof.
  unfold view, CatTreeS.l_get. split.
  - intros H e Hin. apply has_key_false. eapply find_none; eauto.
  - intros H. induction m as [|x m IH]; simpl; auto.
    destruct (has_key k x) eqn:Hk.
    + apply has_key_true in Hk. exfalso. apply (H x); simpl; auto.
    + apply IH. intros e Hin. apply H. simpl; auto.
Qed.

Lemma filter_keys_incl (f : E -> bool) m x : In x (map key_of (filter f m)) -> In x (map key_of m).
Proof.
  rewrite !in_map_iff. intros [e [He Hin]]. apply filter_In in Hin. exists e. tauto.
Qed.

Lemma lm_ok_filter (f : E -> bool) m : lm_ok m -> lm_ok (filter f m).
Proof.
  unfold lm_ok. induction m as [|x m IH]; simpl; intros Hnd; auto.
  inversion Hnd as [|? ? Hx Hm]; subst.
  destruct (f x); simpl; auto. constructor; auto.
  intros Hin. apply Hx. eapply filter_keys_incl. exact Hin.
Qed.

Lemma view_cons x m k : view (x :: m) k = if has_key k x then Some x else view m k.
Proof. reflexivity. Qed.

Lemma view_filter m k0 k :
  view (filter (fun x => negb (has_key k0 x)) m) k = if skey_eq_dec k k0 then None else view m k.
Proof.
  unfold view, CatTreeS.l_get. induction m as [|x m IH]; simpl.
  - destruct (skey_eq_dec k k0); reflexivity.
  - destruct (has_key k0 x) eqn:H0, (has_key k x) eqn:H1; simpl; rewrite ?H1, ?IH; try reflexivity.
    + apply has_key_true in H0, H1. destruct (skey_eq_dec k k0); congruence.
    + apply has_key_false in H0. apply has_key_true in H1. destruct (skey_eq_dec k k0); congruence.
Qed.

Lemma l_insert_spec m e : lm_ok m ->
  lm_ok (fst (l_insert m e)) /\ snd (l_insert m e) = view m (key_of e) /\
  forall k, view (fst (l_insert m e)) k = rm_insert (view m) e k.
Proof.
  intros Hok. unfold CatTreeS.l_insert. cbn [fst snd]. split; [|split; [reflexivity|]].
  - unfold lm_ok. simpl. constructor.
    + intros Hin. apply in_map_iff in Hin. destruct Hin as [x [Hx Hin]].
      apply filter_In in Hin. destruct Hin as [_ H]. apply negb_true_iff in H.
      apply has_key_false in H. congruence.
    + apply lm_ok_filter. exact Hok.
  - intros k. unfold CatTreeS.rm_insert. rewrite view_cons, view_filter. unfold CatTreeS.has_key.
    destruct (skey_eq_dec (key_of e) k), (skey_eq_dec k (key_of e)); congruence.
Qed.

Lemma l_remove_spec m k0 : lm_ok m ->
  lm_ok (fst (l_remove m k0)) /\ snd (l_remove m k0) = view m k0 /\
  forall k, view (fst (l_remove m k0)) k = rm_remove (view m) k0 k.
Proof.
  intros Hok. split; [apply lm_ok_filter; exact Hok|]. split; [reflexivity|]. intros k. apply view_filter.
Qed.

Lemma better_spec acc x :
  exists y, better ename acc x = Some y /\ (y = x \/ acc = Some y) /\
            length (ename x) <= length (ename y) /\
            forall b, acc = Some b -> length (ename b) <= length (ename y).
Proof.
  unfold better. destruct acc as [b|].
  - destruct (Nat.ltb_spec (length (ename b)) (length (ename x))); eexists; (split; [reflexivity|]);
      repeat split; auto; intros ? [= <-]; lia.
  - exists x. repeat split; auto. discriminate.
Qed.

Lemma fold_better l : forall acc,
  match fold_left (better ename) l acc with
  | Some e => (In e l \/ acc = Some e) /\
              forall e', In e' l \/ acc = Some e' -> length (ename e') <= length (ename e)
  | None => acc = None /\ l = []
  end.
Proof.
  induction l as [|x l IH]; intros acc; simpl.
  - destruct acc as [b|]; [|auto]. split; [auto|]. intros e' [[]|[= ->]]. lia.
  - destruct (better_spec acc x) as (y & Hy & Hor & Hx & Hacc). specialize (IH (better ename acc x)).
    rewrite Hy in *. destruct (fold_left (better ename) l (Some y)) as [e|]; [|destruct IH; discriminate].
    destruct IH as [Hin Hmax]. assert (Hye : length (ename y) <= length (ename e)) by auto. split.
    + destruct Hin as [Hin|[= <-]]; [auto|]. destruct Hor as [->|Hor]; auto.
    + intros e' [[<-|H]|H]; [lia|auto|]. apply Hacc in H. lia.
Qed.

Lemma l_lookup_spec m cls q : lm_ok m -> rm_is_lookup (view m) cls q (l_lookup m cls q).
Proof.
  intros Hok. unfold CatTreeS.l_lookup. rewrite fold_left_filter.
  set (p := fun e => (eclass e =? cls)%N && is_suffixb (canon (ename e)) q).
  assert (Hp : forall e, In e (filter p m) <-> In e m /\ eclass e = cls /\ is_suffix (canon (ename e)) q).
  { intros e. unfold p. rewrite filter_In, andb_true_iff, N.eqb_eq, is_suffixb_spec. reflexivity. }
  (* the candidates of the specification are the members of the filtered list *)
  assert (Hv : forall p' e', view m (cls, p') = Some e' -> is_suffix p' q ->
                 In e' (filter p m) /\ length p' = length (ename e')).
  { intros p' e' Hv Hs. apply view_some in Hv. destruct Hv as [Hin [= Hc <-]].
    rewrite canon_length. split; [|reflexivity]. apply Hp. auto. }
  pose proof (fold_better (filter p m) None) as H.
  destruct (fold_left (better ename) (filter p m) None) as [e|]; simpl.
  - destruct H as [[Hin|[=]] Hmax]. apply Hp in Hin. destruct Hin as (Hin & Hc & Hs).
    exists (canon (ename e)). split; [rewrite <- Hc; apply (view_in m e Hok Hin)|]. split; [exact Hs|].
    intros p' e' Hv' Hs'. destruct (Hv _ _ Hv' Hs') as [Hin' ->]. rewrite canon_length. apply Hmax. auto.
  - destruct H as [_ Hnil]. intros p' e' Hv' Hs'. destruct (Hv _ _ Hv' Hs') as [Hin' _].
    rewrite Hnil in Hin'. exact Hin'.
Qed.

Lemma rm_is_lookup_fun (m : refmap E) cls q r1 r2 : rm_consistent m ->
  rm_is_lookup m cls q r1 -> rm_is_lookup m cls q r2 -> r1 = r2.
Proof.
  intros Hc H1 H2. destruct r1 as [e1|], r2 as [e2|]; simpl in *; auto.
  - destruct H1 as [p1 [Hm1 [Hs1 Hmax1]]]. destruct H2 as [p2 [Hm2 [Hs2 Hmax2]]].
    assert (p1 = p2).
    { apply (is_suffix_same_length p1 p2 q); auto.
      pose proof (Hmax1 _ _ Hm2 Hs2). pose proof (Hmax2 _ _ Hm1 Hs1). lia. }
    subst. congruence.
  - destruct H1 as [p1 [Hm1 [Hs1 _]]]. exfalso. eapply H2; eauto.
  - destruct H2 as [p2 [Hm2 [Hs2 _]]]. exfalso. eapply H1; eauto.
Qed.

(* the entry at exactly [q] is the nearest ancestor's, if that one has as many labels as [q] *)
Lemma rm_get_of_lookup (m : refmap E) cls q r : rm_consistent m -> rm_is_lookup m cls q r ->
  m (cls, q) = match r with
               | Some e => if length (ename e) =? length q then Some e else None
               | None => None
               end.
Proof.
  intros Hc H. assert (Hq : is_suffix q q) by (exists []; reflexivity).
  destruct r as [e|]; simpl in H.
  - destruct H as (p & Hm & Hs & Hmax). pose proof (Hc _ _ Hm) as [= _ <-].
    destruct (Nat.eqb_spec (length (ename e)) (length q)) as [L|L].
    + rewrite <- (is_suffix_same_length _ _ _ Hs Hq); [exact Hm|rewrite canon_length; exact L].
    + destruct (m (cls, q)) as [e'|] eqn:Hm'; [|reflexivity]. specialize (Hmax _ _ Hm' Hq).
      apply is_suffix_length in Hs. rewrite canon_length in Hs, Hmax. lia.
  - destruct (m (cls, q)) as [e'|] eqn:Hm'; [|reflexivity]. destruct (H _ _ Hm' Hq).
Qed.

Lemma rm_is_lookup_ext (m1 m2 : refmap E) cls q r : (forall k, m1 k = m2 k) ->
  rm_is_lookup m1 cls q r -> rm_is_lookup m2 cls q r.
Proof.
  intros Hext H. destruct r as [e|]; simpl in *.
  - destruct H as [p [Hm [Hs Hmax]]]. exists p. rewrite <- Hext. split; [exact Hm|]. split; [exact Hs|].
    intros p' e'. rewrite <- Hext. apply Hmax.
  - intros p e'. rewrite <- Hext. apply H.
Qed.

Lemma l_iter_spec m : lm_ok m -> rm_is_iter (view m) m.
Proof.
  intros Hok. split; [exact Hok|]. intros e. split.
  - intros Hin. exists (key_of e). apply view_in; assumption.
  - intros [k Hk]. apply view_some in Hk. tauto.
Qed.

Lemma rm_is_iter_perm (m1 m2 : refmap E) l1 l2 : (forall k, m1 k = m2 k) ->
  rm_is_iter m1 l1 -> rm_is_iter m2 l2 -> Permutation l1 l2.
Proof.
  intros Hext [Hn1 H1] [Hn2 H2]. apply NoDup_Permutation.
  - eapply NoDup_map_inv. exact Hn1.
  - eapply NoDup_map_inv. exact Hn2.
  - intros e. rewrite H1, H2. split; intros [k Hk]; exists k; congruence.
Qed.

End SP.

Arguments lm_ok {E}.
Arguments view {E}.
