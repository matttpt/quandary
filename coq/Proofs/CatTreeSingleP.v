(* C22: SingleZoneCatalog (src/db/single_zone_catalog.rs) refines the reference
   map holding exactly its one entry; Label/Name equality ignore ASCII case. *)
From QV Require Import Model.CatTree Spec.CatTreeS Proofs.CatTreeP Proofs.CatTreeSP.

Lemma label_eq_ci_spec : forall a b, label_eq_ci a b = true <-> lower_label a = lower_label b.
Proof.
  induction a as [|x a IH]; intros [|y b]; simpl; try (split; congruence).
  rewrite andb_true_iff, N.eqb_eq, IH. split.
  - intros [H1 H2]. congruence.
  - intros H. inversion H. auto.
Qed.

(* zip(..).all(==) over a list at least as long: the shorter one is a prefix, ignoring case *)
Lemma zip_all_eq_spec : forall b a, length b <= length a ->
  (zip_all_eq a b = true <-> lower_name (firstn (length b) a) = lower_name b).
Proof.
  induction b as [|y b IH]; intros a Hl.
  - destruct a; simpl; split; auto.
  - destruct a as [|x a]; simpl in Hl; [lia|]. simpl.
    rewrite andb_true_iff, label_eq_ci_spec, (IH a) by lia. split.
    + intros [H1 H2]. congruence.
    + intros H. inversion H. auto.
Qed.

Lemma zip_all_eq_same_length a b : length a = length b ->
  (zip_all_eq a b = true <-> lower_name a = lower_name b).
Proof. intros Hl. rewrite zip_all_eq_spec, <- Hl, firstn_all by lia. reflexivity. Qed.

Lemma name_eq_spec a b : name_eq a b = true <-> canon a = canon b.
Proof.
  unfold name_eq, name_len, all_labels. rewrite andb_true_iff, Nat.eqb_eq.
  rewrite !canon_lower_name. split.
  - intros [Hl Hz]. apply zip_all_eq_same_length in Hz; [|rewrite !app_length; lia].
    rewrite !lower_name_app in Hz. exact (app_inv_tail _ _ _ Hz).
  - intros Hc. assert (Hl : length a = length b).
    { rewrite <- (lower_name_length a), Hc. apply lower_name_length. }
    split; [lia|]. apply zip_all_eq_same_length; [rewrite !app_length; lia|].
    rewrite !lower_name_app. f_equal. exact Hc.
Qed.

(* on the reversed label lists, [other] is a prefix of [self]: a suffix of the name *)
Lemma eq_or_subdomain_spec self other :
  eq_or_subdomain_of self other = true <-> is_suffix (canon other) (canon self).
Proof.
  unfold eq_or_subdomain_of, name_len, all_labels.
  rewrite !rev_app_distr. simpl. rewrite andb_true_iff, Nat.leb_le, !canon_lower_name.
  assert (Hz : length other <= length self ->
    (zip_all_eq (rev self) (rev other) = true <->
     lower_name (skipn (length self - length other) self) = lower_name other)).
  { intros Hl. rewrite zip_all_eq_spec, rev_length, firstn_rev by (rewrite !rev_length; exact Hl).
    unfold lower_name. rewrite !map_rev. split; [apply rev_inj|intros ->; reflexivity]. }
  split.
  - intros [Hl Hs]. apply Hz in Hs; [|lia].
    exists (lower_name (firstn (length self - length other) self)).
    rewrite <- Hs, <- lower_name_app, firstn_skipn. reflexivity.
  - intros H. pose proof (is_suffix_length _ _ H) as Hl. rewrite !lower_name_length in Hl.
    split; [lia|]. apply Hz; [exact Hl|]. apply is_suffix_skipn in H.
    rewrite !lower_name_length in H. unfold lower_name. rewrite <- skipn_map. symmetry. exact H.
Qed.

Section Single.
Variable V : Type.
Notation entry := (entry V).
Notation ckey := (key_of (@e_name V) (@e_class V)).
Notation single_map e := (rm_insert (@e_name V) (@e_class V) rm_empty e).

Lemma single_get_refine (e : entry) nm cls : single_get e nm cls = single_map e (cls, canon nm).
Proof.
  unfold single_get, CatTreeS.rm_insert, rm_empty, CatTreeS.key_of.
  destruct (skey_eq_dec (cls, canon nm) (e_class e, canon (e_name e))) as [E|E].
  - inversion E as [[H1 H2]]. rewrite N.eqb_refl. simpl.
    assert (H : name_eq nm (e_name e) = true) by (apply name_eq_spec; exact H2). rewrite H. reflexivity.
  - destruct ((e_class e =? cls)%N && name_eq nm (e_name e)) eqn:Hb; [|reflexivity].
    apply andb_true_iff in Hb. destruct Hb as [H1 H2]. apply N.eqb_eq in H1. apply name_eq_spec in H2.
    exfalso. apply E. congruence.
Qed.

Lemma single_lookup_refine (e : entry) nm cls :
  rm_is_lookup (single_map e) cls (canon nm) (single_lookup e nm cls).
Proof.
  unfold single_lookup.
  assert (Hm : forall p e', single_map e (cls, p) = Some e' ->
                            e' = e /\ cls = e_class e /\ p = canon (e_name e)).
  { intros p e' H. unfold CatTreeS.rm_insert, rm_empty, CatTreeS.key_of in H.
    destruct (skey_eq_dec (cls, p) (e_class e, canon (e_name e))) as [E|E]; [|discriminate].
    inversion E. inversion H. auto. }
  destruct ((e_class e =? cls)%N && eq_or_subdomain_of nm (e_name e)) eqn:Hb; simpl.
  - apply andb_true_iff in Hb. destruct Hb as [H1 H2]. apply N.eqb_eq in H1. apply eq_or_subdomain_spec in H2.
    exists (canon (e_name e)). split; [|split; [exact H2|]].
    + unfold CatTreeS.rm_insert, CatTreeS.key_of. rewrite H1.
      destruct (skey_eq_dec (cls, canon (e_name e)) (cls, canon (e_name e))); congruence.
    + intros p' e' Hp _. apply Hm in Hp. destruct Hp as [_ [_ Hp]]. subst p'. lia.
  - intros p e' Hp Hs. apply Hm in Hp. destruct Hp as [_ [Hc Hp]]. subst p.
    apply eq_or_subdomain_spec in Hs. rewrite Hs, andb_true_r in Hb. apply N.eqb_neq in Hb. congruence.
Qed.

End Single.
