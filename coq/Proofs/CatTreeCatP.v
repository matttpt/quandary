(* C22: the whole catalog (per-class roots) refines the flat reference map:
   abstraction function, representation invariant, one refinement lemma per
   operation, the history theorem against the executable reference. *)
From QV Require Import Model.CatTree Spec.CatTreeS Proofs.CatTreeP Proofs.CatTreeInvP Proofs.CatTreeSP.
From Coq Require Import Permutation.

Lemma usub_len (nm : cname) : usub (name_len nm) 1 = Some (length nm).
Proof. unfold usub, name_len. simpl. rewrite Nat.sub_0_r. reflexivity. Qed.

Section C.
Variable V : Type.
Notation entry := (entry V).
Notation node := (node V).
Notation forest := (forest V).
Notation catalog := (catalog V).
Notation ckey := (key_of (@e_name V) (@e_class V)).
Notation rmi := (rm_insert (@e_name V) (@e_class V)).
Notation is_iter := (rm_is_iter (@e_name V) (@e_class V)).

Lemma al_get_set k k2 (n : node) c :
  al_get k2 (al_set k n c) = if N.eq_dec k2 k then Some n else al_get k2 c.
Proof.
  induction c as [|[k' n'] r IH]; simpl.
  - destruct (N.eq_dec k2 k); reflexivity.
  - destruct (N.eq_dec k k'); simpl; [|rewrite IH];
      destruct (N.eq_dec k2 k), (N.eq_dec k2 k'); congruence.
Qed.

Lemma al_get_remove k k2 (c : catalog) :
  al_get k2 (al_remove k c) = if N.eq_dec k2 k then None else al_get k2 c.
Proof.
  induction c as [|[k' n'] r IH]; simpl.
  - destruct (N.eq_dec k2 k); reflexivity.
  - destruct (N.eq_dec k k'); simpl; rewrite IH;
      destruct (N.eq_dec k2 k), (N.eq_dec k2 k'); congruence.
Qed.

Definition abs (c : catalog) : refmap entry :=
  fun k => match al_get (fst k) c with
           | Some root => adata root (rev (snd k))
           | None => None
           end.

Fixpoint wf_cat (c : catalog) : Prop :=
  match c with
  | [] => True
  | (k, n) :: r => al_get k r = None /\ wf_node V k [] n /\ node_live V n /\ wf_cat r
  end.

Lemma wf_cat_get k (c : catalog) n : wf_cat c -> al_get k c = Some n -> wf_node V k [] n /\ node_live V n.
Proof.
  induction c as [|[k' n'] r IH]; simpl; intros Hwf Hg; [discriminate|].
  destruct Hwf as [Hnone [Hn [Hl Hr]]]. destruct (N.eq_dec k k') as [E|E].
  - inversion Hg; subst. auto.
  - auto.
Qed.

Lemma wf_cat_set k (c : catalog) n :
  wf_cat c -> wf_node V k [] n -> node_live V n -> wf_cat (al_set k n c).
Proof.
  induction c as [|[k' n'] r IH]; simpl; intros Hwf Hn Hl.
  - auto.
  - destruct Hwf as [Hnone [Hn' [Hl' Hr]]]. destruct (N.eq_dec k k') as [E|E]; simpl.
    + subst. auto.
    + split; [|auto]. rewrite al_get_set. destruct (N.eq_dec k' k); congruence.
Qed.

Lemma wf_cat_remove k (c : catalog) : wf_cat c -> wf_cat (al_remove k c).
Proof.
  induction c as [|[k' n'] r IH]; simpl; intros Hwf; auto.
  destruct Hwf as [Hnone [Hn' [Hl' Hr]]]. destruct (N.eq_dec k k') as [E|E]; simpl; auto.
  split; [|auto]. rewrite al_get_remove, Hnone. destruct (N.eq_dec k' k); reflexivity.
Qed.

(* the tree of one class, an empty root standing for a class the catalog does not have *)
Definition class_root (c : catalog) (cls : N) : node :=
  match al_get cls c with Some r => r | None => node_new [] end.

Lemma wf_class_root c cls : wf_cat c -> wf_node V cls [] (class_root c cls).
Proof.
  intros Hwf. unfold class_root. destruct (al_get cls c) eqn:Hg; [eapply wf_cat_get; eauto|].
  split; [reflexivity|]. split; [discriminate|exact I].
Qed.

Lemma abs_class_root c cls p : abs c (cls, p) = adata (class_root c cls) (rev p).
Proof. unfold abs, class_root. simpl. destruct (al_get cls c); auto. symmetry. apply adata_new. Qed.

Lemma abs_consistent c : wf_cat c -> rm_consistent (@e_name V) (@e_class V) (abs c).
Proof.
  intros Hwf [cls p] e H. rewrite abs_class_root in H.
  destruct (adata_key V _ _ _ _ _ (wf_class_root c cls Hwf) H) as [H1 H2]. simpl in H2.
  unfold CatTreeS.key_of. rewrite H1. f_equal.
  rewrite canon_lower_name, H2. apply rev_involutive.
Qed.

(* A catalog [c'] that differs from [c] in the tree of class [cls] only, where the new tree [n']
   differs from the old one at the path of [nm] only: the flat map changes at that one key. *)
Lemma abs_update c c' cls nm (n' : node) (v : option entry) :
  (forall k p, abs c' (k, p) = if N.eq_dec k cls then adata n' (rev p) else abs c (k, p)) ->
  adata n' (rev (lower_name nm)) = v ->
  (forall rp, rp <> rev (lower_name nm) -> adata n' rp = adata (class_root c cls) rp) ->
  forall k, abs c' k = if skey_eq_dec k (cls, canon nm) then v else abs c k.
Proof.
  intros Hc' Hv Hoth [k p]. rewrite Hc'.
  destruct (skey_eq_dec (k, p) (cls, canon nm)) as [[= -> ->]|Ek].
  - destruct (N.eq_dec cls cls); [exact Hv|congruence].
  - destruct (N.eq_dec k cls) as [->|]; [|reflexivity].
    rewrite abs_class_root. apply Hoth. intros Hrev. apply rev_inj in Hrev. subst p. exact (Ek eq_refl).
Qed.

Lemma cat_insert_refine c e : wf_cat c ->
  exists c', cat_insert c e = Ok (c', abs c (ckey e)) /\
             (forall k, abs c' k = rmi (abs c) e k) /\ wf_cat c'.
Proof.
  intros Hwf. unfold cat_insert. rewrite usub_len. fold (class_root c (e_class e)).
  set (nm := e_name e). pose proof (wf_class_root c (e_class e) Hwf) as Hroot.
  destruct (insert_desc_spec V (length nm) (class_root c (e_class e)) nm e) as [n' [Hins [Hnew Hoth]]]; [lia|].
  rewrite lpath_all in *. rewrite Hins. cbn [bind].
  eexists. split; [|split].
  - unfold CatTreeS.key_of. rewrite abs_class_root. reflexivity.
  - apply abs_update with (n' := n'); [|exact Hnew|exact Hoth].
    intros k p. unfold abs. cbn [fst snd]. rewrite al_get_set. destruct (N.eq_dec k (e_class e)); reflexivity.
  - assert (Hskip : rev (@nil clabel) = lower_name (skipn (length nm) nm)) by (rewrite skipn_all; reflexivity).
    destruct (insert_desc_wf V _ _ _ _ _ [] _ _ (le_n _) Hskip eq_refl eq_refl Hroot Hins) as [Hwf' Hl'].
    apply wf_cat_set; assumption.
Qed.

Lemma cat_remove_refine c nm cls : wf_cat c ->
  exists c', cat_remove c nm cls = Ok (c', abs c (cls, canon nm)) /\
             (forall k, abs c' k = rm_remove (abs c) (cls, canon nm) k) /\ wf_cat c'.
Proof.
  intros Hwf. unfold cat_remove, cat_remove_gen. rewrite abs_class_root.
  pose proof (wf_class_root c cls Hwf) as Hroot. unfold class_root in *.
  destruct (al_get cls c) as [root|] eqn:Hg.
  - rewrite usub_len. destruct (wf_cat_get _ _ _ Hwf Hg) as [_ Hlive].
    destruct (remove_in_class_spec V (length nm) root nm) as [n' [rm [Hrem [Hnone [Hoth Hall]]]]]; [lia|].
    unfold remove_in_class in Hrem. rewrite lpath_all in *. rewrite Hrem. cbn [bind].
    destruct (remove_in_class_wf V (length nm) root nm cls [] n' _ rm (le_n _) Hroot Hrem) as [Hwf' Hl'].
    eexists. split; [reflexivity|]. split.
    + apply abs_update with (n' := n'); [|exact Hnone|unfold class_root; rewrite Hg; exact Hoth].
      (* a pruned root held no entry any more *)
      intros k p. unfold abs. cbn [fst snd]. destruct rm; [rewrite al_get_remove|rewrite al_get_set];
        destruct (N.eq_dec k cls); try reflexivity. symmetry. apply Hall. reflexivity.
    + destruct rm; [apply wf_cat_remove|apply wf_cat_set]; auto.
  - exists c. split; [rewrite adata_new; reflexivity|]. split; [|exact Hwf].
    intros [cls' p]. unfold rm_remove.
    destruct (skey_eq_dec (cls', p) (cls, canon nm)) as [[= -> ->]|]; [|reflexivity].
    unfold abs. simpl. rewrite Hg. reflexivity.
Qed.

Lemma cat_lookup_deepest c nm cls :
  cat_lookup c nm cls = Ok (deepest (class_root c cls) (rev (lower_name nm))).
Proof.
  unfold cat_lookup, class_root. destruct (al_get cls c) as [root|].
  - rewrite usub_len, lookup_in_class_deepest, lpath_all by lia. reflexivity.
  - destruct (rev (lower_name nm)); reflexivity.
Qed.

Lemma cat_lookup_refine c nm cls :
  exists r, cat_lookup c nm cls = Ok r /\ rm_is_lookup (abs c) cls (canon nm) r.
Proof.
  rewrite cat_lookup_deepest. eexists. split; [reflexivity|].
  (* a suffix of the name, reversed, is a prefix of the path the descent follows *)
  assert (Hpre : forall p, is_suffix p (canon nm) -> exists b, rev (lower_name nm) = rev p ++ b).
  { intros p [pre E]. exists (rev pre). rewrite canon_lower_name in E.
    rewrite E. apply rev_app_distr. }
  pose proof (deepest_spec V (rev (lower_name nm)) (class_root c cls)) as H.
  destruct (deepest (class_root c cls) (rev (lower_name nm))) as [e|]; simpl.
  - destruct H as (a & b & Hab & Ha & Hmax). exists (rev a). rewrite abs_class_root, rev_involutive.
    split; [exact Ha|]. split.
    + exists (rev b). rewrite <- rev_app_distr, <- Hab. symmetry. apply rev_involutive.
    + intros p' e' Hp' Hsuf. rewrite abs_class_root in Hp'. destruct (Hpre _ Hsuf) as [b' E].
      rewrite rev_length. destruct (le_lt_dec (length p') (length a)) as [|Hlt]; [assumption|].
      rewrite (Hmax _ _ E) in Hp'; [discriminate|rewrite rev_length; exact Hlt].
  - intros p e' Hp Hsuf. rewrite abs_class_root in Hp. destruct (Hpre _ Hsuf) as [b E].
    rewrite (H _ _ E) in Hp. discriminate.
Qed.

(* get (default implementation: lookup filtered by the label count) *)

Lemma cat_get_refine c nm cls : wf_cat c -> cat_get c nm cls = Ok (abs c (cls, canon nm)).
Proof.
  intros Hwf. unfold cat_get. destruct (cat_lookup_refine c nm cls) as (r & -> & H). cbn [bind]. f_equal.
  rewrite (rm_get_of_lookup _ _ _ _ _ _ _ (abs_consistent c Hwf) H), canon_length.
  destruct r; reflexivity.
Qed.

Lemma cat_iter_in c : wf_cat c -> forall e, In e (cat_iter c) <-> exists k, abs c k = Some e.
Proof.
  induction c as [|[k n] r IH]; simpl; intros Hwf e.
  - split; [tauto|]. intros [k H]. discriminate.
  - destruct Hwf as [Hnone [Hn [_ Hr]]]. destruct (proj1 (iter_spec V) n k [] Hn) as [Hin _].
    rewrite in_app_iff, Hin, (IH Hr). split.
    + intros [[rp Ha]|[[k' p] Hk]].
      * exists (k, rev rp). unfold abs. simpl. destruct (N.eq_dec k k); [|congruence].
        rewrite rev_involutive. exact Ha.
      * exists (k', p). unfold abs in *. simpl in *. destruct (N.eq_dec k' k) as [E|E]; [|exact Hk].
        subst k'. rewrite Hnone in Hk. discriminate.
    + intros [[k' p] Hk]. unfold abs in Hk. simpl in Hk. destruct (N.eq_dec k' k) as [E|E].
      * left. eauto.
      * right. exists (k', p). exact Hk.
Qed.

Lemma cat_iter_nodup c : wf_cat c -> NoDup (map ckey (cat_iter c)).
Proof.
  induction c as [|[k n] r IH]; simpl; intros Hwf; [constructor|].
  destruct Hwf as [Hnone [Hn [_ Hr]]]. destruct (proj1 (iter_spec V) n k [] Hn) as [Hin Hnd].
  rewrite map_app. apply ZoneIterP.NoDup_app_disjoint; [exact Hnd|exact (IH Hr)|].
  (* an entry of the first tree has class [k]; the other trees hold nothing of that class *)
  intros x H1 H2. apply in_map_iff in H1. destruct H1 as (e1 & <- & H1). apply Hin in H1. destruct H1 as [a H1].
  destruct (adata_key V _ _ _ _ _ Hn H1) as [C1 _].
  apply in_map_iff in H2. destruct H2 as (e2 & He & H2).
  apply (cat_iter_in r Hr) in H2. destruct H2 as [[k' p] Hk].
  pose proof (abs_consistent r Hr _ _ Hk) as Hkey. rewrite He in Hkey. injection Hkey as <- _.
  unfold abs in Hk. simpl in Hk. rewrite C1, Hnone in Hk. discriminate.
Qed.

Lemma cat_iter_refine c : wf_cat c -> is_iter (abs c) (cat_iter c).
Proof. intros Hwf. split; [apply cat_iter_nodup; exact Hwf|apply cat_iter_in; exact Hwf]. Qed.

Lemma cat_remove_local c nm cls : wf_cat c ->
  exists c', cat_remove c nm cls = Ok (c', abs c (cls, canon nm)) /\ wf_cat c' /\
             abs c' (cls, canon nm) = None /\
             forall k', k' <> (cls, canon nm) -> abs c' k' = abs c k'.
Proof.
  intros Hwf. destruct (cat_remove_refine c nm cls Hwf) as [c' [H1 [H2 H3]]].
  exists c'. split; [exact H1|]. split; [exact H3|]. split.
  - rewrite H2. unfold rm_remove. destruct (skey_eq_dec (cls, canon nm) (cls, canon nm)); congruence.
  - intros k' Hk. rewrite H2. unfold rm_remove. destruct (skey_eq_dec k' (cls, canon nm)); congruence.
Qed.

Definition op_spec (o : cat_op V) : r_op entry :=
  match o with
  | OpInsert e => RInsert e
  | OpRemove nm cls => RRemove nm cls
  | OpLookup nm cls => RLookup nm cls
  | OpGet nm cls => RGet nm cls
  | OpIter => RIter
  end.
Definition out_spec (x : cat_out V) : r_out entry :=
  match x with OutEntry o => ROne o | OutIter l => RAll l end.

Definition sim (c : catalog) (m : lmap entry) : Prop :=
  wf_cat c /\ lm_ok (@e_name V) (@e_class V) m /\
  forall k, abs c k = view (@e_name V) (@e_class V) m k.

Lemma sim_empty : sim cat_new [].
Proof. split; [exact I|]. split; [constructor|]. reflexivity. Qed.

Lemma cat_step_sim c m o : sim c m ->
  exists c' x, cat_step c o = Ok (c', x) /\
               sim c' (fst (l_step (@e_name V) (@e_class V) m (op_spec o))) /\
               r_out_equiv (out_spec x) (snd (l_step (@e_name V) (@e_class V) m (op_spec o))).
Proof.
  intros Hsim. pose proof Hsim as [Hwf [Hok Hext]].
  destruct o as [e|nm cls|nm cls|nm cls|]; unfold cat_step; cbn [cat_step_gen op_spec l_step].
  - destruct (cat_insert_refine c e Hwf) as [c' [-> [Habs Hwf']]].
    cbn [bind]. eexists. eexists. split; [reflexivity|].
    destruct (l_insert_spec _ (@e_name V) (@e_class V) m e Hok) as [Hok' [Hold Hview]].
    destruct (l_insert (@e_name V) (@e_class V) m e) as [m' old].
    cbn [fst snd out_spec r_out_equiv] in *. rewrite Hold. split; [|apply Hext].
    split; [exact Hwf'|]. split; [exact Hok'|]. intros k. rewrite Habs, Hview.
    unfold CatTreeS.rm_insert. destruct (skey_eq_dec k (ckey e)); auto.
  - destruct (cat_remove_refine c nm cls Hwf) as [c' [Hrem [Habs Hwf']]].
    unfold cat_remove in Hrem. rewrite Hrem. cbn [bind]. eexists. eexists. split; [reflexivity|].
    destruct (l_remove_spec _ (@e_name V) (@e_class V) m (cls, canon nm) Hok) as [Hok' [Hold Hview]].
    destruct (l_remove (@e_name V) (@e_class V) m (cls, canon nm)) as [m' old].
    cbn [fst snd out_spec r_out_equiv] in *. rewrite Hold. split; [|apply Hext].
    split; [exact Hwf'|]. split; [exact Hok'|]. intros k. rewrite Habs, Hview.
    unfold rm_remove. destruct (skey_eq_dec k (cls, canon nm)); auto.
  - destruct (cat_lookup_refine c nm cls) as [r [-> Hspec]].
    cbn [bind]. eexists. eexists. split; [reflexivity|]. split; [exact Hsim|].
    eapply rm_is_lookup_fun; [apply (view_consistent _ (@e_name V) (@e_class V) m)| |apply l_lookup_spec, Hok].
    eapply rm_is_lookup_ext; [exact Hext|exact Hspec].
  - rewrite (cat_get_refine c nm cls Hwf). cbn [bind]. eexists. eexists. split; [reflexivity|].
    split; [exact Hsim|apply Hext].
  - eexists. eexists. split; [reflexivity|]. split; [exact Hsim|].
    eapply rm_is_iter_perm; [exact Hext|apply cat_iter_refine; exact Hwf|apply l_iter_spec; exact Hok].
Qed.

Lemma cat_run_sim : forall h c m, sim c m ->
  exists c' xs, cat_run c h = Ok (c', xs) /\
                sim c' (fst (l_run (@e_name V) (@e_class V) m (map op_spec h))) /\
                Forall2 r_out_equiv (map out_spec xs) (snd (l_run (@e_name V) (@e_class V) m (map op_spec h))).
Proof.
  unfold cat_run.
  induction h as [|o h IH]; intros c m Hsim; simpl.
  - eexists. eexists. split; [reflexivity|]. split; [exact Hsim|constructor].
  - destruct (cat_step_sim c m o Hsim) as [c1 [x [Hstep [Hsim1 Hout]]]].
    unfold cat_step in Hstep. rewrite Hstep. cbn [bind].
    destruct (l_step (@e_name V) (@e_class V) m (op_spec o)) as [m1 y]. simpl in Hsim1, Hout.
    destruct (IH c1 m1 Hsim1) as [c2 [xs [-> [Hsim2 Houts]]]]. cbn [bind].
    destruct (l_run (@e_name V) (@e_class V) m1 (map op_spec h)) as [m2 ys]. simpl in *.
    eexists. eexists. split; [reflexivity|]. split; [exact Hsim2|]. constructor; assumption.
Qed.

Lemma cat_run_wf h : exists c xs, cat_run cat_new h = Ok (c, xs) /\ wf_cat c.
Proof.
  destruct (cat_run_sim h cat_new [] sim_empty) as [c [xs [H [[Hwf _] _]]]]. eauto.
Qed.

Lemma cat_history (h : list (cat_op V)) :
  exists c xs, cat_run cat_new h = Ok (c, xs) /\
    sim c (fst (l_run (@e_name V) (@e_class V) [] (map op_spec h))) /\
    Forall2 (@r_out_equiv _) (map out_spec xs) (snd (l_run (@e_name V) (@e_class V) [] (map op_spec h))).
Proof. exact (cat_run_sim h cat_new [] sim_empty). Qed.

End C.

Arguments abs {V}.
Arguments wf_cat {V}.
Arguments op_spec {V}.
Arguments out_spec {V}.
Arguments sim {V}.

(* regression witness: the pruning test of the pinned code *)

Definition c22_parent : entry N := mkEntry [[97%N]] 1%N 10%N.
Definition c22_child : entry N := mkEntry [[98%N]; [97%N]] 1%N 11%N.

Lemma remove_prefix_refuted :
  exists c xs c',
    cat_run_gen false cat_new [OpInsert c22_parent; OpInsert c22_child] = Ok (c, xs) /\
    cat_remove_gen false c [[98%N]; [97%N]] 1%N = Ok (c', Some c22_child) /\
    (1%N, [[97%N]]) <> (1%N, canon [[98%N]; [97%N]]) /\
    abs c (1%N, [[97%N]]) = Some c22_parent /\ abs c' (1%N, [[97%N]]) = None.
Proof.
  eexists. eexists. eexists. split; [vm_compute; reflexivity|].
  split; [vm_compute; reflexivity|]. split; [discriminate|]. split; vm_compute; reflexivity.
Qed.
