(* Composition: what the zone lookups hand to query answering, for an arbitrary predicate P on RDATA that
   holds of every record of the zone (Proofs/QueryWfP.v is the case "octets < 256"): every RDATA of a lookup result is the RDATA of a record (so P holds of it),
   reported RRsets are non-empty, their types are types of records, and the owner of a referral is
   a suffix (modulo ASCII case) of the name looked up. *)
From QV Require Import Base.ListX Model.ZoneTree Spec.ZoneLookupS Proofs.ZoneBaseP Proofs.QueryWfP.
Local Open Scope nat_scope.

Section WfP.
Variable req : N -> N -> bytes -> bytes -> bool.
Variable apex : name.
Variable cls : N.
Variable R : list record.
Variable P : N -> bytes -> Prop.      (* indexed by the record type *)
Hypothesis HR : Forall (fun r => P (r_type r) (r_rdata r)) R.

Lemma keep_last_nonempty ty : forall l, l <> [] -> keep_last req cls l ty <> [].
Proof.
  induction l as [|x l IH]; intros Hne; [congruence|]. cbn [keep_last].
  destruct (existsb _ l) eqn:E; [|discriminate].
  apply IH. destruct l; [discriminate|discriminate].
Qed.

Lemma dedup_first_nonempty ty l : l <> [] -> dedup_first req cls l ty <> [].
Proof.
  intros Hne. unfold dedup_first. intros H.
  assert (H' : keep_last req cls (rev l) ty = []).
  { rewrite <- (rev_involutive (keep_last req cls (rev l) ty)). rewrite H. reflexivity. }
  revert H'. apply keep_last_nonempty. intros Hr. apply Hne. rewrite <- (rev_involutive l), Hr. reflexivity.
Qed.

Lemma spec_rrset_facts m ty rs : spec_rrset req cls R m ty = Some rs ->
  Forall (P ty) (rs_rdatas rs) /\ rs_rdatas rs <> [] /\ rs_type rs = ty.
Proof.
  unfold spec_rrset. destruct (records_at R m ty) as [|r0 rest] eqn:E; [discriminate|].
  intros H. inversion H; subst. clear H. cbn [rs_rdatas rs_type]. split; [|split].
  - apply Forall_forall. intros x Hx. apply (dedup_first_In req cls) in Hx.
    change (In x (map r_rdata (r0 :: rest))) in Hx. apply in_map_iff in Hx. destruct Hx as (r & <- & Hr).
    assert (Hr' : In r (records_at R m ty)) by (rewrite E; exact Hr).
    unfold records_at in Hr'. apply filter_In in Hr'. destruct Hr' as [Hr' Hf].
    apply andb_prop in Hf. destruct Hf as [_ Hf]. apply N.eqb_eq in Hf. rewrite <- Hf.
    rewrite Forall_forall in HR. apply HR. exact Hr'.
  - apply dedup_first_nonempty. discriminate.
  - reflexivity.
Qed.

Definition single_good (ty : N) (s : single_rrset) : Prop := Forall (P ty) (snd s) /\ snd s <> [].

Lemma single_of_good m ty s : single_of req cls R m ty = Some s -> single_good ty s.
Proof.
  unfold single_of. destruct (spec_rrset req cls R m ty) as [rs|] eqn:E; [|discriminate].
  intros H. inversion H; subst. destruct (spec_rrset_facts _ _ _ E) as (A & B & _). split; auto.
Qed.

Lemma referral_ns_P c : Forall (P 2%N) (snd (referral_ns req cls R c)).
Proof.
  unfold referral_ns. destruct (single_of req cls R c 2) as [s|] eqn:E.
  - apply (single_of_good _ _ _ E).
  - constructor.
Qed.

Lemma spec_rrsets_good m x : In x (spec_rrsets req cls R m) ->
  Forall (P (rs_type x)) (rs_rdatas x) /\ rs_rdatas x <> [].
Proof.
  unfold spec_rrsets. intros H. apply in_flat_map in H. destruct H as (ty & _ & H).
  destruct (spec_rrset req cls R m ty) as [rs|] eqn:E; [|contradiction].
  destruct H as [<-|[]]. destruct (spec_rrset_facts _ _ _ E) as (A & B & C). rewrite C. auto.
Qed.

(* the owner of a referral: a suffix of the name looked up, modulo ASCII case *)
Definition suffix_ci (c qn : name) : Prop := exists k, lc c = skipn k (lc qn).

Lemma base_referral_suffix qn u sbc c : spec_lookup_base req apex cls R qn u sbc = Some (SReferral c) ->
  exists k, c = skipn k (lc qn).
Proof.
  unfold spec_lookup_base. destruct (negb (in_zone apex qn)); [destruct u; discriminate|].
  intros H. inversion H as [H1]. clear H.
  destruct (if sbc then None else find (is_cut req apex cls R) (path_below apex (lc qn))) as [c'|] eqn:E.
  - inversion H1; subst c'. destruct sbc; [discriminate|]. apply find_some in E. destruct E as [E _].
    unfold path_below in E. apply in_map_iff in E. destruct E as (k & <- & _). exists k. reflexivity.
  - destruct (exists_name apex R (lc qn)); [discriminate|]. destruct (exists_name apex R _); discriminate.
Qed.

Definition lookup_good (qn : name) (ty : N) (r : lookup_result) : Prop :=
  match r with
  | LFound s _ => single_good ty s
  | LCname s _ => single_good 5%N s
  | LReferral c ns => Forall (P 2%N) (snd ns) /\ suffix_ci c qn
  | _ => True
  end.

Lemma spec_lookup_good qn ty u sbc r : spec_lookup req apex cls R qn ty u sbc = Some (norm_lookup r) ->
  lookup_good qn ty r.
Proof.
  unfold spec_lookup. destruct (spec_lookup_base req apex cls R qn u sbc) as [b|] eqn:Eb; [|discriminate].
  intros H. inversion H as [H1]. clear H. destruct b as [m sos|c| |].
  - destruct (single_of req cls R m ty) as [s|] eqn:E1.
    + destruct r; inversion H1; subst. apply (single_of_good _ _ _ E1).
    + destruct (single_of req cls R m 5) as [s|] eqn:E2; destruct r; inversion H1; subst; cbn; auto.
      apply (single_of_good _ _ _ E2).
  - destruct r; inversion H1; subst. cbn. split; [apply referral_ns_P|].
    destruct (base_referral_suffix _ _ _ _ Eb) as (k & Hk). exists k. congruence.
  - destruct r; inversion H1; exact I.
  - destruct r; inversion H1; exact I.
Qed.

Definition addrs_good (r : lookup_addrs_result) : Prop :=
  match r with
  | AFound a aaaa _ => (forall s, a = Some s -> single_good 1%N s) /\ (forall s, aaaa = Some s -> single_good 28%N s)
  | _ => True
  end.

Lemma spec_addrs_good qn u sbc r : spec_lookup_addrs req apex cls R qn u sbc = Some (norm_addrs r) -> addrs_good r.
Proof.
  unfold spec_lookup_addrs. destruct (spec_lookup_base req apex cls R qn u sbc) as [b|] eqn:Eb; [|discriminate].
  intros H. inversion H as [H1]. clear H. destruct b as [m sos|c| |]; destruct r; inversion H1; subst; cbn; auto.
  split; intros s Hs.
  - apply (single_of_good _ _ _ Hs).
  - destruct (cls =? 1)%N; [|discriminate]. apply (single_of_good _ _ _ Hs).
Qed.

Definition all_good (qn : name) (r : lookup_all_result) : Prop :=
  match r with
  | LAFound rrsets _ => Forall (fun x => Forall (P (rs_type x)) (rs_rdatas x) /\ rs_rdatas x <> []) rrsets
  | LAReferral c ns => Forall (P 2%N) (snd ns) /\ suffix_ci c qn
  | _ => True
  end.

Lemma spec_all_good qn u sbc r : spec_lookup_all req apex cls R qn u sbc = Some (norm_all r) -> all_good qn r.
Proof.
  unfold spec_lookup_all. destruct (spec_lookup_base req apex cls R qn u sbc) as [b|] eqn:Eb; [|discriminate].
  intros H. inversion H as [H1]. clear H. destruct b as [m sos|c| |]; destruct r; inversion H1; subst; cbn; auto.
  - apply Forall_forall. intros x Hx. eapply spec_rrsets_good; eauto.
  - split; [apply referral_ns_P|]. destruct (base_referral_suffix _ _ _ _ Eb) as (k & Hk). exists k. congruence.
Qed.

End WfP.
