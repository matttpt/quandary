(* Composition: the response to a clean QUERY (Model/QueryW.v: prepare_w / respond_w) is a contract-obeying run
   from a fresh Writer.  Totality of the preparation is proved on explicit 16-field writer states (hdr_state,
   hq_state, he_state), its trace separately (prepare_Reach); respond_w_run: respond_w never returns None and its
   result is that of run_writer on a sequence satisfying what C12's theorems ask for. *)
From QV Require Import Base.ListX Gen.Consts Model.NameWire Model.MsgWriter Model.ZoneTree
  Spec.ZoneLookupS Proofs.ZoneInvP Model.Query Model.QueryW
  Proofs.MsgWriterP Proofs.MsgWriterScanP Proofs.MsgWriterNameP Proofs.MsgWriterInvP Proofs.MsgWriterOpP
  Proofs.MsgWriterStepP Proofs.MsgWriterHdrP Proofs.MsgWriterRtP
  Proofs.ComposeTraceP Proofs.ComposeWfP Proofs.ComposeNameP Proofs.ComposeKeyP.
Local Open Scope nat_scope.

(* the Writer while only the header has been touched *)
Definition hdr_state (b : bytes) (lim : nat) : writer :=
  mkW b 12 lim lim 12 SecQuestion 0 0 0 0 None None None Standard None None.

Lemma writer_new_hdr buf limit : 12 <= Nat.min limit (length buf) ->
  exists b, writer_new buf limit = Ok (hdr_state b (Nat.min limit (length buf))) /\ length b = length buf.
Proof.
  intros H. unfold writer_new. change header_size with 12.
  destruct (Nat.min limit (length buf) <? 12) eqn:E1; [apply Nat.ltb_lt in E1; lia|].
  destruct (length buf <? 12) eqn:E2; [apply Nat.ltb_lt in E2; lia|].
  exists (repeat 0%N 12 ++ skipn 12 buf). split; [reflexivity|]. rewrite app_length, repeat_length, skipn_length. lia.
Qed.

(* header (+ optional question) written, nothing else *)
Definition hq_state (b : bytes) (c lim : nat) (qd : N) (pr : option prior) : writer :=
  mkW b c lim lim c SecQuestion qd 0 0 0 pr None None Standard None None.

Lemma hq_write b c lim qd pr pos data : pos + length data <= 12 -> 12 <= length b ->
  exists b', w_write (hq_state b c lim qd pr) pos data = Ok (hq_state b' c lim qd pr) /\ length b' = length b.
Proof.
  intros H1 H2. unfold w_write, buf_write. cbn [w_buf hq_state].
  destruct (pos + length data <=? length b) eqn:E; [|apply Nat.leb_gt in E; lia].
  exists (firstn pos b ++ data ++ skipn (pos + length data) b). split; [reflexivity|]. rewrite !app_length, firstn_length, skipn_length. lia.
Qed.
Lemma hq_modify b c lim qd pr i f : N.to_nat i < 12 -> 12 <= length b ->
  exists b', w_modify (hq_state b c lim qd pr) i f = Ok (hq_state b' c lim qd pr) /\ length b' = length b.
Proof.
  intros H1 H2. unfold w_modify. cbn [w_buf hq_state].
  destruct (nth_error b (N.to_nat i)) as [x|] eqn:E; [|apply nth_error_None in E; lia].
  apply (hq_write b c lim qd pr (N.to_nat i) [f x]); simpl; lia.
Qed.

Definition he_state (b : bytes) (c lim av : nat) (qd : N) (pr : option prior) (e : ednsr) : writer :=
  mkW b c lim av c SecQuestion qd 0 0 1 pr None None Standard (Some e) None.

Lemma set_edns_hq b c lim qd pr size : c + 11 <= lim ->
  MsgWriter.set_edns size (hq_state b c lim qd pr) = Ok (tt, he_state b c lim (lim - 11) qd pr (mkEdns size 0)).
Proof.
  intros H. unfold MsgWriter.set_edns. cbn [w_edns hq_state w_avail w_cursor w_ar]. change opt_record_size with 11.
  destruct (lim <? c + 11) eqn:E; [apply Nat.ltb_lt in E; lia|]. reflexivity.
Qed.

Lemma push_fits data b c lim a rs sec qd an ns ar q o r m e t : c + length data <= a -> a <= length b ->
  exists b', try_push data (mkW b c lim a rs sec qd an ns ar q o r m e t) =
             Ok (tt, mkW b' (c + length data) lim a rs sec qd an ns ar q o r m e t) /\ length b' = length b.
Proof.
  intros H2 H3. unfold try_push. cbn [w_avail w_cursor].
  destruct (a <? c) eqn:E1; [apply Nat.ltb_lt in E1; lia|].
  destruct (length data <=? a - c) eqn:E2; [|apply Nat.leb_gt in E2; lia].
  unfold w_write, buf_write. cbn [w_buf].
  destruct (c + length data <=? length b) eqn:E3; [|apply Nat.leb_gt in E3; lia].
  exists (firstn c b ++ data ++ skipn (c + length data) b). split; [reflexivity|]. rewrite !app_length, firstn_length, skipn_length. lia.
Qed.

Lemma question_hq b lim n qt qc : 12 + length (nm_wire n) + 4 <= lim -> lim <= length b ->
  exists b' pr, add_question n qt qc (hq_state b 12 lim 0 None) = Ok (tt, hq_state b' (12 + length (nm_wire n) + 2 + 2) lim 1 pr) /\
                length b' = length b.
Proof.
  intros H1 H2. unfold add_question. cbn [w_section hq_state w_qd checked_add16].
  change (checked_add16 0 1) with (Some 1%N). unfold with_rollback.
  assert (Hu : write_unhinted_name n (hq_state b 12 lim 0 None) = write_uncompressed_name n (hq_state b 12 lim 0 None)).
  { unfold write_unhinted_name. cbn [w_mode hq_state]. destruct (2 <? length (nm_wire n)); [|reflexivity].
    unfold write_compressed_unhinted_name. cbn [w_mro w_qname w_mrn hq_state or_else]. reflexivity. }
  rewrite Hu. unfold write_uncompressed_name. unfold hq_state at 2.
  destruct (push_fits (nm_wire n) b 12 lim lim 12 SecQuestion 0 0 0 0 None None None Standard None None) as (b1 & E1 & L1); try lia.
  unfold hq_state at 1. rewrite E1. cbn [bind]. cbn [w_qd N.eqb]. unfold set_qname. cbn [w_buf w_cursor w_limit w_avail w_rr_start w_section w_qd w_an w_ns w_ar
    w_qname w_mro w_mrn w_mode w_edns w_tsig].
  unfold try_push_u16.
  match goal with |- context [try_push (be16 qt) (mkW ?bb ?c ?l ?a ?rs ?sec ?qd ?an ?ns ?ar ?q ?o ?r ?m ?e ?t)] =>
    destruct (push_fits (be16 qt) bb c l a rs sec qd an ns ar q o r m e t) as (b2 & E2 & L2); try (rewrite ?be16_length; lia) end.
  rewrite E2. cbn [bind].
  match goal with |- context [try_push (be16 qc) (mkW ?bb ?c ?l ?a ?rs ?sec ?qd ?an ?ns ?ar ?q ?o ?r ?m ?e ?t)] =>
    destruct (push_fits (be16 qc) bb c l a rs sec qd an ns ar q o r m e t) as (b3 & E3 & L3); try (rewrite ?be16_length; lia) end.
  rewrite E3. cbn [bind]. rewrite !be16_length.
  exists b3, (option_map (fun p : nat => prior_new p n) (hp_new 12)). split; [reflexivity|lia].
Qed.

Definition first_limit (tcp : bool) (buf : bytes) : nat :=
  Nat.min (if tcp then tcp_limit_w else udp_limit_w) (length buf).

Lemma first_limit_ge tcp buf : 512 <= length buf -> 512 <= first_limit tcp buf.
Proof.
  intros H. unfold first_limit, tcp_limit_w, udp_limit_w. destruct tcp.
  - lia.
  - lia.
Qed.

Theorem prepare_total buf tcp id rd qname qtype qclass edns limit : 512 <= length buf -> length (nm_wire qname) <= 255 ->
  exists w, prepare_w buf tcp id rd qname qtype qclass edns limit = Some w.
Proof.
  intros Hb Hq. pose proof (first_limit_ge tcp buf Hb) as HL. unfold prepare_w.
  destruct (writer_new_hdr buf (if tcp then tcp_limit_w else udp_limit_w)) as (b0 & E0 & L0); [fold (first_limit tcp buf); lia|].
  fold (first_limit tcp buf) in E0. rewrite E0.
  assert (HLb : first_limit tcp buf <= length buf) by (unfold first_limit; lia).
  set (lim := first_limit tcp buf) in *. change (hdr_state b0 lim) with (hq_state b0 12 lim 0 None).
  unfold set_id. destruct (hq_write b0 12 lim 0 None (N.to_nat ID_START) (be16 id)) as (b1 & E1 & L1); [simpl; lia|lia|].
  rewrite E1. cbn [bind]. unfold set_qr, w_set_flag.
  destruct (hq_modify b1 12 lim 0 None QR_BYTE (set_bit QR_MASK true)) as (b2 & E2 & L2); [simpl; lia|lia|]. rewrite E2. cbn [bind].
  unfold set_opcode.
  match goal with |- context [w_modify _ OPCODE_BYTE ?f] =>
    destruct (hq_modify b2 12 lim 0 None OPCODE_BYTE f) as (b3 & E3 & L3); [simpl; lia|lia|] end.
  rewrite E3. cbn [bind]. unfold set_rd, w_set_flag.
  destruct (hq_modify b3 12 lim 0 None RD_BYTE (set_bit RD_MASK rd)) as (b4 & E4 & L4); [simpl; lia|lia|]. rewrite E4.
  destruct (question_hq b4 lim qname qtype qclass) as (b5 & pr & E5 & L5); [lia|lia|]. rewrite E5.
  destruct edns as [size|]; [|eexists; reflexivity].
  rewrite set_edns_hq by lia. destruct tcp; [eexists; reflexivity|].
  match goal with |- context [MsgWriter.set_limit limit ?w] => assert (Hi : Inv_n w) end.
  { constructor; cbn; try (change header_size with 12); try lia. }
  match goal with |- context [MsgWriter.set_limit limit ?w] => destruct (set_limit_ok limit w Hi) as (nl & av & ->) end.
  eexists; reflexivity.
Qed.

Lemma w_write_no_err w pos data e : w_write w pos data <> Err e.
Proof. unfold w_write. destruct (buf_write _ _ _); discriminate. Qed.

Lemma w_write_qd w pos data w' : w_write w pos data = Ok w' -> w_qd w' = w_qd w.
Proof. intros H. apply w_write_inv in H as (b' & _ & ->). reflexivity. Qed.
Lemma w_modify_qd w i f w' : w_modify w i f = Ok w' -> w_qd w' = w_qd w.
Proof. unfold w_modify. destruct (nth_error _ _); [|discriminate]. apply w_write_qd. Qed.

Definition pre_ops (tcp : bool) (id : N) (rd : bool) (qname : wname) (qtype qclass : N) (edns : option N) (limit : nat)
  : list wop :=
  [OSetId id; OSetQr true; OSetOpcode 0; OSetRd rd; OAddQuestion qname qtype qclass] ++
  match edns with None => [] | Some size => OSetEdns size :: (if tcp then [] else [OSetLimit limit]) end.

Definition g_prepared (qname : wname) : gn := mkGn (Some qname) None None [].

Lemma Reach_AInv Pop d g ops outs d' g' : Reach Pop d g ops outs d' g' -> forall L, AInv d g L -> exists L', AInv d' g' L'.
Proof.
  induction 1 as [d g|d g o d1 r ops outs d' g' [W1 _] Hc Hs Hst _ IH]; intros L Hi; [eauto|].
  pose proof (step_ok_all d g L o Hi W1 Hc) as S. unfold step_ok in S. rewrite Hs in S. destruct S as [L1 H1]. eauto.
Qed.

(* a finished trace from a fresh Writer: finish succeeds, and that is the result of run_writer *)
Lemma Reach_finish Pop buf lim w0 ops outs d' g' L : writer_new buf lim = Ok w0 ->
  Reach Pop (mkD w0 []) g0 ops outs d' g' -> AInv d' g' L ->
  exists len b, finish (d_w d') = Ok (len, b) /\ run_writer buf lim ops = Ok (mkRR outs (d_regs d') (Some (len, b))).
Proof.
  intros E0 HRe Hi. destruct (finish_ok (fun x => x) d' g' L Hi) as (wF & LF & EF & _).
  destruct (Reach_run Pop _ _ _ _ _ _ HRe) as (Hrun & _).
  exists (w_cursor wF), (w_buf wF). split; [exact EF|].
  unfold run_writer, run_writer_gen. rewrite E0. cbn [bind]. rewrite Hrun. cbn [bind]. unfold finish. rewrite EF. reflexivity.
Qed.

Section Prep.
Variable Pop : wop -> Prop.
Hypothesis Hpop_hdr : forall o, match o with
  | OSetId _ | OSetQr true | OSetOpcode _ | OSetRd _ | OAddQuestion _ _ _ | OSetEdns _ | OSetLimit _ => Pop o
  | _ => True end.

(* prepare_w is the run of [pre_ops]: the header setters, then the question (which sets the QNAME anchor of the
   ghost, the question count being 0), then the EDNS setters *)
Theorem prepare_Reach buf tcp id rd qname qtype qclass edns limit w :
  prepare_w buf tcp id rd qname qtype qclass edns limit = Some w ->
  good_name qname -> (id < 65536)%N -> (qtype < 65536)%N -> (qclass < 65536)%N ->
  (forall s, edns = Some s -> (s < 65536)%N) ->
  exists w0, writer_new buf (if tcp then tcp_limit_w else udp_limit_w) = Ok w0 /\
    Reach Pop (mkD w0 []) g0 (pre_ops tcp id rd qname qtype qclass edns limit)
          (map (fun _ => RUnit) (pre_ops tcp id rd qname qtype qclass edns limit)) (mkD w []) (g_prepared qname).
Proof.
  intros H [Gn1 Gn2] Hid Hqt Hqc Hed. unfold prepare_w in H.
  destruct (writer_new buf (if tcp then tcp_limit_w else udp_limit_w)) as [w0| |] eqn:E0; try discriminate.
  exists w0. split; [reflexivity|].
  assert (Hqd0 : w_qd w0 = 0%N).
  { unfold writer_new in E0. destruct (_ <? _); [discriminate|]. destruct (_ <? _); [discriminate|]. inversion E0. reflexivity. }
  set (pre := pre_ops tcp id rd qname qtype qclass edns limit).
  enough (Hrun : run (mkD w0 []) pre = Ok (mkD w [], map (fun _ => RUnit) pre, true) /\
                 grun (mkD w0 []) g0 pre = g_prepared qname).
  { destruct Hrun as [Hrun <-]. apply run_Reach; [exact Hrun| |].
    - unfold pre, pre_ops. destruct edns as [size|]; [specialize (Hed size eq_refl); destruct tcp|];
        repeat (apply Forall_cons; [split; [|split; [|split]]|]); try apply Forall_nil; cbn [op_wf op_wf2 op_wf3]; auto;
        try reflexivity; match goal with |- Pop ?o => exact (Hpop_hdr o) end.
    - unfold pre, pre_ops. destruct edns as [size|]; [destruct tcp|]; repeat constructor. }
  unfold pre, pre_ops. cbn [app map run grun step d_w].
  destruct (set_id id w0) as [w1|e|] eqn:E1; cbn [bind of_R stops gstep run grun step d_w d_regs] in *; try discriminate.
  destruct (set_qr true w1) as [w2|e|] eqn:E2; cbn [bind of_R stops gstep run grun step d_w d_regs] in *; try discriminate.
  destruct (set_opcode 0 w2) as [w3|e|] eqn:E3; cbn [bind of_R stops gstep run grun step d_w d_regs] in *; try discriminate.
  destruct (set_rd rd w3) as [w4|e|] eqn:E4; cbn [bind of_R stops gstep run grun step d_w d_regs] in *; try discriminate.
  assert (Hqd4 : w_qd w4 = 0%N).
  { unfold set_id in E1. unfold set_qr, set_rd, w_set_flag, set_opcode in *.
    rewrite (w_modify_qd _ _ _ _ E4), (w_modify_qd _ _ _ _ E3), (w_modify_qd _ _ _ _ E2), (w_write_qd _ _ _ _ E1). exact Hqd0. }
  rewrite Hqd4.
  destruct (add_question qname qtype qclass w4) as [[u5 w5]|e|]; cbn [bind of_M stops N.eqb run grun step d_w d_regs] in *; try discriminate.
  fold (g_prepared qname).
  destruct edns as [size|]; cbn [app map run grun step d_w]; [|inversion H; split; reflexivity].
  destruct (set_edns size w5) as [[u6 w6]|e|]; cbn [bind of_M stops gstep run grun step d_w d_regs] in *; try discriminate.
  destruct tcp; cbn [app map run grun step d_w]; [inversion H; split; reflexivity|].
  destruct (MsgWriter.set_limit limit w6) as [w7|e|]; cbn [bind of_R stops gstep] in *; try discriminate.
  inversion H. split; reflexivity.
Qed.

Lemma prepared_Traced buf tcp id rd qname qtype qclass edns limit :
  512 <= length buf -> good_name qname ->
  (id < 65536)%N -> (qtype < 65536)%N -> (qclass < 65536)%N -> (forall s, edns = Some s -> (s < 65536)%N) ->
  exists w w0, prepare_w buf tcp id rd qname qtype qclass edns limit = Some w /\
    writer_new buf (if tcp then tcp_limit_w else udp_limit_w) = Ok w0 /\
    Traced Pop (mkD w0 []) g0 (pre_ops tcp id rd qname qtype qclass edns limit)
           (map (fun _ => RUnit) (pre_ops tcp id rd qname qtype qclass edns limit)) (mkD w []) (g_prepared qname).
Proof.
  intros Hb Gq Hid Hqt Hqc Hed.
  destruct (prepare_total buf tcp id rd qname qtype qclass edns limit Hb (proj2 Gq)) as (w & Ew).
  destruct (prepare_Reach buf tcp id rd qname qtype qclass edns limit w Ew Gq Hid Hqt Hqc Hed) as (w0 & E0 & Rpre).
  destruct (Reach_AInv _ _ _ _ _ _ _ Rpre L0 (AInv_new _ _ _ E0)) as (Lp & Hip).
  exists w, w0. split; [exact Ew|]. split; [exact E0|]. exists Lp. split; [exact Rpre|exact Hip].
Qed.

End Prep.

Section Respond.
Variable req : N -> N -> bytes -> bytes -> bool.
Variable apex : name.
Variable cls : N.
Variable R : list record.
Variable z : zone.
Hypothesis Hinv : Inv req apex cls z R.
Variable PR : N -> bytes -> Prop.
Variable Pop : wop -> Prop.
Hypothesis HR : Forall (fun r => Pz PR (r_type r) (r_rdata r)) R.
Hypothesis Hapex : good_name apex.
Hypothesis Hclass : (cls < 65536)%N.
Hypothesis Hpop_rr : forall s hs owner ty ttl rd vec, PR ty rd -> Pop (OAddRr s hs owner ty (z_class z) ttl rd vec).
Hypothesis Hpop_rrset : forall s hs owner ty ttl rds vec, Forall (PR ty) rds -> Pop (OAddRrset s hs owner ty (z_class z) ttl rds vec).
Hypothesis Hpop_other : forall o, match o with
  | OSetId _ | OSetQr true | OSetOpcode _ | OSetRd _ | OAddQuestion _ _ _ | OSetEdns _ | OSetLimit _
  | OSetAa _ | OSetTc _ | OSetRcode _ | OClearRrs => Pop o
  | _ => True end.
Variable negttl : N -> N -> N.

Theorem respond_w_run buf tcp id rd qname qtype qclass edns limit :
  512 <= length buf -> good_name qname -> in_zone apex qname = true ->
  (id < 65536)%N -> (qtype < 65536)%N -> (qclass < 65536)%N -> (forall s, edns = Some s -> (s < 65536)%N) ->
  exists len b ops w0 rr,
    respond_w negttl buf tcp id rd qname qtype qclass edns limit z = Some (len, b) /\
    writer_new buf (if tcp then tcp_limit_w else udp_limit_w) = Ok w0 /\
    run_contract (mkD w0 []) g0 ops /\ Forall op_wf ops /\ Forall op_wf2 ops /\ Forall op_wf3 ops /\ Forall Pop ops /\
    run_writer buf (if tcp then tcp_limit_w else udp_limit_w) ops = Ok rr /\ rr_final rr = Some (len, b) /\
    length (rr_outcomes rr) = length ops.
Proof.
  intros Hb Gq Hz Hid Hqt Hqc Hed.
  assert (Hhdr : forall o, match o with
    | OSetId _ | OSetQr true | OSetOpcode _ | OSetRd _ | OAddQuestion _ _ _ | OSetEdns _ | OSetLimit _ => Pop o
    | _ => True end).
  { intros o. pose proof (Hpop_other o) as H. destruct o; auto. }
  destruct (prepared_Traced Pop Hhdr buf tcp id rd qname qtype qclass edns limit Hb Gq Hid Hqt Hqc Hed) as (w & w0 & Ew & E0 & Lp & Rpre & Hip).
  destruct (handle_S req apex cls R z Hinv PR Pop HR Hapex Hclass Hpop_rr Hpop_rrset
              (fun b => Hpop_other (OSetAa b)) (fun b => Hpop_other (OSetTc b)) (fun rc => Hpop_other (OSetRcode rc))
              (Hpop_other OClearRrs) negttl (mkD w0 []) g0 qname Gq Hz qtype tcp (mkD w []) (g_prepared qname)
              (ex_intro _ _ (ex_intro _ _ (ex_intro _ Lp (conj Rpre Hip)))) eq_refl)
    as (w' & d' & g' & Eh & (ops & outs & L & HRe & Hi) & Hw').
  cbn [d_w] in Eh.
  destruct (Reach_finish Pop buf _ w0 ops outs d' g' L E0 HRe Hi) as (len & b & EF & Erun).
  destruct (Reach_run Pop _ _ _ _ _ _ HRe) as (_ & Hrc & F1 & F2 & F3 & F4 & Hlen).
  exists len, b, ops, w0, (mkRR outs (d_regs d') (Some (len, b))).
  split; [unfold respond_w; rewrite Ew, Eh, <- Hw', EF; reflexivity|].
  repeat (split; [assumption|]). split; [reflexivity|exact Hlen].
Qed.

End Respond.
