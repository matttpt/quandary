(* The zone store with the real Rdata::equals and the real name parser: [req_real] and [parse_real] are
   C19's and C14's models and equal the specification's [spec_equals] / [spec_rdata_name] on octet strings
   (the u8 type: where "every RDATA octet < 256" enters); equalities that agree on the records' RDATA
   build the same zone, so the zone built with [req_real] is the one built with [spec_equals]. *)
From QV Require Import Base.Res Base.Octets Base.ListX Gen.ZoneConsts Model.ZoneTree Model.ZoneValid
  Spec.ZoneLookupS Spec.ZoneValidS Model.ZoneReal Spec.ZoneRealS
  Proofs.ZoneBaseP Proofs.ZoneRrsetP Proofs.ZoneViewP Proofs.ZoneInvP Proofs.ZoneIterP Proofs.ZoneTopP
  Proofs.ZoneSpellP Proofs.ZoneStoreP Proofs.ZoneValidP.
From QV Require Model.NameWire Model.RdataM Spec.NameWireS Spec.NameRepr Spec.RdataFormatS Spec.RdataEqS
  Proofs.NameWireP Proofs.NameWireSP Proofs.RdNameP Proofs.RdNameEqP Proofs.RdataEqSP Proofs.RdataEqFullP
  Model.RdataSetM Proofs.RdataSetP.
Local Open Scope nat_scope.

Lemma equals_req_real c t a b : wf_bytes a -> wf_bytes b ->
  RdataM.equals c t a b = Ok (req_real c t a b).
Proof.
  intros Ha Hb. unfold req_real. rewrite (RdataEqFullP.equals_char c t a b Ha Hb). reflexivity.
Qed.

Lemma req_real_spec c t a b : wf_bytes a -> wf_bytes b -> req_real c t a b = spec_req c t a b.
Proof.
  intros Ha Hb. unfold req_real, spec_req. rewrite (RdataEqFullP.equals_char c t a b Ha Hb). reflexivity.
Qed.

Lemma spec_req_trans cls ty a b c :
  spec_req cls ty a b = true -> spec_req cls ty b c = true -> spec_req cls ty a c = true.
Proof. apply RdataEqSP.spec_equals_trans. Qed.

(* on octet strings the real equality is an equivalence (C19, restated for the zone's instance) *)
Lemma req_real_equiv c t :
  (forall a, wf_bytes a -> req_real c t a a = true) /\
  (forall a b, wf_bytes a -> wf_bytes b -> req_real c t a b = req_real c t b a) /\
  (forall a b d, wf_bytes a -> wf_bytes b -> wf_bytes d ->
     req_real c t a b = true -> req_real c t b d = true -> req_real c t a d = true).
Proof.
  split; [|split].
  - intros a Ha. rewrite req_real_spec by assumption. apply RdataEqSP.spec_equals_refl.
  - intros a b Ha Hb. rewrite !req_real_spec by assumption. apply RdataEqSP.spec_equals_sym.
  - intros a b d Ha Hb Hd. rewrite !req_real_spec by assumption. apply spec_req_trans.
Qed.

Lemma labels_from_name_of ls : RdataFormatS.valid_name ls ->
  forall n i, i + n = length ls -> labels_from (NameRepr.name_of ls) i n = Some (skipn i ls).
Proof.
  intros Hv. induction n as [|n IH]; intros i Hi.
  - simpl. rewrite skipn_all2 by lia. reflexivity.
  - cbn [labels_from]. rewrite (RdNameEqP.label_at_name_of ls i Hv) by lia.
    rewrite IH by lia. simpl.
    assert (Hlt : i < length ls) by lia.
    destruct (nth_error ls i) as [x|] eqn:E; [|apply nth_error_None in E; lia].
    rewrite (nth_error_nth _ _ _ E).
    f_equal. clear - E. revert i E. induction ls as [|y ls IHl]; intros [|i] E; simpl in *; try discriminate.
    + inversion E; reflexivity.
    + apply IHl. exact E.
Qed.

Lemma name_labels_name_of ls : RdataFormatS.valid_name ls ->
  name_labels (NameRepr.name_of ls) = Some ls.
Proof.
  intros Hv. unfold name_labels. simpl NameWire.n_offsets. rewrite RdNameEqP.offs_of_length.
  replace (S (length ls) - 1) with (length ls) by lia.
  rewrite (labels_from_name_of ls Hv (length ls) 0) by lia. reflexivity.
Qed.

Lemma decodes_unc_valid b ls l : NameWireS.decodes_uncompressed b ls l -> RdataFormatS.valid_name ls.
Proof. intros [D W]. split; [eapply RdNameP.decodes_labels_valid; eauto|exact W]. Qed.

Lemma spec_rdata_name_iff rd ls : spec_rdata_name rd = Some ls <-> rdata_is_name rd ls.
Proof.
  unfold spec_rdata_name, rdata_is_name. split.
  - destruct (NameWireS.spec_decode_name rd 0) as [[ls' l]|] eqn:E; [|discriminate].
    destruct (l =? length rd) eqn:L; [|discriminate]. intros H; inversion H; subst.
    apply Nat.eqb_eq in L. subst l.
    apply RdNameP.decodes_name0_unc, NameWireSP.spec_decode_name_iff. exact E.
  - intros D. apply RdNameP.decodes_name0_unc, NameWireSP.spec_decode_name_iff in D.
    rewrite D, Nat.eqb_refl. reflexivity.
Qed.

(* parse_real is Name::try_from_uncompressed_all as C14 models it, read as a label list: the parser
   never panics; when it returns a Name, that Name represents a valid label list [ls] (offsets and
   wire form of [ls]) and parse_real returns [ls] (every label access succeeds); when it returns an
   error parse_real returns None *)
Lemma parse_real_faithful rd : wf_bytes rd ->
  match NameWire.parse_uncompressed_name rd true with
  | Ok (nm, l) => l = length rd /\
                  exists ls, nm = NameRepr.name_of ls /\ RdataFormatS.valid_name ls /\ parse_real rd = Some ls
  | Err _ => parse_real rd = None
  | Panic => False
  end.
Proof.
  intros Hwf. destruct (NameWireP.parse_uncompressed_total rd true) as [Hp _].
  unfold parse_real.
  destruct (NameWire.parse_uncompressed_name rd true) as [[nm l]|e|] eqn:E; [| |congruence].
  - apply (NameWireP.parse_uncompressed_iff rd true nm l Hwf) in E.
    destruct E as (ls & D & -> & Hall). split; [auto|]. exists ls. split; [reflexivity|].
    split; [exact (decodes_unc_valid _ _ _ D)|]. apply name_labels_name_of. exact (decodes_unc_valid _ _ _ D).
  - reflexivity.
Qed.

Lemma parse_real_spec rd : wf_bytes rd -> parse_real rd = spec_rdata_name rd.
Proof.
  intros Hwf. destruct (NameWireP.parse_uncompressed_total rd true) as [Hp _].
  unfold parse_real.
  destruct (NameWire.parse_uncompressed_name rd true) as [[nm l]|e|] eqn:E; [| |congruence].
  - apply (NameWireP.parse_uncompressed_iff rd true nm l Hwf) in E.
    destruct E as (ls & D & -> & Hall). specialize (Hall eq_refl). subst l.
    rewrite (name_labels_name_of ls (decodes_unc_valid _ _ _ D)).
    symmetry. apply spec_rdata_name_iff. exact D.
  - destruct (spec_rdata_name rd) as [ls|] eqn:S; [|reflexivity]. exfalso.
    apply spec_rdata_name_iff in S.
    assert (P : NameWire.parse_uncompressed_name rd true = Ok (NameRepr.name_of ls, length rd)).
    { apply (NameWireP.parse_uncompressed_iff rd true _ _ Hwf). exists ls. auto. }
    congruence.
Qed.

(* the specification's first-occurrence de-duplication is C19's nodup_by *)
Lemma nodup_by_snoc eq l x : forall seen,
  RdataEqS.nodup_by eq seen (l ++ [x]) =
    let k := RdataEqS.nodup_by eq seen l in
    if existsb (fun y => eq x y) (seen ++ k) then k else k ++ [x].
Proof.
  induction l as [|a r IH]; intros seen; cbn [app RdataEqS.nodup_by].
  - cbv zeta. rewrite app_nil_r. destruct (existsb _ seen); reflexivity.
  - destruct (existsb (fun y => eq a y) seen) eqn:E.
    + apply IH.
    + rewrite IH. cbv zeta. rewrite <- app_assoc. simpl.
      destruct (existsb _ (seen ++ a :: _)); reflexivity.
Qed.

Lemma dedup_first_nodup_by req cls ty
  (req_trans : forall c t a b d, req c t a b = true -> req c t b d = true -> req c t a d = true) l :
  dedup_first req cls l ty = RdataEqS.nodup_by (req cls ty) [] l.
Proof.
  induction l as [|x l IH] using rev_ind; [reflexivity|].
  rewrite (dedup_first_snoc req req_trans), nodup_by_snoc, IH. cbv zeta. simpl.
  unfold rdataset_insert. destruct (existsb _ _); reflexivity.
Qed.

Lemma spec_rrset_nodup_by cls R m ty rs :
  spec_rrset spec_req cls R m ty = Some rs ->
  rs_type rs = ty /\
  rs_rdatas rs = RdataEqS.nodup_by (RdataEqS.spec_equals cls ty) [] (map r_rdata (records_at R m ty)).
Proof.
  unfold spec_rrset. destruct (records_at R m ty) as [|r0 rest] eqn:E; [discriminate|].
  intros H; inversion H; subst; clear H. simpl. split; [reflexivity|].
  apply (dedup_first_nodup_by spec_req cls ty). intros c t a b d. apply spec_req_trans.
Qed.

(* the list-level RdataSetOwned::insert of the zone model IS C19's octet-buffer model of it
   (Model/RdataSetM.v: the loop over the stored members calling [equals] with early exit, the u16 length
   prefix, the Vec<u8>), run with the real equality: it never fails, and the buffer it produces is the
   encoding of what [rdataset_insert req_real] returns *)
Lemma existsb_req_real c t r kept : wf_bytes r -> Forall wf_bytes kept ->
  existsb (fun y => RdataEqS.spec_equals c t r y) kept = existsb (fun ex => req_real c t r ex) kept.
Proof.
  intros Hr Hk. induction Hk as [|x k Hx Hk IH]; simpl; auto.
  rewrite IH, (req_real_spec c t r x Hr Hx). reflexivity.
Qed.

Lemma rdataset_insert_is_buffer be c t kept r :
  Forall RdataSetP.small kept -> Forall wf_bytes kept -> RdataSetP.small r -> wf_bytes r ->
  RdataSetM.set_insert be c t (RdataSetP.inner_of be kept) r =
    Ok (RdataSetP.inner_of be (rdataset_insert req_real c t kept r),
        negb (existsb (fun ex => req_real c t r ex) kept)).
Proof.
  intros Hs Hw Hr Hwr. rewrite (RdataEqFullP.set_insert_full c t be kept r Hs Hw Hr Hwr).
  rewrite (existsb_req_real c t r kept Hwr Hw). unfold rdataset_insert.
  destruct (existsb _ kept); reflexivity.
Qed.

Lemma rdataset_insert_buffer_iter be c t kept r :
  Forall RdataSetP.small kept -> RdataSetP.small r ->
  RdataSetM.set_iter be (RdataSetP.inner_of be (rdataset_insert req_real c t kept r)) =
    rdataset_insert req_real c t kept r.
Proof.
  intros Hs Hr. apply RdataSetP.set_iter_inner. unfold rdataset_insert.
  destruct (existsb _ kept); auto. apply Forall_app. split; auto.
Qed.

(* two equalities that agree on P build the same zone from records whose RDATA satisfy P: an add
   compares the new RDATA with the RDATA of one RRset of the tree, and those are RDATA of the records
   accepted so far (the invariant of the zone built with the second, transitive, equality) *)
Section Ext.
Variable P : bytes -> Prop.
Variables req1 req2 : N -> N -> bytes -> bytes -> bool.
Hypothesis Hext : forall c t a b, P a -> P b -> req1 c t a b = req2 c t a b.
Hypothesis req2_trans : forall c t a b d, req2 c t a b = true -> req2 c t b d = true -> req2 c t a d = true.

Lemma rdataset_insert_ext c t s rd : Forall P s -> P rd ->
  rdataset_insert req1 c t s rd = rdataset_insert req2 c t s rd.
Proof.
  intros Hs Hr. unfold rdataset_insert.
  replace (existsb (fun ex => req2 c t rd ex) s) with (existsb (fun ex => req1 c t rd ex) s); [reflexivity|].
  induction Hs as [|x s Hx Hs IH]; simpl; auto. rewrite IH, (Hext c t rd x Hr Hx). reflexivity.
Qed.

Lemma rrsets_add_ext c ty ttl rd l : (forall rs x, In rs l -> In x (rs_rdatas rs) -> P x) -> P rd ->
  rrsets_add req1 c ty ttl rd l = rrsets_add req2 c ty ttl rd l.
Proof.
  intros Hl Hr. induction l as [|r l IH]; simpl; auto.
  destruct (rs_type r =? ty)%N.
  - destruct (negb (rs_ttl r =? ttl)%N); auto. rewrite rdataset_insert_ext; auto.
    apply Forall_forall. intros x. apply Hl. left. reflexivity.
  - destruct (ty <? rs_type r)%N; auto. rewrite IH; [reflexivity|].
    intros rs x Hrs. apply Hl. right. exact Hrs.
Qed.

Lemma zone_add_ext apex cls z R r : Inv req2 apex cls z R -> (forall r0, In r0 R -> P (r_rdata r0)) ->
  P (r_rdata r) -> zone_add req1 z r = zone_add req2 z r.
Proof.
  intros HI HR Hr. unfold zone_add.
  destruct (negb (eq_or_subdomain_of (r_owner r) (zone_name z))); auto.
  destruct (negb (r_class r =? z_class z)%N); auto.
  destruct (usub _ _) as [level|e0|]; cbn [bind]; auto.
  rewrite (node_update_ext _ (rrsets_add req2 (r_class r) (r_type r) (r_ttl r) (r_rdata r))); [reflexivity..|].
  intros p n d V. apply rrsets_add_ext; [|exact Hr]. intros rs x Hrs Hx.
  pose proof (Inv_node _ _ _ _ _ p HI) as Hv. rewrite V in Hv. destruct Hv as (_ & _ & Hok).
  destruct (rrsets_ok_rdatas req2 _ _ _ _ _ _ Hok Hrs Hx) as (r0 & Hin & <-). apply HR, Hin.
Qed.

Lemma zone_build_ext apex cls recs : forall z R, Inv req2 apex cls z R ->
  (forall r0, In r0 R -> P (r_rdata r0)) -> Forall (fun r => P (r_rdata r)) recs ->
  zone_build req1 z recs = zone_build req2 z recs.
Proof.
  induction recs as [|r recs IH]; intros z R HI HR Hrecs; simpl; [reflexivity|].
  inversion Hrecs as [|? ? Hr Hrecs']; subst. rewrite (zone_add_ext apex cls z R r HI HR Hr).
  destruct (zone_add_step req2 req2_trans apex cls z R r HI) as (z' & -> & HI' & _).
  apply (IH z' _ HI'); [|exact Hrecs'].
  intros r0. unfold state_after. destruct (add_verdict apex cls R r); [apply HR|].
  intros Hin. apply in_app_iff in Hin. destruct Hin as [Hin|[<-|[]]]; [apply HR, Hin|exact Hr].
Qed.

End Ext.

Section ExtV.
Variable P : bytes -> Prop.
Hypothesis P_skipn : forall k rd, P rd -> P (skipn k rd).
Variables parse1 parse2 : bytes -> option name.
Hypothesis Hpar : forall rd, P rd -> parse1 rd = parse2 rd.

Lemma bind_ext {E A C} (r1 r2 : res E A) (f1 f2 : A -> res E C) :
  r1 = r2 -> (forall a, f1 a = f2 a) -> bind r1 f1 = bind r2 f2.
Proof. intros -> H. destruct r2; simpl; auto. Qed.

Lemma collect_ext {A} (f g : A -> res zone_err (list issue)) l :
  (forall x, In x l -> f x = g x) -> collect f l = collect g l.
Proof.
  induction l as [|x l IH]; intros H; simpl; auto.
  rewrite (H x (or_introl eq_refl)), IH; auto. intros y Hy. apply H. right. exact Hy.
Qed.

Lemma scan_rrset_ext z owner n rs : (forall rd, In rd (rs_rdatas rs) -> P rd) ->
  scan_rrset parse1 z owner n rs = scan_rrset parse2 z owner n rs.
Proof.
  intros Hrs. unfold scan_rrset.
  destruct (rs_type rs =? TYPE_CNAME)%N; auto.
  destruct (rs_type rs =? TYPE_MX)%N.
  - destruct (class_has_addrs (z_class z)); auto. apply collect_ext. intros rd Hrd.
    destruct (2 <=? length rd); auto. rewrite (Hpar _ (P_skipn 2 rd (Hrs rd Hrd))). reflexivity.
  - destruct (rs_type rs =? TYPE_NS)%N; auto.
    destruct (is_wildcard owner) as [w|e|]; cbn [bind]; auto.
    apply bind_ext; [|reflexivity].
    destruct (negb (name_len owner =? name_len (zone_name z)) && class_has_addrs (z_class z)); auto.
    apply collect_ext. intros rd Hrd. rewrite (Hpar _ (Hrs rd Hrd)). reflexivity.
Qed.

Lemma zone_validate_ext z :
  (forall n d rs rd, In (n, d) (zone_iter_by_node z) -> In rs d -> In rd (rs_rdatas rs) -> P rd) ->
  zone_validate parse1 z = zone_validate parse2 z.
Proof.
  intros Hz. unfold zone_validate.
  (* the apex node is the first the iteration yields *)
  assert (Hns : forall ttl rds rd, zone_ns z = Some (ttl, rds) -> In rd rds -> P rd).
  { unfold zone_ns. intros ttl rds rd E.
    destruct (rr_lookup TYPE_NS (node_data (z_apex z))) as [rs|] eqn:L; [|discriminate].
    injection E as _ <-. intros Hrd.
    apply (Hz (zone_name z) (node_data (z_apex z)) rs rd); [|exact (rr_lookup_In _ _ _ L)|exact Hrd].
    unfold zone_iter_by_node, zone_name. destruct (z_apex z). rewrite node_iter_unfold. left. reflexivity. }
  apply bind_ext; [|intros ns_i; apply bind_ext; [|reflexivity]].
  - destruct (zone_ns z) as [[ttl rds]|]; [|reflexivity]. destruct (class_has_addrs (z_class z)); [|reflexivity].
    apply collect_ext. intros rd Hrd. rewrite (Hpar _ (Hns ttl rds rd eq_refl Hrd)). reflexivity.
  - apply collect_ext. intros [n d] Hin. apply collect_ext. intros rs Hrs.
    apply scan_rrset_ext. intros rd. exact (Hz n d rs rd Hin Hrs).
Qed.

End ExtV.

Definition wf_record (r : record) : Prop := wf_bytes (r_rdata r).

Lemma build_real apex cls wide recs : Forall wf_record recs ->
  zone_build req_real (zone_new apex cls wide) recs = zone_build spec_req (zone_new apex cls wide) recs.
Proof.
  intros W. apply (zone_build_ext wf_bytes req_real spec_req req_real_spec spec_req_trans apex cls recs _ []).
  - apply Inv_new.
  - intros r0 [].
  - exact W.
Qed.

(* a zone loaded from octet-string records with the real equality is the zone the characterisation loads:
   every closing theorem for [req_real] (Props C06/C20/C21) is the parametric one at req := spec_req
   applied to this *)
Lemma real_build_spec {apex cls wide recs z} : Forall wf_record recs ->
  zone_build req_real (zone_new apex cls wide) recs = Some z ->
  zone_build spec_req (zone_new apex cls wide) recs = Some z.
Proof. intros W B. rewrite <- (build_real apex cls wide recs W). exact B. Qed.

Lemma real_build_wf apex cls wide recs z : Forall wf_record recs ->
  zone_build req_real (zone_new apex cls wide) recs = Some z ->
  forall n d rs rd, In (n, d) (zone_iter_by_node z) -> In rs d -> In rd (rs_rdatas rs) -> wf_bytes rd.
Proof.
  intros W B n d rs rd Hnd Hrs Hrd.
  destruct (build_stored spec_req spec_req_trans apex cls wide recs z (real_build_spec W B) n d rs rd Hnd Hrs Hrd)
    as (r & Hin & <-).
  rewrite Forall_forall in W. exact (W r Hin).
Qed.

Lemma validate_real z :
  (forall n d rs rd, In (n, d) (zone_iter_by_node z) -> In rs d -> In rd (rs_rdatas rs) -> wf_bytes rd) ->
  zone_validate parse_real z = zone_validate spec_rdata_name z.
Proof.
  intros Hz. apply (zone_validate_ext wf_bytes); auto.
  - intros k rd. apply wf_skipn.
  - intros rd. apply parse_real_spec.
Qed.

Lemma real_add_result apex cls wide recs z : Forall wf_record recs ->
  zone_build req_real (zone_new apex cls wide) recs = Some z ->
  forall r, wf_record r ->
  exists z', zone_add req_real z r = Ok (z', add_verdict apex cls (accepted apex cls recs) r) /\
             (add_verdict apex cls (accepted apex cls recs) r <> None -> z' = z) /\
             zone_build req_real (zone_new apex cls wide) (recs ++ [r]) = Some z'.
Proof.
  intros W B r Hr.
  assert (W' : Forall wf_record (recs ++ [r])) by (apply Forall_app; auto).
  rewrite (build_real apex cls wide _ W').
  destruct (add_result spec_req spec_req_trans apex cls wide recs z r (real_build_spec W B)) as (z' & A & S & N).
  exists z'. split; [|exact (conj S N)]. rewrite <- A.
  apply (zone_add_ext wf_bytes req_real spec_req req_real_spec apex cls z (accepted apex cls recs)).
  - apply (build_inv spec_req spec_req_trans apex cls wide), (real_build_spec W B).
  - intros r0 Hin. rewrite Forall_forall in W. apply W, (accepted_In apex cls recs), Hin.
  - exact Hr.
Qed.

Lemma real_build_total apex cls wide recs : Forall wf_record recs ->
  exists z, zone_build req_real (zone_new apex cls wide) recs = Some z.
Proof.
  intros W. rewrite (build_real apex cls wide recs W).
  apply (build_total spec_req spec_req_trans).
Qed.
