(* Specification of the name-writing functions of the writer model: what is emitted, that the
   emitted octets decode (below the new cursor) to the given name, that the returned
   PriorName is usable, that nothing below the old cursor changes, that nothing panics. *)
From QV Require Import Base.ListX Model.MsgWriter Proofs.NameWireP Proofs.MsgWriterP Proofs.MsgWriterScanP.

Local Open Scope nat_scope.

Lemma land_c000 x : (x < 16384)%N -> N.land 49152 x = 0%N.
Proof.
  intros H. apply N.bits_inj_0. intros n. rewrite N.land_spec.
  destruct (N.lt_ge_cases n 14) as [Hn|Hn].
  - change 49152%N with (N.shiftl 3 14). rewrite N.shiftl_spec_low by exact Hn. reflexivity.
  - destruct (N.eq_dec x 0) as [->|Hx]; [rewrite N.bits_0; apply andb_false_r|].
    rewrite (N.bits_above_log2 x n); [apply andb_false_r|].
    assert (N.log2 x < 14)%N by (apply N.log2_lt_pow2; [lia|exact H]). lia.
Qed.

Lemma lor_c000 x : (x < 16384)%N -> N.lor 49152 x = (49152 + x)%N.
Proof.
  intros H. rewrite <- N.lxor_lor by (apply land_c000; exact H).
  symmetry. apply N.add_nocarry_lxor. apply land_c000; exact H.
Qed.

Lemma c000_divmod x : (x < 16384)%N ->
  (((49152 + x) / 256) mod 256 = 192 + x / 256 /\ (49152 + x) mod 256 = x mod 256 /\ x / 256 < 64)%N.
Proof.
  intros H.
  pose proof (N.div_mod x 256 ltac:(lia)) as D.
  pose proof (N.mod_lt x 256 ltac:(lia)) as R.
  set (q := (x / 256)%N) in *. set (r := (x mod 256)%N) in *.
  assert (Q : (q < 64)%N) by lia.
  assert (E1 : ((49152 + x) / 256 = 192 + q)%N) by (symmetry; apply (N.div_unique _ _ _ r); lia).
  assert (E2 : ((49152 + x) mod 256 = r)%N) by (symmetry; apply (N.mod_unique _ _ (192 + q)%N); lia).
  rewrite E1, E2. split; [apply N.mod_small; lia|]. split; [reflexivity|exact Q].
Qed.

Lemma ptr_word_bytes p : p <= pointer_max ->
  exists hi lo, be16 (ptr_word p) = [hi; lo] /\ is_pointer_octet hi = true /\ ptr_target hi lo = p.
Proof.
  intros H. unfold ptr_word, be16.
  assert (Hx : (N.of_nat p < 16384)%N).
  { pose proof pointer_max_val. lia. }
  rewrite (lor_c000 _ Hx).
  destruct (c000_divmod _ Hx) as [E1 [E2 Q]]. rewrite E1, E2.
  eexists. eexists. split; [reflexivity|]. split.
  - generalize dependent (N.of_nat p / 256)%N. intros q _ Q.
    rewrite is_pointer_octet_spec by lia. apply N.leb_le. lia.
  - unfold ptr_target. rewrite (land63 _ Q).
    rewrite N.mul_comm. rewrite <- N.div_mod by lia. apply Nat2N.id.
Qed.

Lemma be16_length v : length (be16 v) = 2.
Proof. reflexivity. Qed.

Record ext (c0 : nat) (w w' : writer) : Prop := mkExt {
  x_len : length (w_buf w') = length (w_buf w);
  x_lim : w_limit w' = w_limit w;
  x_av : w_avail w' = w_avail w;
  x_rs : w_rr_start w' = w_rr_start w;
  x_qd : w_qd w' = w_qd w; x_an : w_an w' = w_an w; x_ns : w_ns w' = w_ns w; x_ar : w_ar w' = w_ar w;
  x_mode : w_mode w' = w_mode w; x_edns : w_edns w' = w_edns w; x_tsig : w_tsig w' = w_tsig w;
  x_cur : w_cursor w <= w_cursor w';
  x_cav : w_cursor w' <= w_avail w';     (* a fact about w' alone, kept here so that it travels with ext *)
  x_agree : agree c0 (w_buf w) (w_buf w') }.

Definition side_eq (w w' : writer) : Prop :=
  w_qname w' = w_qname w /\ w_mro w' = w_mro w /\ w_mrn w' = w_mrn w /\ w_section w' = w_section w.

Definition nb (w : writer) : Prop := w_cursor w <= w_avail w /\ w_avail w <= length (w_buf w).

Lemma ext_refl c0 w : w_cursor w <= w_avail w -> ext c0 w w.
Proof. intros H. constructor; auto. apply agree_refl. Qed.

Lemma ext_trans c0 w1 w2 w3 : ext c0 w1 w2 -> ext c0 w2 w3 -> ext c0 w1 w3.
Proof.
  intros [] []. constructor; try congruence; try lia.
Qed.

Lemma side_eq_refl w : side_eq w w.
Proof. repeat split. Qed.
Lemma side_eq_trans w1 w2 w3 : side_eq w1 w2 -> side_eq w2 w3 -> side_eq w1 w3.
Proof. intros [? [? [? ?]]] [? [? [? ?]]]. repeat split; congruence. Qed.

Lemma ext_nb c0 w w' : ext c0 w w' -> nb w -> nb w'.
Proof. intros [] [H1 H2]. split; auto. rewrite x_av0, x_len0. exact H2. Qed.

Lemma try_push_ext c0 data w u w' : try_push data w = Ok (u, w') -> c0 <= w_cursor w ->
  ext c0 w w' /\ side_eq w w' /\ w_cursor w' = w_cursor w + length data
  /\ slice (w_buf w') (w_cursor w) (w_cursor w') = data
  /\ agree (w_cursor w) (w_buf w) (w_buf w').
Proof.
  intros H Hc. apply try_push_ok in H as [b' [Hb [-> Hfit]]]. simpl.
  split; [|split; [repeat split|split; [reflexivity|split]]].
  - constructor; simpl; auto; try lia.
    + eapply buf_write_length; eauto.
    + eapply buf_write_agree; eauto.
  - eapply buf_write_data; eauto.
  - eapply buf_write_agree; eauto.
Qed.

Definition wf_label (l : bytes) : Prop := 1 <= length l /\ length l <= 63.
Definition wf_name (n : wname) : Prop := Forall wf_label n /\ length n <= 127.

Lemma app_eq_len {A} (a1 a2 b1 b2 : list A) : a1 ++ a2 = b1 ++ b2 -> length a1 = length b1 ->
  a1 = b1 /\ a2 = b2.
Proof.
  revert b1; induction a1 as [|x a1 IH]; intros [|y b1] H Hl; simpl in *; try discriminate; auto.
  inversion H; subst. destruct (IH b1 H2 ltac:(lia)) as [-> ->]. auto.
Qed.

Lemma slice_head (B : bytes) i e x t : slice B i e = x :: t -> nth_error B i = Some x /\ slice B (S i) e = t /\ i < e.
Proof.
  intros H. assert (Hie : i < e).
  { destruct (Nat.lt_ge_cases i e); auto. unfold slice in H. replace (e - i) with 0 in H by lia. discriminate. }
  destruct (nth_error B i) as [y|] eqn:E.
  - rewrite (slice_cons B i y e E Hie) in H. inversion H; subst. auto.
  - apply nth_error_None in E. unfold slice in H. rewrite skipn_all2 in H by lia.
    rewrite firstn_nil in H. discriminate.
Qed.

Lemma nm_lwire_cons l r : nm_lwire (l :: r) = N.of_nat (length l) :: l ++ nm_lwire r.
Proof. reflexivity. Qed.

Lemma nm_lwire_app a c : nm_lwire (a ++ c) = nm_lwire a ++ nm_lwire c.
Proof. unfold nm_lwire. apply flat_map_app. Qed.

Lemma name_at_labels B c : forall ls i rest, Forall wf_label ls ->
  slice B i (i + length (nm_lwire ls)) = nm_lwire ls ->
  i + length (nm_lwire ls) <= length B -> i + length (nm_lwire ls) <= c ->
  name_at B c (i + length (nm_lwire ls)) rest -> name_at B c i (ls ++ rest).
Proof.
  induction ls as [|l r IH]; intros i rest Hwf Hs Hlen Hc Hn.
  - simpl in *. rewrite Nat.add_0_r in Hn. exact Hn.
  - inversion Hwf as [|? ? [Hl1 Hl63] Hwf']; subst.
    rewrite nm_lwire_cons in *. simpl length in *. rewrite app_length in *.
    apply slice_head in Hs as [Hnth [Hs _]].
    rewrite (slice_app B (S i) (S i + length l)) in Hs by lia.
    apply app_eq_len in Hs as [Hs1 Hs2]; [|rewrite slice_length; lia].
    replace (i + S (length l + length (nm_lwire r))) with (S i + length l + length (nm_lwire r)) in * by lia.
    simpl app.
    assert (Hto : N.to_nat (N.of_nat (length l)) = length l) by apply Nat2N.id.
    replace (S i) with (i + 1) in * by lia.
    pose proof (na_label B c i (N.of_nat (length l)) (r ++ rest) Hnth ltac:(lia) ltac:(lia)) as K.
    rewrite Hto in K. rewrite Hs1 in K. apply K; [lia|]. apply IH; auto; lia.
Qed.

Definition named (cp : bool) (n : wname) (b : bytes) (c i : nat) : Prop :=
  exists n', name_at b c i n' /\ name_eq cp n n'.

(* C13: either the plain wire form, or k leading labels followed by ONE pointer that leads
   strictly before the start of this name, to a label (not a pointer), where the remaining
   labels of the name (all labels after the k-th) are decodable from octets written before. *)
Inductive emitted (cp : bool) (n : wname) (b' : bytes) (c c' : nat) : Prop :=
| em_plain : slice b' c c' = nm_wire n -> c' = c + length (nm_wire n) -> emitted cp n b' c c'
| em_ptr : forall k pp, k <= length n ->
    slice b' c c' = nm_lwire (firstn k n) ++ be16 (ptr_word pp) ->
    c' = c + length (nm_lwire (firstn k n)) + 2 ->
    0 < pp -> pp <= pointer_max -> pp < c -> real_at b' pp ->
    named cp (skipn k n) b' c pp ->
    emitted cp n b' c c'.

Lemma wf_name_firstn n k : wf_name n -> Forall wf_label (firstn k n).
Proof. intros [H _]. rewrite Forall_forall in *. intros x Hx. apply H. eapply In_firstn; eauto. Qed.

Lemma slice_app_l (B : bytes) i m e a z : slice B i e = a ++ z -> m = i + length a -> i <= e -> e <= length B ->
  slice B i m = a /\ slice B m e = z.
Proof.
  intros H -> Hie He.
  assert (Hl : length (slice B i e) = e - i) by (apply slice_length; lia).
  rewrite H, app_length in Hl.
  rewrite (slice_app B i (i + length a) e) in H by lia.
  apply app_eq_len in H; [exact H|]. rewrite slice_length; lia.
Qed.

Lemma emitted_named cp n b' c c' : wf_name n -> c' <= length b' -> emitted cp n b' c c' ->
  named cp n b' c' c.
Proof.
  intros Hwf Hlen [Hs Hc'|k pp Hk Hs Hc' Hp0 Hpm Hpc Hr [m [Hm Hme]]].
  - exists n. split; [|apply name_eq_refl].
    unfold nm_wire in *. rewrite app_length in Hc'. simpl in Hc'.
    destruct (slice_app_l b' c (c + length (nm_lwire n)) c' _ _ Hs eq_refl ltac:(lia) Hlen) as [S1 S2].
    rewrite <- (app_nil_r n).
    apply name_at_labels; try lia; [apply Hwf|exact S1|].
    apply slice_head in S2 as [Hz _]. apply na_root; [lia|exact Hz].
  - exists (firstn k n ++ m). split.
    + destruct (slice_app_l b' c (c + length (nm_lwire (firstn k n))) c' _ _ Hs eq_refl ltac:(lia) Hlen) as [S1 S2].
      apply name_at_labels; try lia; [apply wf_name_firstn; exact Hwf|exact S1|].
      destruct (ptr_word_bytes pp Hpm) as [hi [lo [Eb [Ehi Et]]]].
      rewrite Eb in S2. apply slice_head in S2 as [Z1 [S3 _]]. apply slice_head in S3 as [Z2 _].
      eapply na_ptr; eauto.
      * replace (c + length (nm_lwire (firstn k n)) + 1) with (S (c + length (nm_lwire (firstn k n)))) by lia.
        exact Z2.
      * lia.
      * rewrite Et. lia.
      * rewrite Et. exact Hr.
      * rewrite Et. eapply name_at_stable; [exact Hm|apply agree_refl|lia].
    + rewrite <- (firstn_skipn k n) at 1. apply Forall2_app; [apply name_eq_refl|exact Hme].
Qed.

Lemma emitted_weaken cp n b' c c' : emitted true n b' c c' -> emitted cp n b' c c'.
Proof.
  intros [H1 H2|k pp Hk Hs Hc' Hp0 Hpm Hpc Hr [m [Hm Hme]]].
  - apply em_plain; auto.
  - eapply em_ptr; eauto. exists m. split; auto. apply name_eq_weaken; auto.
Qed.

Definition wrote (cp : bool) (c0 : nat) (n : wname) (w w' : writer) (pr : option prior) : Prop :=
  ext c0 w w' /\ side_eq w w' /\
  emitted cp n (w_buf w') (w_cursor w) (w_cursor w') /\
  forall p, pr = Some p ->
    prior_ok (w_buf w') (w_cursor w') p /\ p_len p = nm_len n /\
    named cp n (w_buf w') (w_cursor w') (p_ptr p).

Definition name_post (cp : bool) (c0 : nat) (n : wname) (w : writer) (r : M (option prior)) : Prop :=
  match r with
  | Ok (pr, w') => wrote cp c0 n w w' pr
  | Err (e, w') => e = Truncation /\ ext c0 w w' /\ side_eq w w'
  | Panic => False
  end.

Definition priors_ok (w : writer) : Prop :=
  oprior_ok (w_buf w) (w_cursor w) (w_qname w) /\
  oprior_ok (w_buf w) (w_cursor w) (w_mro w) /\
  oprior_ok (w_buf w) (w_cursor w) (w_mrn w).

Lemma nm_len_small n : wf_name n -> nm_len n mod 256 = nm_len n.
Proof. intros [_ H]. unfold nm_len. apply Nat.mod_small. lia. Qed.

Lemma nm_wire_length n : length (nm_wire n) = length (nm_lwire n) + 1.
Proof. unfold nm_wire. rewrite app_length. reflexivity. Qed.

Lemma lwire_head_real b c e ls tl : Forall wf_label ls -> slice b c e = nm_lwire ls ++ tl ->
  (ls = [] -> exists t, tl = 0%N :: t) -> real_at b c.
Proof.
  intros Hwf Hs Hnil. destruct ls as [|l r].
  - destruct (Hnil eq_refl) as [t ->]. apply slice_head in Hs as [H _].
    exists 0%N. split; [exact H|apply is_pointer_octet_0].
  - rewrite nm_lwire_cons in Hs. apply slice_head in Hs as [H _].
    inversion Hwf as [|? ? [H1 H63] _]; subst.
    exists (N.of_nat (length l)). split; [exact H|apply small_not_pointer; lia].
Qed.

Lemma prior_at_cursor cp n b' c c' p : wf_name n -> c' <= length b' ->
  emitted cp n b' c c' -> real_at b' c -> hp_new c = Some p ->
  prior_ok b' c' (prior_new p n) /\ p_len (prior_new p n) = nm_len n /\ named cp n b' c' (p_ptr (prior_new p n)).
Proof.
  intros Hwf Hlen Hem Hr Hp. apply hp_new_some in Hp as [-> [H0 Hm]].
  destruct (emitted_named cp n b' c c' Hwf Hlen Hem) as [m [Hn He]].
  unfold prior_new, prior_ok. cbn [p_ptr p_len]. rewrite (nm_len_small n Hwf).
  split; [|split; [reflexivity|exists m; auto]].
  split; [exact H0|]. split; [exact Hm|]. split; [exact Hr|]. exists m. split; [exact Hn|].
  unfold nm_len. rewrite (name_eq_length _ _ _ He). reflexivity.
Qed.

Lemma match_ok_stable b c cp n m b' c' : match_ok b c cp n m -> agree c b b' -> c <= c' ->
  match_ok b' c' cp n m.
Proof.
  intros (M1 & M2 & M3 & M4 & pre & M5 & M6) Ha Hle. destruct (name_at_lt _ _ _ _ M5) as [Hlt _].
  repeat split; auto; [eapply real_at_stable; eauto|].
  exists pre. split; [eapply name_at_stable; eauto|exact M6].
Qed.

Lemma try_push_err_size data w e w' : w_cursor w <= w_avail w -> try_push data w = Err (e, w') ->
  w_avail w < w_cursor w + length data.
Proof.
  intros Hc. unfold try_push, w_write.
  destruct (w_avail w <? w_cursor w); [discriminate|].
  destruct (length data <=? w_avail w - w_cursor w) eqn:E2.
  - destruct (buf_write (w_buf w) (w_cursor w) data); discriminate.
  - intros _. apply Nat.leb_gt in E2. lia.
Qed.

Lemma try_push_total data w : nb w ->
  match try_push data w with
  | Ok (_, w') => ext (w_cursor w) w w' /\ side_eq w w' /\ w_cursor w' = w_cursor w + length data /\
                  slice (w_buf w') (w_cursor w) (w_cursor w') = data /\
                  agree (w_cursor w) (w_buf w) (w_buf w')
  | Err (e, w') => e = Truncation /\ w' = w /\ w_avail w < w_cursor w + length data
  | Panic => False
  end.
Proof.
  intros [H1 H2]. destruct (try_push data w) as [[u w']|[e w']|] eqn:E.
  - exact (try_push_ext _ _ _ _ _ E (le_n _)).
  - destruct (try_push_err _ _ _ _ E) as [-> ->]. repeat split. eapply try_push_err_size; eauto.
  - eapply try_push_no_panic; eauto.
Qed.

(* Every name writer ends by emitting the name in a chosen form [m]: the plain wire form (None), or its first
   k labels followed by a pointer to pp (Some (k, pp)).  This is what write_compressed_unhinted_name does once
   the search is over. *)
Definition emit (n : wname) (w : writer) (m : option (nat * nat)) : M (option prior) :=
  match m with
  | Some (start_column, pp) =>
    if start_column =? 0 then
      let* (_, w1) := try_push_u16 (ptr_word pp) w in
      Ok (Some (prior_new pp n), w1)
    else
      let pointer := hp_new (w_cursor w) in
      match nm_wire_to n start_column with
      | None => Panic
      | Some pre =>
        let* (_, w1) := try_push pre w in
        let* (_, w2) := try_push_u16 (ptr_word pp) w1 in
        Ok (option_map (fun p => prior_new p n) pointer, w2)
      end
  | None => write_uncompressed_name n w
  end.

Definition compressed_tail (n : wname) (w : writer) (cs : option pctx * option pctx) : M (option prior) :=
  emit n w (longest_match cs).

Definition form_octets (n : wname) (m : option (nat * nat)) : bytes :=
  match m with
  | None => nm_wire n
  | Some (k, pp) => nm_lwire (firstn k n) ++ be16 (ptr_word pp)
  end.

Lemma emit_ops n w m : nb w -> (forall k pp, m = Some (k, pp) -> k <= length n) ->
  match emit n w m with
  | Ok (pr, w') =>
      ext (w_cursor w) w w' /\ side_eq w w' /\ agree (w_cursor w) (w_buf w) (w_buf w') /\
      w_cursor w' = w_cursor w + length (form_octets n m) /\
      slice (w_buf w') (w_cursor w) (w_cursor w') = form_octets n m /\
      pr = match m with
           | Some (0, pp) => Some (prior_new pp n)
           | _ => option_map (fun p => prior_new p n) (hp_new (w_cursor w))
           end
  | Err (e, w') => e = Truncation /\ ext (w_cursor w) w w' /\ side_eq w w' /\
                   w_avail w < w_cursor w + length (form_octets n m)
  | Panic => False
  end.
Proof.
  intros Hnb Hk. pose proof (ext_refl (w_cursor w) w (proj1 Hnb)) as X0.
  destruct m as [[[|k] pp]|]; cbn [emit form_octets Nat.eqb].
  - cbn [firstn nm_lwire flat_map app].
    pose proof (try_push_total (be16 (ptr_word pp)) w Hnb) as T. unfold try_push_u16.
    destruct (try_push (be16 (ptr_word pp)) w) as [[u w1]|[e w1]|]; cbn [bind]; [|destruct T as (-> & -> & T)|]; auto.
    + destruct T as (X & Sd & Hc & Hs & Ag). auto 10.
    + auto using side_eq_refl.
  - specialize (Hk _ _ eq_refl). unfold nm_wire_to, nm_len.
    destruct (S k =? S (length n)) eqn:Ea; [apply Nat.eqb_eq in Ea; lia|].
    destruct (S (length n) <? S k) eqn:Eb; [apply Nat.ltb_lt in Eb; lia|].
    pose proof (try_push_total (nm_lwire (firstn (S k) n)) w Hnb) as T.
    destruct (try_push (nm_lwire (firstn (S k) n)) w) as [[u w1]|[e w1]|]; cbn [bind]; [|destruct T as (-> & -> & T)|]; auto.
    2:{ rewrite app_length, be16_length. do 3 (split; [auto using side_eq_refl|]). lia. }
    destruct T as (X & Sd & Hc & Hs & Ag).
    pose proof (try_push_total (be16 (ptr_word pp)) w1 (ext_nb _ _ _ X Hnb)) as T. unfold try_push_u16.
    destruct (try_push (be16 (ptr_word pp)) w1) as [[u2 w2]|[e w2]|]; cbn [bind]; [|destruct T as (-> & -> & T)|]; auto.
    2:{ rewrite app_length, be16_length. do 3 (split; [auto|]). rewrite (x_av _ _ _ X), be16_length in T. lia. }
    destruct T as (X2 & Sd2 & Hc2 & Hs2 & Ag2).
    assert (Xa : ext (w_cursor w) w1 w2) by (destruct X2; constructor; auto; eapply agree_le; eauto; lia).
    split; [exact (ext_trans _ _ _ _ X Xa)|]. split; [exact (side_eq_trans _ _ _ Sd Sd2)|].
    split; [exact (agree_trans _ _ _ _ Ag (x_agree _ _ _ Xa))|].
    split; [rewrite app_length; lia|]. split; [|reflexivity].
    rewrite (slice_app _ (w_cursor w) (w_cursor w1)) by lia. rewrite Hs2. f_equal.
    rewrite (agree_slice (w_cursor w1) (w_buf w1) (w_buf w2) _ _ Ag2) by lia. exact Hs.
  - pose proof (try_push_total (nm_wire n) w Hnb) as T. unfold write_uncompressed_name.
    destruct (try_push (nm_wire n) w) as [[u w1]|[e w1]|]; cbn [bind]; [|destruct T as (-> & -> & T)|]; auto.
    + destruct T as (X & Sd & Hc & Hs & Ag). auto 10.
    + auto using side_eq_refl.
Qed.

Lemma emit_spec cp n w m : nb w -> wf_name n ->
  (forall x, m = Some x -> match_ok (w_buf w) (w_cursor w) cp n x) ->
  name_post cp (w_cursor w) n w (emit n w m).
Proof.
  intros Hnb Hwf Hm.
  pose proof (emit_ops n w m Hnb (fun k pp E => proj1 (Hm _ E))) as O.
  destruct (emit n w m) as [[pr w']|[e w']|]; cbn [name_post]; [|tauto|exact O].
  destruct O as (X & Sd & Ag & Hc & Hs & Hpr).
  destruct (ext_nb _ _ _ X Hnb) as [N1 N2].
  assert (Hm' : forall x, m = Some x -> match_ok (w_buf w') (w_cursor w) cp n x)
    by (intros x E; eapply match_ok_stable; eauto).
  assert (Hem : emitted cp n (w_buf w') (w_cursor w) (w_cursor w')).
  { destruct m as [[k pp]|]; [|apply em_plain; auto].
    destruct (Hm' _ eq_refl) as (M1 & M2 & M3 & M4 & pre & M5 & M6).
    destruct (name_at_lt _ _ _ _ M5) as [Hlt _]. cbn [fst snd] in *.
    apply em_ptr with (k := k) (pp := pp); auto; [|exists pre; auto].
    rewrite Hc. cbn [form_octets]. rewrite app_length, be16_length. lia. }
  split; [exact X|]. split; [exact Sd|]. split; [exact Hem|].
  intros p Hp. subst pr.
  assert (Hcur : forall q, option_map (fun p => prior_new p n) (hp_new (w_cursor w)) = Some q ->
                 real_at (w_buf w') (w_cursor w) ->
                 prior_ok (w_buf w') (w_cursor w') q /\ p_len q = nm_len n /\ named cp n (w_buf w') (w_cursor w') (p_ptr q)).
  { intros q Hq Hr. destruct (hp_new (w_cursor w)) as [q0|] eqn:Eh; [|discriminate]. injection Hq as <-.
    apply (prior_at_cursor cp n _ (w_cursor w)); auto; lia. }
  destruct m as [[[|k] pp]|].
  - injection Hp as <-.
    destruct (match_ok_stable _ _ _ _ _ _ (w_cursor w') (Hm' _ eq_refl) (agree_refl _ _) (x_cur _ _ _ X))
      as (_ & M2 & M3 & M4 & pre & M5 & M6).
    cbn [fst snd skipn] in *. unfold prior_new, prior_ok. cbn [p_ptr p_len]. rewrite (nm_len_small n Hwf).
    split; [|split; [reflexivity|exists pre; auto]].
    repeat split; auto. exists pre. split; [exact M5|].
    unfold nm_len. rewrite (name_eq_length _ _ _ M6). reflexivity.
  - apply Hcur; [exact Hp|]. specialize (Hm _ eq_refl). destruct Hm as [M1 _]. cbn [fst] in M1.
    apply (lwire_head_real _ _ _ (firstn (S k) n) _ (wf_name_firstn n (S k) Hwf) Hs).
    destruct n; [cbn in M1; lia|discriminate].
  - apply Hcur; [exact Hp|].
    apply (lwire_head_real _ _ _ n [0%N] (proj1 Hwf) Hs). eauto.
Qed.

Lemma write_uncompressed_spec n w : nb w -> wf_name n ->
  name_post true (w_cursor w) n w (write_uncompressed_name n w).
Proof. intros Hnb Hwf. apply (emit_spec true n w None Hnb Hwf). discriminate. Qed.

(* the hint contract: the pointer the hint resolves to leads to the given name (modulo case) *)
Definition hinted (n : wname) (w : writer) (pr : prior) : Prop :=
  prior_ok (w_buf w) (w_cursor w) pr /\ p_len pr = nm_len n /\
  named false n (w_buf w) (w_cursor w) (p_ptr pr).

Lemma hinted_emit n w pr : wf_name n -> hinted n w pr ->
  push_prior_ptr pr w = emit n w (Some (0, p_ptr pr)) /\
  match_ok (w_buf w) (w_cursor w) false n (0, p_ptr pr).
Proof.
  intros Hwf ((H0 & Hmx & Hr & _) & Hlen & m & Hm & Hme). split.
  - destruct pr as [p l]. cbn [p_len p_ptr] in *. subst l.
    unfold emit, push_prior_ptr, prior_new. rewrite (nm_len_small n Hwf). reflexivity.
  - repeat split; cbn [fst snd]; auto; [lia|]. exists m. auto.
Qed.

Lemma push_prior_ptr_spec n w pr : nb w -> wf_name n -> hinted n w pr ->
  name_post false (w_cursor w) n w (push_prior_ptr pr w).
Proof.
  intros Hnb Hwf Hh. destruct (hinted_emit n w pr Hwf Hh) as [-> Hm].
  apply emit_spec; auto. intros x [= <-]. exact Hm.
Qed.

Definition cpflag (m : cmode) : bool := match m with CasePreserving => true | _ => false end.

Lemma or_else_ok b c a o : oprior_ok b c a -> oprior_ok b c o -> oprior_ok b c (or_else a o).
Proof. destruct a; simpl; auto. Qed.

Lemma named_weaken cp n b c i : named true n b c i -> named cp n b c i.
Proof. intros [m [H1 H2]]. exists m. split; auto. apply name_eq_weaken; auto. Qed.

Lemma name_post_weaken cp c0 n w r : name_post true c0 n w r -> name_post cp c0 n w r.
Proof.
  destruct r as [[pr w']|[e w']|]; simpl; auto.
  intros [X [S [Hem Hp]]]. split; auto. split; auto. split; [apply emitted_weaken; auto|].
  intros p E. destruct (Hp p E) as [A [B C]]. auto using named_weaken.
Qed.

Lemma write_compressed_unfold n w :
  write_compressed_unhinted_name n w =
  match or_else (w_mro w) (w_qname w), w_mrn w with
  | None, None => write_uncompressed_name n w
  | _, _ =>
    let* (cs, _) := lift (let* c0 := opt_build (w_buf w) (nm_len n) (or_else (w_mro w) (w_qname w)) in
                          let* c1 := opt_build (w_buf w) (nm_len n) (w_mrn w) in
                          scan (w_buf w) (cpflag (w_mode w)) 0 n (c0, c1)) w in
    compressed_tail n w cs
  end.
Proof. reflexivity. Qed.

Lemma compressed_cases (P : M (option prior) -> Prop) n w :
  P (write_uncompressed_name n w) ->
  P (let* (cs, _) := lift (let* c0 := opt_build (w_buf w) (nm_len n) (or_else (w_mro w) (w_qname w)) in
                           let* c1 := opt_build (w_buf w) (nm_len n) (w_mrn w) in
                           scan (w_buf w) (cpflag (w_mode w)) 0 n (c0, c1)) w in
     emit n w (longest_match cs)) ->
  P (write_compressed_unhinted_name n w).
Proof.
  intros U G. rewrite write_compressed_unfold.
  destruct (or_else (w_mro w) (w_qname w)); [exact G|]. destruct (w_mrn w); [exact G|exact U].
Qed.

Lemma write_compressed_spec n w : nb w -> wf_name n -> priors_ok w ->
  name_post (cpflag (w_mode w)) (w_cursor w) n w (write_compressed_unhinted_name n w).
Proof.
  intros Hnb Hwf [Pq [Po Pr]]. apply compressed_cases.
  - apply name_post_weaken, write_uncompressed_spec; auto.
  - destruct (search_ok (w_buf w) (w_cursor w) (cpflag (w_mode w)) n _ _ (or_else_ok _ _ _ _ Po Pq) Pr)
      as [cs [-> Hm]].
    apply emit_spec; auto.
Qed.

Definition exactf (m : cmode) : bool := match m with Standard => false | _ => true end.

(* the prior occurrence a hint resolves to, if it is used at all *)
Definition hint_prior (h : hint) (n : wname) (w : writer) : option prior :=
  match h with
  | HQname => w_qname w
  | HOwner => w_mro w
  | HRdata => w_mrn w
  | HExplicit p => if p <? w_cursor w then Some (prior_new p n) else None
  | HNone => None
  end.

(* A property (indexed by whether letter case is kept) of write_unhinted_name / write_hinted_name follows
   from the same property of the primitives they dispatch to. *)
Section Cases.
Variables (P : bool -> M (option prior) -> Prop) (n : wname) (w : writer).
Hypothesis Pweak : forall r, P true r -> P false r.
Hypothesis Punc : P true (write_uncompressed_name n w).
Hypothesis Pcomp : P (cpflag (w_mode w)) (write_compressed_unhinted_name n w).

Lemma unhinted_cases : P (exactf (w_mode w)) (write_unhinted_name n w).
Proof using Pweak Punc Pcomp.
  unfold write_unhinted_name. destruct (w_mode w); cbn [cpflag exactf] in *; auto.
  all: destruct (2 <? length (nm_wire n)); auto.
Qed.

Lemma hinted_cases h :
  (forall pr, hint_prior h n w = Some pr -> 2 < length (nm_wire n) -> P false (push_prior_ptr pr w)) ->
  P (exactf (w_mode w)) (write_hinted_name h n w).
Proof using Pweak Punc Pcomp.
  intros Hp. unfold write_hinted_name. destruct (w_mode w); cbn [cpflag exactf] in *; auto.
  all: destruct (length (nm_wire n) <=? 2) eqn:E2; auto. apply Nat.leb_gt in E2.
  destruct h; cbn [hint_prior] in Hp; auto.
  - destruct (w_qname w); auto.
  - destruct (w_mro w); auto.
  - destruct (w_mrn w); auto.
  - destruct (p <? w_cursor w); auto.
Qed.
End Cases.

Lemma write_unhinted_spec n w : nb w -> wf_name n -> priors_ok w ->
  name_post (exactf (w_mode w)) (w_cursor w) n w (write_unhinted_name n w).
Proof.
  intros Hnb Hwf Hp. apply (unhinted_cases (fun cp => name_post cp (w_cursor w) n w)).
  - intros r. apply name_post_weaken.
  - apply write_uncompressed_spec; auto.
  - apply write_compressed_spec; auto.
Qed.

(* the API contract of hints: the prior occurrence a hint resolves to is the given name *)
Definition hint_contract (h : hint) (n : wname) (w : writer) : Prop :=
  match h with
  | HQname => forall pr, w_qname w = Some pr -> hinted n w pr
  | HOwner => forall pr, w_mro w = Some pr -> hinted n w pr
  | HRdata => forall pr, w_mrn w = Some pr -> hinted n w pr
  | HExplicit p => p < w_cursor w -> hinted n w (prior_new p n)
  | HNone => True
  end.

Lemma hint_contract_prior h n w pr : hint_contract h n w -> hint_prior h n w = Some pr -> hinted n w pr.
Proof.
  destruct h; cbn [hint_contract hint_prior]; auto; [|discriminate].
  destruct (p <? w_cursor w) eqn:E; [|discriminate]. apply Nat.ltb_lt in E. intros H [= <-]. auto.
Qed.

Lemma write_hinted_spec h n w : nb w -> wf_name n -> priors_ok w ->
  hint_contract h n w ->
  name_post (exactf (w_mode w)) (w_cursor w) n w (write_hinted_name h n w).
Proof.
  intros Hnb Hwf Hp Hh. apply (hinted_cases (fun cp => name_post cp (w_cursor w) n w)).
  - intros r. apply name_post_weaken.
  - apply write_uncompressed_spec; auto.
  - apply write_compressed_spec; auto.
  - intros pr E _. apply push_prior_ptr_spec; auto. eapply hint_contract_prior; eauto.
Qed.

(* C13: names that must not be compressed (SRV, Chaosnet A in RDATA; every name when compression is
   disabled, whatever the hint) are written in the plain wire form *)
Lemma uncompressed_plain n w pr w' : write_uncompressed_name n w = Ok (pr, w') ->
  slice (w_buf w') (w_cursor w) (w_cursor w') = nm_wire n /\ w_cursor w' = w_cursor w + length (nm_wire n).
Proof.
  unfold write_uncompressed_name.
  destruct (try_push (nm_wire n) w) as [[u w1]|[e w1]|] eqn:E; simpl; try discriminate.
  intros H; inversion H; subst.
  destruct (try_push_ext 0 _ _ _ _ E ltac:(lia)) as [_ [_ [Hcur [Hsl _]]]]. auto.
Qed.

Lemma disabled_plain_hinted h n w pr w' : w_mode w = Disabled ->
  write_hinted_name h n w = Ok (pr, w') ->
  slice (w_buf w') (w_cursor w) (w_cursor w') = nm_wire n /\ w_cursor w' = w_cursor w + length (nm_wire n).
Proof. intros Em. unfold write_hinted_name. rewrite Em. apply uncompressed_plain. Qed.

Lemma disabled_plain_unhinted n w pr w' : w_mode w = Disabled ->
  write_unhinted_name n w = Ok (pr, w') ->
  slice (w_buf w') (w_cursor w) (w_cursor w') = nm_wire n /\ w_cursor w' = w_cursor w + length (nm_wire n).
Proof. intros Em. unfold write_unhinted_name. rewrite Em. apply uncompressed_plain. Qed.
