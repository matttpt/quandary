(* The octet-level instance of the query model (Model/QueryW.v), in three stages: what prepare_w builds
   ([prepare_w_shape]), what handle_non_axfr_query keeps ([keeps], [handle_keeps]: a property of the settings and of the
   header and question octets closed under keeps, set_aa, set_tc, set_rcode survives it), what finish leaves alone
   ([finish_below]); and C04's Writer side (limit, TC bit) as one instance. *)
From QV Require Import Base.ListX Gen.Consts Model.MsgWriter Proofs.MsgWriterP Proofs.MsgWriterNameP
  Proofs.MsgWriterInvP Proofs.MsgWriterHdrP Model.ZoneTree Model.Query Model.QueryW Proofs.QueryInv16P.
Local Open Scope nat_scope.

Lemma list_ext_nth {A} (l : list A) : forall l', (forall i, nth_error l i = nth_error l' i) -> l = l'.
Proof.
  induction l as [|x l IH]; intros [|y l'] H; auto; try (specialize (H 0); discriminate).
  f_equal; [specialize (H 0); inversion H; reflexivity|]. apply IH. intros i. exact (H (S i)).
Qed.

Lemma nth_error_slice {A} (b : list A) a e i :
  nth_error (slice b a e) i = if i <? e - a then nth_error b (a + i) else None.
Proof.
  unfold slice. destruct (i <? e - a) eqn:E.
  - apply Nat.ltb_lt in E. rewrite nth_error_firstn_lt by exact E. apply nth_error_skipn.
  - apply Nat.ltb_ge in E. apply nth_error_None. rewrite firstn_length. lia.
Qed.

Lemma slice_ext_nth {A} (b b' : list A) a e : (forall j, a <= j -> j < e -> nth_error b' j = nth_error b j) ->
  slice b' a e = slice b a e.
Proof.
  intros H. apply list_ext_nth. intros i. rewrite !nth_error_slice. destruct (i <? e - a) eqn:E; [|reflexivity].
  apply Nat.ltb_lt in E. apply H; lia.
Qed.

Lemma w_modify_at w i f w' : w_modify w i f = Ok w' ->
  exists x b', nth_error (w_buf w) (N.to_nat i) = Some x /\ w' = set_buf w b' /\ length b' = length (w_buf w) /\
    nth_error b' (N.to_nat i) = Some (f x) /\ forall j, j <> N.to_nat i -> nth_error b' j = nth_error (w_buf w) j.
Proof.
  intros H. destruct (w_modify_inv _ _ _ _ H) as (x & b' & Hx & Hb & ->). exists x, b'. repeat split; auto.
  - exact (buf_write_length _ _ _ _ Hb).
  - rewrite <- (Nat.add_0_r (N.to_nat i)). exact (buf_write_nth_in _ _ _ _ 0 (f x) Hb eq_refl).
  - intros j Hj. apply (buf_write_other _ _ _ _ _ Hb). cbn [length]. lia.
Qed.

Lemma set_rcode_inv rc w w' : set_rcode rc w = Ok w' ->
  exists w1, w_modify w RCODE_BYTE (fun x => N.lor (N.land x (255 - RCODE_MASK)) rc) = Ok w1 /\ w' = clear_upper w1.
Proof.
  unfold set_rcode. destruct (w_modify w RCODE_BYTE _) as [w1|e|]; cbn [bind]; try discriminate.
  intros H; inversion H. eauto.
Qed.

Lemma clear_upper_buf w : w_buf (clear_upper w) = w_buf w.
Proof. unfold clear_upper. destruct (w_edns w); reflexivity. Qed.

(* a push appends to what has been written since c0 *)
Lemma try_push_acc c0 data w u w' : try_push data w = Ok (u, w') -> c0 <= w_cursor w ->
  exists b', w' = set_cursor (set_buf w b') (w_cursor w + length data) /\ length b' = length (w_buf w) /\
    agree c0 (w_buf w) b' /\ slice b' c0 (w_cursor w + length data) = slice (w_buf w) c0 (w_cursor w) ++ data.
Proof.
  intros H Hc. apply try_push_ok in H as (b' & Hb & -> & _). exists b'.
  split; [reflexivity|]. split; [exact (buf_write_length _ _ _ _ Hb)|]. split; [exact (buf_write_agree _ _ _ _ _ Hb Hc)|].
  rewrite (slice_app b' c0 (w_cursor w)) by lia. f_equal; [|exact (buf_write_data _ _ _ _ Hb)].
  apply (agree_slice (w_cursor w)); [exact (buf_write_agree _ _ _ _ _ Hb (Nat.le_refl _))|lia].
Qed.

Record keeps (w w' : writer) : Prop := mkKeeps {
  k_lim : w_limit w' = w_limit w; k_rs : w_rr_start w' = w_rr_start w;
  k_edns : w_edns w' = w_edns w; k_tsig : w_tsig w' = w_tsig w;
  k_buf : agree (w_rr_start w) (w_buf w) (w_buf w') }.

Lemma keeps_ext w w' : Inv_n w -> ext (w_cursor w) w w' -> keeps w w'.
Proof. intros Hi []. constructor; auto; eapply agree_le; [eassumption|exact (i_rs _ Hi)]. Qed.
Lemma keeps_of_obs w w' : Inv_n w -> obs_eq w w' -> keeps w w'.
Proof. intros Hi []. constructor; auto; eapply agree_le; [eassumption|exact (i_rs _ Hi)]. Qed.
Lemma keeps_counts w w' s c : keeps w w' -> keeps w (set_sec_count s w' c).
Proof. intros []. destruct s; constructor; assumption. Qed.
Lemma keeps_clear w : keeps w (clear_rrs w).
Proof. constructor; reflexivity. Qed.

Lemma inv_clear_rrs w : Inv_n w -> Inv_n (clear_rrs w).
Proof. intros [h1 h2 h3 h4 h5]. constructor; cbn; auto; lia. Qed.

Lemma inv_cursor_12 w : Inv_n w -> 12 <= w_cursor w.
Proof. intros []. change header_size with 12 in *. lia. Qed.

(* a rolled-back body: its failures only extend, so rolling back makes them observably no-ops *)
Lemma rollback_keeps {A} (f : writer -> M A) w : Inv_n w ->
  match f w with
  | Ok (_, w') => Inv_n w' /\ keeps w w'
  | Err (_, w') => ext (w_cursor w) w w'
  | Panic => True
  end ->
  match with_rollback f w with
  | Ok (_, w') => Inv_n w' /\ keeps w w' | Err (_, w') => Inv_n w' /\ keeps w w' | Panic => True end.
Proof.
  intros Hi. unfold with_rollback. destruct (f w) as [[a w1]|[e w1]|]; auto. intros X.
  match goal with |- Inv_n ?w' /\ _ => assert (O : obs_eq w w') by (destruct X; constructor; simpl; auto) end.
  split; [exact (obs_eq_inv _ _ Hi O)|exact (keeps_of_obs _ _ Hi O)].
Qed.

Lemma section_rr_keeps s h owner ty cl ttl rd v w : Inv_n w ->
  match add_section_rr s h owner ty cl ttl rd v w with
  | Ok (_, w') => Inv_n w' /\ keeps w w' | Err (_, w') => Inv_n w' /\ keeps w w' | Panic => True end.
Proof.
  intros Hi. pose proof (inv_pre _ Hi) as Hp. apply rollback_keeps; [exact Hi|].
  pose proof (frame_section_rr_body (w_cursor w) s h owner ty cl ttl rd v w Hp) as B.
  pose proof (frame_change_section (w_cursor w) s w Hp) as F1.
  destruct (change_section s w) as [[[] w1]|[e w1]|]; cbn [bind] in *; auto.
  pose proof (frame_add_rr (w_cursor w) h owner ty cl ttl rd v w1 (pre_ext _ _ _ Hp F1)) as F2.
  destruct (add_rr h owner ty cl ttl rd v w1) as [[v' w2]|[e w2]|]; cbn [bind] in *; auto.
  destruct (checked_add16 (sec_count s w2) 1) as [c|]; auto.
  split; [exact (B Hi)|]. apply keeps_counts, (keeps_ext _ _ Hi), (ext_trans _ _ _ _ F1 F2).
Qed.

Lemma section_rrset_keeps s h owner ty cl ttl rds v w : Inv_n w ->
  match add_section_rrset s h owner ty cl ttl rds v w with
  | Ok (_, w') => Inv_n w' /\ keeps w w' | Err (_, w') => Inv_n w' /\ keeps w w' | Panic => True end.
Proof.
  intros Hi. pose proof (inv_pre _ Hi) as Hp. apply rollback_keeps; [exact Hi|].
  pose proof (frame_section_rrset_body (w_cursor w) s h owner ty cl ttl rds v w Hp) as B.
  pose proof (frame_change_section (w_cursor w) s w Hp) as F1.
  destruct (change_section s w) as [[[] w1]|[e w1]|]; cbn [bind] in *; auto.
  pose proof (frame_rrset_loop (w_cursor w) rds h owner ty cl ttl v 0 w1 (pre_ext _ _ _ Hp F1)) as F2.
  destruct (add_rrset_loop h owner ty cl ttl rds v 0 w1) as [[[v' k] w2]|[e w2]|]; cbn [bind] in *; auto.
  destruct (65535 <? N.of_nat k)%N; auto.
  destruct (checked_add16 (sec_count s w2) (N.of_nat k)) as [c|]; auto.
  split; [exact (B Hi)|]. apply keeps_counts, (keeps_ext _ _ Hi), (ext_trans _ _ _ _ F1 F2).
Qed.

Definition WK (F : writer -> Prop) (w : writer) : Prop := Inv_n w /\ F w.

Definition pseudo_count (w : writer) : N := ((if w_edns w then 1 else 0) + (if w_tsig w then 1 else 0))%N.
Definition no_records (w : writer) : Prop :=
  w_an w = 0%N /\ w_ns w = 0%N /\ w_ar w = pseudo_count w /\ w_cursor w = w_rr_start w.

Section Keeps.
Variable F : writer -> Prop.
Hypothesis F_keeps : forall w w', Inv_n w -> F w -> keeps w w' -> F w'.
Hypothesis F_aa : forall b w w', Inv_n w -> F w -> set_aa b w = Ok w' -> F w'.
Hypothesis F_rc : forall rc w w', (rc < 16)%N -> Inv_n w -> F w -> set_rcode rc w = Ok w' -> F w'.

Lemma WK_keeps w w' : WK F w -> Inv_n w' /\ keeps w w' -> WK F w'.
Proof. intros [Hi Hf] [Hi' Hk]. split; [exact Hi'|exact (F_keeps w w' Hi Hf Hk)]. Qed.

Lemma WK_clear w : WK F w -> WK F (clear_rrs w).
Proof. intros Hw. apply (WK_keeps w _ Hw). split; [apply inv_clear_rrs, Hw|apply keeps_clear]. Qed.

Lemma WK_rr s h o ty c ttl rd w : WK F w -> RP (WK F) (wi_add_rr w_iface s h o ty c ttl rd w).
Proof.
  intros Hw. cbn [wi_add_rr w_iface].
  generalize (section_rr_keeps (sec_of s) (hint_of h) o ty c (ttl_from ttl) rd None w (proj1 Hw)).
  destruct (add_section_rr _ _ _ _ _ _ _ _ _) as [[v w']|[e w']|]; cbn [RP]; auto; apply WK_keeps, Hw.
Qed.

Lemma WK_rrset s h o ty c ttl rds b w : WK F w ->
  match wi_add_rrset w_iface s h o ty c ttl rds b w with
  | Ok (_, w') => WK F w' | Err (_, w') => WK F w' | Panic => True end.
Proof.
  intros Hw. cbn [wi_add_rrset w_iface].
  generalize (section_rrset_keeps (sec_of s) (hint_of h) o ty c (ttl_from ttl) rds (if b then Some [] else None) w (proj1 Hw)).
  destruct (add_section_rrset _ _ _ _ _ _ _ _ _) as [[v w']|[e w']|]; auto; apply WK_keeps, Hw.
Qed.

Lemma WK_aa b w w' : WK F w -> wi_set_aa w_iface b w = Some w' -> WK F w'.
Proof.
  intros [Hi Hf]. cbn [wi_set_aa w_iface]. destruct (set_aa b w) as [w1|e|] eqn:E; try discriminate.
  intros X; inversion X; subst w1. split; [exact (inv_w_modify _ _ _ _ Hi E)|exact (F_aa b w w' Hi Hf E)].
Qed.

Lemma WK_rc rc w w' : (rc < 16)%N -> WK F w -> wi_set_rcode w_iface rc w = Some w' -> WK F w'.
Proof.
  intros Hr [Hi Hf]. cbn [wi_set_rcode w_iface]. destruct (set_rcode rc w) as [w1|e|] eqn:E; try discriminate.
  intros X; inversion X; subst w1. split; [|exact (F_rc rc w w' Hr Hi Hf E)].
  apply set_rcode_inv in E as (w1 & E1 & ->). apply inv_clear_upper. exact (inv_w_modify _ _ _ _ Hi E1).
Qed.

Lemma answer_keeps negttl z qname qtype w : WK F w ->
  QP (WK F) (if (qtype =? QTYPE_ANY)%N then answer_any w_iface negttl z qname w
             else answer w_iface negttl z qname qtype w).
Proof.
  intros Hw. destruct (qtype =? QTYPE_ANY)%N; [apply answer_any_P|apply answer_P];
    first [exact Hw|exact WK_rr|exact WK_rrset|exact WK_aa|exact WK_rc].
Qed.

(* the endings of handle_non_axfr_query: every path but the UDP truncation (TC set on a writer emptied of its records)
   consists of the steps F survives *)
Lemma handle_cases negttl z qname qtype tcp w w' : WK F w ->
  handle_non_axfr_query w_iface negttl z qname qtype tcp w = Some w' ->
  WK F w' \/ (tcp = false /\ exists w2, WK F w2 /\ no_records w2 /\ set_tc true w2 = Ok w').
Proof.
  intros Hw. unfold handle_non_axfr_query. generalize (answer_keeps negttl z qname qtype w Hw).
  destruct (if (qtype =? QTYPE_ANY)%N then _ else _) as [[u w1]|[[|] w1]|]; cbn [QP wi_clear_rrs w_iface];
    intros H1; try discriminate.
  - intros E; inversion E; subst. left; exact H1.
  - destruct (wi_set_aa w_iface false w1) as [w2|] eqn:E2; [|discriminate].
    destruct (wi_set_rcode w_iface RCODE_SERVFAIL w2) as [w3|] eqn:E3; [|discriminate].
    intros E; inversion E; subst. left. apply WK_clear. exact (WK_rc RCODE_SERVFAIL _ _ eq_refl (WK_aa _ _ _ H1 E2) E3).
  - destruct tcp.
    + destruct (wi_set_aa w_iface false (clear_rrs w1)) as [w2|] eqn:E2; [|discriminate].
      intros E3. left. exact (WK_rc RCODE_SERVFAIL _ _ eq_refl (WK_aa _ _ _ (WK_clear _ H1) E2) E3).
    + cbn [wi_set_tc w_iface]. destruct (set_tc true (clear_rrs w1)) as [w2|e|] eqn:E2; try discriminate.
      intros E; inversion E; subst. right. split; [reflexivity|]. exists (clear_rrs w1).
      split; [exact (WK_clear _ H1)|]. split; [repeat split|exact E2].
Qed.

(* asked for only here: the limit/TC instance (handle_PW) is not closed under set_tc and stops at handle_cases *)
Hypothesis F_tc : forall b w w', Inv_n w -> F w -> set_tc b w = Ok w' -> F w'.

Theorem handle_keeps negttl z qname qtype tcp w w' : WK F w ->
  handle_non_axfr_query w_iface negttl z qname qtype tcp w = Some w' -> WK F w'.
Proof.
  intros Hw E. destruct (handle_cases _ _ _ _ _ _ _ Hw E) as [H|(_ & w2 & [Hi Hf] & _ & E2)]; [exact H|].
  split; [exact (inv_w_modify _ _ _ _ Hi E2)|exact (F_tc true _ _ Hi Hf E2)].
Qed.
End Keeps.

Definition hdr_flag_clear (w : writer) (byte mask : N) : Prop :=
  exists x, nth_error (w_buf w) (N.to_nat byte) = Some x /\ N.land x mask = 0%N.
Definition tc_clear (w : writer) : Prop := hdr_flag_clear w TC_BYTE TC_MASK.
Definition tc_set (w : writer) : Prop :=
  exists x, nth_error (w_buf w) (N.to_nat TC_BYTE) = Some x /\ N.land x TC_MASK <> 0%N.

(* the invariant carried through query answering: WK (fun w => w_limit w = L /\ tc_clear w), by conversion *)
Definition PW (L : nat) (w : writer) : Prop := Inv_n w /\ w_limit w = L /\ tc_clear w.

(* PW_keeps, PW_set_aa, PW_set_rcode have the shapes of F_keeps, F_aa, F_rc; hypotheses they do not need stay for that *)
Lemma PW_keeps L w w' : Inv_n w -> w_limit w = L /\ tc_clear w -> keeps w w' -> w_limit w' = L /\ tc_clear w'.
Proof.
  intros Hi (Hl & x & Hx & Hm) X. split; [rewrite (k_lim _ _ X); exact Hl|]. exists x. split; [|exact Hm].
  rewrite (agree_nth _ _ _ _ (k_buf _ _ X)); [exact Hx|]. pose proof (i_hdr _ Hi). change (N.to_nat TC_BYTE) with 2.
  change header_size with 12 in *. lia.
Qed.

Lemma land_set_bit_other mask m v x : N.land mask m = 0%N -> N.land (255 - mask) m = m ->
  N.land (set_bit mask v x) m = N.land x m.
Proof.
  intros H0 H1. unfold set_bit. destruct v.
  - rewrite N.land_lor_distr_l, H0. apply N.lor_0_r.
  - rewrite <- N.land_assoc, H1. reflexivity.
Qed.

Lemma PW_modify L w i f w' : w_limit w = L /\ tc_clear w -> w_modify w i f = Ok w' ->
  (N.to_nat i = N.to_nat TC_BYTE -> forall x, N.land (f x) TC_MASK = N.land x TC_MASK) ->
  w_limit w' = L /\ tc_clear w'.
Proof.
  intros (Hl & x0 & Hx0 & Hm0) E Hf. destruct (w_modify_at _ _ _ _ E) as (x & b' & Hx & -> & _ & Hx' & Hoth).
  split; [exact Hl|]. cbn [w_buf set_buf]. destruct (Nat.eq_dec (N.to_nat TC_BYTE) (N.to_nat i)) as [Heq|Hne].
  - exists (f x). rewrite Heq. split; [exact Hx'|]. rewrite (Hf (eq_sym Heq)). rewrite <- Heq in Hx. congruence.
  - exists x0. split; [|exact Hm0]. rewrite Hoth by exact Hne. exact Hx0.
Qed.

Lemma PW_set_aa L b w w' : Inv_n w -> w_limit w = L /\ tc_clear w -> set_aa b w = Ok w' -> w_limit w' = L /\ tc_clear w'.
Proof. intros _ H E. apply (PW_modify L _ _ _ _ H E). intros _ x. apply land_set_bit_other; reflexivity. Qed.

Lemma PW_set_rcode L rc w w' : (rc < 16)%N -> Inv_n w -> w_limit w = L /\ tc_clear w -> set_rcode rc w = Ok w' ->
  w_limit w' = L /\ tc_clear w'.
Proof.
  intros _ _ H E. apply set_rcode_inv in E as (w1 & E1 & ->).
  destruct (PW_modify L _ _ _ _ H E1) as [Hl Ht]; [discriminate|].
  unfold tc_clear, hdr_flag_clear. rewrite clear_upper_buf. split; [|exact Ht].
  unfold clear_upper. destruct (w_edns w1); exact Hl.
Qed.

Theorem handle_PW L negttl z qname qtype tcp w w' : PW L w ->
  handle_non_axfr_query w_iface negttl z qname qtype tcp w = Some w' ->
  Inv_n w' /\ w_limit w' = L /\
  (tcp = true -> tc_clear w') /\
  (tc_clear w' \/ (tcp = false /\ tc_set w' /\ no_records w')).
Proof.
  intros Hp E.
  destruct (handle_cases _ (PW_keeps L) (PW_set_aa L) (PW_set_rcode L) _ _ _ _ _ _ _ Hp E)
    as [(Hi & Hl & Ht)|(-> & w2 & (Hi & Hl & _) & Hn & E2)]; [auto|].
  pose proof (inv_w_modify _ _ _ _ Hi E2) as Hi'.
  destruct (w_modify_at _ _ _ _ E2) as (x & b' & _ & -> & _ & Hx' & _).
  split; [exact Hi'|]. split; [exact Hl|]. split; [discriminate|]. right. split; [reflexivity|].
  split; [|exact Hn]. exists (set_bit TC_MASK true x). split; [exact Hx'|].
  unfold set_bit. rewrite N.land_lor_distr_l, N.land_diag. intros H0. apply N.lor_eq_0_iff in H0 as [_ H0]. discriminate.
Qed.

(* what finish does after writing the four counts: the OPT and TSIG records *)
Definition finish_pseudo (w : writer) : res werr (nat * bytes) :=
  let* w := match w_edns w with
            | Some e => unwrap_w (add_rr HNone [] TYPE_OPT (e_udp e) (e_upper e * 16777216)%N [] None
                                         (set_avail w (w_avail w + opt_record_size)))
            | None => Ok w
            end in
  let* w := match w_tsig w with
            | Some t => unwrap_w (add_rr HNone (t_key t) TYPE_TSIG qclass_any (ttl_from 0) (tsig_unsigned_rdata t) None
                                         (set_avail (set_tsig_f w None) (w_avail w + t_reserved t)))
            | None => Ok w
            end in
  Ok (w_cursor w, w_buf w).

Lemma finish_counts w r : finish w = Ok r ->
  exists b4, length b4 = length (w_buf w) /\
    (forall j, j < 4 \/ 12 <= j -> nth_error b4 j = nth_error (w_buf w) j) /\ finish_pseudo (set_buf w b4) = Ok r.
Proof.
  unfold finish, finish_gen.
  destruct (w_write w (N.to_nat QDCOUNT_START) _) as [w1|e|] eqn:E1; cbn [bind]; try discriminate.
  destruct (w_write w1 (N.to_nat ANCOUNT_START) _) as [w2|e|] eqn:E2; cbn [bind]; try discriminate.
  destruct (w_write w2 (N.to_nat NSCOUNT_START) _) as [w3|e|] eqn:E3; cbn [bind]; try discriminate.
  destruct (w_write w3 (N.to_nat ARCOUNT_START) _) as [w4|e|] eqn:E4; cbn [bind]; try discriminate.
  apply w_write_inv in E1 as (b1 & B1 & ->). apply w_write_inv in E2 as (b2 & B2 & ->).
  apply w_write_inv in E3 as (b3 & B3 & ->). apply w_write_inv in E4 as (b4 & B4 & ->).
  cbn [w_buf set_buf] in *. intros H. exists b4. split; [|split; [|exact H]].
  - rewrite (buf_write_length _ _ _ _ B4), (buf_write_length _ _ _ _ B3), (buf_write_length _ _ _ _ B2).
    exact (buf_write_length _ _ _ _ B1).
  - intros j Hj. rewrite (buf_write_other _ _ _ _ j B4), (buf_write_other _ _ _ _ j B3),
      (buf_write_other _ _ _ _ j B2), (buf_write_other _ _ _ _ j B1); [reflexivity|cbn; lia..].
Qed.

Lemma add_rr_raised h owner ty cl ttl rd a w w' : w_cursor w <= a ->
  unwrap_w (add_rr h owner ty cl ttl rd None (set_avail w a)) = Ok w' ->
  w_cursor w <= w_cursor w' /\ w_cursor w' <= w_avail w' /\ agree (w_cursor w) (w_buf w) (w_buf w').
Proof.
  intros Ha U. assert (Hp : pre (w_cursor w) (set_avail w a)) by (split; cbn; lia).
  destruct (unwrap_frame (w_cursor w) _ _ _ U (frame_add_rr (w_cursor w) _ _ _ _ _ _ _ _ Hp)). auto.
Qed.

Lemma finish_below w len b : Inv_n w -> finish w = Ok (len, b) ->
  w_cursor w <= len /\ forall j, j < w_cursor w -> j < 4 \/ 12 <= j -> nth_error b j = nth_error (w_buf w) j.
Proof.
  intros [_ _ Hca _ _] H. destruct (finish_counts _ _ H) as (b4 & _ & N4 & P). clear H. revert P. unfold finish_pseudo.
  set (w4 := set_buf w b4).
  destruct (match w_edns w4 with Some e => _ | None => Ok w4 end) as [w5|e|] eqn:E5; cbn [bind]; try discriminate.
  assert (K5 : w_cursor w <= w_cursor w5 /\ w_cursor w5 <= w_avail w5 /\ agree (w_cursor w) b4 (w_buf w5)).
  { destruct (w_edns w4) as [e|].
    - apply add_rr_raised in E5; [exact E5|cbn; lia].
    - inversion E5; subst w5. cbn. repeat split; [lia|exact Hca]. }
  destruct K5 as (C5 & A5 & G5).
  assert (Below : forall b', agree (w_cursor w) (w_buf w5) b' ->
            forall j, j < w_cursor w -> j < 4 \/ 12 <= j -> nth_error b' j = nth_error (w_buf w) j).
  { intros b' G j Hj Hc. rewrite (agree_nth _ _ _ _ G), (agree_nth _ _ _ _ G5) by exact Hj. apply N4, Hc. }
  destruct (w_tsig w5) as [t|].
  - destruct (unwrap_w _) as [w6|e|] eqn:E6; cbn [bind]; try discriminate. intros P; inversion P; subst len b.
    apply (add_rr_raised _ _ _ _ _ _ _ (set_tsig_f w5 None)) in E6; [|cbn; lia]. destruct E6 as (C6 & _ & G6).
    cbn [w_cursor w_buf set_tsig_f] in *. split; [lia|]. apply Below. exact (agree_le _ _ _ _ G6 C5).
  - intros P; inversion P; subst len b. split; [exact C5|]. apply Below. reflexivity.
Qed.

Lemma fresh_add_question buf0 lim qname qtype qclass b4 u w5 :
  let Q := nm_wire qname ++ be16 qtype ++ be16 qclass in
  add_question qname qtype qclass
    (set_buf (mkW buf0 12 lim lim 12 SecQuestion 0 0 0 0 None None None Standard None None) b4) = Ok (u, w5) ->
  exists b5 qn, w5 = mkW b5 (12 + length Q) lim lim (12 + length Q) SecQuestion 1 0 0 0 qn None None Standard None None /\
    length b5 = length b4 /\ agree 12 b4 b5 /\ slice b5 12 (12 + length Q) = Q.
Proof.
  intros Q E. set (w4 := set_buf _ b4) in E. unfold add_question in E. cbn [w_section w4 set_buf w_qd] in E.
  change (checked_add16 0 1) with (Some 1%N) in E. cbv iota in E. unfold with_rollback in E.
  assert (Hname : write_unhinted_name qname w4 = write_uncompressed_name qname w4).
  { unfold write_unhinted_name. cbn [w_mode w4 set_buf]. destruct (2 <? length (nm_wire qname)); reflexivity. }
  rewrite Hname in E. unfold write_uncompressed_name, try_push_u16 in E.
  destruct (try_push (nm_wire qname) w4) as [[[] wa]|[e wa]|] eqn:P1; cbn [bind] in E; try discriminate.
  destruct (try_push_acc 12 _ _ _ _ P1 (Nat.le_refl _)) as (ba & -> & La & Ga & Sa).
  cbn [w_qd set_cursor set_buf w4] in E. change (0 =? 0)%N with true in E. cbv iota in E.
  match type of E with context [try_push (be16 qtype) ?x] => set (wb0 := x) in E end.
  destruct (try_push (be16 qtype) wb0) as [[[] wb]|[e wb]|] eqn:P2; cbn [bind] in E; try discriminate.
  destruct (try_push_acc 12 _ _ _ _ P2 (Nat.le_add_r _ _)) as (bb & -> & Lb & Gb & Sb).
  match type of E with context [try_push (be16 qclass) ?x] => set (wc0 := x) in E end.
  destruct (try_push (be16 qclass) wc0) as [[[] wc]|[e wc]|] eqn:P3; cbn [bind] in E; try discriminate.
  destruct (try_push_acc 12 _ _ _ _ P3) as (bc & -> & Lc & Gc & Sc); [cbn; lia|].
  inversion E; subst w5. clear E P1 P2 P3 Hname.
  cbn [w_buf w_cursor set_buf set_cursor set_qname wb0 wc0 w4 set_rr_start set_counts] in *.
  assert (LQ : 12 + length Q = 12 + length (nm_wire qname) + length (be16 qtype) + length (be16 qclass))
    by (unfold Q; rewrite !app_length; lia).
  rewrite LQ. eexists bc, _. split; [reflexivity|]. split; [congruence|].
  split; [exact (agree_trans _ _ _ _ Ga (agree_trans _ _ _ _ Gb Gc))|].
  rewrite Sc, Sb, Sa, slice_nil. unfold Q. rewrite <- app_assoc. reflexivity.
Qed.

Lemma set_limit_inv' l w w' : MsgWriter.set_limit l w = Ok w' ->
  exists nl na, w' = set_limit_avail w nl na /\ (w_limit w <= l -> nl = Nat.min l (length (w_buf w))).
Proof.
  unfold MsgWriter.set_limit. destruct (w_limit w <=? l) eqn:Le.
  - destruct (_ <? _); [discriminate|]. intros H; inversion H. eauto.
  - apply Nat.leb_gt in Le. destruct (_ <? _); [discriminate|]. destruct (_ <? _); [discriminate|].
    destruct (_ <? _); [discriminate|]. intros H; inversion H. eexists _, _. split; [reflexivity|lia].
Qed.

(* everything the later stages use of the writer handed to query answering; octet 2 is QR (128) plus RD (1): opcode,
   AA, TC are 0, and octet 3 (RA, Z, RCODE) is still 0 *)
Lemma prepare_w_shape buf tcp id rd qname qtype qclass edns limit w :
  prepare_w buf tcp id rd qname qtype qclass edns limit = Some w ->
  let Q := nm_wire qname ++ be16 qtype ++ be16 qclass in
  let L0 := Nat.min (if tcp then tcp_limit_w else udp_limit_w) (length buf) in
  Inv_n w /\
  slice (w_buf w) 0 2 = be16 id /\ nth_error (w_buf w) 2 = Some (if rd then 129 else 128)%N /\
  nth_error (w_buf w) 3 = Some 0%N /\
  w_rr_start w = 12 + length Q /\ slice (w_buf w) 12 (12 + length Q) = Q /\
  w_edns w = option_map (fun size => mkEdns size 0) edns /\ w_tsig w = None /\
  (tcp = true \/ edns = None -> w_limit w = L0) /\
  (tcp = false -> edns <> None -> L0 <= limit -> w_limit w = Nat.min limit (length buf)).
Proof.
  intros E Q L0. revert E. unfold prepare_w. fold L0.
  destruct (writer_new buf _) as [w0|e|] eqn:E0; try discriminate.
  pose proof (writer_new_inv _ _ _ E0) as I0. unfold writer_new in E0. fold L0 in E0.
  destruct (L0 <? header_size); [discriminate|]. destruct (length buf <? header_size) eqn:Hb; [discriminate|].
  apply Nat.ltb_ge in Hb. set (b0 := repeat 0%N header_size ++ skipn header_size buf) in *.
  assert (Lb0 : length b0 = length buf) by (unfold b0; rewrite app_length, repeat_length, skipn_length; lia).
  injection E0 as <-. change header_size with 12 in *.
  set (w0 := mkW b0 12 L0 L0 12 SecQuestion 0 0 0 0 None None None Standard None None) in *.
  destruct (set_id id w0) as [w1|e|] eqn:E1; cbn [bind]; try discriminate.
  destruct (set_qr true w1) as [w2|e|] eqn:E2; cbn [bind]; try discriminate.
  destruct (set_opcode 0 w2) as [w3|e|] eqn:E3; cbn [bind]; try discriminate.
  destruct (set_rd rd w3) as [w4|e|] eqn:E4; try discriminate.
  (* the header after the four setters: id, then three changes of octet 2, which starts at 0 *)
  unfold set_id in E1. pose proof (inv_w_write _ _ _ _ I0 E1) as I1. apply w_write_inv in E1 as (b1 & B1 & ->).
  pose proof (inv_w_modify _ _ _ _ I1 E2) as I2. destruct (w_modify_at _ _ _ _ E2) as (y2 & b2 & Y2 & -> & L2 & Y2' & O2).
  pose proof (inv_w_modify _ _ _ _ I2 E3) as I3. destruct (w_modify_at _ _ _ _ E3) as (y3 & b3 & Y3 & -> & L3 & Y3' & O3).
  pose proof (inv_w_modify _ _ _ _ I3 E4) as I4. destruct (w_modify_at _ _ _ _ E4) as (y4 & b4 & Y4 & -> & L4 & Y4' & O4).
  change (N.to_nat QR_BYTE) with 2 in *. change (N.to_nat OPCODE_BYTE) with 2 in *. change (N.to_nat RD_BYTE) with 2 in *.
  change (N.to_nat ID_START) with 0 in B1. cbn [w_buf set_buf] in *. change (w_buf w0) with b0 in *.
  pose proof (buf_write_length _ _ _ _ B1) as L1.
  rewrite (buf_write_other _ _ _ _ 2 B1) in Y2 by (cbn; lia). injection Y2 as <-.
  rewrite Y2' in Y3. injection Y3 as <-. rewrite Y3' in Y4. injection Y4 as <-.
  assert (H4 : slice b4 0 2 = be16 id /\ nth_error b4 2 = Some (if rd then 129 else 128)%N /\ nth_error b4 3 = Some 0%N).
  { split; [|split].
    - rewrite <- (buf_write_data _ _ _ _ B1). apply slice_ext_nth. intros j _ Hj. cbn in Hj. rewrite O4, O3, O2 by lia. reflexivity.
    - rewrite Y4'. destruct rd; reflexivity.
    - rewrite O4, O3, O2 by lia. rewrite (buf_write_other _ _ _ _ 3 B1) by (cbn; lia). reflexivity. }
  clear Y2' Y3' Y4' O2 O3 O4 B1.
  change (set_buf (set_buf (set_buf (set_buf w0 b1) b2) b3) b4) with (set_buf w0 b4) in *.
  destruct (add_question qname qtype qclass (set_buf w0 b4)) as [[u w5]|e|] eqn:E5; try discriminate.
  assert (I5 : Inv_n w5).
  { pose proof (step_good_all (mkD (set_buf w0 b4) []) (OAddQuestion qname qtype qclass) I4) as G.
    cbn [step d_w] in G. rewrite E5 in G. exact G. }
  destruct (fresh_add_question _ _ _ _ _ _ _ _ E5) as (b5 & qn & -> & L5 & G5 & S5). fold Q in S5 |- *.
  assert (H5 : slice b5 0 2 = be16 id /\ nth_error b5 2 = Some (if rd then 129 else 128)%N /\ nth_error b5 3 = Some 0%N).
  { destruct H4 as (A & B & C). rewrite (agree_slice _ _ _ _ _ G5), !(agree_nth _ _ _ _ G5) by lia. auto. }
  clear H4 E5. destruct H5 as (A5 & B5 & C5).
  destruct edns as [size|]; [|intros E; injection E as <-; split; [exact I5|]; cbn; repeat split; auto; intros; congruence].
  destruct (set_edns size _) as [[u6 w6]|e|] eqn:E6; try discriminate.
  assert (I6 : Inv_n w6).
  { match type of E6 with set_edns _ ?x = _ => pose proof (step_good_all (mkD x []) (OSetEdns size) I5) as G end.
    cbn [step d_w] in G. rewrite E6 in G. exact G. }
  unfold set_edns in E6. cbn [w_edns w_avail w_cursor w_ar] in E6. destruct (_ <? _) in E6; [discriminate|].
  change (checked_add16 0 1) with (Some 1%N) in E6. inversion E6; subst w6. clear E6.
  destruct tcp; [intros E; injection E as <-; split; [exact I6|]; cbn; repeat split; auto; intros; congruence|].
  destruct (MsgWriter.set_limit limit _) as [w7|e|] eqn:E7; try discriminate. intros E; injection E as ->.
  pose proof (set_limit_inv _ _ _ I6 E7) as I7. destruct (set_limit_inv' _ _ _ E7) as (nl & na & -> & Hnl).
  split; [exact I7|]. cbn in Hnl |- *. repeat split; auto; [intros [?|?]; discriminate|]. intros _ _ Hl. rewrite Hnl by exact Hl. congruence.
Qed.

Theorem prepare_PW buf tcp id rd qname qtype qclass edns limit w :
  prepare_w buf tcp id rd qname qtype qclass edns limit = Some w ->
  exists L, PW L w /\
    (tcp = true -> L <= N.to_nat 65535) /\
    (tcp = false -> edns = None -> L <= N.to_nat 512) /\
    (tcp = false -> edns <> None -> N.to_nat 512 <= limit -> L <= limit).
Proof.
  intros E. destruct (prepare_w_shape _ _ _ _ _ _ _ _ _ _ E) as (Hi & _ & H2 & _ & _ & _ & _ & _ & La & Lb).
  exists (w_limit w). split; [split; [exact Hi|split; [reflexivity|]]|repeat split].
  - exists (if rd then 129 else 128)%N. split; [exact H2|destruct rd; reflexivity].
  - intros ->. rewrite La by auto. apply Nat.le_min_l.
  - intros -> ->. rewrite La by auto. apply Nat.le_min_l.
  - intros -> Hn H512. rewrite Lb; [apply Nat.le_min_l|reflexivity|exact Hn|].
    etransitivity; [apply Nat.le_min_l|exact H512].
Qed.

Lemma respond_w_inv negttl buf tcp id rd qname qtype qclass edns limit z r :
  respond_w negttl buf tcp id rd qname qtype qclass edns limit z = Some r ->
  exists w w', prepare_w buf tcp id rd qname qtype qclass edns limit = Some w /\
    handle_non_axfr_query w_iface negttl z qname qtype tcp w = Some w' /\ finish w' = Ok r.
Proof.
  unfold respond_w. destruct (prepare_w _ _ _ _ _ _ _ _ _) as [w|]; [|discriminate].
  destruct (handle_non_axfr_query _ _ _ _ _ _ w) as [w'|] eqn:Eh; [|discriminate].
  destruct (finish w') as [r'|e|] eqn:Ef; try discriminate. intros H; injection H as <-. exists w, w'. auto.
Qed.

Lemma respond_plain_inv buf tcp id rd qname qtype qclass edns limit rcode r :
  respond_plain buf tcp id rd qname qtype qclass edns limit rcode = Some r ->
  exists w w', prepare_w buf tcp id rd qname qtype qclass edns limit = Some w /\
    set_rcode rcode w = Ok w' /\ finish w' = Ok r.
Proof.
  unfold respond_plain. destruct (prepare_w _ _ _ _ _ _ _ _ _) as [w|]; [|discriminate].
  destruct (set_rcode rcode w) as [w'|e|] eqn:Er; try discriminate.
  destruct (finish w') as [r'|e|] eqn:Ef; try discriminate. intros H; injection H as <-. exists w, w'. auto.
Qed.

Theorem respond_w_limit negttl buf tcp id rd qname qtype qclass edns limit z len b :
  respond_w negttl buf tcp id rd qname qtype qclass edns limit z = Some (len, b) ->
  (tcp = true -> len <= N.to_nat 65535) /\
  (tcp = false -> edns = None -> len <= N.to_nat 512) /\
  (tcp = false -> edns <> None -> N.to_nat 512 <= limit -> len <= limit).
Proof.
  intros R. destruct (respond_w_inv _ _ _ _ _ _ _ _ _ _ _ _ R) as (w & w' & Ep & Eh & Ef).
  destruct (prepare_PW _ _ _ _ _ _ _ _ _ _ Ep) as (L & Hp & B1 & B2 & B3).
  destruct (handle_PW L _ _ _ _ _ _ _ Hp Eh) as (Hi & Hl & _).
  destruct (finish_gen_limit _ _ _ _ Hi Ef) as [Hlen _]. rewrite Hl in Hlen.
  repeat split; intros; etransitivity; eauto.
Qed.
