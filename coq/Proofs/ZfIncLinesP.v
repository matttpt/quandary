(* C25 — the machine over files given as logical lines (Model/ZfFs.v, Spec/ZfFsS.v) is the iterator
   machine (Model/ZfInc.v, Spec/ZfIncS.v) whose per-file parser state is (context, remaining lines):
   the two structural expansions coincide, hence so do the two machines' complete runs. *)
From QV Require Import Base.Octets Model.ZfFs Spec.ZfFsS Proofs.ZfFsP Model.ZfInc Spec.ZfIncS Proofs.ZfIncP.

Section LinesAsIter.
  Variables Origin Own Ttl Cls Rec SErr L : Type.
  Notation ctx := (ZfFs.ctx Origin Own Ttl Cls).
  Notation lres := (lres Origin Own Ttl Cls Rec SErr).
  Variable pline : ctx -> L -> lres.
  Variable fs : path -> option (list (nat * L)).

  Definition lstate := (ctx * list (nat * L))%type.

  (* <Parser as Iterator>::next for a line-structured file: skip the silent lines *)
  Fixpoint lnext_from (c : ctx) (t : list (nat * L)) : pres Origin Rec SErr nat lstate :=
    match t with
    | [] => PNone _ _ _ _ _ (c, [])
    | (n, l) :: t' =>
        match pline c l with
        | LSkip _ _ _ _ _ _ c' => lnext_from c' t'
        | LErr _ _ _ _ _ _ e => PErr _ _ _ _ _ e
        | LRec _ _ _ _ _ _ r c' => PRec _ _ _ _ _ n r (c', t')
        | LInc _ _ _ _ _ _ ip o c' => PInc _ _ _ _ _ n ip o (c', t')
        end
    end.
  Definition lnext (s : lstate) := lnext_from (fst s) (snd s).
  Definition lctx (s : lstate) : ctx := fst s.
  Definition lwith (s : lstate) (c : ctx) : lstate := (c, snd s).
  Definition lnew (t : list (nat * L)) (c : ctx) : lstate := (c, t).
  Definition lsize (s : lstate) : nat := length (snd s).

  Notation gexp := (gexpand Origin Own Ttl Cls Rec SErr nat lstate (list (nat * L)) lnext lctx lwith lnew fs lsize).
  Notation expand := (expand Origin Own Ttl Cls Rec SErr L pline fs).

  Definition conv_err (e : fs_err SErr) : ierr SErr nat :=
    match e with
    | ESyntax _ e => ISyntax _ _ e
    | ETooDeep _ n ch => ITooDeep _ _ n ch
    | EOpen _ n p => IOpen _ _ n p
    end.
  Definition conv_out (o : outcome Origin Own Ttl Cls SErr) : goutcome Origin Own Ttl Cls SErr nat :=
    match o with
    | OCtx _ _ _ _ _ c => GCtx _ _ _ _ _ _ c
    | OBad _ _ _ _ _ p e => GBad _ _ _ _ _ _ p (conv_err e)
    | OPanic _ _ _ _ _ => GAbort _ _ _ _ _ _ APanic
    end.

  Lemma lnext_skip c n l t' c' : pline c l = LSkip _ _ _ _ _ _ c' ->
    lnext (c, (n, l) :: t') = lnext (c', t').
  Proof. intros H. unfold lnext. cbn [fst snd lnext_from]. rewrite H. reflexivity. Qed.

  Lemma gexpand_lines : forall d chain p t c k, length t < k ->
    gexp d chain p k (c, t) = (fst (expand d chain p c t), conv_out (snd (expand d chain p c t))).
  Proof.
    induction d as [d IHd] using lt_wf_ind. intros chain p.
    induction t as [|[n l] t IHt]; intros c k Hk; (destruct k as [|k]; [lia|]); rewrite gexpand_S.
    - rewrite expand_nil. reflexivity.
    - cbn [length] in Hk. rewrite expand_cons. unfold lnext at 1. cbn [fst snd lnext_from].
      destruct (pline c l) as [c'|e|r c'|ip o c'].
      + rewrite <- (IHt c' (S k)) by lia. apply eq_sym, gexpand_S.
      + reflexivity.
      + rewrite (IHt c' k) by lia. destruct (expand d chain p c' t). reflexivity.
      + destruct d as [|d]; [reflexivity|].
        destruct (compute_path p ip) as [newp|]; [|reflexivity].
        destruct (fs newp) as [t2|]; [|reflexivity].
        cbv zeta. unfold lctx, lnew, lsize, lwith in *. cbn [fst snd].
        rewrite (IHd d (Nat.lt_succ_diag_r d) (chain ++ [(p, n)]) newp t2) by lia.
        destruct (expand d (chain ++ [(p, n)]) newp (start_ctx _ _ _ _ c' o) t2) as [it [cend|bp be|]];
          try reflexivity.
        cbn [fst snd conv_out]. rewrite (IHt (resume_ctx _ _ _ _ c' cend) k) by lia.
        destruct (expand (S d) chain p (resume_ctx _ _ _ _ c' cend) t). reflexivity.
  Qed.

  Lemma conv_out_not_fuel o : conv_out o <> GFuel _ _ _ _ _ _.
  Proof. destruct o; discriminate. Qed.

  Variable max_depth : nat.

  Theorem lines_iter_run p0 n0 c0 t0 :
    exists f0, forall fuel, f0 <= fuel ->
      ZfInc.run Origin Own Ttl Cls Rec SErr nat lstate (list (nat * L)) lnext lctx lwith lnew fs max_depth fuel
        [(p0, n0, (c0, t0))] =
      (fst (expand max_depth [] p0 c0 t0),
       gfinal_of _ _ _ _ _ _ (conv_out (snd (expand max_depth [] p0 c0 t0)))).
  Proof.
    pose proof (run_eq_gexpand Origin Own Ttl Cls Rec SErr nat lstate (list (nat * L)) lnext lctx lwith lnew fs lsize
                  max_depth p0 n0 (c0, t0) (S (length t0))) as H.
    rewrite (gexpand_lines max_depth [] p0 t0 c0 (S (length t0))) in H by lia. cbn [fst snd] in H.
    apply H. apply conv_out_not_fuel.
  Qed.
End LinesAsIter.
