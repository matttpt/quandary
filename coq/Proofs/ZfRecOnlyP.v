(* RecordsOnly: total, and after its first error (including the "$INCLUDE not supported" error it
   produces itself) it yields nothing more. *)
From QV Require Import Model.ZfRecOnly Proofs.ZfRecordP.

Definition ro_item := (ro_line + (pos * zkind))%type.

Lemma ro_next_after_error p : ps_error p = true -> ro_next p = Ok (None, p).
Proof. intros H. unfold ro_next. rewrite (next_after_error p H). reflexivity. Qed.

Lemma ro_next_error_sets_flag p e p' : ro_next p = Ok (Some (inr e), p') -> ps_error p' = true.
Proof.
  unfold ro_next. destruct (parser_next p) as [[[[l|e0]|] p1]|e1|] eqn:E; try discriminate.
  - destruct (l_content l); [|discriminate]. intros [= _ <-]. reflexivity.
  - intros [= _ <-]. eapply next_error_sets_flag. exact E.
Qed.

Fixpoint ro_next_n (n : nat) (p : parser) : list (res zerr (option ro_item * parser)) :=
  match n with
  | O => []
  | S n' => ro_next p :: match ro_next p with Ok (_, p') => ro_next_n n' p' | _ => [] end
  end.

Theorem ro_stops_after_error p e p' : ro_next p = Ok (Some (inr e), p') ->
  forall n, Forall (fun x => x = Ok (None, p')) (ro_next_n n p').
Proof.
  intros H. apply ro_next_error_sets_flag in H. induction n as [|n IH]; [constructor|].
  cbn [ro_next_n]. rewrite (ro_next_after_error p' H). constructor; [reflexivity|exact IH].
Qed.

(* in the form of [drive_spec]'s hypothesis [next_ok] with [ok := fun _ => True], hence the [True /\] *)
Lemma ro_next_spec p : pinv p -> ps_error p = false ->
  exists o p', ro_next p = Ok (o, p') /\ pinv p' /\
    match o with
    | Some (inl _) => True /\ ps_error p' = false /\ measure p' < measure p
    | Some (inr _) => ps_error p' = true
    | None => ps_error p' = false /\ ro_next p' = Ok (None, p')
    end.
Proof.
  intros Hp He. destruct (next_spec p Hp He) as (o & p' & Hn & Hp' & Ho). unfold ro_next at 1. rewrite Hn.
  destruct o as [[l|e]|]; [destruct Ho as (_ & B & C); destruct (l_content l)| |];
    eexists _, _; (split; [reflexivity|]); (split; [exact Hp'|]).
  - reflexivity.
  - auto.
  - exact Ho.
  - split; [exact Ho|]. unfold ro_next. rewrite (next_none_again p p' Hp He Hn). reflexivity.
Qed.

Lemma ro_collect_drive : forall fuel p acc, ro_collect fuel p acc = drive ro_next fuel p acc.
Proof.
  induction fuel as [|fuel IH]; intros p acc; [reflexivity|]. cbn [ro_collect drive].
  destruct (ro_next p) as [[[it|] p']|e|]; cbn [bind]; auto.
Qed.

Theorem ro_all_spec input :
  exists items p, ro_all input = Ok (items, p) /\ ro_next p = Ok (None, p) /\
    (exists ls tl, items = ls ++ tl /\ Forall is_line ls /\ (tl = [] \/ exists e, tl = [inr e])).
Proof.
  unfold ro_all. rewrite ro_collect_drive.
  destruct (drive_spec ro_next (fun _ => True) ro_next_after_error ro_next_spec
              (S (S (length input))) (parser_new input) []) as (items & p & H & _ & Hn & Hs);
    [apply pinv_new|reflexivity|unfold measure; cbn; lia|constructor|constructor|eauto].
Qed.

Theorem ro_all_total input : exists items p, ro_all input = Ok (items, p).
Proof. destruct (ro_all_spec input) as (items & p & H & _). eauto. Qed.

Theorem ro_errors_only_last input items p : ro_all input = Ok (items, p) ->
  ro_next p = Ok (None, p) /\ forall i e, nth_error items i = Some (inr e) -> S i = length items.
Proof.
  intros H. destruct (ro_all_spec input) as (items' & p' & H' & Hn & ls & tl & -> & Hl & Ht).
  rewrite H in H'. inversion H'; subst. split; [exact Hn|].
  intros i e. apply error_is_last; assumption.
Qed.

Theorem ro_include_is_error p n path o p' : parser_next p = Ok (Some (inl (mkLine n (CInclude path o))), p') ->
  exists p'', ro_next p = Ok (Some (inr (mkPos n 1, IncludeNotSupported)), p'') /\ ps_error p'' = true.
Proof. intros H. unfold ro_next. rewrite H. cbn. eauto. Qed.
