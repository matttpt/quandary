(* The abstraction invariant between the tree built by add and the flat list of accepted records,
   its preservation by HashMapTreeZone::add, and the verdict of add. *)
From QV Require Import Base.Res Base.Octets Base.ListX Model.ZoneTree Spec.ZoneLookupS
  Proofs.ZoneBaseP Proofs.ZoneRrsetP Proofs.ZoneViewP.

Lemma forallb_combine_lc l1 l2 : length l1 = length l2 ->
  (forallb (fun p => label_eqb (fst p) (snd p)) (combine l1 l2) = true <-> lc l1 = lc l2).
Proof.
  revert l2; induction l1 as [|x l1 IH]; intros [|y l2] H; simpl in *; try discriminate.
  - tauto.
  - rewrite andb_true_iff, label_eqb_iff, IH by lia. split.
    + intros [E1 E2]. rewrite !lc_cons. congruence.
    + rewrite !lc_cons. intros E. inversion E. auto.
Qed.

Lemma combine_app_len {A B} (l1 l1' : list A) (l2 : list B) : length l1 = length l2 ->
  combine (l1 ++ l1') l2 = combine l1 l2.
Proof.
  revert l2; induction l1 as [|x l1 IH]; intros [|y l2] H; simpl in *; try discriminate; auto.
  - destruct l1'; reflexivity.
  - rewrite IH by lia. reflexivity.
Qed.

Lemma eq_or_subdomain_of_in_zone apex o : eq_or_subdomain_of o apex = in_zone apex o.
Proof.
  unfold eq_or_subdomain_of, in_zone, is_suffixb, name_len. rewrite !lc_length. cbn [Nat.leb].
  destruct (length apex <=? length o) eqn:L; [|reflexivity]. apply Nat.leb_le in L. cbn [andb].
  apply eq_true_iff_eq. rewrite name_eqb_eq, <- lc_skipn.
  (* only the last [length apex] labels of o take part in the comparison *)
  rewrite <- (firstn_skipn (length o - length apex) o) at 1.
  rewrite rev_app_distr, combine_app_len by (rewrite !rev_length, skipn_length; lia).
  rewrite forallb_combine_lc by (rewrite !rev_length, skipn_length; lia).
  rewrite !lc_rev. split; [|intros ->; reflexivity].
  intros H. apply (f_equal (@rev _)) in H. rewrite !rev_involutive in H. exact H.
Qed.

Section Inv.
Variable req : N -> N -> bytes -> bytes -> bool.
Hypothesis req_trans : forall cls ty a b c,
  req cls ty a b = true -> req cls ty b c = true -> req cls ty a c = true.
Variable apex : name.
Variable cls : N.

(* paths run from the apex downwards, names have the leaf label first *)
Definition pname (p : list label) : name := lc (rev p ++ apex).

(* [p] ranges over all spellings of a path ([view] finds children case-insensitively), so only [lc n] is
   fixed here; the None clause makes the tree complete: a missing child means the name does not exist,
   which is what lets lookup_impl stop there and try the wildcard *)
Definition node_ok (R : list record) (p : list label) (x : option (name * rrset_list)) : Prop :=
  match x with
  | Some (n, d) => exists_name apex R (pname p) = true /\ lc n = pname p /\ rrsets_ok req cls R (pname p) d
  | None => exists_name apex R (pname p) = false
  end.

Definition Inv (z : zone) (R : list record) : Prop :=
  zone_name z = apex /\ z_class z = cls /\ forall p, node_ok R p (view p (z_apex z)).

Lemma Inv_name z R : Inv z R -> zone_name z = apex.
Proof. intros H. apply H. Qed.
Lemma Inv_class z R : Inv z R -> z_class z = cls.
Proof. intros H. apply H. Qed.
Lemma Inv_node z R p : Inv z R -> node_ok R p (view p (z_apex z)).
Proof. intros H. apply H. Qed.

Lemma exists_name_snoc R r m :
  exists_name apex (R ++ [r]) m = exists_name apex R m || is_suffixb m (lc (r_owner r)).
Proof. unfold exists_name. rewrite existsb_snoc. apply orb_assoc. Qed.

Lemma no_records_if_absent R m ty : exists_name apex R m = false -> spec_rrset req cls R m ty = None.
Proof.
  intros H. destruct (spec_rrset req cls R m ty) as [rs|] eqn:E; [|reflexivity]. exfalso.
  destruct (spec_rrset_inv req _ _ _ _ _ E) as (r0 & Hin & Ho & _).
  apply orb_false_iff in H. destruct H as [_ H]. apply not_true_iff_false in H. apply H, existsb_exists.
  exists r0. split; [exact Hin|]. rewrite Ho. apply is_suffixb_refl.
Qed.

Lemma rrsets_ok_absent R m : exists_name apex R m = false -> rrsets_ok req cls R m [].
Proof.
  intros H. split; [simpl; auto|]. intros ty. simpl. symmetry. apply no_records_if_absent. exact H.
Qed.

Lemma Inv_new wide : Inv (zone_new apex cls wide) [].
Proof.
  split; [reflexivity|]. split; [reflexivity|]. intros p. simpl z_apex. rewrite view_node_new.
  destruct p as [|x p]; unfold node_ok, pname.
  - simpl rev. simpl app. split; [|split; [reflexivity|]].
    + unfold exists_name. rewrite name_eqb_refl. reflexivity.
    + split; [simpl; auto|]. intros ty. reflexivity.
  - unfold exists_name. simpl existsb. rewrite orb_false_r. apply name_eqb_neq.
    intros E. apply (f_equal (@length _)) in E. rewrite !lc_length, app_length, rev_length in E.
    simpl in E. lia.
Qed.

Lemma pname_rev p : pname p = rev (lc p) ++ lc apex.
Proof. unfold pname. rewrite lc_app, lc_rev. reflexivity. Qed.

Lemma pname_snoc P x : pname (P ++ [x]) = map lower x :: pname P.
Proof. unfold pname. rewrite rev_app_distr. reflexivity. Qed.

Lemma pname_length P : length (pname P) = length P + length (lc apex).
Proof. rewrite pname_rev, app_length, rev_length, lc_length. reflexivity. Qed.

Lemma prefixb_suffix p d : prefixb p d = is_suffixb (pname p) (pname d).
Proof.
  apply eq_true_iff_eq. rewrite prefixb_iff, is_suffixb_iff, !pname_rev. split; intros [q E]; exists (rev q).
  - rewrite E, rev_app_distr, app_assoc. reflexivity.
  - rewrite app_assoc in E. apply app_inv_tail, (f_equal (@rev _)) in E.
    rewrite rev_involutive, rev_app_distr, rev_involutive in E. exact E.
Qed.

Lemma pname_skipn p d : prefixb p d = true -> skipn (length d - length p) (pname d) = pname p.
Proof.
  rewrite prefixb_suffix. intros H. apply is_suffixb_skipn in H. rewrite !pname_length in H.
  rewrite <- H. f_equal. lia.
Qed.

Lemma in_zone_descent o : in_zone apex o = true ->
  length apex <= length o /\ pname (descent o (length o - length apex)) = lc o.
Proof.
  unfold in_zone, is_suffixb. rewrite andb_true_iff, Nat.leb_le, name_eqb_eq, !lc_length. intros [L H].
  split; [exact L|].
  rewrite descent_rev, pname_rev, lc_rev, rev_involutive, <- H, <- lc_skipn, <- lc_app by lia.
  rewrite firstn_skipn. reflexivity.
Qed.

(* spelling of node names; separate from Inv because only the _exact theorems need it *)
Definition Inv_sp (z : zone) (R : list record) : Prop :=
  forall p n d, view p (z_apex z) = Some (n, d) -> n = spelled apex R (pname p).

Lemma find_app_l {A} (P : A -> bool) l1 l2 :
  find P (l1 ++ l2) = match find P l1 with Some x => Some x | None => find P l2 end.
Proof. induction l1 as [|x l1 IH]; simpl; auto. destruct (P x); auto. Qed.

Lemma find_none_existsb {A} (P : A -> bool) l : existsb P l = false -> find P l = None.
Proof.
  induction l as [|x l IH]; simpl; auto. destruct (P x); simpl; [discriminate|auto].
Qed.

Lemma spelled_snoc_exists R r m : exists_name apex R m = true ->
  spelled apex (R ++ [r]) m = spelled apex R m.
Proof.
  unfold exists_name, spelled. intros H. destruct (name_eqb m (lc apex)); auto. simpl in H.
  rewrite find_app_l.
  destruct (find (fun r0 => is_suffixb m (lc (r_owner r0))) R) eqn:F; auto.
  exfalso. apply existsb_exists in H. destruct H as (x & Hx & Hs).
  apply (find_none _ _ F) in Hx. congruence.
Qed.

Lemma spelled_snoc_fresh R r m : exists_name apex R m = false ->
  is_suffixb m (lc (r_owner r)) = true ->
  spelled apex (R ++ [r]) m = skipn (length (r_owner r) - length m) (r_owner r).
Proof.
  unfold exists_name, spelled. intros H Hs. apply orb_false_iff in H. destruct H as [H1 H2].
  rewrite H1, find_app_l, (find_none_existsb _ _ H2). simpl. rewrite Hs. reflexivity.
Qed.

Lemma Inv_sp_new wide : Inv_sp (zone_new apex cls wide) [].
Proof.
  intros p n d V. simpl z_apex in V. rewrite view_node_new in V. destruct p; [|discriminate].
  inversion V; subst. unfold spelled, pname. simpl. rewrite name_eqb_refl. reflexivity.
Qed.

Lemma usub_ok a b : b <= a -> usub a b = Ok (a - b).
Proof. intros H. unfold usub. apply Nat.leb_le in H. rewrite H. reflexivity. Qed.

Lemma set_child_same lab c ch : find_child lab ch = Some c -> set_child lab c ch = ch.
Proof.
  induction ch as [|[k c0] ch IH]; simpl; auto.
  destruct (label_eqb k lab); intros H.
  - inversion H; subst. reflexivity.
  - rewrite IH; auto.
Qed.

Lemma node_update_err_same f level nm : forall t n0 d0 e, level <= length nm ->
  view (descent nm level) t = Some (n0, d0) -> f d0 = Err e ->
  node_update level nm f t = Ok (t, Some e).
Proof.
  induction level as [|l IH]; intros t n0 d0 e Hl V F.
  - simpl in *. inversion V; subst. rewrite F. reflexivity.
  - cbn [node_update descent view] in *.
    assert (Hnth : nth_error nm l = Some (nth l nm [])) by (apply nth_error_nth'; lia).
    unfold name_index. rewrite Hnth. cbn [bind].
    destruct (find_child (nth l nm []) (node_children t)) as [c|] eqn:Fc; [|discriminate].
    rewrite (IH c n0 d0 e) by (auto; lia). cbn [bind].
    rewrite (set_child_same _ _ _ Fc). destruct t; reflexivity.
Qed.

Definition state_after (R : list record) (r : record) : list record :=
  match add_verdict apex cls R r with None => R ++ [r] | Some _ => R end.

Lemma zone_add_step z R r : Inv z R ->
  exists z', zone_add req z r = Ok (z', add_verdict apex cls R r) /\
             Inv z' (state_after R r) /\
             (add_verdict apex cls R r <> None -> z' = z) /\
             (Inv_sp z R -> Inv_sp z' (state_after R r)).
Proof.
  intros (Hn & Hc & Hv). unfold zone_add, state_after, add_verdict.
  rewrite Hn, Hc, eq_or_subdomain_of_in_zone.
  (* a rejected add returns the zone as it is *)
  assert (Rej : forall e : zone_err, exists z', @Ok zone_err _ (z, Some e) = Ok (z', Some e) /\ Inv z' R /\
                                     (Some e <> None -> z' = z) /\ (Inv_sp z R -> Inv_sp z' R)).
  { intros e. exists z. split; [reflexivity|]. split; [exact (conj Hn (conj Hc Hv))|]. split; auto. }
  destruct (in_zone apex (r_owner r)) eqn:Z; cbn [negb]; [|apply Rej].
  destruct (r_class r =? cls)%N eqn:C; cbn [negb]; [|apply Rej].
  apply N.eqb_eq in C.
  destruct (in_zone_descent _ Z) as (Hla & Td). set (level := length (r_owner r) - length apex) in *.
  assert (Hl : level <= length (r_owner r)) by (unfold level; lia).
  unfold name_len. rewrite usub_ok by lia. cbn [bind].
  change (S (length (r_owner r)) - S (length apex)) with level.
  set (f := rrsets_add req (r_class r) (r_type r) (r_ttl r) (r_rdata r)).
  destruct (node_update_view f (rrsets_add_no_panic req _ _ _ _) level (r_owner r) (z_apex z) Hl)
    as (a' & Hup & Hname & Hview). cbv zeta in Hup, Hview.
  set (d := descent (r_owner r) level) in *.
  assert (Ld : length d = level) by apply descent_length.
  assert (Sd : forall p, prefixb p d = is_suffixb (pname p) (lc (r_owner r)))
    by (intros p; rewrite <- Td; apply prefixb_suffix).
  (* a path along the descent denotes a node satisfying node_ok, or none, and then the default does *)
  assert (Hvd : forall p, prefixb p d = true ->
            lc (fst (viewd p (z_apex z) (r_owner r) level)) = pname p /\
            rrsets_ok req cls R (pname p) (snd (viewd p (z_apex z) (r_owner r) level))).
  { intros p Pp. unfold viewd. specialize (Hv p). unfold node_ok in Hv.
    destruct (view p (z_apex z)) as [[n0 d0]|]; cbn [fst snd].
    - tauto.
    - split; [|apply rrsets_ok_absent; exact Hv].
      rewrite lc_skipn, <- Td, <- Ld. apply pname_skipn. exact Pp. }
  assert (Pd : prefixb d d = true) by (rewrite Sd, <- Td; apply is_suffixb_refl).
  destruct (Hvd d Pd) as [_ Hd0]. rewrite Td, <- C in Hd0.
  pose proof (rrsets_ok_add req req_trans R r _ Hd0) as Hadd. fold f in Hadd.
  destruct (ttl_ok R r) eqn:T; cbn [negb].
  - destruct Hadd as (d' & Hfd & Hok'). rewrite C in Hok'.
    rewrite Hup. cbn [bind]. unfold err_of. rewrite Hfd.
    eexists; split; [reflexivity|]. split; [|split; [congruence|]].
    + split; [exact (eq_trans Hname Hn)|]. split; [reflexivity|]. cbn [z_apex].
      intros p. rewrite Hview, Sd. specialize (Hv p). unfold node_ok in *. rewrite exists_name_snoc.
      destruct (is_suffixb (pname p) (lc (r_owner r))) eqn:Sx.
      * rewrite orb_true_r. destruct (Hvd p) as [Hnm Hdat]; [rewrite Sd; exact Sx|].
        split; [reflexivity|]. split; [exact Hnm|].
        assert (Elen : length (pname p) = length (lc (r_owner r)) <-> length p = level)
          by (rewrite <- Td, !pname_length; lia).
        destruct (length p =? level) eqn:Lp.
        -- apply Nat.eqb_eq, Elen in Lp. unfold apply_f. rewrite Hfd.
           rewrite (is_suffixb_same_length _ _ Sx) by lia. exact Hok'.
        -- apply rrsets_ok_other; [|exact Hdat]. intros Eo.
           apply Nat.eqb_neq in Lp. apply Lp, Elen. rewrite Eo. reflexivity.
      * rewrite orb_false_r. destruct (view p (z_apex z)) as [[n0 d0]|]; [|exact Hv].
        destruct Hv as (H1 & H2 & H3). split; [exact H1|]. split; [exact H2|].
        apply rrsets_ok_other; [|exact H3]. intros Eo.
        rewrite <- Eo, is_suffixb_refl in Sx. discriminate.
    + (* spelling: nodes that existed keep their name; a new one is named by a suffix of this owner *)
      intros Hsp p n dd Vp. cbn [z_apex] in Vp. rewrite Hview in Vp.
      pose proof (Hv p) as Hvp. unfold node_ok in Hvp.
      destruct (prefixb p d) eqn:Pp.
      * inversion Vp; subst n. unfold viewd.
        destruct (view p (z_apex z)) as [[n0 d0]|] eqn:V0; simpl.
        -- rewrite (Hsp p n0 d0 V0). symmetry. apply spelled_snoc_exists. tauto.
        -- rewrite spelled_snoc_fresh; [|exact Hvp|rewrite <- Sd; exact Pp]. f_equal.
           pose proof (prefixb_length _ _ Pp) as Lp. rewrite pname_length, lc_length. unfold level in *. lia.
      * destruct (view p (z_apex z)) as [[n0 d0]|] eqn:V0; [|discriminate]. inversion Vp; subst.
        rewrite (Hsp p n dd V0). symmetry. apply spelled_snoc_exists. tauto.
  - (* TTL mismatch: the target exists, nothing is created, the tree is unchanged *)
    unfold viewd in Hadd. destruct (view d (z_apex z)) as [[n0 d0]|] eqn:V; [|discriminate Hadd].
    rewrite (node_update_err_same f level (r_owner r) (z_apex z) n0 d0 TtlMismatch Hl V Hadd).
    cbn [bind]. rewrite <- Hc. destruct z. apply Rej.
Qed.

Lemma accepted_fold rs : forall acc,
  fold_left (fun acc r => if acceptable apex cls acc r then acc ++ [r] else acc) rs acc =
  fold_left state_after rs acc.
Proof.
  induction rs as [|r rs IH]; intros acc; simpl; auto.
  rewrite IH. f_equal. unfold state_after, add_verdict, acceptable.
  destruct (in_zone apex (r_owner r)); simpl; auto.
  destruct (r_class r =? cls)%N; simpl; auto.
  destruct (ttl_ok acc r); reflexivity.
Qed.

Lemma accepted_In recs r : In r (accepted apex cls recs) -> In r recs /\ in_zone apex (r_owner r) = true.
Proof.
  assert (G : forall rs acc,
            In r (fold_left (fun acc r => if acceptable apex cls acc r then acc ++ [r] else acc) rs acc) ->
            In r acc \/ In r rs /\ in_zone apex (r_owner r) = true).
  { induction rs as [|x rs IH]; simpl; intros acc H; [auto|].
    apply IH in H. destruct H as [H|[H1 H2]]; [|auto].
    destruct (acceptable apex cls acc x) eqn:A; [|auto].
    apply in_app_iff in H. destruct H as [H|[<-|[]]]; [auto|].
    unfold acceptable in A. rewrite !andb_true_iff in A. tauto. }
  intros H. destruct (G _ _ H) as [[]|H']. exact H'.
Qed.

Lemma zone_build_inv rs : forall z R, Inv z R ->
  exists z', zone_build req z rs = Some z' /\ Inv z' (fold_left state_after rs R) /\
             (Inv_sp z R -> Inv_sp z' (fold_left state_after rs R)).
Proof.
  induction rs as [|r rs IH]; intros z R H; simpl.
  - eauto.
  - destruct (zone_add_step z R r H) as (z1 & -> & Hinv & _ & Hsp).
    destruct (IH z1 _ Hinv) as (z' & Hb & HI & HS). eauto 6.
Qed.

Lemma zone_build_new rs wide :
  exists z, zone_build req (zone_new apex cls wide) rs = Some z /\
            Inv z (accepted apex cls rs) /\ Inv_sp z (accepted apex cls rs).
Proof.
  unfold accepted. rewrite accepted_fold.
  destruct (zone_build_inv rs _ _ (Inv_new wide)) as (z & Hb & HI & HS).
  exists z. split; [exact Hb|]. split; [exact HI|]. apply HS, Inv_sp_new.
Qed.

Lemma zone_build_new_inv rs wide z : zone_build req (zone_new apex cls wide) rs = Some z ->
  Inv z (accepted apex cls rs) /\ Inv_sp z (accepted apex cls rs).
Proof. destruct (zone_build_new rs wide) as (z' & -> & H). intros [= <-]. exact H. Qed.

End Inv.
