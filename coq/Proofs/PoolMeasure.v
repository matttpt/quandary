(* What a step does once both shutdown flags are set: nothing is accepted any more, and every
   non-environment step strictly decreases a measure, so that shutdown terminates without any
   fairness assumption, as long as spurious wake-ups / timers do not keep arriving. *)
From Coq Require Import Lia Permutation.
From QV Require Import Model.Pool Spec.PoolS Proofs.PoolLemmas.

(* work a thread still has to do, not counting await_shutdown callers *)
Definition w1 (p : pc) : nat :=
  match p with
  | SIdle ops => 2 * length ops
  | SWait r | SWoken r | SSpawn r => 2 * length r + 1
  | WIdle _ | WWait _ | WWoken _ _ => 2
  | WRun _ _ => 3
  | WDrop _ | RWait | RWoken => 1
  | GIdle | QIdle => 2
  | GHold | QMid => 1
  | _ => 0
  end.

(* await_shutdown callers: a woken or fresh caller still has to look at the condition *)
Definition w2 (p : pc) : nat :=
  match p with AwIdle => 2 | AwWoken => 1 | _ => 0 end.

Definition mu (s : state) : nat * nat :=
  (2 * length (queue s) + sumf w1 (thr s), sumf w2 (thr s)).

Lemma w1_wake p : w1 (wake p) = w1 p.
Proof. destruct p; reflexivity. Qed.

Lemma sumf_w1_na g l : sumf w1 (notify_all g l) = sumf w1 l.
Proof. apply sumf_na_same. intros p _. apply w1_wake. Qed.

Lemma sumf_w1_notify_one g c l l' : notify_one g c l = Some l' -> sumf w1 l' = sumf w1 l.
Proof.
  intros H. destruct (notify_one_cases _ _ _ _ H) as [[-> _] | (j & p & E & _ & ->)]; [reflexivity|].
  pose proof (sumf_upd w1 _ _ _ (wake p) E) as U. rewrite w1_wake in U. lia.
Qed.

(* Closes a case of [step_after_shutdown] once the successor state is explicit: [next] is
   untouched (by reflexivity), and the first component of [mu] decreases. [w1] does not see
   wake-ups, so what is left of the step is the thread at [E] moving to a lighter pc, or to one
   heavier by less than the task it dequeues (the case split [Eq] on the queue, if there was one). *)
Ltac closed_and_lighter E :=
  split; [reflexivity | intros _]; left; simpl; try match goal with Eq : queue _ = _ |- _ => rewrite Eq in * end;
  rewrite <- ?na_upd by reflexivity; rewrite ?sumf_w1_na;
  match goal with |- context [sumf w1 (upd ?i ?q ?l)] => pose proof (sumf_upd w1 l i _ q E) end;
  simpl in *; rewrite ?app_length in *; simpl in *; lia.

(* Once both flags are set nothing is accepted any more, and every step that is not a spurious
   wake-up or a timer decreases [mu]. No invariant is needed: nothing is pushed or spawned, and
   no thread goes (back) to a wait on task_wakeup or to the throttling delay. *)
Theorem step_after_shutdown fx s l s' : psd s = true -> gsd s = true -> step fx s l = Some s' ->
  next s' = next s /\ (env_label l = false -> lex_lt (mu s') (mu s)).
Proof.
  intros Hp Hg H. unfold lex_lt, mu.
  destruct l; simpl in H.
  - unfold sub_enter in H. destruct (nth_error (thr s) i) as [pi|] eqn:E; [|discriminate].
    destruct pi as [[|[] r]| |r| | | | | | | | | | | | | | | | | | |]; try discriminate;
      unfold submit_section in H; rewrite Hp in H; destruct o; try discriminate;
      inversion H; subst s'; clear H; closed_and_lighter E.
  - unfold sos_enter in H. destruct (nth_error (thr s) i) as [pi|] eqn:E; [|discriminate].
    destruct pi as [[|[] r]| | | | | | | | | | | | | | | | | | | | |]; try discriminate;
      unfold submit_section in H; rewrite Hp in H; destruct o; try discriminate;
      inversion H; subst s'; clear H; closed_and_lighter E.
  - destruct (glock s); [discriminate|].
    destruct (nth_error (thr s) i) as [[]|] eqn:E; try discriminate.
    rewrite Hg in H. destruct o; try discriminate. inversion H; subst s'; clear H. closed_and_lighter E.
  - destruct (nth_error (thr s) i) as [[]|] eqn:E; try discriminate.
    + destruct (notify_one on_avail c (thr s)) as [l'|] eqn:En; [|discriminate].
      pose proof (sumf_w1_notify_one _ _ _ _ En) as N.
      pose proof (notify_one_nth _ _ _ _ _ _ En E eq_refl) as E'.
      unfold work_loop in H; simpl in H.
      destruct (queue s) as [|t q] eqn:Eq; [rewrite Hp in H|]; destruct o; try discriminate;
        inversion H; subst s'; clear H; closed_and_lighter E'.
    + unfold work_wake, work_loop, dec_avail in H.
      destruct (is_aux k && timed_out && (negb fx || is_nil (queue s))).
      * destruct o; try discriminate. destruct (avail s); inversion H; subst s'; clear H; closed_and_lighter E.
      * destruct (queue s) as [|t q] eqn:Eq; [rewrite Hp in H|]; destruct o; try discriminate;
          simpl in H; destruct (avail s); inversion H; subst s'; clear H; closed_and_lighter E.
  - destruct (nth_error (thr s) i) as [[]|] eqn:E; try discriminate.
    inversion H; subst s'; clear H.
    destruct panicked; [|destruct (is_aux k && negb (linger s))]; closed_and_lighter E.
  - destruct (glock s); [discriminate|]. unfold drop_enter in H.
    destruct (nth_error (thr s) i) as [pi|] eqn:E; [|discriminate].
    destruct pi as [| | | | | | | |[]| | | | | | | | | | | | |]; try discriminate;
      rewrite Hg in H; simpl in H; destruct o; try discriminate; inversion H; subst s'; clear H;
      unfold end_thread; simpl; destruct (tcount s); simpl; try rewrite Hg; simpl;
      try destruct (n =? 0); closed_and_lighter E.
  - destruct (glock s); [discriminate|].
    destruct (nth_error (thr s) i) as [[]|] eqn:E; try discriminate.
    destruct (reg s); inversion H; subst s'; clear H; closed_and_lighter E.
  - destruct (nth_error (thr s) i) as [[]|] eqn:E; try discriminate.
    inversion H; subst s'; clear H. closed_and_lighter E.
  - destruct (glock s); [discriminate|].
    destruct (nth_error (thr s) i) as [[]|] eqn:E; try discriminate.
    inversion H; subst s'; clear H. closed_and_lighter E.
  - destruct (nth_error (thr s) i) as [[]|] eqn:E; try discriminate.
    inversion H; subst s'; clear H. closed_and_lighter E.
  - (* LAwait: the first component is unchanged, the second decreases *)
    destruct (glock s); [discriminate|].
    destruct (nth_error (thr s) i) as [[]|] eqn:E; try discriminate;
      destruct (gsd s && (tcount s =? 0)); destruct o; try discriminate;
      inversion H; subst s'; clear H; (split; [reflexivity | intros _]); right; simpl;
      match goal with |- context [upd i ?q _] =>
        pose proof (sumf_upd w1 _ _ _ q E) as U1; pose proof (sumf_upd w2 _ _ _ q E) as U2 end;
      simpl in *; lia.
  - destruct (nth_error (thr s) i) as [p|]; [|discriminate].
    destruct (on_task p || on_avail p || on_sd p); inversion H. split; [reflexivity | discriminate].
  - destruct (nth_error (thr s) i) as [[| | | | |[]|[] []| | | | | | | | | | | | | | |]|]; try discriminate;
      inversion H; (split; [reflexivity | discriminate]).
Qed.

Theorem mu_decreases_reachable : decreases_after_shutdown true mu.
Proof. intros s l s' _ Hp Hg He H. exact (proj2 (step_after_shutdown _ _ _ _ Hp Hg H) He). Qed.
