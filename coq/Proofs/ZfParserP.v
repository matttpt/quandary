(* The token-level pieces of the zone-file parser model are safe (no Panic, fuel suffices) and what
   they build is valid: names are good names, character strings have at most 255 octets, addresses
   have their length; the RDATA validators are total. *)
From QV Require Import Model.ZfParser Spec.ZfValidS Proofs.ZfStdP Proofs.ZfReaderP Proofs.ZfNameP.

Local Open Scope nat_scope.

Ltac sbind := eapply safe_bind.

Lemma safe_parse_escape : safe false parse_escape (fun _ => True).
Proof.
  unfold parse_escape. sbind; [apply safe_getpos|]. intros start _.
  sbind; [apply (safe_lift read_octet read_octet_le)|]. intros [first|] _; [|apply safe_failM].
  destruct (is_digit first); [|apply safe_ret; exact I].
  unfold parse_decimal_escape. sbind; [apply (safe_lift read2 read2_le)|]. intros [[a b]|] _; [|apply safe_failM].
  destruct (negb _); [apply safe_failM|]. destruct (_ <? _)%N; [apply safe_failM|apply safe_ret; exact I].
Qed.

(* a loop step whose body starts with parse_escape after one octet was consumed *)
Lemma after_escape {B} (f : N -> M B) (Q : B -> Prop) n :
  (forall e, safeN n (f e) Q) -> safeN n (bindM parse_escape f) Q.
Proof. intros Hf. eapply safeN_bind_r; [apply safe_parse_escape|]. intros e _. apply Hf. Qed.

Definition nb_ok (b : nb) : Prop := exists ds cur, nb_inv b ds cur.

Lemma safe_blpe {A} e ns ls (Q : A -> Prop) s : safe s (build_label_parse_error e ns ls) Q.
Proof. destruct e; apply safe_failM. Qed.

Lemma pnr_loop_safe : forall fuel ns ls b, nb_ok b -> safeN fuel (pnr_loop fuel ns ls b) nb_ok.
Proof.
  induction fuel as [|fuel IH]; intros ns ls b Hb; [intros r _ Hn; lia|].
  cbn [pnr_loop]. apply field_octet_stepN; [apply safe_ret, Hb|]. intros octet.
  destruct Hb as (ds & cur & Hinv).
  assert (Hpush : forall o, safeN fuel match nb_try_push b o with
                                       | Ok b' => pnr_loop fuel ns ls b'
                                       | Err er => build_label_parse_error er ns ls
                                       | Panic => panicM
                                       end nb_ok).
  { intros o. pose proof (nb_try_push_spec b ds cur o Hinv) as H.
    destruct (nb_try_push b o) as [b'|er|]; [|apply safeN_of_safe, safe_blpe|contradiction].
    apply IH. unfold nb_ok; eauto. }
  destruct (octet =? 92)%N; [apply after_escape, Hpush|]. destruct (octet =? 46)%N; [|apply Hpush].
  pose proof (nb_next_label_spec b ds cur Hinv) as H.
  destruct (nb_next_label b) as [b'|er|]; [|apply safeN_of_safe, safe_blpe|contradiction].
  intros r. unfold bindM, getpos. apply IH. unfold nb_ok; eauto.
Qed.

Definition origin_ok (o : option name) : Prop := forall n, o = Some n -> good_name n.

Lemma safe_parse_non_root_name origin : origin_ok origin ->
  safe false (parse_non_root_name origin) good_name.
Proof.
  intros Ho. unfold parse_non_root_name. sbind; [apply safe_getpos|]. intros ns _.
  apply safe_with_fuel. intros n r Hr Hn.
  apply (okres_bind false false _ _ nb_ok good_name r Hr).
  - apply pnr_loop_safe; [exists [], []; apply nb_inv_new|exact Hr|exact Hn].
  - intros b r' (ds & cur & Hinv) Hr' _ _.
    destruct (nb_fq b).
    + pose proof (nb_finish_ok b ds cur Hinv) as H.
      destruct (nb_finish b) as [nm|e|]; [apply safe_ret; assumption|apply safe_failM; assumption|contradiction].
    + destruct origin as [o|]; [|apply safe_failM; exact Hr'].
      pose proof (nb_finish_with_suffix_ok b ds cur o Hinv (Ho o eq_refl)) as H.
      destruct (nb_finish_with_suffix b o) as [nm|e|]; [apply safe_ret; assumption|apply safe_failM; assumption|contradiction].
Qed.

Lemma safe_parse_name origin : origin_ok origin -> safe false (parse_name origin) good_name.
Proof.
  intros Ho. unfold parse_name. sbind; [apply safe_getpos|]. intros start _.
  sbind; [apply safe_expect_field_impl|]. intros [|] _.
  - destruct origin as [o|]; [apply safe_ret; apply Ho; reflexivity|apply safe_failM].
  - sbind; [apply safe_expect_field_impl|]. intros [|] _.
    + apply safe_ret. apply good_root.
    + apply safe_parse_non_root_name. exact Ho.
Qed.

Definition short (s : bytes) : Prop := length s <= 255.

Lemma short_nil : short []. Proof. unfold short. simpl. lia. Qed.

Lemma cs_push_short s o s' : cs_push s o = Some s' -> short s'.
Proof.
  unfold cs_push, short. destruct (255 <=? length s) eqn:E; [discriminate|]. apply Nat.leb_gt in E.
  intros [= <-]. rewrite app_length. simpl. lia.
Qed.

Lemma cs_push_step (loop : bytes -> M bytes) n s o p k :
  (forall s', short s' -> safeN n (loop s') short) ->
  safeN n match cs_push s o with Some s' => loop s' | None => failM p k end short.
Proof.
  intros IH. destruct (cs_push s o) as [s'|] eqn:E; [|apply safeN_of_safe, safe_failM].
  apply IH. eapply cs_push_short, E.
Qed.

Lemma pqcs_loop_safe : forall fuel start s, short s -> safeN fuel (pqcs_loop fuel start s) short.
Proof.
  induction fuel as [|fuel IH]; intros start s Hs r Hr Hn; [lia|].
  cbn [pqcs_loop]. unfold bindM at 1, getpos.
  apply (read_octet_step _ short fuel r Hr Hn).
  - intros r' Hr'. exact I.
  - intros octet. destruct (octet =? 92)%N; [apply after_escape; intros e; apply cs_push_step, IH|].
    destruct (octet =? 34)%N; [apply safeN_of_safe, safe_ret, Hs|apply cs_push_step, IH].
Qed.

Lemma pucs_loop_ok : forall fuel start s r, short s -> wfr r -> length (r_rest r) < fuel ->
  okres (on_field r) short r (pucs_loop fuel start s r).
Proof.
  induction fuel as [|fuel IH]; intros start s r Hs Hr Hn; [lia|].
  assert (IH' : forall s', short s' -> safeN fuel (pucs_loop fuel start s') short).
  { intros s' Hs' r' Hr' Hn'. eapply okres_weaken; [apply IH; assumption|auto]. }
  cbn [pucs_loop]. apply (field_octet_step _ short fuel r Hr Hn); [apply safe_ret, Hs|]. intros octet.
  destruct (octet =? 92)%N; [apply after_escape; intros e|]; apply cs_push_step, IH'.
Qed.

Lemma parse_unquoted_ok r : wfr r -> okres (on_field r) short r (parse_unquoted_character_string r).
Proof.
  intros Hr. unfold parse_unquoted_character_string, bindM, getpos, get_fuel.
  apply pucs_loop_ok; [apply short_nil|exact Hr|unfold wfr in Hr; lia].
Qed.

Lemma safe_pqcs start : safe false (do fuel <- get_fuel; pqcs_loop fuel start []) short.
Proof. apply safe_with_fuel. intros n. apply pqcs_loop_safe, short_nil. Qed.

(* a character string consumes at least one octet when there is field data: the opening quote,
   or the first octet of an unquoted string *)
Lemma pcs_ok r : wfr r -> okres (on_field r) short r (parse_character_string r).
Proof.
  intros Hr. unfold parse_character_string, peek_octet.
  destruct (r_rest r) as [|c t] eqn:Hl; cbn [hd_error]; [apply parse_unquoted_ok, Hr|].
  destruct (c =? 34)%N; [|apply parse_unquoted_ok, Hr].
  assert (H : okres true short r (parse_quoted_character_string r)).
  { unfold parse_quoted_character_string. unfold bindM at 1, getpos. unfold bindM at 1, lift.
    destruct (read_octet r) as [o r1] eqn:E.
    assert (o = Some c) as -> by (unfold read_octet in E; rewrite Hl in E; congruence).
    destruct (read_octet_some r c r1 E) as [E1 E2].
    apply (okres_ahead _ short (length (r_rest r)) r); auto using safeN_of_safe, safe_pqcs. }
  destruct (on_field r); [exact H|]. eapply okres_weaken; [exact H|auto].
Qed.

Lemma safe_parse_character_string : safe false parse_character_string short.
Proof. intros r Hr. eapply okres_weaken; [apply pcs_ok, Hr|auto]. Qed.

Lemma pcs_strict r : wfr r -> at_field_end_at (r_rest r) 0 = Ok false ->
  okres true short r (parse_character_string r).
Proof. intros Hr Hf. pose proof (pcs_ok r Hr) as H. unfold on_field in H. rewrite Hf in H. exact H. Qed.

Lemma safe_parse_uint max k : safe false (read_field (parse_uint max) k) (fun v => (v <= max)%N).
Proof.
  eapply safe_weaken; [apply safe_read_field|]. intros v [s Hs]. eapply parse_uint_le; exact Hs.
Qed.

Lemma safe_read_opt {T} (parse : bytes -> option T) k (Q : T -> Prop) :
  (forall s v, parse s = Some v -> Q v) -> safe false (read_field (fun s => opt_sum (parse s)) k) Q.
Proof.
  intros H. eapply safe_weaken; [apply safe_read_field|]. intros v [s Hs]. unfold opt_sum in Hs.
  destruct (parse s) as [a|] eqn:E; [|discriminate]. inversion Hs; subst. eapply H, E.
Qed.

Lemma safe_parse_ipv4 : safe false parse_ipv4 (fun a => length a = 4).
Proof. apply safe_read_opt, ipv4_from_str_length. Qed.

Lemma safe_parse_ipv6 : safe false parse_ipv6 (fun a => length a = 16).
Proof. apply safe_read_opt, ipv6_from_str_length. Qed.

Lemma safe_mk_rdata l : (N.of_nat (length l) <= 65535)%N -> safe false (mk_rdata l) (fun d => d = l).
Proof.
  intros H r Hr. unfold mk_rdata. rewrite (proj2 (N.ltb_ge 65535 (N.of_nat (length l))%N)) by lia.
  simpl. auto.
Qed.

Definition vtotal (v : bytes -> res unit bool) : Prop := forall o, exists b, v o = Ok b.

Lemma vname_total o all : exists x, vname o all = Ok x.
Proof.
  unfold vname. destruct (validate_total o all) as [H1 H2].
  destruct (validate_uncompressed_name o all) as [n|e|]; [eauto| |congruence].
  destruct e; eauto. congruence.
Qed.

(* a name found by vname lies inside the octets, so the slice after it does not panic *)
Lemma vname_cases o : exists x, vname o false = Ok x /\
  match x with Some n => (length o <? n) = false | None => True end.
Proof.
  destruct (vname_total o false) as [x Hx]. exists x. split; [exact Hx|]. destruct x as [n|]; [|exact I].
  apply Nat.ltb_ge. unfold vname in Hx.
  destruct (validate_uncompressed_name o false) as [m|e|] eqn:E; [|destruct e; discriminate|discriminate].
  injection Hx as <-. eapply validate_le, E.
Qed.

Lemma vname_all_total : vtotal vname_all.
Proof. intros o. unfold vname_all. destruct (vname_total o true) as [x ->]. simpl. eauto. Qed.

Lemma vt_in_a : vtotal validate_as_in_a. Proof. intros o. unfold validate_as_in_a. eauto. Qed.
Lemma vt_in_wks : vtotal validate_as_in_wks. Proof. intros o. unfold validate_as_in_wks. eauto. Qed.
Lemma vt_in_aaaa : vtotal validate_as_in_aaaa. Proof. intros o. unfold validate_as_in_aaaa. eauto. Qed.

Lemma vt_ch_a : vtotal validate_as_ch_a.
Proof.
  intros o. unfold validate_as_ch_a. destruct (vname_total o false) as [[n|] ->]; simpl; eauto.
Qed.

Lemma vt_soa : vtotal validate_as_soa.
Proof.
  intros o. unfold validate_as_soa. destruct (vname_cases o) as [[mlen|] [-> Hm]]; cbn [bind]; [|eauto].
  rewrite Hm. destruct (vname_total (skipn mlen o) false) as [[n|] ->]; simpl; eauto.
Qed.

Lemma vt_minfo : vtotal validate_as_minfo.
Proof.
  intros o. unfold validate_as_minfo. destruct (vname_cases o) as [[rlen|] [-> Hr]]; cbn [bind]; [|eauto].
  rewrite Hr. apply vname_all_total.
Qed.

Lemma vt_mx : vtotal validate_as_mx.
Proof. intros o. unfold validate_as_mx. destruct (2 <=? length o); [apply vname_all_total|eauto]. Qed.

Lemma vt_in_srv : vtotal validate_as_in_srv.
Proof. intros o. unfold validate_as_in_srv. destruct (6 <=? length o); [apply vname_all_total|eauto]. Qed.

Lemma vcs_le o wl : validate_character_string o = Some wl -> 1 <= wl <= length o.
Proof.
  unfold validate_character_string. destruct o as [|len t]; [discriminate|].
  destruct (1 + N.to_nat len <=? length (len :: t)) eqn:E; [|discriminate]. apply Nat.leb_le in E.
  intros [= <-]. lia.
Qed.

Lemma vt_hinfo : vtotal validate_as_hinfo.
Proof.
  intros o. unfold validate_as_hinfo. destruct (validate_character_string o) as [cpu|] eqn:E; [|eauto].
  apply vcs_le in E. replace (length o <? cpu) with false by (symmetry; apply Nat.ltb_ge; lia).
  destruct (validate_character_string (skipn cpu o)); eauto.
Qed.

Lemma vtxt_loop_total : forall fuel o, length o < fuel -> exists b, vtxt_loop fuel o = Ok b.
Proof.
  induction fuel as [|fuel IH]; intros o Hf; [lia|]. cbn [vtxt_loop].
  destruct o as [|c t]; [eauto|]. destruct (validate_character_string (c :: t)) as [wl|] eqn:E; [|eauto].
  apply vcs_le in E. apply IH. rewrite skipn_length. lia.
Qed.

Lemma vt_txt : vtotal validate_as_txt.
Proof. intros o. unfold validate_as_txt. destruct o as [|c t]; [eauto|]. apply vtxt_loop_total. lia. Qed.

Lemma safe_hex_digit_of d : safe false (hex_digit_of d) (fun _ => True).
Proof. unfold hex_digit_of. destruct (hex_nibble d); [apply safe_ret; exact I|apply safe_failHere]. Qed.

Lemma safe_parse_ascii_hex_digit : safe false parse_ascii_hex_digit (fun _ => True).
Proof.
  unfold parse_ascii_hex_digit. sbind; [apply safe_read_field_octet|]. intros [d|] _; [|apply safe_failHere].
  apply safe_hex_digit_of.
Qed.

Lemma safe_parse_leading_hex_digit : safe false parse_leading_ascii_hex_digit (fun _ => True).
Proof.
  unfold parse_leading_ascii_hex_digit. sbind; [apply safe_getpos|]. intros position _.
  sbind; [apply safe_read_field_octet|]. intros [d|] _; [apply safe_hex_digit_of|].
  sbind; [apply safe_to|]. intros [|] _; [apply safe_parse_ascii_hex_digit|apply safe_failM].
Qed.

Lemma rev_fast_length {A} (l : list A) : length (rev_fast l) = length l.
Proof. unfold rev_fast. rewrite rev_append_rev, app_nil_r. apply rev_length. Qed.

Lemma hex_loop_safe : forall n acc, safe false (hex_loop n acc) (fun d => length d = n + length acc).
Proof.
  induction n as [|n IH]; intros acc; cbn [hex_loop].
  - apply safe_ret. apply rev_fast_length.
  - sbind; [apply safe_parse_leading_hex_digit|]. intros h _.
    sbind; [apply safe_parse_ascii_hex_digit|]. intros l _.
    eapply safe_weaken; [apply IH|]. intros d Hd. rewrite Hd. simpl. lia.
Qed.

Lemma safe_parse_unknown_rdata_impl : safe false parse_unknown_rdata_impl (fun _ => True).
Proof.
  unfold parse_unknown_rdata_impl. sbind; [apply safe_skip_to_next_field|]. intros _ _.
  sbind; [apply safe_parse_uint|]. intros len Hlen. unfold U16_MAX in Hlen.
  apply safe_bind with (Q1 := fun _ => True);
    [|intros x _; sbind; [apply safe_expect_eol|intros _ _; apply safe_ret; exact I]].
  destruct (len =? 0)%N.
  - sbind; [apply safe_getpos|]. intros p _. apply safe_ret. exact I.
  - sbind; [apply safe_skip_to_next_field|]. intros _ _. sbind; [apply safe_getpos|]. intros p _.
    sbind; [apply hex_loop_safe|]. intros d Hd. simpl in Hd.
    sbind; [apply safe_mk_rdata; lia|]. intros d' _. apply safe_ret. exact I.
Qed.

Lemma safe_parse_unknown_rdata : safe false parse_unknown_rdata (fun _ => True).
Proof.
  unfold parse_unknown_rdata. sbind; [apply safe_parse_unknown_rdata_impl|]. intros x _. apply safe_ret. exact I.
Qed.

Lemma safe_with_validation v : vtotal v ->
  safe false (parse_unknown_rdata_with_validation v) (fun d => v d = Ok true).
Proof.
  intros Hv. unfold parse_unknown_rdata_with_validation. sbind; [apply safe_parse_unknown_rdata_impl|].
  intros x _. destruct (Hv (snd x)) as [b Hb]. rewrite Hb. destruct b; [apply safe_ret; exact Hb|apply safe_failM].
Qed.
