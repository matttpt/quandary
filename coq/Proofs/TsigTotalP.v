(* verify_* does not panic on ANY RDATA that passed validate_as_tsig (what the Reader delivers),
   given the documented preconditions on the message and the algorithm. *)
From QV Require Import Base.ListX Model.TsigMsg Proofs.NameWireP Proofs.TsigEncP.

Lemma validated_layout rd : validate_as_tsig rd = Ok tt ->
  exists nm alen ms ol,
    parse_uncompressed_name rd false = Ok (nm, alen) /\ n_wire nm = firstn alen rd /\
    get_u16 rd (alen + 8) = Some ms /\ get_u16 rd (alen + N.to_nat ms + 14) = Some ol /\
    alen + N.to_nat ms + N.to_nat ol + 16 = length rd.
Proof.
  unfold validate_as_tsig. rewrite validate_agrees.
  destruct (parse_uncompressed_name rd false) as [[nm alen]|e|] eqn:P; cbn [map_ok snd]; try discriminate.
  destruct (get_u16 rd (alen + 8)) as [ms|] eqn:G1; [|discriminate].
  destruct (get_u16 rd (alen + N.to_nat ms + 14)) as [ol|] eqn:G2; [|discriminate].
  destruct (alen + N.to_nat ms + N.to_nat ol + 16 =? length rd) eqn:E; [|discriminate].
  intros _. apply Nat.eqb_eq in E. exists nm, alen, ms, ol. repeat split; auto.
  unfold parse_uncompressed_name in P.
  destruct (unc_loop unc_fuel rd 0 []) as [[o offs]|e|]; cbn [bind] in P; try discriminate.
  cbn [andb] in P. inversion P; subst. reflexivity.
Qed.

Theorem try_from_total rr : validate_as_tsig (rr_rdata rr) = Ok tt ->
  rr_type rr = TYPE_TSIG -> rr_class rr = QCLASS_ANY -> rr_ttl rr = 0%N ->
  exists r, read_tsig_try_from rr = Ok r /\ r_rdata r = rr_rdata rr /\
    exists ol, r_algo_len r + r_mac_len r + ol + 16 = length (rr_rdata rr).
Proof.
  intros V Ht Hc Hl. destruct (validated_layout _ V) as (nm & alen & ms & ol & P & W & G1 & G2 & L).
  unfold read_tsig_try_from. rewrite Ht, Hc, Hl, !N.eqb_refl. cbn [negb orb]. rewrite P, G1.
  eexists. split; [reflexivity|]. split; [reflexivity|].
  exists (N.to_nat ol). unfold r_algo_len, r_mac_len, to_lowercase_name. cbn [r_algorithm r_mac_size].
  rewrite map_length, W, firstn_length. apply get_u16_Some in G1. lia.
Qed.

Lemma alg_from_name_eqb n a : alg_from_name n = Some a -> name_eqb n (alg_name a) = true.
Proof.
  unfold alg_from_name. destruct (name_eqb n HMAC_SHA1_NAME_WIRE) eqn:E1.
  - intros H. inversion H; subst. exact E1.
  - destruct (name_eqb n HMAC_SHA256_NAME_WIRE) eqn:E2; [|discriminate].
    intros H. inversion H; subst. exact E2.
Qed.

Lemma amm_total {E} msg oid : 12 <= length msg -> be_dec (slice msg 10 12) <> 0%N ->
  exists d, @add_modified_message E msg oid = Ok d.
Proof.
  intros L Z. unfold add_modified_message.
  change id_end with 2. change arcount_start with 10. change arcount_end with 12.
  rewrite (get_range_ok msg 2 10) by lia. rewrite (get_range_ok msg 10 12) by lia.
  apply N.eqb_neq in Z. rewrite Z. rewrite get_from_ok by lia. eauto.
Qed.

Section Total.
Variable hmac : alg -> bytes -> bytes -> bytes.

(* VSubsequent needs no bound on the prior MAC: the model writes its length as a u16 modulo 2^16 (len_u16), only
   VResponse asserts *)
Theorem verify_total r ol msg mode a key now :
  r_algo_len r + r_mac_len r + ol + 16 = length (r_rdata r) ->
  alg_from_name (r_algorithm r) = Some a ->
  12 <= length msg -> be_dec (slice msg 10 12) <> 0%N ->
  (match mode with VResponse pm => (N.of_nat (length pm) <= 65535)%N | _ => True end) ->
  verify hmac r msg mode a key now <> Panic.
Proof.
  intros L Ha Lm Z Hpm.
  assert (T1 : exists x, r_time_signed r = Some x) by (unfold r_time_signed; rewrite get_range_ok by lia; eauto).
  assert (T2 : exists x, r_fudge r = Some x) by (apply get_u16_ok; lia).
  assert (T3 : exists x, r_mac r = Some x) by (unfold r_mac; rewrite get_range_ok by lia; eauto).
  assert (T4 : exists x, r_original_id r = Some x) by (apply get_u16_ok; lia).
  assert (T5 : exists x, r_error r = Some x) by (apply get_u16_ok; lia).
  assert (T6 : exists x, r_other r = Some x) by (unfold r_other; rewrite get_from_ok by lia; eauto).
  destruct T1 as [ts T1], T2 as [fu T2], T3 as [mac T3], T4 as [oid T4], T5 as [er T5], T6 as [ot T6].
  destruct (@amm_total verr msg oid Lm Z) as [mm Hmm].
  assert (D : exists d, read_digest r msg mode = Ok d).
  { unfold read_digest, read_vars. destruct mode; rewrite T4; cbn [unwrap bind]; rewrite Hmm; cbn [bind];
      rewrite T1, T2, T5, T6; cbn [unwrap bind]; eauto. }
  destruct D as [d D].
  assert (C : verification_core hmac r (read_digest r msg mode) a key now <> Panic).
  { unfold verification_core. rewrite (alg_from_name_eqb _ _ Ha). cbn [negb].
    unfold check_mac_size.
    destruct ((output_size a <? N.to_nat (r_mac_size r))
              || (N.to_nat (r_mac_size r) <? Nat.max (N.to_nat TSIG_MIN_MAC_SIZE) ((output_size a + 1) / 2)));
      cbn [bind]; [discriminate|].
    rewrite D. cbn [bind]. rewrite T3. cbn [unwrap bind].
    destruct (verify_truncated_left (hmac a key d) mac (output_size a)); [|discriminate].
    rewrite T1, T2. cbn [unwrap bind]. unfold check_time.
    destruct ((_ <=? _)%N && (_ <=? _)%N); discriminate. }
  destruct mode as [|pm|pm]; cbn [verify]; try exact C.
  assert (E : (65535 <? N.of_nat (length pm))%N = false) by (apply N.ltb_ge; exact Hpm).
  rewrite E. exact C.
Qed.

End Total.
