(* Rdata::validate (model) against the executable RFC grammar: every validator
   returns Ok exactly when smatch accepts, never panics, never runs out of fuel;
   the generated dispatch table selects, for every (class, type), the validator of
   the format the RFCs define for it. *)
From QV Require Import Base.ListX Spec.NameWireS Proofs.NameWireP Proofs.NameWireSP
  Model.RdataM Spec.RdataFormatS Proofs.RdNameP Proofs.RdataFormatSP.
Local Open Scope nat_scope.

Lemma skipn_nil_iff {A} (l : list A) n : skipn n l = [] <-> length l <= n.
Proof.
  split; [|apply skipn_all2].
  intros H. apply (f_equal (@length A)) in H. rewrite skipn_length in H. simpl in H. lia.
Qed.

Lemma skipn_cons_length {A} (l : list A) k x tl : skipn k l = x :: tl -> length l = k + S (length tl).
Proof. intros H. apply (f_equal (@length A)) in H. rewrite skipn_length in H. simpl in H. lia. Qed.

Definition is_nil {A} (l : list A) : bool := match l with [] => true | _ => false end.

Lemma is_nil_skipn {A} (l : list A) n : is_nil (skipn n l) = (length l <=? n).
Proof.
  destruct (Nat.leb_spec0 (length l) n) as [E|E].
  - rewrite (proj2 (skipn_nil_iff l n) E). reflexivity.
  - destruct (skipn n l) eqn:HS; [|reflexivity]. apply skipn_nil_iff in HS. lia.
Qed.

Lemma smatch_nil r : smatch [] r = is_nil r.
Proof. destruct r; reflexivity. Qed.

Lemma smatch_bytes n g r : smatch (FBytes n :: g) r = (n <=? length r) && smatch g (skipn n r).
Proof. reflexivity. Qed.

Lemma smatch_name g r :
  smatch (FName :: g) r = match sname r with Some l => smatch g (skipn l r) | None => false end.
Proof. reflexivity. Qed.

Lemma smatch_bytes_last n r : smatch [FBytes n] r = (length r =? n).
Proof.
  rewrite smatch_bytes, smatch_nil, is_nil_skipn.
  destruct (Nat.leb_spec0 n (length r)), (Nat.leb_spec0 (length r) n), (Nat.eqb_spec (length r) n);
    try reflexivity; lia.
Qed.

(* the implementation checks several adjacent fixed fields (SOA's five numbers, SRV's three) at once *)
Lemma smatch_bytes_merge a b g r : smatch (FBytes a :: FBytes b :: g) r = smatch (FBytes (a + b) :: g) r.
Proof.
  rewrite !smatch_bytes, skipn_plus, skipn_length.
  destruct (Nat.leb_spec0 a (length r)), (Nat.leb_spec0 b (length r - a)), (Nat.leb_spec0 (a + b) (length r));
    try reflexivity; lia.
Qed.

Lemma smatch_fixed20 r :
  smatch [FBytes 4; FBytes 4; FBytes 4; FBytes 4; FBytes 4] r = (length r =? 20).
Proof. rewrite !smatch_bytes_merge. cbn [Nat.add]. apply smatch_bytes_last. Qed.

Definition gram_of_v (v : vhandler) : list field :=
  match v with
  | V_validate_name => [FName]
  | V_validate_as_in_a => [FBytes 4]
  | V_validate_as_ch_a => [FName; FBytes 2]
  | V_validate_as_soa => [FName; FName; FBytes 4; FBytes 4; FBytes 4; FBytes 4; FBytes 4]
  | V_validate_as_in_wks => [FBytes 4; FBytes 1; FRest]
  | V_validate_as_hinfo => [FCharStr; FCharStr]
  | V_validate_as_minfo => [FName; FName]
  | V_validate_as_mx => [FBytes 2; FName]
  | V_validate_as_txt => [FCharStrs1]
  | V_validate_as_in_aaaa => [FBytes 16]
  | V_validate_as_in_srv => [FBytes 2; FBytes 2; FBytes 2; FName]
  | V_validate_as_opt => [FOptions]
  | V_validate_as_tsig => [FName; FBytes 6; FBytes 2; FBlob16; FBytes 2; FBytes 2; FBlob16]
  | V_ok => [FRest]
  end.

Definition agrees (x : res rd_err unit) (b : bool) : Prop :=
  match x with
  | Ok _ => b = true
  | Err e => b = false /\ e <> ROutOfFuel /\ e <> InvalidName OutOfFuel
  | Panic => False
  end.

Lemma agrees_other b : b = false -> agrees (Err ROther) b.
Proof. intros ->. repeat split; discriminate. Qed.
Lemma agrees_if (c : bool) b : c = b -> agrees (if c then Ok tt else Err ROther) b.
Proof. intros <-. destruct c; [|apply agrees_other]; reflexivity. Qed.

Lemma slice_from_ok {E} (l : bytes) k : k <= length l -> @slice_from E l k = Ok (skipn k l).
Proof. intros H. unfold slice_from. destruct (Nat.ltb_spec (length l) k); [lia|reflexivity]. Qed.

(* one name field: the validator's step against the grammar's step *)
Lemma agrees_name r g k :
  (forall n, n <= length r -> agrees (k n) (smatch g (skipn n r))) ->
  agrees (let* n := vname r false in k n) (smatch (FName :: g) r).
Proof.
  intros Hk. pose proof (vname_spec r) as H. rewrite smatch_name.
  destruct (vname r false) as [n|e|]; cbn [bind]; [| |exact H].
  - destruct H as (-> & _ & H). apply Hk, H.
  - destruct H as (-> & H). split; [reflexivity|exact H].
Qed.

(* a name that must fill the buffer *)
Lemma name_all_agrees r : agrees (let* _ := vname r true in Ok tt) (smatch [FName] r).
Proof.
  pose proof (vname_all r) as H. rewrite smatch_name.
  destruct (vname r true) as [n|e|]; cbn [bind]; [| |exact H].
  - destruct H as (-> & -> & _). rewrite smatch_nil, is_nil_skipn, Nat.leb_refl. reflexivity.
  - destruct H as ([->|(n & -> & Hn)] & H); split; auto.
    rewrite smatch_nil, is_nil_skipn. apply Nat.leb_gt. exact Hn.
Qed.

Lemma v_ch_a r :
  agrees (validate_as_ch_a r) (smatch [FName; FBytes 2] r).
Proof.
  apply agrees_name. intros n Hn. apply agrees_if.
  rewrite smatch_bytes_last, skipn_length.
  destruct (Nat.eqb_spec (length r) (n + 2)), (Nat.eqb_spec (length r - n) 2); try reflexivity; lia.
Qed.

Lemma v_soa r :
  agrees (validate_as_soa r) (smatch [FName; FName; FBytes 4; FBytes 4; FBytes 4; FBytes 4; FBytes 4] r).
Proof.
  apply agrees_name. intros m Hm. rewrite slice_from_ok by exact Hm. cbn [bind].
  apply agrees_name. intros n Hn. rewrite skipn_length in Hn. apply agrees_if.
  rewrite smatch_fixed20, !skipn_length.
  destruct (Nat.eqb_spec (length r) (20 + m + n)), (Nat.eqb_spec (length r - m - n) 20); try reflexivity; lia.
Qed.

Lemma v_minfo r :
  agrees (validate_as_minfo r) (smatch [FName; FName] r).
Proof.
  apply agrees_name. intros m Hm. rewrite slice_from_ok by exact Hm. cbn [bind].
  apply name_all_agrees.
Qed.

(* validate_as_mx (k = 2) and validate_as_in_srv (k = 6) *)
Lemma v_fixed_then_name k r :
  agrees (validate_fixed_then_name k r) (smatch [FBytes k; FName] r).
Proof.
  unfold validate_fixed_then_name, get_from. rewrite smatch_bytes.
  destruct (Nat.ltb_spec (length r) k), (Nat.leb_spec0 k (length r)); try lia.
  - apply agrees_other. reflexivity.
  - apply name_all_agrees.
Qed.

Lemma vcs_cons len tl :
  validate_character_string (len :: tl) =
  if N.to_nat len <=? length tl then Ok (S (N.to_nat len)) else Err ROther.
Proof. reflexivity. Qed.

Lemma smatch_charstr g len tl :
  smatch (FCharStr :: g) (len :: tl) = (N.to_nat len <=? length tl) && smatch g (skipn (N.to_nat len) tl).
Proof. reflexivity. Qed.

Lemma v_hinfo r :
  agrees (validate_as_hinfo r) (smatch [FCharStr; FCharStr] r).
Proof.
  unfold validate_as_hinfo. destruct r as [|len tl]; [apply agrees_other; reflexivity|].
  rewrite vcs_cons, smatch_charstr.
  destruct (Nat.leb_spec0 (N.to_nat len) (length tl)) as [E|E]; cbn [bind andb]; [|apply agrees_other; reflexivity].
  rewrite slice_from_ok by (simpl; lia). cbn [bind skipn].
  destruct (skipn (N.to_nat len) tl) as [|len2 tl2] eqn:HS; [apply agrees_other; reflexivity|].
  apply skipn_cons_length in HS. rewrite vcs_cons, smatch_charstr.
  destruct (Nat.leb_spec0 (N.to_nat len2) (length tl2)) as [E2|E2]; cbn [bind andb]; [|apply agrees_other; reflexivity].
  apply agrees_if. rewrite smatch_nil, is_nil_skipn. cbn [length].
  destruct (Nat.eqb_spec (S (length tl)) (S (N.to_nat len) + S (N.to_nat len2))), (Nat.leb_spec0 (length tl2) (N.to_nat len2));
    try reflexivity; lia.
Qed.

Lemma s_charstrs_fuel f1 f2 r : wf_bytes r -> length r < f1 -> length r < f2 ->
  s_charstrs f1 r = s_charstrs f2 r.
Proof.
  intros Hwf H1 H2. apply Bool.eq_iff_eq_true.
  rewrite (s_charstrs_iff f1 r H1 Hwf), (s_charstrs_iff f2 r H2 Hwf). reflexivity.
Qed.

(* TXT and OPT: the model's loop walks an offset through r, item by item, the specification's
   drops what it has read; both spend one unit of fuel per item *)
Lemma loop_agrees (item : bytes -> res rd_err nat) loop (sloop : nat -> bytes -> bool) :
  (forall f r off, loop (S f) r off =
     if off <? length r
     then (let* s := slice_from r off in let* n := item s in loop f r (off + n)) else Ok tt) ->
  (forall f x, x <> [] ->
     match item x with
     | Ok n => 1 <= n <= length x /\ sloop (S f) x = sloop f (skipn n x)
     | Err e => sloop (S f) x = false /\ e = ROther
     | Panic => False
     end) ->
  (forall f, sloop (S f) [] = true) ->
  forall fuel r off, off <= length r -> length r - off < fuel ->
  agrees (loop fuel r off) (sloop fuel (skipn off r)).
Proof.
  intros Hloop Hitem Hnil. induction fuel as [|f IH]; intros r off Ho Hf; [lia|]. rewrite Hloop.
  destruct (Nat.ltb_spec off (length r)) as [E|E].
  - rewrite slice_from_ok by lia. cbn [bind].
    assert (N : skipn off r <> []) by (intros X; apply skipn_nil_iff in X; lia).
    specialize (Hitem f _ N). pose proof (skipn_length off r) as L.
    destruct (item (skipn off r)) as [n|e|]; cbn [bind]; [| |exact Hitem].
    + destruct Hitem as [Hn ->]. rewrite skipn_plus. apply IH; lia.
    + destruct Hitem as [-> ->]. apply agrees_other. reflexivity.
  - rewrite (proj2 (skipn_nil_iff r off)), Hnil by lia. reflexivity.
Qed.

Lemma txt_loop_agrees fuel r offset : offset <= length r -> length r - offset < fuel ->
  agrees (txt_loop fuel r offset) (s_charstrs fuel (skipn offset r)).
Proof.
  apply (loop_agrees validate_character_string); try reflexivity.
  intros f [|len tl] N; [congruence|]. rewrite vcs_cons. cbn [s_charstrs].
  destruct (Nat.leb_spec0 (N.to_nat len) (length tl)); split; try reflexivity. simpl. lia.
Qed.

Lemma get_range_2 (r : bytes) k :
  get_range r k (k + 2) =
  match skipn k r with a :: b :: _ => Some [a; b] | _ => None end.
Proof.
  unfold get_range, slice. replace (k + 2 - k) with 2 by lia.
  destruct (Nat.ltb_spec (k + 2) k); [lia|]. cbn [orb].
  pose proof (skipn_length k r) as L.
  destruct (Nat.ltb_spec (length r) (k + 2)), (skipn k r) as [|a [|b tl]]; try reflexivity; simpl in L; lia.
Qed.

Lemma s_options_fuel f1 f2 r : wf_bytes r -> length r < f1 -> length r < f2 ->
  s_options f1 r = s_options f2 r.
Proof.
  intros Hwf H1 H2. apply Bool.eq_iff_eq_true.
  rewrite (s_options_iff f1 r H1 Hwf), (s_options_iff f2 r H2 Hwf). reflexivity.
Qed.

Lemma validate_option_4 c1 c2 l1 l2 tl :
  validate_option (c1 :: c2 :: l1 :: l2 :: tl) =
  if N.to_nat (l1 * 256 + l2) <=? length tl then Ok (N.to_nat (l1 * 256 + l2) + 4) else Err ROther.
Proof.
  unfold validate_option. change 4 with (2 + 2) at 1. rewrite get_range_2. cbn [skipn be16_of bind length].
  destruct (Nat.leb_spec0 (N.to_nat (l1 * 256 + l2) + 4) (S (S (S (S (length tl)))))),
           (Nat.leb_spec0 (N.to_nat (l1 * 256 + l2)) (length tl)); try reflexivity; lia.
Qed.

Lemma validate_option_short r : length r < 4 -> validate_option r = Err ROther.
Proof.
  intros H. unfold validate_option. change 4 with (2 + 2). rewrite get_range_2.
  destruct r as [|a [|b [|c [|d tl]]]]; try reflexivity. simpl in H. lia.
Qed.

Lemma opt_loop_agrees fuel r offset : offset <= length r -> length r - offset < fuel ->
  agrees (opt_loop fuel r offset) (s_options fuel (skipn offset r)).
Proof.
  apply (loop_agrees validate_option); try reflexivity.
  intros f [|c1 [|c2 [|l1 [|l2 tl]]]] N; [congruence| | | |];
    try (rewrite validate_option_short by (simpl; lia); split; reflexivity).
  rewrite validate_option_4. cbn [s_options].
  destruct (Nat.leb_spec0 (N.to_nat (l1 * 256 + l2)) (length tl)); split; try reflexivity; [simpl; lia|].
  rewrite Nat.add_comm. reflexivity.
Qed.

Lemma smatch_blob16 g l1 l2 tl :
  smatch (FBlob16 :: g) (l1 :: l2 :: tl) =
  (N.to_nat (l1 * 256 + l2) <=? length tl) && smatch g (skipn (N.to_nat (l1 * 256 + l2)) tl).
Proof. reflexivity. Qed.

Lemma v_tsig r :
  agrees (validate_as_tsig r)
         (smatch [FName; FBytes 6; FBytes 2; FBlob16; FBytes 2; FBytes 2; FBlob16] r).
Proof.
  apply agrees_name. intros alg Halg.
  rewrite smatch_bytes_merge. cbn [Nat.add]. rewrite smatch_bytes, skipn_plus, skipn_length.
  (* MAC size: the two octets at alg + 8 *)
  replace (alg + 10) with (alg + 8 + 2) by lia. rewrite get_range_2.
  destruct (skipn (alg + 8) r) as [|l1 [|l2 tl]] eqn:R8; try (apply agrees_other, andb_false_r).
  pose proof (skipn_cons_length _ _ _ _ R8) as L8. simpl in L8.
  cbn [be16_of bind]. rewrite smatch_blob16, !smatch_bytes. set (mac := N.to_nat (l1 * 256 + l2)).
  (* other len: the two octets after MAC, original id and error *)
  rewrite !skipn_plus, !skipn_length.
  replace (alg + mac + 16) with (alg + mac + 14 + 2) by lia. rewrite get_range_2.
  replace (skipn (alg + mac + 14) r) with (skipn (mac + 2 + 2) tl)
    by (change tl with (skipn 2 (l1 :: l2 :: tl)); rewrite <- R8, !skipn_plus; f_equal; lia).
  destruct (skipn (mac + 2 + 2) tl) as [|m1 [|m2 tl2]] eqn:R14;
    try (apply agrees_other; rewrite !andb_false_r; reflexivity).
  pose proof (skipn_cons_length _ _ _ _ R14) as L14. simpl in L14.
  cbn [be16_of bind]. rewrite smatch_blob16, smatch_nil, is_nil_skipn. set (other := N.to_nat (m1 * 256 + m2)).
  destruct (Nat.leb_spec0 8 (length r - alg)), (Nat.leb_spec0 mac (length tl)),
    (Nat.leb_spec0 2 (length tl - mac)), (Nat.leb_spec0 2 (length tl - (mac + 2))); try lia.
  cbn [andb]. apply agrees_if.
  destruct (Nat.eqb_spec (alg + mac + other + 16) (length r)), (Nat.leb_spec0 other (length tl2)),
    (Nat.leb_spec0 (length tl2) other); try reflexivity; lia.
Qed.

Theorem run_validator_agrees v r :
  agrees (run_validator v r) (smatch (gram_of_v v) r).
Proof.
  destruct v; cbn [run_validator gram_of_v].
  - apply name_all_agrees.
  - apply agrees_if. symmetry. apply smatch_bytes_last.
  - apply v_ch_a.
  - apply v_soa.
  - apply agrees_if. rewrite smatch_bytes_merge, smatch_bytes. cbn [smatch Nat.add]. symmetry. apply andb_true_r.
  - apply v_hinfo.
  - apply v_minfo.
  - apply v_fixed_then_name.
  - unfold validate_as_txt. cbn [smatch]. destruct r as [|x r']; [apply agrees_other; reflexivity|].
    apply txt_loop_agrees; simpl; lia.
  - apply agrees_if. symmetry. apply smatch_bytes_last.
  - rewrite !smatch_bytes_merge. apply v_fixed_then_name.
  - apply opt_loop_agrees; lia.
  - apply v_tsig.
  - reflexivity.
Qed.

Ltac unfold_types :=
  unfold TYPE_A, TYPE_NS, TYPE_MD, TYPE_MF, TYPE_CNAME, TYPE_SOA, TYPE_MB, TYPE_MG, TYPE_MR,
         TYPE_NULL, TYPE_WKS, TYPE_PTR, TYPE_HINFO, TYPE_MINFO, TYPE_MX, TYPE_TXT, TYPE_AAAA,
         TYPE_SRV, TYPE_OPT, TYPE_TSIG, CLASS_IN, CLASS_CH, CLASS_HS.

(* case_types c t: case analysis on every test (t =? k), (c =? k) that occurs in the goal, i.e. on
   the TYPE and CLASS numbers the tables and the RFC grammar mention; every case, and the one
   where all tests fail, closes by computation *)
Ltac case_class c :=
  repeat match goal with
  | |- context [(c =? ?k)%N] => destruct (N.eqb_spec c k); [subst c|]
  end; try reflexivity; try (split; reflexivity); try lia.

Ltac case_types c t :=
  repeat match goal with
  | |- context [(t =? ?k)%N] =>
    destruct (N.eqb_spec t k); [subst t; cbn; case_class c|]
  end; cbn; case_class c.

Theorem dispatch_validate c t :
  gram_of_v (lookup validate_arms validate_default c t) = grammar c t.
Proof.
  unfold grammar, one_of, validate_arms, validate_default. unfold_types.
  cbn [lookup]. unfold arm_matches. cbn [existsb fst snd]. case_types c t.
Qed.
