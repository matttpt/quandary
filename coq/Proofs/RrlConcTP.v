(* C28 on the whole table: what stream k sees of the table-level system IS the single-bucket
   system of Model/RrlConc.v, provided no other stream's thread shares k's bucket. *)
From QV Require Import Base.Res Base.Octets Model.Rrl Model.RrlConc Model.RrlConcT
  Proofs.RrlP Proofs.RrlConcP.
Local Open Scope N_scope.

Lemma map_set_nth {A B} (f : A -> B) (l : list A) i x :
  map f (set_nth l i x) = set_nth (map f l) i (f x).
Proof.
  revert i. induction l as [|y l IH]; intros [|i]; simpl; try reflexivity. rewrite IH. reflexivity.
Qed.

Lemma set_nth_same {A} (l : list A) i x : nth_error l i = Some x -> set_nth l i x = l.
Proof.
  revert i. induction l as [|y l IH]; intros [|i] H; simpl in *; try discriminate.
  - inversion H. reflexivity.
  - rewrite (IH i H). reflexivity.
Qed.

Section WithHash.
  Variable hkey : key -> N.

  Definition separated (k : key) (s : tstate) : Prop :=
    forall th, In th (ts_threads s) -> tt_key th <> k ->
               slot hkey (ts_table s) (tt_key th) <> slot hkey (ts_table s) k.

  Lemma slot_set t i e k : slot hkey (t_set t i e) k = slot hkey t k.
  Proof. reflexivity. Qed.

  Lemma in_set_nth {A} (l : list A) i x y : In y (set_nth l i x) -> y = x \/ In y l.
  Proof.
    revert i. induction l as [|z l IH]; intros [|i] H; simpl in *; try contradiction.
    - destruct H as [H|H]; [left; symmetry; exact H|right; right; exact H].
    - destruct H as [H|H]; [right; left; exact H|]. destruct (IH i H) as [E|E]; [left; exact E|right; right; exact E].
  Qed.

  Lemma tstep_proj p k s l : separated k s ->
    let s1 := match tstep hkey p s l with Some s' => s' | None => s end in
    proj hkey k s1 = match cstep p k (proj hkey k s) l with Some c => c | None => proj hkey k s end
    /\ separated k s1.
  Proof.
    intros SEP. destruct l as [[tid now] rnd]. unfold tstep, cstep.
    cbn [proj c_threads c_lock c_cell c_sent c_limited].
    rewrite nth_error_map.
    destruct (nth_error (ts_threads s) tid) as [th|] eqn:ET; cbn [option_map]; [|split; [reflexivity|exact SEP]].
    assert (SEPset : forall q m tbl lk sn lm, ts_table s = tbl \/ (exists i e, tbl = t_set (ts_table s) i e) ->
              separated k (mkT tbl lk (set_nth (ts_threads s) tid (mkTT (tt_key th) q m)) sn lm)).
    { intros q m tbl lk sn lm Ht th' Hin Hk. cbn [ts_threads ts_table] in *.
      assert (Hs : forall k0, slot hkey tbl k0 = slot hkey (ts_table s) k0)
        by (intros k0; destruct Ht as [<-|(i & e & ->)]; reflexivity).
      rewrite !Hs. destruct (in_set_nth _ _ _ _ Hin) as [->|Hin'].
      - cbn [tt_key] in *. apply SEP; [eapply nth_error_In; exact ET|exact Hk].
      - apply SEP; assumption. }
    assert (PT : forall q m, map (proj_thread k) (set_nth (ts_threads s) tid (mkTT (tt_key th) q m))
                             = set_nth (map (proj_thread k) (ts_threads s)) tid
                                       (if key_eqb (tt_key th) k then mkThread q m else mkThread Idle 0))
      by (intros q m; exact (map_set_nth _ _ _ _)).
    change (proj_thread k th) with (if key_eqb (tt_key th) k then mkThread (tt_pc th) (tt_todo th) else mkThread Idle 0).
    destruct (key_eqb (tt_key th) k) eqn:EK; cbn [th_pc th_todo].
    - (* a thread of stream k: tstep and cstep are the same code, program point by program point;
         once both are unfolded the two sides differ by the facts listed *)
      apply key_eqb_eq in EK. subst k.
      destruct (tt_pc th) as [| |e|];
        [destruct (tt_todo th) as [|m], (ts_locks s (slot hkey (ts_table s) (tt_key th)))| |
         destruct (cell_step p (tt_key th) e now rnd) as [[e' act]| |]; [destruct act| |]|];
        (split; [|first [exact SEP|apply SEPset; first [left; reflexivity|right; eexists; eexists; reflexivity]]]);
        try reflexivity;
        unfold proj, set_lock, bump; cbn [ts_table ts_locks ts_threads ts_sent ts_limited];
        rewrite ?slot_set, ?t_get_set_same, ?PT, ?N.eqb_refl, ?key_eqb_refl; reflexivity.
    - (* a thread of another stream, hence of another bucket: whatever it does, cell, lock, threads
         and counters of the projection stay as they are, and the projection itself cannot move *)
      assert (NK : tt_key th <> k) by (apply key_eqb_neq; exact EK).
      pose proof (SEP th (nth_error_In _ _ ET) NK) as NS.
      assert (NS' : (slot hkey (ts_table s) k =? slot hkey (ts_table s) (tt_key th)) = false)
        by (apply N.eqb_neq; intros E; apply NS; symmetry; exact E).
      assert (EK' : key_eqb k (tt_key th) = false)
        by (apply key_eqb_neq; intros E; apply NK; symmetry; exact E).
      assert (PT' : forall q m, map (proj_thread k) (set_nth (ts_threads s) tid (mkTT (tt_key th) q m))
                                = map (proj_thread k) (ts_threads s)).
      { intros q m. rewrite PT. apply set_nth_same. rewrite nth_error_map, ET. cbn.
        unfold proj_thread. rewrite EK. reflexivity. }
      (* the same case split and unfolding as above; only the facts rewritten with differ *)
      destruct (tt_pc th) as [| |e|];
        [destruct (tt_todo th) as [|m], (ts_locks s (slot hkey (ts_table s) (tt_key th)))| |
         destruct (cell_step p (tt_key th) e now rnd) as [[e' act]| |]; [destruct act| |]|];
        (split; [|first [exact SEP|apply SEPset; first [left; reflexivity|right; eexists; eexists; reflexivity]]]);
        try reflexivity;
        unfold proj, set_lock, bump; cbn [ts_table ts_locks ts_threads ts_sent ts_limited];
        rewrite ?slot_set, ?PT', ?NS', ?EK', ?t_get_set_other by (intros E; apply NS; symmetry; exact E);
        reflexivity.
  Qed.

  Lemma trun_proj p k sched : forall s, separated k s ->
    proj hkey k (trun hkey p s sched) = crun p k (proj hkey k s) sched.
  Proof.
    induction sched as [|l r IH]; intros s SEP; [reflexivity|].
    cbn [trun crun]. destruct (tstep_proj p k s l SEP) as [HP SEP'].
    cbv zeta in HP, SEP'. rewrite (IH _ SEP'). rewrite HP. reflexivity.
  Qed.

  Definition bursts_of (k : key) (work : list (key * nat)) : list nat :=
    map (fun w => if key_eqb (fst w) k then snd w else 0%nat) work.

  Lemma proj_tinit k t work :
    proj hkey k (tinit t work) = cinit (t_get t (slot hkey t k)) (bursts_of k work).
  Proof.
    unfold proj, tinit, cinit, bursts_of. cbn [ts_table ts_locks ts_threads ts_sent ts_limited].
    f_equal. rewrite !map_map. apply map_ext. intros [k' b]. unfold proj_thread. cbn [tt_key tt_pc tt_todo fst snd].
    destruct (key_eqb k' k); reflexivity.
  Qed.

  (* MAIN (table level): one lock per bucket, threads of many streams, any schedule: if no
     other stream's thread shares stream k's bucket, then once k's threads are done exactly
     min(n_k, tokens) of k's responses were sent. *)
  Lemma table_exact p k lo hi t work sched :
    wf_params p -> cell_ok p k hi (t_get t (slot hkey t k)) -> hi - lo < nanos_per_sec ->
    Forall (fun l => lo <= label_now l <= hi) sched ->
    (forall w, In w work -> fst w <> k -> slot hkey t (fst w) <> slot hkey t k) ->
    let s' := trun hkey p (tinit t work) sched in
    all_done (proj hkey k s') = true ->
    let n := N.of_nat (list_sum (bursts_of k work)) in
    let tokens := avail p k (t_get t (slot hkey t k)) in
    N.of_nat (ts_sent s' k) = N.min n tokens /\ N.of_nat (ts_limited s' k) = n - N.min n tokens.
  Proof.
    intros W CO TW HF SEPW s' HD n tokens.
    assert (SEP : separated k (tinit t work)).
    { intros th Hin Hk. unfold tinit in Hin. cbn [ts_threads ts_table] in *.
      apply in_map_iff in Hin. destruct Hin as (w & <- & Hw). cbn [tt_key] in *. apply SEPW; assumption. }
    pose proof (trun_proj p k sched _ SEP) as HP. fold s' in HP. rewrite proj_tinit in HP.
    rewrite HP in HD.
    pose proof (conc_exact p k lo hi _ (bursts_of k work) sched W CO TW HF HD) as H.
    rewrite <- HP in H. exact H.
  Qed.
End WithHash.
