(* Message level: the finished message of a whole run.  Its layout is that of the abstract message
   denoted by the operations that succeeded (Spec/MsgWriterAbsS.v), followed by the OPT and TSIG
   pseudo-records that finish appends. *)
From QV Require Import Base.ListX Model.MsgWriter Spec.NameRepr Proofs.NameWireP Proofs.MsgWriterP
     Proofs.MsgWriterScanP Proofs.MsgWriterNameP Proofs.MsgWriterInvP Proofs.MsgWriterClosP
     Proofs.MsgWriterScanSP Proofs.MsgWriterNameSP Proofs.MsgWriterLayP Proofs.MsgWriterOpP
     Proofs.MsgWriterStepP.
From QV Require Import Spec.MsgWriterAbsS.

Local Open Scope nat_scope.

Definition step_ok2 (d : dstate) (g : gn) (y : lay) (A : amsg) (o : wop) : Prop :=
  match step d o with
  | Ok (d', r) => exists L' y', AInv d' (gstep d g o r) L' /\ LInv d' y' (astep A o r) L'
  | _ => False
  end.

Theorem step2_all d g y A L o : AInv d g L -> LInv d y A L -> op_wf o -> op_contract d g o ->
  step_ok2 d g y A o.
Proof.
  intros Hi HL Hwf Hc. pose proof (step_pres_all d g L o Hi Hwf Hc) as H. unfold step_pres, step_ok2 in *.
  destruct (step d o) as [[d' r]|e|]; auto. destruct H as [L' [H1 H2]]. destruct (H2 y A HL) as [y' H3]. eauto.
Qed.

(* the pseudo-records finish appends, read off the writer's EDNS / TSIG fields *)
Definition pseudo (w : writer) : list arr :=
  (match w_edns w with
   | Some e => [mkAR [] (w_mode w) TYPE_OPT (e_udp e) (e_upper e * 16777216)%N []]
   | None => [] end) ++
  (match w_tsig w with
   | Some t => [mkAR (t_key t) (w_mode w) TYPE_TSIG qclass_any (ttl_from 0) (tsig_unsigned_rdata t)]
   | None => [] end).

Lemma w_write_slice w pos data w' : w_write w pos data = Ok w' ->
  slice (w_buf w') pos (pos + length data) = data /\ (forall c, c <= pos -> agree c (w_buf w) (w_buf w')) /\
  w_qd w' = w_qd w /\ w_an w' = w_an w /\ w_ns w' = w_ns w /\ w_ar w' = w_ar w.
Proof.
  intros E. apply w_write_inv in E as [b' [Hb ->]]. simpl. split; [eapply buf_write_data; eauto|].
  split; auto. intros c Hc. eapply buf_write_agree; eauto.
Qed.

Theorem finish_ok2 d g y A L : AInv d g L -> LInv d y A L ->
  exists wF LF rsP, finish (d_w d) = Ok (w_cursor wF, w_buf wF) /\
    NInv wF (length (w_buf wF)) LF /\
    PLay (w_buf wF) LF (mkLay (y_qs y) (y_rrs y ++ rsP)) (w_rr_start (d_w d)) (w_cursor wF) /\
    Forall2 rr_desc2 rsP (pseudo (d_w d)) /\
    slice (w_buf wF) 4 12 = be16 (w_qd (d_w d)) ++ be16 (w_an (d_w d)) ++ be16 (w_ns (d_w d)) ++ be16 (w_ar (d_w d)) /\
    agree 4 (w_buf (d_w d)) (w_buf wF).
Proof.
  intros Hi HL.
  destruct (finish_pres (fun x => x) d g L Hi)
    as [b4 [wF [LF [rsP [E [[_ HL4] [Hdr [Ag4 [_ [[F1 _ _ _ F5 _ F7] D]]]]]]]]]].
  pose proof (a_n _ _ _ Hi) as []. pose proof wconsts as [K12 _]. simpl in F5.
  exists wF, LF, rsP. split; [exact E|]. split; [exact F1|].
  split; [destruct (HL4 y A HL) as [P _]; apply (F7 y _ P); simpl; lia|].
  split; [exact D|]. split.
  - rewrite (agree_slice _ _ _ 4 12 F5) by lia. exact Hdr.
  - eapply agree_trans; [exact Ag4|]. eapply agree_le; [exact F5|lia].
Qed.

Lemma Forall2_len {A B} (P : A -> B -> Prop) l1 l2 : Forall2 P l1 l2 -> length l1 = length l2.
Proof. induction 1; simpl; auto. Qed.

Definition y0 : lay := mkLay [] [].

Lemma LInv_new buf limit w0 : writer_new buf limit = Ok w0 -> LInv (mkD w0 []) y0 am0 L0.
Proof.
  intros H. unfold writer_new in H.
  destruct (Nat.min limit (length buf) <? header_size); [discriminate|].
  destruct (length buf <? header_size); [discriminate|].
  inversion H; subst w0. clear H. split; simpl.
  - constructor; simpl; auto. intros s. unfold L0. tauto.
  - (* every field of a fresh writer is a constant: no questions, no records, all counts 0, no EDNS *)
    constructor; simpl; auto; try constructor; try lia; repeat split; try lia; try discriminate.
Qed.

Theorem run_ok2 : forall ops d g y A L, AInv d g L -> LInv d y A L -> run_contract d g ops ->
  exists d' outs alive g' y' L', run d ops = Ok (d', outs, alive) /\ AInv d' g' L' /\
    LInv d' y' (areplay A ops outs) L'.
Proof.
  intros ops d g y A L Hi HL Hc.
  destruct (run_pres ops d g L Hi Hc) as [d' [outs [alive [g' [L' [E [H1 H2]]]]]]].
  destruct (H2 y A HL) as [y' H3]. exists d', outs, alive, g', y', L'. auto.
Qed.

(* the finished message: its layout, tied to the abstract message of the succeeded operations *)
Theorem run_writer_layout buf limit w0 ops : writer_new buf limit = Ok w0 ->
  run_contract (mkD w0 []) g0 ops ->
  exists rr, run_writer buf limit ops = Ok rr /\
    match rr_final rr with
    | Some (len, b) =>
      exists d wF LF yF,
        run (mkD w0 []) ops = Ok (d, rr_outcomes rr, true) /\
        (forall t, w_tsig (d_w d) = Some t -> tsig_wf t) /\
        len = w_cursor wF /\ b = w_buf wF /\ NInv wF (length b) LF /\
        PLay b LF yF (w_rr_start (d_w d)) len /\
        Forall2 q_desc (y_qs yF) (am_qs (areplay am0 ops (rr_outcomes rr))) /\
        Forall2 rr_desc2 (y_rrs yF)
          (am_an (areplay am0 ops (rr_outcomes rr)) ++ am_ns (areplay am0 ops (rr_outcomes rr)) ++
           am_ar (areplay am0 ops (rr_outcomes rr)) ++ pseudo (d_w d)) /\
        FLay (d_w d) (mkLay (y_qs yF) (firstn (length (y_rrs yF) - length (pseudo (d_w d))) (y_rrs yF)))
             (areplay am0 ops (rr_outcomes rr)) /\
        slice b 4 12 = be16 (w_qd (d_w d)) ++ be16 (w_an (d_w d)) ++ be16 (w_ns (d_w d)) ++ be16 (w_ar (d_w d)) /\
        agree 4 (w_buf (d_w d)) b
    | None => True
    end.
Proof.
  intros H0 Hc. unfold run_writer, run_writer_gen. rewrite H0. cbn [bind].
  destruct (run_ok2 ops _ _ _ _ _ (AInv_new _ _ _ H0) (LInv_new _ _ _ H0) Hc)
    as [d [outs [alive [g [y [L [E [Hi HL]]]]]]]].
  rewrite E. cbn [bind]. destruct alive.
  - destruct (finish_ok2 d g y _ L Hi HL) as [wF [LF [rsP [EF [HiF [PF [DF [HF HA4]]]]]]]].
    rewrite EF. cbn [bind]. eexists. split; [reflexivity|]. simpl.
    exists d, wF, LF, (mkLay (y_qs y) (y_rrs y ++ rsP)). destruct HL as [_ HFl].
    split; auto. split; [apply (a_ts _ _ _ Hi)|].
    split; auto. split; auto. split; auto. split; auto. simpl.
    split; [apply HFl|]. split.
    { rewrite !app_assoc. apply Forall2_app; auto. rewrite <- !app_assoc. apply HFl. }
    split; auto.
    rewrite app_length, (Forall2_len _ _ _ DF). replace (length (y_rrs y) + length (pseudo (d_w d)) - length (pseudo (d_w d))) with (length (y_rrs y)) by lia.
    rewrite firstn_app, Nat.sub_diag, firstn_all. simpl. rewrite app_nil_r. destruct y; exact HFl.
  - eexists. split; [reflexivity|]. exact I.
Qed.

(* No operation sequence obeying the hint contract makes the writer panic, finish included;
   in the finished message every label start of the ghost set decodes without looking at the
   header or beyond the end, every pointer met leads strictly backwards to another member. *)
Theorem run_writer_ok buf limit w0 ops : writer_new buf limit = Ok w0 ->
  run_contract (mkD w0 []) g0 ops ->
  exists rr, run_writer buf limit ops = Ok rr /\
    match rr_final rr with
    | Some (len, b) =>
      exists LF, closed b header_size len (length b) LF /\ decodable b len LF /\ len <= length b
    | None => True
    end.
Proof.
  intros H0 Hc. destruct (run_writer_layout buf limit w0 ops H0 Hc) as [rr [E H]].
  exists rr. split; [exact E|]. destruct (rr_final rr) as [[len b]|]; auto.
  destruct H as [d [wF [LF [yF [_ [_ [-> [-> [HiF _]]]]]]]]].
  exists LF. split; [apply HiF|]. split; [apply HiF|]. destruct (ni_nb _ _ _ HiF). lia.
Qed.

Theorem run_writer_never_panics buf limit w0 ops : writer_new buf limit = Ok w0 ->
  run_contract (mkD w0 []) g0 ops -> exists rr, run_writer buf limit ops = Ok rr.
Proof.
  intros H0 Hc. destruct (run_writer_ok buf limit w0 ops H0 Hc) as [rr [E _]]. eauto.
Qed.

