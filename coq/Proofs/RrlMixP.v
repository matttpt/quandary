(* C26 for mixed traffic: the decisions for one stream inside ANY history of requests. *)
From QV Require Import Base.Res Base.Octets Model.Rrl Spec.RrlBucketS Spec.RrlMixS Proofs.RrlP.
Local Open Scope N_scope.

Lemma apply_action_rrl_action c a : c_rrl_action (apply_action c a) = Some a.
Proof. destruct a; reflexivity. Qed.

Lemma Forall2_same_length {A B} (R : A -> B -> Prop) l l' : Forall2 R l l' -> length l = length l'.
Proof. induction 1; cbn [length]; congruence. Qed.

Lemma bucket_run_mixed_length rate window slip h : forall ob,
  length (bucket_run_mixed rate window slip ob h) = length h.
Proof.
  induction h as [|[[[| |] now] rnd] h IH]; intros ob; cbn [bucket_run_mixed length]; [reflexivity| | |].
  - destruct (bucket_step rate window ob now). cbn [length]. rewrite IH. reflexivity.
  - rewrite IH. reflexivity.
  - rewrite IH. reflexivity.
Qed.

(* [step_verdict] is what bucket_run_mixed writes out for a request of the stream itself *)
Lemma bucket_run_mixed_mine rate window slip ob now rnd h :
  bucket_run_mixed rate window slip ob ((Mine, now, rnd) :: h) =
  let r := bucket_step rate window ob now in
  Some (step_verdict slip rnd (snd r)) :: bucket_run_mixed rate window slip (Some (fst r)) h.
Proof. cbn [bucket_run_mixed]. destruct (bucket_step rate window ob now). reflexivity. Qed.

Section WithHash.
  Variable hname : bytes -> N.
  Variable hkey : key -> N.

  (* how a request relates to stream k in a table of the given length *)
  Definition req_kind (p : params) (t : table) (k : key) (c : ctx) : rkind :=
    if subject_to_rrl c then
      match key_of hname p c with
      | Some k' => if key_eqb k' k then Mine
                   else if bucket_index hkey t k' =? bucket_index hkey t k then Evicts else Other
      | None => Other
      end
    else Other.

  Lemma bucket_index_len t t' k : t_len t' = t_len t -> bucket_index hkey t' k = bucket_index hkey t k.
  Proof. intros H. unfold bucket_index. rewrite H. reflexivity. Qed.

  Lemma req_kind_len p t t' k c : t_len t' = t_len t -> req_kind p t' k c = req_kind p t k c.
  Proof.
    intros H. unfold req_kind. destruct (subject_to_rrl c); [|reflexivity].
    destruct (key_of hname p c) as [k'|]; [|reflexivity].
    rewrite !(bucket_index_len t t' _ H). reflexivity.
  Qed.

  Definition verdict_matches (c' : ctx) (ov : option verdict) : Prop :=
    match ov with Some v => c_rrl_action c' = Some (action_of_verdict v) | None => True end.

  Lemma process_response_mixed p t k c now rnd : wf_params p -> wf_table p t ->
    (subject_to_rrl c = true -> key_of hname p c <> None) ->
    exists t1 c1,
      process_response hname hkey p t c now rnd = Ok (t1, c1) /\ wf_table p t1 /\ t_len t1 = t_len t /\
      match req_kind p t k c with
      | Mine => let r := bucket_step (rate_of p (k_category k)) (p_window p) (abs_bucket hkey p t k) now in
                c_rrl_action c1 = Some (action_of_verdict (step_verdict (p_slip p) rnd (snd r))) /\
                abs_bucket hkey p t1 k = Some (fst r)
      | Evicts => abs_bucket hkey p t1 k = None
      | Other => abs_bucket hkey p t1 k = abs_bucket hkey p t k
      end.
  Proof.
    intros W WT Hq. unfold req_kind. destruct (subject_to_rrl c) eqn:Hs.
    - destruct (key_of hname p c) as [k'|] eqn:Hk; [|exfalso; apply (Hq eq_refl); reflexivity].
      destruct (process_response_step hname hkey p t c k' now rnd W WT Hs Hk) as (t1 & P1 & WT1 & L1 & B1 & O1).
      exists t1. eexists. split; [exact P1|]. split; [exact WT1|]. split; [exact L1|].
      destruct (key_eqb k' k) eqn:EK.
      + apply key_eqb_eq in EK. subst k'. split; [apply apply_action_rrl_action|exact B1].
      + rewrite (abs_bucket_other hkey p t t1 k' k _ L1 B1 O1 EK).
        destruct (bucket_index hkey t k' =? bucket_index hkey t k); reflexivity.
    - exists t, c. unfold process_response, process_response_gen. rewrite Hs.
      split; [reflexivity|]. split; [exact WT|]. split; reflexivity.
  Qed.

  Lemma run_requests_mixed p k h : wf_params p ->
    Forall (fun r => subject_to_rrl (fst (fst r)) = true -> key_of hname p (fst (fst r)) <> None) h ->
    forall t, wf_table p t ->
    exists t' cs,
      run_requests hname hkey p t h = Ok (t', cs) /\ wf_table p t' /\
      Forall2 verdict_matches cs
        (bucket_run_mixed (rate_of p (k_category k)) (p_window p) (p_slip p) (abs_bucket hkey p t k)
           (map (fun r => (req_kind p t k (fst (fst r)), snd (fst r), snd r)) h)).
  Proof.
    intros W. induction h as [|[[c now] rnd] h IH]; intros HF t WT.
    - exists t, []. split; [reflexivity|]. split; [exact WT|constructor].
    - inversion HF as [|x l Hx HF']; subst. cbn [fst snd] in Hx.
      destruct (process_response_mixed p t k c now rnd W WT Hx) as (t1 & c1 & P1 & WT1 & L1 & M).
      destruct (IH HF' t1 WT1) as (t2 & cs & P2 & WT2 & F2).
      rewrite (map_ext _ (fun r => (req_kind p t k (fst (fst r)), snd (fst r), snd r))) in F2
        by (intros r; rewrite (req_kind_len p t t1 k _ L1); reflexivity).
      exists t2, (c1 :: cs). cbn [map fst snd run_requests]. rewrite P1. cbn [bind]. rewrite P2.
      split; [reflexivity|]. split; [exact WT2|].
      destruct (req_kind p t k c); [rewrite bucket_run_mixed_mine|cbn [bucket_run_mixed]..].
      + destruct M as [M1 M2]. rewrite M2 in F2. constructor; [exact M1|exact F2].
      + rewrite M in F2. constructor; [exact I|exact F2].
      + rewrite M in F2. constructor; [exact I|exact F2].
  Qed.
  Lemma run_requests_total p h : wf_params p ->
    Forall (fun r => subject_to_rrl (fst (fst r)) = true -> key_of hname p (fst (fst r)) <> None) h ->
    forall t, wf_table p t ->
    exists t' cs, run_requests hname hkey p t h = Ok (t', cs) /\ wf_table p t' /\ length cs = length h.
  Proof.
    (* for any stream whatever: init_key is only a key that exists *)
    intros W HF t WT. destruct (run_requests_mixed p init_key h W HF t WT) as (t' & cs & H & WT' & F).
    exists t', cs. split; [exact H|]. split; [exact WT'|].
    rewrite (Forall2_same_length _ _ _ F), bucket_run_mixed_length, map_length. reflexivity.
  Qed.
End WithHash.
