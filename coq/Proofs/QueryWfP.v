(* Facts about the flat-record lookups of Spec/ZoneLookupS.v that query answering rests on: inside the
   zone a checked lookup is the unchecked one and never reports the wrong zone; AAAA only in class IN. *)
From QV Require Import Base.ListX Model.ZoneTree Spec.ZoneLookupS Proofs.ZoneBaseP.
From QV Require Proofs.ZoneRrsetP.

Section Wf.
Variable req : N -> N -> bytes -> bytes -> bool.
Variable apex : name.
Variable cls : N.
Variable R : list record.

Lemma dedup_first_In l ty x : In x (dedup_first req cls l ty) -> In x l.
Proof. apply ZoneRrsetP.dedup_first_In. Qed.

Lemma spec_lookup_unchecked qn ty sbc : in_zone apex qn = true ->
  spec_lookup req apex cls R qn ty false sbc = spec_lookup req apex cls R qn ty true sbc.
Proof. intros Z. unfold spec_lookup, spec_lookup_base. rewrite Z. reflexivity. Qed.
Lemma spec_lookup_all_unchecked qn sbc : in_zone apex qn = true ->
  spec_lookup_all req apex cls R qn false sbc = spec_lookup_all req apex cls R qn true sbc.
Proof. intros Z. unfold spec_lookup_all, spec_lookup_base. rewrite Z. reflexivity. Qed.

Lemma spec_addrs_aaaa qn u sbc a aaaa sos :
  spec_lookup_addrs req apex cls R qn u sbc = Some (AFound a aaaa sos) -> (cls =? 1)%N = false -> aaaa = None.
Proof.
  unfold spec_lookup_addrs. destruct (spec_lookup_base req apex cls R qn u sbc) as [b|]; [|discriminate].
  intros H C. destruct b; inversion H; subst. rewrite C. reflexivity.
Qed.

Lemma spec_base_not_wrong qn u sbc : in_zone apex qn = true ->
  spec_lookup_base req apex cls R qn u sbc <> Some SWrongZone.
Proof.
  intros Z. unfold spec_lookup_base. rewrite Z. cbn [negb].
  destruct (if sbc then None else find (is_cut req apex cls R) (path_below apex (lc qn))); [discriminate|].
  destruct (exists_name apex R (lc qn)); [discriminate|].
  destruct (exists_name apex R _); discriminate.
Qed.
Lemma spec_lookup_not_wrong qn ty u sbc : in_zone apex qn = true ->
  spec_lookup req apex cls R qn ty u sbc <> Some LWrongZone.
Proof.
  intros Z. pose proof (spec_base_not_wrong qn u sbc Z) as H. unfold spec_lookup.
  destruct (spec_lookup_base req apex cls R qn u sbc) as [b|]; [|discriminate].
  destruct b as [m sos|c| |]; try discriminate; [|congruence].
  destruct (single_of req cls R m ty); [discriminate|]. destruct (single_of req cls R m 5); discriminate.
Qed.
Lemma spec_lookup_all_not_wrong qn u sbc : in_zone apex qn = true ->
  spec_lookup_all req apex cls R qn u sbc <> Some LAWrongZone.
Proof.
  intros Z. pose proof (spec_base_not_wrong qn u sbc Z) as H. unfold spec_lookup_all.
  destruct (spec_lookup_base req apex cls R qn u sbc) as [b|]; [|discriminate].
  destruct b as [m sos|c| |]; try discriminate. congruence.
Qed.

End Wf.
