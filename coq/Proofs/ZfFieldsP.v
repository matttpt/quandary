(* Field-level facts behind parse_ttl_and_class: the token languages of TTL, CLASS and TYPE are
   pairwise disjoint, so trying them in order is the unique reading (RFC 1035 section 5.1). *)
From QV Require Import Base.ListX Model.ZfStd.

Local Open Scope N_scope.

(* the first two octets, lower-cased, decide which language a token can belong to: that two are enough is a fact
   of the present tables (keys_disjoint_b, keys_letters, and prefix_keys in ZfSymP), checked by evaluation *)
Definition key (s : bytes) : bytes := map lower (firstn 2 s).

Lemma eq_ignore_case_map : forall a b, eq_ignore_case a b = true -> map lower a = map lower b.
Proof.
  induction a as [|x a IH]; intros [|y b] H; simpl in H; try discriminate; [reflexivity|].
  apply andb_true_iff in H. destruct H as [H1 H2]. apply N.eqb_eq in H1. simpl. rewrite H1, (IH b H2). reflexivity.
Qed.

Lemma bytes_eqb_eq : forall a b, bytes_eqb a b = true -> a = b.
Proof. intros a b. apply bytes_eqb_fix_eq. intros [|] [|]; reflexivity. Qed.

Lemma bytes_eqb_refl : forall a, bytes_eqb a a = true.
Proof. intros a. apply (bytes_eqb_fix_eq bytes_eqb); [intros [|] [|]; reflexivity|reflexivity]. Qed.

Lemma key_of_lower a b : map lower a = map lower b -> key a = key b.
Proof. intros H. unfold key. rewrite <- !firstn_map, H. reflexivity. Qed.

Definition keys_of (tbl : list (bytes * N)) : list bytes := map (fun mv => key (fst mv)) tbl.

Lemma lookup_key caseless : forall tbl s v, lookup_mnemonic caseless tbl s = Some v -> In (key s) (keys_of tbl).
Proof.
  induction tbl as [|[m w] tbl IH]; intros s v H; simpl in H; [discriminate|].
  destruct (if caseless then eq_ignore_case s m else bytes_eqb s m) eqn:E.
  - left. simpl. destruct caseless.
    + symmetry. apply key_of_lower. apply eq_ignore_case_map. exact E.
    + apply bytes_eqb_eq in E. rewrite E. reflexivity.
  - right. eapply IH. exact H.
Qed.

Lemma sym_key caseless tbl prefix s v : (2 <= length prefix)%nat ->
  sym_from_str caseless tbl prefix s = inl v -> In (key s) (key prefix :: keys_of tbl).
Proof.
  intros Hp. unfold sym_from_str. destruct (lookup_mnemonic caseless tbl s) as [w|] eqn:E.
  - intros _. right. eapply lookup_key. exact E.
  - destruct ((length prefix <=? length s)%nat && eq_ignore_case (firstn (length prefix) s) prefix) eqn:E2; [|discriminate].
    intros _. left. apply andb_true_iff in E2. destruct E2 as [_ E2]. apply eq_ignore_case_map in E2.
    apply key_of_lower in E2. rewrite <- E2. unfold key. rewrite firstn_firstn.
    replace (Nat.min 2 (length prefix)) with 2%nat by lia. reflexivity.
Qed.

Definition class_keys : list bytes := key class_prefix :: keys_of class_mnemonics.
Definition type_keys : list bytes := key type_prefix :: keys_of type_mnemonics.

Definition starts_with_letter (k : bytes) : bool :=
  match k with c :: _ => (97 <=? c) && (c <=? 122) | [] => false end.

Lemma keys_letters : forallb starts_with_letter (class_keys ++ type_keys) = true.
Proof. vm_compute. reflexivity. Qed.

Lemma keys_disjoint_b : forallb (fun k => negb (existsb (bytes_eqb k) type_keys)) class_keys = true.
Proof. vm_compute. reflexivity. Qed.

Lemma keys_disjoint k : In k class_keys -> In k type_keys -> False.
Proof.
  intros Hc Ht. pose proof keys_disjoint_b as H. rewrite forallb_forall in H. specialize (H k Hc).
  apply negb_true_iff in H. assert (existsb (bytes_eqb k) type_keys = true); [|congruence].
  apply existsb_exists. exists k. split; [exact Ht|apply bytes_eqb_refl].
Qed.

Lemma class_key s c : class_from_str s = inl c -> In (key s) class_keys.
Proof. apply sym_key. vm_compute. lia. Qed.

Lemma type_key s t : type_from_str s = inl t -> In (key s) type_keys.
Proof. apply sym_key. vm_compute. lia. Qed.

Lemma uint_head max s v : parse_uint max s = inl v -> exists c t, s = c :: t /\ (is_digit c = true \/ c = 43).
Proof.
  unfold parse_uint. destruct s as [|c [|d t]]; [discriminate| |].
  - destruct ((c =? 43) || (c =? 45)) eqn:E; [discriminate|]. simpl.
    destruct (is_digit c) eqn:Ed; [eauto|discriminate].
  - destruct (c =? 43) eqn:E; [apply N.eqb_eq in E; eauto|]. simpl.
    destruct (is_digit c) eqn:Ed; [eauto|discriminate].
Qed.

Lemma number_key_not_letter s c t : s = c :: t -> (is_digit c = true \/ c = 43) -> starts_with_letter (key s) = false.
Proof.
  intros -> H. unfold key. cbn [firstn map starts_with_letter].
  destruct H as [H| ->]; [|reflexivity]. unfold is_digit in H. apply andb_true_iff in H. destruct H as [H1 H2].
  apply N.leb_le in H1. apply N.leb_le in H2. unfold lower.
  destruct ((65 <=? c) && (c <=? 90)) eqn:E; [apply andb_true_iff in E; destruct E as [E1 _]; apply N.leb_le in E1; lia|].
  destruct (97 <=? c) eqn:E3; [apply N.leb_le in E3; lia|reflexivity].
Qed.

Lemma number_not_symbol max s v : parse_uint max s = inl v -> ~ In (key s) (class_keys ++ type_keys).
Proof.
  intros H Hin. destruct (uint_head max s v H) as (c & t & Hs & Hc).
  pose proof (number_key_not_letter s c t Hs Hc) as Hn.
  pose proof keys_letters as HL. rewrite forallb_forall in HL. rewrite (HL _ Hin) in Hn. discriminate.
Qed.

Theorem fields_disjoint s :
  (forall v, parse_uint U32_MAX s = inl v ->
     (forall c, class_from_str s <> inl c) /\ (forall t, type_from_str s <> inl t)) /\
  (forall c, class_from_str s = inl c -> forall t, type_from_str s <> inl t).
Proof.
  split.
  - intros v Hv. pose proof (number_not_symbol _ _ _ Hv) as Hn. split.
    + intros c Hc. apply Hn. apply in_or_app. left. eapply class_key. exact Hc.
    + intros t Ht. apply Hn. apply in_or_app. right. eapply type_key. exact Ht.
  - intros c Hc t Ht. exact (keys_disjoint _ (class_key _ _ Hc) (type_key _ _ Ht)).
Qed.

(* a decimal escape denotes the octet it names *)
Lemma digits_value a b c : (a < 10 -> b < 10 -> c < 10 -> 100 * a + 10 * b + c < 256 ->
  100 * ((a + 48) - 48) + 10 * ((b + 48) - 48) + ((c + 48) - 48) = 100 * a + 10 * b + c)%N.
Proof. intros. lia. Qed.
