(* Lemma library for the message writer model (C12/C13): buffer writes, try_push,
   the "name decodable below the cursor" relation and its stability, pointer walking. *)
From QV Require Import Base.ListX Model.MsgWriter.
From QV Require Import Proofs.NameWireP.

Local Open Scope nat_scope.

(* the OPT TTL written through Ttl::from (finish_prefix) loses the extended RCODE; written raw (finish) it is kept *)

Definition xrc_ops (v : N) : list wop := [OSetEdns 1232; OSetXrcode v].

(* octets 17..20 of the finished message are the OPT TTL (header 12, root 1, type 2, class 2) *)
Definition opt_ttl_of (r : res werr run_result) : option bytes :=
  match r with
  | Ok rr => match rr_final rr with
             | Some (_, b) => Some (slice b 17 21)
             | None => None end
  | _ => None
  end.

Lemma prefix_loses_xrcode :
  opt_ttl_of (run_writer_prefix (repeat 0%N 40) 40 (xrc_ops 2048)) = Some [0; 0; 0; 0]%N.
Proof. vm_compute. reflexivity. Qed.

Lemma fixed_keeps_xrcode :
  opt_ttl_of (run_writer (repeat 0%N 40) 40 (xrc_ops 2048)) = Some [128; 0; 0; 0]%N.
Proof. vm_compute. reflexivity. Qed.

Lemma wconsts : header_size = 12 /\ opt_record_size = 11 /\ hint_vec_size = 16.
Proof. repeat split; reflexivity. Qed.
Lemma pointer_max_val : N.of_nat pointer_max = 16383%N.
Proof. reflexivity. Qed.

Lemma buf_write_inv b pos d b' : buf_write b pos d = Some b' ->
  pos + length d <= length b /\ b' = firstn pos b ++ d ++ skipn (pos + length d) b.
Proof.
  unfold buf_write. destruct (pos + length d <=? length b) eqn:E; [|discriminate].
  intros H; inversion H; subst. apply Nat.leb_le in E. auto.
Qed.

Lemma buf_write_some b pos d : pos + length d <= length b -> exists b', buf_write b pos d = Some b'.
Proof.
  intros H. unfold buf_write. apply Nat.leb_le in H. rewrite H. eauto.
Qed.

Lemma buf_write_length b pos d b' : buf_write b pos d = Some b' -> length b' = length b.
Proof.
  intros H. apply buf_write_inv in H as [H1 ->].
  rewrite !app_length, firstn_length, skipn_length. lia.
Qed.

Lemma buf_write_firstn b pos d b' c : buf_write b pos d = Some b' -> c <= pos ->
  firstn c b' = firstn c b.
Proof.
  intros H Hc. apply buf_write_inv in H as [H1 ->].
  rewrite firstn_app. rewrite firstn_length.
  replace (c - Nat.min pos (length b)) with 0 by lia. simpl. rewrite app_nil_r.
  rewrite firstn_firstn. f_equal. lia.
Qed.

Lemma buf_write_data b pos d b' : buf_write b pos d = Some b' -> slice b' pos (pos + length d) = d.
Proof.
  intros H. apply buf_write_inv in H as [H1 ->]. unfold slice.
  rewrite skipn_app, firstn_length.
  replace (pos - Nat.min pos (length b)) with 0 by lia.
  rewrite skipn_all2 by (rewrite firstn_length; lia). simpl.
  replace (pos + length d - pos) with (length d) by lia.
  rewrite firstn_app, Nat.sub_diag, firstn_all. simpl. apply app_nil_r.
Qed.

Definition agree (c : nat) (b b' : bytes) : Prop := firstn c b' = firstn c b.

Lemma agree_refl c b : agree c b b.
Proof. reflexivity. Qed.

Lemma agree_trans c b1 b2 b3 : agree c b1 b2 -> agree c b2 b3 -> agree c b1 b3.
Proof. unfold agree. congruence. Qed.

Lemma agree_le c c' b b' : agree c' b b' -> c <= c' -> agree c b b'.
Proof.
  unfold agree. intros H Hle.
  assert (E : forall l : bytes, firstn c l = firstn c (firstn c' l))
    by (intros l; rewrite firstn_firstn; f_equal; lia).
  rewrite (E b'), (E b), H. reflexivity.
Qed.

Lemma nth_error_firstn_lt {A} (l : list A) c i : i < c -> nth_error (firstn c l) i = nth_error l i.
Proof.
  revert l i; induction c as [|c IH]; intros l i Hi; [lia|].
  destruct l; simpl; [destruct i; reflexivity|].
  destruct i; simpl; auto. apply IH. lia.
Qed.

Lemma agree_nth c b b' i : agree c b b' -> i < c -> nth_error b' i = nth_error b i.
Proof.
  unfold agree. intros H Hi.
  rewrite <- (nth_error_firstn_lt b' c i Hi), <- (nth_error_firstn_lt b c i Hi). rewrite H. reflexivity.
Qed.

Lemma slice_firstn {A} (l : list A) c a e : e <= c -> slice (firstn c l) a e = slice l a e.
Proof.
  intros He. unfold slice.
  destruct (Nat.le_gt_cases a e) as [Hae|Hae].
  - rewrite skipn_firstn_comm. rewrite firstn_firstn. f_equal. lia.
  - replace (e - a) with 0 by lia. reflexivity.
Qed.

Lemma agree_slice c b b' a e : agree c b b' -> e <= c -> slice b' a e = slice b a e.
Proof.
  unfold agree. intros H He.
  rewrite <- (slice_firstn b' c a e He), <- (slice_firstn b c a e He). rewrite H. reflexivity.
Qed.

Lemma buf_write_agree b pos d b' c : buf_write b pos d = Some b' -> c <= pos -> agree c b b'.
Proof. intros. unfold agree. eapply buf_write_firstn; eauto. Qed.

Lemma buf_write_nth_in b pos d b' i x : buf_write b pos d = Some b' ->
  nth_error d i = Some x -> nth_error b' (pos + i) = Some x.
Proof.
  intros H Hx. apply buf_write_inv in H as [H1 ->].
  assert (Hi : i < length d) by (apply nth_error_Some; congruence).
  rewrite nth_error_app2 by (rewrite firstn_length; lia).
  rewrite firstn_length. replace (pos + i - Nat.min pos (length b)) with i by lia.
  rewrite nth_error_app1 by lia. exact Hx.
Qed.

Lemma try_push_ok data w u w' : try_push data w = Ok (u, w') ->
  exists b', buf_write (w_buf w) (w_cursor w) data = Some b'
             /\ w' = set_cursor (set_buf w b') (w_cursor w + length data)
             /\ w_cursor w + length data <= w_avail w.
Proof.
  unfold try_push, w_write.
  destruct (w_avail w <? w_cursor w) eqn:E1; [discriminate|].
  destruct (length data <=? w_avail w - w_cursor w) eqn:E2; [|discriminate].
  destruct (buf_write (w_buf w) (w_cursor w) data) as [b'|] eqn:E3; [|discriminate].
  intros H; inversion H; subst. exists b'. apply Nat.ltb_ge in E1. apply Nat.leb_le in E2.
  repeat split; auto. lia.
Qed.

Lemma try_push_err data w e w' : try_push data w = Err (e, w') -> e = Truncation /\ w' = w.
Proof.
  unfold try_push, w_write.
  destruct (w_avail w <? w_cursor w); [discriminate|].
  destruct (length data <=? w_avail w - w_cursor w).
  - destruct (buf_write (w_buf w) (w_cursor w) data); discriminate.
  - intros H; inversion H; auto.
Qed.

Lemma try_push_no_panic data w : w_cursor w <= w_avail w -> w_avail w <= length (w_buf w) ->
  try_push data w <> Panic.
Proof.
  intros H1 H2. unfold try_push, w_write.
  destruct (w_avail w <? w_cursor w) eqn:E1; [apply Nat.ltb_lt in E1; lia|].
  destruct (length data <=? w_avail w - w_cursor w) eqn:E2; [|discriminate].
  apply Nat.leb_le in E2.
  destruct (buf_write_some (w_buf w) (w_cursor w) data) as [b' ->]; [lia|discriminate].
Qed.

Lemma try_push_fits data w : w_cursor w + length data <= w_avail w -> w_avail w <= length (w_buf w) ->
  exists w', try_push data w = Ok (tt, w').
Proof.
  intros H1 H2. unfold try_push, w_write.
  destruct (w_avail w <? w_cursor w) eqn:E1; [apply Nat.ltb_lt in E1; lia|].
  destruct (length data <=? w_avail w - w_cursor w) eqn:E2; [|apply Nat.leb_gt in E2; lia].
  destruct (buf_write_some (w_buf w) (w_cursor w) data) as [b' ->]; [lia|]. eauto.
Qed.

Definition ptr_target (hi lo : N) : nat := N.to_nat (N.land hi 63 * 256 + lo).
Lemma land63 h : (h < 64)%N -> N.land (192 + h) 63 = h.
Proof.
  intros H. change 63%N with (N.ones 6). rewrite N.land_ones. change (2 ^ 6)%N with 64%N.
  symmetry. apply (N.mod_unique _ _ 3%N); lia.
Qed.

Definition real_at (b : bytes) (i : nat) : Prop :=
  exists x, nth_error b i = Some x /\ is_pointer_octet x = false.

(* [name_at b c i ls]: reading at offset i of b, touching only offsets below c, yields the
   labels ls; every pointer leads strictly backwards, to a label (not to another pointer). *)
Inductive name_at (b : bytes) (c : nat) : nat -> list bytes -> Prop :=
| na_root : forall i, i < c -> nth_error b i = Some 0%N -> name_at b c i []
| na_label : forall i len rest,
    nth_error b i = Some len -> (0 < len)%N -> (len <= 63)%N ->
    i + 1 + N.to_nat len <= c ->
    name_at b c (i + 1 + N.to_nat len) rest ->
    name_at b c i (slice b (i + 1) (i + 1 + N.to_nat len) :: rest)
(* the target is a label start (real_at): the writer only points at label starts, and the scan
   (move_to_next_real_label) relies on it *)
| na_ptr : forall i hi lo rest,
    nth_error b i = Some hi -> is_pointer_octet hi = true ->
    nth_error b (i + 1) = Some lo -> i + 1 < c ->
    ptr_target hi lo < i -> real_at b (ptr_target hi lo) ->
    name_at b c (ptr_target hi lo) rest ->
    name_at b c i rest.

Lemma small_not_pointer len : (len <= 63)%N -> is_pointer_octet len = false.
Proof.
  intros H. rewrite is_pointer_octet_spec by lia. apply N.leb_gt. lia.
Qed.

Lemma name_at_lt b c i ls : name_at b c i ls -> i < c /\ i < length b.
Proof.
  intros H. destruct H as [i Hi E|i len rest E _ _ Hc _|i hi lo rest E _ _ Hc _ _ _];
    (split; [lia|eapply nth_error_Some_lt; eauto]).
Qed.

Lemma name_at_stable b c i ls : name_at b c i ls ->
  forall b' c', agree c b b' -> c <= c' -> name_at b' c' i ls.
Proof.
  induction 1 as [i Hi E|i len rest E H0 H63 Hc Hn IH|i hi lo rest E Hp E2 Hc Ht Hr Hn IH];
    intros b' c' Ha Hle.
  - apply na_root; [lia|]. rewrite (agree_nth c b b' i Ha Hi). exact E.
  - rewrite <- (agree_slice c b b' (i + 1) (i + 1 + N.to_nat len) Ha Hc).
    apply na_label; auto; [|lia].
    rewrite (agree_nth c b b' i Ha); [exact E|lia].
  - destruct Hr as [x [Hx1 Hx2]].
    eapply na_ptr; eauto; try lia.
    + rewrite (agree_nth c b b' i Ha); [exact E|lia].
    + rewrite (agree_nth c b b' (i + 1) Ha); [exact E2|lia].
    + exists x. split; auto. rewrite (agree_nth c b b' _ Ha); [exact Hx1|lia].
Qed.

Lemma real_at_stable b c i b' : real_at b i -> agree c b b' -> i < c -> real_at b' i.
Proof.
  intros [x [H1 H2]] Ha Hi. exists x. split; auto. rewrite (agree_nth c b b' i Ha Hi). exact H1.
Qed.

Lemma next_real_ok b c : forall i ls, name_at b c i ls -> forall fuel, i < fuel ->
  exists p, next_real fuel b i = Ok p /\ name_at b c p ls /\ real_at b p /\ p <= i.
Proof.
  induction 1 as [i Hi E|i len rest E H0 H63 Hc Hn IH|i hi lo rest E Hp E2 Hc Ht Hr Hn IH];
    intros fuel Hf.
  - destruct fuel; [lia|]. simpl. rewrite E. rewrite is_pointer_octet_0.
    exists i. split; [reflexivity|]. split; [apply na_root; auto|].
    split; [|lia]. exists 0%N. split; [exact E|apply is_pointer_octet_0].
  - destruct fuel; [lia|]. simpl. rewrite E. rewrite (small_not_pointer len H63).
    exists i. split; [reflexivity|]. split; [apply na_label; auto|].
    split; [|lia]. exists len. split; [exact E|apply small_not_pointer; exact H63].
  - destruct fuel; [lia|]. simpl. rewrite E, Hp, E2.
    fold (ptr_target hi lo).
    destruct (ptr_target hi lo <? i) eqn:Elt; [|apply Nat.ltb_ge in Elt; lia].
    destruct (IH fuel ltac:(lia)) as [p [P1 [P2 [P3 P4]]]].
    exists p. split; [exact P1|]. split; [exact P2|]. split; [exact P3|lia].
Qed.

Lemma move_ok b c i ls : name_at b c i ls ->
  exists p, move_to_next_real_label b i = Ok p /\ name_at b c p ls /\ real_at b p /\ p <= i.
Proof. intros H. unfold move_to_next_real_label. eapply next_real_ok; eauto. Qed.

Lemma name_at_cons_real b c i l rest : name_at b c i (l :: rest) -> real_at b i ->
  exists len, nth_error b i = Some len /\ (0 < len)%N /\ (len <= 63)%N
              /\ i + 1 + N.to_nat len <= c
              /\ l = slice b (i + 1) (i + 1 + N.to_nat len)
              /\ name_at b c (i + 1 + N.to_nat len) rest.
Proof.
  intros H [x [Hx Hnp]]. inversion H; subst.
  - exists len. repeat split; auto.
  - rewrite Hx in H0. inversion H0; subst. congruence.
Qed.
