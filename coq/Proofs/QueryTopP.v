(* C05 closing statements over whole add histories, and corollaries read off the specification. *)
From QV Require Import Base.ListX Gen.ZoneConsts Gen.QueryConsts Model.ZoneTree Spec.ZoneLookupS
  Proofs.ZoneBaseP Proofs.ZoneInvP Proofs.ZoneTopP Model.Query Spec.ResolveS Spec.ResolveRepr
  Proofs.QueryNameP Proofs.QueryWfP Proofs.QueryP.
Local Open Scope nat_scope.

Lemma accepted_In apex cls recs r : In r (accepted apex cls recs) -> In r recs.
Proof. intros H. apply (ZoneInvP.accepted_In apex cls recs r H). Qed.

Definition records_wf (recs : list record) : Prop := Forall (fun r => wf_bytes (r_rdata r)) recs.

Section Final.
Variable req : N -> N -> bytes -> bytes -> bool.
Hypothesis req_trans : forall cls ty a b c,
  req cls ty a b = true -> req cls ty b c = true -> req cls ty a c = true.

Theorem build_answer_refines apex cls wide recs z qname qtype tcp :
  zone_build req (zone_new apex cls wide) recs = Some z ->
  records_wf recs -> in_zone apex qname = true ->
  exists r, answer_rec z qname qtype tcp = Some r /\
            norm_rec r = resolve req apex cls (accepted apex cls recs) qname qtype.
Proof.
  intros Hb _ Z. apply answer_refines; auto. eapply build_inv; eauto.
Qed.

End Final.

Section SpecFacts.
Variable req : N -> N -> bytes -> bytes -> bool.
Variable apex : name.
Variable cls : N.
Variable R : list record.

Definition is_cname (r : srr) : bool := (s_type r =? 5)%N.
Definition n_cnames (l : list srr) : nat := length (filter is_cname l).

Lemma n_cnames_app a b : n_cnames (a ++ b) = n_cnames a + n_cnames b.
Proof. unfold n_cnames. rewrite filter_app, app_length. reflexivity. Qed.

Lemma n_cnames_rrs owner ty s : (ty =? 5)%N = false -> n_cnames (rrs cls owner ty s) = 0.
Proof.
  intros H. unfold n_cnames, rrs. induction (snd s) as [|x l IH]; simpl; auto.
  unfold is_cname at 1. cbn [s_type]. rewrite H. exact IH.
Qed.

Lemma positive_cnames an owner ty s : (ty =? 5)%N = false ->
  n_cnames (s_an (positive req apex cls R an owner ty s)) <= n_cnames an.
Proof.
  intros H. unfold positive. destruct (additional req apex cls R ty s); cbn [s_an servfail]; [|cbn; lia].
  rewrite n_cnames_app, n_cnames_rrs by exact H. lia.
Qed.

Lemma referral_cnames aa an c ns : n_cnames (s_an (referral req apex cls R aa an c ns)) <= n_cnames an.
Proof. unfold referral. destruct (all_some _); cbn [s_an]; [apply le_n|cbn; lia]. Qed.

Lemma negative_cnames rc an : n_cnames (s_an (negative req apex cls R rc an)) <= n_cnames an.
Proof. unfold negative. destruct (negative_soa req apex cls R); cbn [s_an]; [apply le_n|cbn; lia]. Qed.

Lemma chase_bound qt : (qt =? 5)%N = false -> forall links visited owner cn an,
  n_cnames (s_an (chase req apex cls R links visited owner cn an qt)) <= n_cnames an + links.
Proof.
  intros Hq. induction links as [|links IH]; intros visited owner cn an; cbn [chase]; [cbn; lia|].
  destruct (snd cn) as [|rd rest]; [cbn; lia|].
  destruct (name_of_wire rd) as [target|]; [|cbn; lia].
  destruct (existsb (name_eqb (lc target)) visited); [cbn; lia|].
  set (an1 := an ++ [mk_srr (lc owner) 5 cls (fst cn) rd]).
  assert (E : n_cnames an1 = n_cnames an + 1) by apply n_cnames_app.
  destruct (spec_lookup req apex cls R target qt false false) as [[s sos|cn' sos|c ns|sos| |]|].
  - pose proof (positive_cnames an1 target qt s Hq). lia.
  - specialize (IH (visited ++ [lc target]) target cn' an1). lia.
  - pose proof (referral_cnames true an1 c ns). lia.
  - pose proof (negative_cnames 0 an1). lia.
  - pose proof (negative_cnames 3 an1). lia.
  - cbn [s_an]. lia.
  - cbn. lia.
Qed.

Lemma resolve_chain_bound qn qt : (qt =? 5)%N = false -> (qt =? 255)%N = false ->
  n_cnames (s_an (resolve req apex cls R qn qt)) <= 8.
Proof.
  intros H5 H255. unfold resolve. rewrite H255. assert (H0 : n_cnames [] = 0) by reflexivity.
  destruct (spec_lookup req apex cls R qn qt false false) as [[s sos|cn sos|c ns|sos| |]|]; try (cbn; lia).
  - pose proof (positive_cnames [] qn qt s H5). lia.
  - pose proof (chase_bound qt H5 8 [lc qn] qn cn []). lia.
  - pose proof (referral_cnames false [] c ns). lia.
  - pose proof (negative_cnames 0 []). lia.
  - pose proof (negative_cnames 3 []). lia.
Qed.

Lemma chase_loop links visited owner cn an qt rd rest target :
  snd cn = rd :: rest -> name_of_wire rd = Some target -> In (lc target) visited ->
  chase req apex cls R links visited owner cn an qt = servfail.
Proof.
  intros Hcn Hn Hin. destruct links; [reflexivity|]. cbn [chase]. rewrite Hcn, Hn.
  assert (E : existsb (name_eqb (lc target)) visited = true).
  { apply existsb_exists. exists (lc target). split; auto. apply name_eqb_refl. }
  rewrite E. reflexivity.
Qed.

Lemma negative_soa_ttl soa : negative_soa req apex cls R = Some soa ->
  exists ttl rd rest sos m,
    spec_lookup req apex cls R apex 6 false false = Some (LFound (ttl, rd :: rest) sos) /\
    soa_minimum rd = Some m /\
    s_ttl soa = N.min ttl (ttl_value m) /\ s_rdata soa = rd /\ s_type soa = 6%N /\ s_owner soa = lc apex.
Proof.
  unfold negative_soa.
  destruct (spec_lookup req apex cls R apex 6 false false) as [[[ttl [|rd rest]] sos|? ?|? ?|?| |]|]; try discriminate.
  destruct (soa_minimum rd) as [m|] eqn:Em; [|discriminate]. intros H. inversion H; subst. cbn.
  exists ttl, rd, rest, sos, m. repeat split; auto.
Qed.

(* mandatory glue: in a referral every address the zone holds for a name server inside the
   delegated zone is in the additional section *)
Lemma referral_glue aa an c ns targets t x :
  all_some (map (fun rd => rdata_name rd 0) (snd ns)) = Some targets ->
  In t targets -> is_suffixb (lc c) (lc t) = true ->
  In x (addrs_of req apex cls R t true) ->
  In x (s_ar (referral req apex cls R aa an c ns)).
Proof.
  intros Ht Hin Hs Hx. unfold referral. rewrite Ht. cbn [s_ar].
  apply in_flat_map. exists t. split; [|exact Hx].
  apply in_or_app. left. apply filter_In. auto.
Qed.

End SpecFacts.
