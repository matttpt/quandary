(* C26 (token-bucket refinement), also used by C27/C28.  The proofs about process_response
   (Model/Rrl.v) go through [cell_step] of Model/RrlConc.v, which is what process_response does to
   the one cell it touches (process_response_is_cell_step): hence the import of the concurrent model. *)
From QV Require Import Base.Res Base.Octets Model.RrlConc Spec.RrlBucketS.
Local Open Scope N_scope.

Definition limit_of (p : params) (cat : category) : N := rate_of p cat * p_window p.

Definition wf_params (p : params) : Prop :=
  (forall cat, 1 <= rate_of p cat /\ limit_of p cat <= u32_max) /\ 1 <= p_window p /\ 1 <= p_size p.

(* over all i, also i >= t_len: t_get is a total function and cells beyond the length are never read *)
Definition wf_table (p : params) (t : table) : Prop :=
  1 <= t_len t /\ forall i, e_count (t_get t i) <= limit_of p (k_category (e_key (t_get t i))).

Lemma checked_mul32_some a b : is_none (checked_mul32 a b) = false -> a * b <= u32_max.
Proof.
  unfold checked_mul32. destruct (a * b <=? u32_max) eqn:E; simpl; intros H; [|discriminate].
  apply N.leb_le. exact E.
Qed.

Lemma params_new_wf ne nx er w p : params_new ne nx er w = Ok p -> wf_params p.
Proof.
  unfold params_new.
  destruct (ne =? 0) eqn:E1; [discriminate|].
  destruct (nx =? 0) eqn:E2; [discriminate|].
  destruct (er =? 0) eqn:E3; [discriminate|].
  destruct (w =? 0) eqn:E4; [discriminate|].
  destruct (is_none (checked_mul32 ne w) || is_none (checked_mul32 nx w) || is_none (checked_mul32 er w)) eqn:E5;
    [discriminate|].
  intros H. inversion H; subst p; clear H.
  apply orb_false_iff in E5. destruct E5 as [E5 E7]. apply orb_false_iff in E5. destruct E5 as [E5 E6].
  apply checked_mul32_some in E5, E6, E7.
  apply N.eqb_neq in E1, E2, E3, E4.
  unfold wf_params, limit_of. simpl. split; [|split].
  - intros cat. destruct cat; simpl; split; try assumption; lia.
  - lia.
  - change RRL_DEFAULT_SIZE with 65537. lia.
Qed.

Lemma wf_params_set_slip p s : wf_params p -> wf_params (set_slip p s).
Proof. intros H. exact H. Qed.

Lemma wf_params_with_ipv4 p m : wf_params p -> wf_params (with_ipv4_netmask p m).
Proof. intros H. exact H. Qed.

Lemma wf_params_with_ipv6 p m : wf_params p -> wf_params (with_ipv6_netmask p m).
Proof. intros H. exact H. Qed.

Lemma set_ipv4_prefix_len_wf p l p' : wf_params p -> set_ipv4_prefix_len p l = Ok p' -> wf_params p'.
Proof.
  unfold set_ipv4_prefix_len. intros W. destruct (RRL_IPV4_MAX_PREFIX <? l); [discriminate|].
  destruct (l =? 0), (max_shl 32 RRL_IPV4_SHIFT_BASE l); intros [= <-]; exact (wf_params_with_ipv4 p _ W).
Qed.

Lemma set_ipv6_prefix_len_wf p l p' : wf_params p -> set_ipv6_prefix_len p l = Ok p' -> wf_params p'.
Proof.
  unfold set_ipv6_prefix_len. intros W. destruct (RRL_IPV6_MAX_PREFIX <? l); [discriminate|].
  destruct (l =? 0), (max_shl 64 RRL_IPV6_SHIFT_BASE l); intros [= <-]; exact (wf_params_with_ipv6 p _ W).
Qed.

Lemma set_size_wf p s p' : wf_params p -> set_size p s = Ok p' -> wf_params p'.
Proof.
  unfold set_size. intros (W1 & W2 & W3).
  destruct (s =? 0) eqn:E; [discriminate|]. intros H; inversion H; subst p'.
  apply N.eqb_neq in E. split; [exact W1|split; [exact W2|]]. simpl. lia.
Qed.

Lemma params_wf_all ne nx er w p : params_new ne nx er w = Ok p ->
  wf_params p /\
  (forall s, wf_params (set_slip p s)) /\
  (forall l p', set_ipv4_prefix_len p l = Ok p' -> wf_params p') /\
  (forall l p', set_ipv6_prefix_len p l = Ok p' -> wf_params p') /\
  (forall s p', set_size p s = Ok p' -> wf_params p').
Proof.
  intros H. pose proof (params_new_wf _ _ _ _ _ H) as W.
  split; [exact W|]. split; [intros s; exact (wf_params_set_slip p s W)|].
  split; [intros l p'; exact (set_ipv4_prefix_len_wf p l p' W)|].
  split; [intros l p'; exact (set_ipv6_prefix_len_wf p l p' W)|].
  intros s p'; exact (set_size_wf p s p' W).
Qed.

Lemma rrl_new_wf p now : wf_params p -> wf_table p (rrl_new p now).
Proof.
  intros (W1 & W2 & W3). split; simpl; [exact W3|]. intros _. apply N.le_0_l.
Qed.

Lemma rate_and_limit_wf p cat : wf_params p ->
  rate_and_limit p cat = Some (rate_of p cat, limit_of p cat).
Proof.
  intros (W1 & _). destruct (W1 cat) as [_ H2]. unfold rate_and_limit, limit_of in *.
  apply N.leb_le in H2. rewrite H2. reflexivity.
Qed.

Lemma category_eqb_eq a b : category_eqb a b = true <-> a = b.
Proof. destruct a, b; simpl; split; intros H; try reflexivity; discriminate. Qed.

Lemma key_eqb_eq a b : key_eqb a b = true <-> a = b.
Proof.
  destruct a as [d1 v1 h1 c1], b as [d2 v2 h2 c2]. unfold key_eqb. simpl. split.
  - intros H. repeat (apply andb_true_iff in H; destruct H as [H ?]).
    apply N.eqb_eq in H. apply Bool.eqb_prop in H2. apply N.eqb_eq in H1.
    apply category_eqb_eq in H0. subst. reflexivity.
  - intros H. inversion H; subst. rewrite !N.eqb_refl, Bool.eqb_reflx.
    simpl. apply category_eqb_eq. reflexivity.
Qed.

Lemma key_eqb_refl k : key_eqb k k = true.
Proof. apply key_eqb_eq. reflexivity. Qed.

Lemma key_eqb_neq a b : key_eqb a b = false <-> a <> b.
Proof. rewrite <- Bool.not_true_iff_false, key_eqb_eq. reflexivity. Qed.

(* saturating at u32::MAX loses nothing: the count the amount is taken off is itself <= u32::MAX *)
Lemma refill_fixed_exact rate secs count : 1 <= rate -> count <= u32_max ->
  exists amt, refill_amount Fixed rate secs = Some amt /\ count - amt = count - rate * secs.
Proof.
  intros Hr Hc. unfold refill_amount.
  destruct (secs <=? u32_max) eqn:E1.
  - destruct (rate * secs <=? u32_max) eqn:E2.
    + eexists; split; [reflexivity|reflexivity].
    + eexists; split; [reflexivity|]. apply N.leb_gt in E2. lia.
  - apply N.leb_gt in E1.
    assert (u32_max <= rate * u32_max) by nia.
    assert (u32_max <= rate * secs) by nia.
    destruct (rate * u32_max <=? u32_max) eqn:E2.
    + apply N.leb_le in E2. eexists; split; [reflexivity|]. lia.
    + eexists; split; [reflexivity|]. lia.
Qed.

Definition abs_entry (p : params) (e : entry) : bucket :=
  mkBucket (limit_of p (k_category (e_key e)) - e_count e) (e_last e).

Definition action_of_verdict (v : verdict) : action :=
  match v with VSend => Send | VSlip => Slip | VDrop => Drop end.

Definition step_verdict (slip rnd : N) (sent : bool) : verdict :=
  if sent then VSend else limited_verdict slip rnd.

Lemma should_slip_verdict p rnd :
  (if should_slip p rnd then Slip else Drop) = action_of_verdict (limited_verdict (p_slip p) rnd).
Proof.
  unfold should_slip, limited_verdict.
  destruct (p_slip p =? 0); [reflexivity|]. destruct (p_slip p =? 1); [reflexivity|].
  destruct (rnd =? 0); reflexivity.
Qed.

(* [step_verdict] is what bucket_run writes out per request *)
Lemma bucket_run_cons rate window slip ob now rnd h :
  bucket_run rate window slip ob ((now, rnd) :: h) =
  let r := bucket_step rate window ob now in
  step_verdict slip rnd (snd r) :: bucket_run rate window slip (Some (fst r)) h.
Proof. cbn [bucket_run]. destruct (bucket_step rate window ob now). reflexivity. Qed.

(* closed form under wf_params, e1 being the entry after the refill; no overflow check fires *)
Lemma entry_step_fixed p e cat now rnd : wf_params p -> e_count e <= limit_of p cat ->
  let secs := (now - e_last e) / nanos_per_sec in
  exists e1,
    e_key e1 = e_key e /\ e_count e1 = e_count e - rate_of p cat * secs /\
    e_last e1 = e_last e + secs * nanos_per_sec /\ (secs = 0 -> e1 = e) /\
    entry_step_gen Fixed p e cat now rnd =
    if limit_of p cat <=? e_count e1 then Ok (e1, if should_slip p rnd then Slip else Drop)
    else Ok (mkEntry (e_key e1) (e_count e1 + 1) (e_last e1), Send).
Proof.
  intros W Hc secs. destruct (proj1 W cat) as [Hr Hl].
  set (lim := limit_of p cat) in *. set (rate := rate_of p cat) in *.
  unfold entry_step_gen. rewrite (rate_and_limit_wf p cat W). fold rate lim.
  set (r1 := if nanos_per_sec <=? now - e_last e then _ else _).
  assert (H1 : exists e1, r1 = Ok e1 /\ e_key e1 = e_key e /\ e_count e1 = e_count e - rate * secs /\
                e_last e1 = e_last e + secs * nanos_per_sec /\ (secs = 0 -> e1 = e)).
  { subst r1. destruct (nanos_per_sec <=? now - e_last e) eqn:E.
    - apply N.leb_le in E. fold secs.
      destruct (refill_fixed_exact rate secs (e_count e) Hr ltac:(lia)) as (amt & -> & Hamt).
      pose proof (N.div_mod' (now - e_last e) nanos_per_sec) as Hdm. fold secs in Hdm.
      pose proof (N.mod_lt (now - e_last e) nanos_per_sec ltac:(discriminate)) as Hmod.
      unfold instant_checked_sub.
      replace (_ mod _ <=? now) with true by (symmetry; apply N.leb_le; lia).
      eexists. repeat split; [exact Hamt|cbn [e_last]; lia|intros Z; rewrite Z in Hdm; lia].
    - apply N.leb_gt in E. exists e. subst secs. rewrite N.div_small by exact E.
      repeat split; lia. }
  destruct H1 as (e1 & -> & K1 & C1 & L1 & Z1). cbn [bind]. exists e1.
  repeat (split; [assumption|]).
  destruct (lim <=? e_count e1) eqn:EL; [reflexivity|]. apply N.leb_gt in EL.
  replace (e_count e1 + 1 <=? u32_max) with true by (symmetry; apply N.leb_le; lia). reflexivity.
Qed.

(* What process_response does to the cell of the response's bucket is one step of the token
   bucket the cell holds for the stream (none, if it holds another key). *)
Lemma cell_step_refines p k e now rnd :
  wf_params p -> e_count e <= limit_of p (k_category (e_key e)) ->
  let r := bucket_step (rate_of p (k_category k)) (p_window p)
             (if key_eqb (e_key e) k then Some (abs_entry p e) else None) now in
  exists e',
    cell_step p k e now rnd = Ok (e', action_of_verdict (step_verdict (p_slip p) rnd (snd r))) /\
    e_key e' = k /\ e_count e' <= limit_of p (k_category k) /\ abs_entry p e' = fst r.
Proof.
  intros W Hc. unfold cell_step, bucket_step. destruct (key_eqb (e_key e) k) eqn:EK.
  2:{ (* another key: a new full bucket, one token taken *)
    unfold bucket_full, bucket_take. cbn [b_tokens b_since]. fold (limit_of p (k_category k)).
    assert (Hlim : 1 <= limit_of p (k_category k))
      by (unfold limit_of; destruct W as (W1 & W2 & _); destruct (W1 (k_category k)); nia).
    replace (limit_of p (k_category k) =? 0) with false by (symmetry; apply N.eqb_neq; lia).
    eexists. repeat split. exact Hlim. }
  apply key_eqb_eq in EK. subst k.
  destruct (entry_step_fixed p e _ now rnd W Hc) as (e1 & K1 & C1 & L1 & _ & ->).
  set (cat := k_category (e_key e)) in *. set (lim := limit_of p cat) in *. set (rate := rate_of p cat) in *.
  set (secs := (now - e_last e) / nanos_per_sec) in *.
  assert (A1 : abs_entry p e1 = bucket_refill rate (p_window p) (abs_entry p e) now).
  { unfold bucket_refill, abs_entry. cbn [b_tokens b_since]. change second with nanos_per_sec.
    rewrite K1, C1, L1. fold cat lim secs. f_equal. change (rate * p_window p) with lim. lia. }
  rewrite <- A1. unfold bucket_take, abs_entry. cbn [b_tokens b_since]. rewrite K1. fold cat lim.
  assert (C1' : e_count e1 <= lim) by lia. clear C1 L1 A1.
  destruct (lim <=? e_count e1) eqn:EL.
  - apply N.leb_le in EL. replace (lim - e_count e1 =? 0) with true by (symmetry; apply N.eqb_eq; lia).
    exists e1. rewrite should_slip_verdict, K1. repeat split. exact C1'.
  - apply N.leb_gt in EL. replace (lim - e_count e1 =? 0) with false by (symmetry; apply N.eqb_neq; lia).
    eexists. split; [reflexivity|]. cbn [e_key e_count e_last fst]. split; [reflexivity|]. split; [lia|].
    fold cat lim. f_equal. lia.
Qed.

Lemma t_get_set_same t i e : t_get (t_set t i e) i = e.
Proof. unfold t_set. simpl. rewrite N.eqb_refl. reflexivity. Qed.

Lemma t_get_set_other t i j e : j <> i -> t_get (t_set t i e) j = t_get t j.
Proof. intros H. unfold t_set. simpl. apply N.eqb_neq in H. rewrite H. reflexivity. Qed.

Lemma wf_table_set p t i e : wf_table p t ->
  e_count e <= limit_of p (k_category (e_key e)) -> wf_table p (t_set t i e).
Proof.
  intros [W1 W2] He. split; [exact W1|]. intros j.
  destruct (N.eq_dec j i) as [->|Hne].
  - rewrite t_get_set_same. exact He.
  - rewrite t_get_set_other by exact Hne. apply W2.
Qed.

Section WithHash.
  Variable hname : bytes -> N.
  Variable hkey : key -> N.

  (* the [idx] that process_response_gen computes inline; [slot] of Model/RrlConcT.v is the same term *)
  Definition bucket_index (t : table) (k : key) : N := (hkey k mod two64) mod t_len t.

  Definition abs_bucket (p : params) (t : table) (k : key) : option bucket :=
    let e := t_get t (bucket_index t k) in
    if key_eqb (e_key e) k then Some (abs_entry p e) else None.

  Lemma abs_bucket_set p t k e : e_key e = k ->
    abs_bucket p (t_set t (bucket_index t k) e) k = Some (abs_entry p e).
  Proof.
    intros <-. unfold abs_bucket, bucket_index. cbn [t_set t_len t_get].
    rewrite N.eqb_refl, key_eqb_refl. reflexivity.
  Qed.

  Lemma process_response_is_cell_step p t c k now rnd :
    subject_to_rrl c = true -> key_of hname p c = Some k -> t_len t <> 0 ->
    process_response hname hkey p t c now rnd =
    let idx := bucket_index t k in
    let* (e', act) := cell_step p k (t_get t idx) now rnd in
    Ok (t_set t idx e', apply_action c act).
  Proof.
    intros Hs Hk Hl. unfold process_response, process_response_gen. rewrite Hs, Hk. cbn [negb].
    apply N.eqb_neq in Hl. rewrite Hl. fold (bucket_index t k). cbn zeta. unfold cell_step.
    destruct (key_eqb (e_key (t_get t (bucket_index t k))) k); reflexivity.
  Qed.

  Lemma process_response_step p t c k now rnd :
    wf_params p -> wf_table p t -> subject_to_rrl c = true -> key_of hname p c = Some k ->
    let r := bucket_step (rate_of p (k_category k)) (p_window p) (abs_bucket p t k) now in
    exists t',
      process_response hname hkey p t c now rnd
      = Ok (t', apply_action c (action_of_verdict (step_verdict (p_slip p) rnd (snd r)))) /\
      wf_table p t' /\ t_len t' = t_len t /\ abs_bucket p t' k = Some (fst r) /\
      (forall j, j <> bucket_index t k -> t_get t' j = t_get t j).
  Proof.
    intros W WT Hs Hk r.
    rewrite (process_response_is_cell_step p t c k now rnd Hs Hk) by (destruct WT; lia). cbv zeta.
    destruct (cell_step_refines p k (t_get t (bucket_index t k)) now rnd W (proj2 WT _))
      as (e' & -> & K & C & A).
    exists (t_set t (bucket_index t k) e'). split; [reflexivity|].
    split; [apply wf_table_set; [exact WT|rewrite K; exact C]|]. split; [reflexivity|].
    split; [rewrite (abs_bucket_set p t k e' K), A; reflexivity|].
    intros j Hj. apply t_get_set_other. exact Hj.
  Qed.

  Lemma abs_bucket_other p t t' k k' b :
    t_len t' = t_len t -> abs_bucket p t' k = Some b ->
    (forall j, j <> bucket_index t k -> t_get t' j = t_get t j) -> key_eqb k k' = false ->
    abs_bucket p t' k' = if bucket_index t k =? bucket_index t k' then None else abs_bucket p t k'.
  Proof.
    intros L B O EK. unfold abs_bucket, bucket_index in *. rewrite L in *.
    destruct (N.eqb_spec ((hkey k mod two64) mod t_len t) ((hkey k' mod two64) mod t_len t)) as [<-|NE].
    - destruct (key_eqb (e_key (t_get t' _)) k) eqn:E1; [|discriminate].
      apply key_eqb_eq in E1. rewrite E1, EK. reflexivity.
    - rewrite O by (intros E; apply NE; symmetry; exact E). reflexivity.
  Qed.

  Lemma run_history_refines p c k h : wf_params p -> subject_to_rrl c = true ->
    key_of hname p c = Some k ->
    forall t, wf_table p t ->
    exists t' cs,
      run_history hname hkey p t c h = Ok (t', cs) /\
      cs = map (fun v => apply_action c (action_of_verdict v))
               (bucket_run (rate_of p (k_category k)) (p_window p) (p_slip p) (abs_bucket p t k) h) /\
      wf_table p t'.
  Proof.
    intros W Hs Hk. induction h as [|[now rnd] h IH]; intros t WT.
    - exists t, []. split; [reflexivity|]. split; [reflexivity|exact WT].
    - destruct (process_response_step p t c k now rnd W WT Hs Hk) as (t1 & H1 & WT1 & _ & Habs & _).
      destruct (IH t1 WT1) as (t2 & cs & H2 & Hcs & WT2).
      exists t2. eexists. unfold run_history in *. cbn [run_history_gen].
      unfold process_response in H1. rewrite H1. cbn [bind]. rewrite H2. cbn [bind].
      split; [reflexivity|]. split; [|exact WT2].
      rewrite bucket_run_cons. cbn [map]. rewrite Habs in Hcs. rewrite Hcs. reflexivity.
  Qed.

End WithHash.


Lemma entry_step_gen_action a p e cat now rnd e' act :
  entry_step_gen a p e cat now rnd = Ok (e', act) ->
  act = Send \/ act = (if should_slip p rnd then Slip else Drop).
Proof.
  unfold entry_step_gen. destruct (rate_and_limit p cat) as [[rate limit]|]; [|discriminate].
  set (r1 := if nanos_per_sec <=? now - e_last e then _ else _).
  destruct r1 as [e1| |]; cbn [bind]; try discriminate.
  destruct (limit <=? e_count e1).
  - intros H; inversion H; subst. right; reflexivity.
  - destruct (e_count e1 + 1 <=? u32_max); [|discriminate].
    intros H; inversion H; subst. left; reflexivity.
Qed.

Lemma process_response_gen_inv a hname hkey p t c now rnd t' c' :
  process_response_gen hname hkey a p t c now rnd = Ok (t', c') ->
  (subject_to_rrl c = false /\ t' = t /\ c' = c) \/
  (subject_to_rrl c = true /\
   (c' = apply_action c Send \/ c' = apply_action c (if should_slip p rnd then Slip else Drop))).
Proof.
  unfold process_response_gen. destruct (subject_to_rrl c); cbn [negb].
  - destruct (key_of hname p c) as [k|]; [|discriminate].
    destruct (t_len t =? 0); [discriminate|].
    destruct (key_eqb _ k).
    + destruct (entry_step_gen a p _ (k_category k) now rnd) as [[e' act]| |] eqn:E; cbn [bind]; try discriminate.
      intros H; inversion H; subst. right. split; [reflexivity|].
      destruct (entry_step_gen_action _ _ _ _ _ _ _ _ E) as [->| ->]; [left|right]; reflexivity.
    + intros H; inversion H; subst. right. split; [reflexivity|left; reflexivity].
  - intros H; inversion H; subst. left. repeat split.
Qed.

Lemma subject_send c : subject_to_rrl c = true -> c_send_response c = true.
Proof.
  unfold subject_to_rrl. intros H. apply andb_true_iff in H. destruct H as [H _].
  apply andb_true_iff in H. destruct H as [H _]. exact H.
Qed.

Definition sent_unchanged (c c' : ctx) : Prop :=
  c_rrl_action c' = Some Send /\ final_response c' = Some (c_response c).
Definition dropped (c' : ctx) : Prop :=
  c_rrl_action c' = Some Drop /\ final_response c' = None.
Definition slipped (c c' : ctx) : Prop :=
  c_rrl_action c' = Some Slip /\
  exists w, final_response c' = Some w /\
    slipped_shape (w_tc w) (w_ancount w) (w_nscount w) (w_arcount w)
                  (w_edns (c_response c)) (w_tsig (c_response c)) /\
    w_edns w = w_edns (c_response c) /\ w_tsig w = w_tsig (c_response c) /\
    w_rcode w = w_rcode (c_response c).

Lemma apply_action_outcome c : subject_to_rrl c = true ->
  sent_unchanged c (apply_action c Send) /\ slipped c (apply_action c Slip) /\ dropped (apply_action c Drop).
Proof.
  intros Hs. apply subject_send in Hs.
  unfold sent_unchanged, slipped, dropped, final_response. cbn [apply_action c_send_response c_response c_rrl_action].
  rewrite Hs. repeat split. eexists. split; [reflexivity|].
  unfold slipped_shape. cbn. repeat split. destruct (w_edns (c_response c)), (w_tsig (c_response c)); reflexivity.
Qed.

Lemma process_response_outcomes hname hkey p t c now rnd t' c' :
  subject_to_rrl c = true ->
  process_response hname hkey p t c now rnd = Ok (t', c') ->
  sent_unchanged c c' \/ (should_slip p rnd = true /\ slipped c c') \/ (should_slip p rnd = false /\ dropped c').
Proof.
  intros Hs H. destruct (apply_action_outcome c Hs) as (OS & OL & OD).
  apply process_response_gen_inv in H. destruct H as [[H _]|[_ [->| ->]]]; [congruence|left; exact OS|].
  right. destruct (should_slip p rnd); [left|right]; split; trivial.
Qed.

Lemma slip0_outcomes hname hkey p t c now rnd t' c' :
  p_slip p = 0 -> subject_to_rrl c = true ->
  process_response hname hkey p t c now rnd = Ok (t', c') ->
  sent_unchanged c c' \/ dropped c'.
Proof.
  intros H0 Hs H. destruct (process_response_outcomes _ _ _ _ _ _ _ _ _ Hs H) as [H1|[[H1 _]|[_ H1]]].
  - left; exact H1.
  - unfold should_slip in H1. rewrite H0 in H1. discriminate.
  - right; exact H1.
Qed.

Lemma slip1_outcomes hname hkey p t c now rnd t' c' :
  p_slip p = 1 -> subject_to_rrl c = true ->
  process_response hname hkey p t c now rnd = Ok (t', c') ->
  sent_unchanged c c' \/ slipped c c'.
Proof.
  intros H0 Hs H. destruct (process_response_outcomes _ _ _ _ _ _ _ _ _ Hs H) as [H1|[[_ H1]|[H1 _]]].
  - left; exact H1.
  - right; exact H1.
  - unfold should_slip in H1. rewrite H0 in H1. discriminate.
Qed.

Lemma slipped_only_shape hname hkey p t c now rnd t' c' :
  c_rrl_action c = None ->
  process_response hname hkey p t c now rnd = Ok (t', c') ->
  c_rrl_action c' = Some Slip -> slipped c c'.
Proof.
  intros Hn H Ha. pose proof H as H'. apply process_response_gen_inv in H'.
  destruct H' as [(_ & _ & ->)|[Hs _]]; [congruence|].
  destruct (process_response_outcomes _ _ _ _ _ _ _ _ _ Hs H) as [[H1 _]|[[_ H1]|[_ [H1 _]]]]; [congruence|exact H1|congruence].
Qed.

(* regression witness for the arithmetic before the fix (OldChecked, OldWrapping) *)

Definition witness_params : params :=
  mkParams 4 4 4 1 1 RRL_DEFAULT_IPV4_NETMASK RRL_DEFAULT_IPV6_NETMASK 1.
Definition witness_entry : entry := mkEntry (mkKey 0 false 0 NxDomain) 4 0.
Definition witness_gap_overflow : N := 1073741824 * nanos_per_sec.   (* 2^30 s = 34 years; 4 * secs = 2^32 *)
Definition witness_gap_truncate : N := two32 * nanos_per_sec.         (* 136 years; secs as u32 = 0 *)

Lemma witness_wf : wf_params witness_params /\
  e_count witness_entry <= limit_of witness_params (k_category (e_key witness_entry)).
Proof.
  split; [|vm_compute; discriminate].
  split; [|split; vm_compute; discriminate].
  intros cat; destruct cat; split; vm_compute; discriminate.
Qed.

Lemma old_arithmetic_refuted :
  (* the bucket refills and sends after either idle period ... *)
  snd (bucket_take (bucket_refill 4 1 (abs_entry witness_params witness_entry) witness_gap_overflow)) = true /\
  snd (bucket_take (bucket_refill 4 1 (abs_entry witness_params witness_entry) witness_gap_truncate)) = true /\
  (* ... the pre-fix code panics (overflow checks on) *)
  entry_step_gen OldChecked witness_params witness_entry NxDomain witness_gap_overflow 0 = Panic /\
  (* ... or slips the response because the product wrapped to 0 (overflow checks off) *)
  (exists e', entry_step_gen OldWrapping witness_params witness_entry NxDomain witness_gap_overflow 0 = Ok (e', Slip)) /\
  (* ... or, with 2^32 s elapsed, credits nothing because `secs as u32` is 0 (either build) *)
  (exists e', entry_step_gen OldChecked witness_params witness_entry NxDomain witness_gap_truncate 0 = Ok (e', Slip)) /\
  (* the repaired code sends in both situations *)
  (exists e', entry_step_gen Fixed witness_params witness_entry NxDomain witness_gap_overflow 0 = Ok (e', Send)) /\
  (exists e', entry_step_gen Fixed witness_params witness_entry NxDomain witness_gap_truncate 0 = Ok (e', Send)).
Proof.
  split; [vm_compute; reflexivity|]. split; [vm_compute; reflexivity|].
  split; [vm_compute; reflexivity|].
  split; [eexists; vm_compute; reflexivity|].
  split; [eexists; vm_compute; reflexivity|].
  split; eexists; vm_compute; reflexivity.
Qed.
