(* C03, the Writer side of the octet-for-octet question echo, at the BYTE level of the composition
   the server-level runner uses (Model/QueryW.v: prepare_w / respond_w / respond_plain):
   the first question written into a fresh Writer is the name's wire form, uncompressed and with its
   case preserved, followed by QTYPE and QCLASS, at offset 12; nothing that happens afterwards
   (EDNS reservation, limit negotiation, the whole of query answering through the Writer interface,
   header setters, clear_rrs, finish with its OPT/TSIG records) changes those octets.
   Built on the three stages of Proofs/QueryWP.v. *)
From QV Require Import Base.ListX Gen.Consts Model.MsgWriter Proofs.MsgWriterP Proofs.MsgWriterNameP
  Proofs.MsgWriterInvP Model.ZoneTree Model.Query Model.QueryW Proofs.QueryWP.
Local Open Scope nat_scope.

Definition QK (Q : bytes) (w : writer) : Prop :=
  Inv_n w /\ w_rr_start w = 12 + length Q /\ slice (w_buf w) 12 (12 + length Q) = Q.

Lemma QK_ext Q c0 w w' : QK Q w -> ext c0 w w' -> w_rr_start w <= c0 -> Inv_n w' -> QK Q w'.
Proof.
  intros (Hi & Hr & Hs) X Hc Hi'. split; [exact Hi'|]. split; [rewrite (x_rs _ _ _ X); exact Hr|].
  rewrite (agree_slice c0 (w_buf w) (w_buf w')); [exact Hs|exact (x_agree _ _ _ X)|lia].
Qed.

(* QK Q is [WK (question_at Q)] *)
Definition question_at (Q : bytes) (w : writer) : Prop :=
  w_rr_start w = 12 + length Q /\ slice (w_buf w) 12 (12 + length Q) = Q.

Lemma QK_keeps Q w w' : Inv_n w -> question_at Q w -> keeps w w' -> question_at Q w'.
Proof.
  intros _ (Hr & Hs) X. split; [rewrite (k_rs _ _ X); exact Hr|].
  rewrite (agree_slice _ _ _ _ _ (k_buf _ _ X)); [exact Hs|lia].
Qed.

Lemma QK_modify Q w i f w' : (i < 12)%N -> Inv_n w -> question_at Q w -> w_modify w i f = Ok w' -> question_at Q w'.
Proof.
  intros Hlt _ (Hr & Hs) E. destruct (w_modify_at _ _ _ _ E) as (x & b' & _ & -> & _ & _ & Hoth).
  split; [exact Hr|]. cbn [w_buf set_buf]. etransitivity; [|exact Hs]. apply slice_ext_nth. intros j Hj _. apply Hoth. lia.
Qed.

Lemma QK_set_rcode Q rc w w' : Inv_n w -> question_at Q w -> set_rcode rc w = Ok w' -> question_at Q w'.
Proof.
  intros Hi H E. apply set_rcode_inv in E as (w1 & E1 & ->). unfold question_at. rewrite clear_upper_buf.
  replace (w_rr_start (clear_upper w1)) with (w_rr_start w1) by (unfold clear_upper; destruct (w_edns w1); reflexivity).
  exact (QK_modify Q w RCODE_BYTE _ w1 eq_refl Hi H E1).
Qed.

Theorem handle_QK Q negttl z qname qtype tcp w w' : QK Q w ->
  handle_non_axfr_query w_iface negttl z qname qtype tcp w = Some w' -> QK Q w'.
Proof.
  apply (handle_keeps (question_at Q) (QK_keeps Q)).
  - intros b w0 w0'. exact (QK_modify Q _ AA_BYTE _ _ eq_refl).
  - intros rc w0 w0' _. exact (QK_set_rcode Q rc w0 w0').
  - intros b w0 w0'. exact (QK_modify Q _ TC_BYTE _ _ eq_refl).
Qed.

Lemma finish_QK Q w len b : QK Q w -> finish w = Ok (len, b) ->
  slice b 12 (12 + length Q) = Q /\ 12 + length Q <= len.
Proof.
  intros (Hi & Hr & Hs) E. destruct (finish_below _ _ _ Hi E) as (Hl & Hn). pose proof (i_rs _ Hi). split; [|lia].
  etransitivity; [|exact Hs]. apply slice_ext_nth. intros j Hj Hj'. apply Hn; [lia|right; exact Hj].
Qed.

Theorem prepare_QK buf tcp id rd qname qtype qclass edns limit w :
  prepare_w buf tcp id rd qname qtype qclass edns limit = Some w ->
  QK (nm_wire qname ++ be16 qtype ++ be16 qclass) w.
Proof.
  intros E. destruct (prepare_w_shape _ _ _ _ _ _ _ _ _ _ E) as (Hi & _ & _ & _ & Hr & Hs & _). exact (conj Hi (conj Hr Hs)).
Qed.

Theorem respond_w_question negttl buf tcp id rd qname qtype qclass edns limit z len b :
  respond_w negttl buf tcp id rd qname qtype qclass edns limit z = Some (len, b) ->
  let Q := nm_wire qname ++ be16 qtype ++ be16 qclass in
  slice b 12 (12 + length Q) = Q /\ 12 + length Q <= len.
Proof.
  intros R. destruct (respond_w_inv _ _ _ _ _ _ _ _ _ _ _ _ R) as (w & w' & Ep & Eh & Ef).
  exact (finish_QK _ _ _ _ (handle_QK _ _ _ _ _ _ _ _ (prepare_QK _ _ _ _ _ _ _ _ _ _ Ep) Eh) Ef).
Qed.

Theorem respond_plain_question buf tcp id rd qname qtype qclass edns limit rcode len b :
  respond_plain buf tcp id rd qname qtype qclass edns limit rcode = Some (len, b) ->
  let Q := nm_wire qname ++ be16 qtype ++ be16 qclass in
  slice b 12 (12 + length Q) = Q /\ 12 + length Q <= len.
Proof.
  intros R. destruct (respond_plain_inv _ _ _ _ _ _ _ _ _ _ _ R) as (w & w' & Ep & Er & Ef).
  destruct (prepare_QK _ _ _ _ _ _ _ _ _ _ Ep) as (Hi & Hq).
  apply (finish_QK _ w'); [|exact Ef]. split; [|exact (QK_set_rcode _ _ _ _ Hi Hq Er)].
  apply set_rcode_inv in Er as (w1 & E1 & ->). apply inv_clear_upper. exact (inv_w_modify _ _ _ _ Hi E1).
Qed.
