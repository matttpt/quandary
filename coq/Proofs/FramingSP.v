(* C30 — facts about the framing specification (Spec/FramingS.v): the executable deframer
   is the relation [framed]; service on a list of requests. *)
From QV Require Import Base.Res Base.Octets Base.ListX Spec.FramingS.

Lemma deframe_f_indep : forall f1 f2 s, length s <= f1 -> length s <= f2 ->
  deframe_f f1 s = deframe_f f2 s.
Proof.
  induction f1 as [|f1 IH]; intros f2 s H1 H2.
  - destruct s; [|simpl in H1; lia]. destruct f2; reflexivity.
  - destruct f2 as [|f2].
    + destruct s; [reflexivity|simpl in H2; lia].
    + cbn [deframe_f]. destruct s as [|h [|l rest]]; try reflexivity.
      destruct (N.to_nat (h * 256 + l) <=? length rest) eqn:E; [|reflexivity].
      f_equal. simpl in H1, H2.
      apply IH; rewrite skipn_length; lia.
Qed.

Lemma deframe_short s : length s < 2 -> deframe s = [].
Proof.
  unfold deframe. destruct s as [|h [|l rest]]; simpl; intros H; try reflexivity. lia.
Qed.

Lemma deframe_f_S f h l rest :
  deframe_f (S f) (h :: l :: rest) =
  if N.to_nat (h * 256 + l) <=? length rest
  then firstn (N.to_nat (h * 256 + l)) rest :: deframe_f f (skipn (N.to_nat (h * 256 + l)) rest)
  else [].
Proof. reflexivity. Qed.

Lemma deframe_cons h l rest :
  deframe (h :: l :: rest) =
  if N.to_nat (h * 256 + l) <=? length rest
  then firstn (N.to_nat (h * 256 + l)) rest :: deframe (skipn (N.to_nat (h * 256 + l)) rest)
  else [].
Proof.
  unfold deframe. change (length (h :: l :: rest)) with (S (S (length rest))).
  rewrite deframe_f_S.
  destruct (N.to_nat (h * 256 + l) <=? length rest) eqn:E; [|reflexivity].
  f_equal. apply deframe_f_indep; rewrite skipn_length; lia.
Qed.

Lemma frame_header_val (m : bytes) :
  (N.of_nat (length m / 256) * 256 + N.of_nat (length m mod 256))%N = N.of_nat (length m).
Proof.
  pose proof (Nat.div_mod (length m) 256). lia.
Qed.

Lemma deframe_msg h l m s : length m = N.to_nat (h * 256 + l) ->
  deframe (h :: l :: m ++ s) = m :: deframe s.
Proof.
  intros H. rewrite deframe_cons, <- H, app_length.
  replace (length m <=? length m + length s) with true by (symmetry; apply Nat.leb_le; lia).
  rewrite firstn_app, skipn_app, Nat.sub_diag, firstn_all, skipn_all. cbn. rewrite app_nil_r. reflexivity.
Qed.

Lemma deframe_frame m s : deframe (frame m ++ s) = m :: deframe s.
Proof. apply deframe_msg. rewrite frame_header_val, Nat2N.id. reflexivity. Qed.

Lemma deframe_incomplete t : incomplete t -> deframe t = [].
Proof.
  intros [H|(h & l & rest & -> & H)]; [apply deframe_short; exact H|].
  rewrite deframe_cons.
  assert (E : (N.to_nat (h * 256 + l) <=? length rest) = false) by (apply Nat.leb_gt; lia).
  rewrite E. reflexivity.
Qed.

Lemma framed_deframe ms t s : framed ms t s -> deframe s = ms.
Proof.
  induction 1 as [t Ht|m ms t s Hm _ IH].
  - apply deframe_incomplete; exact Ht.
  - rewrite deframe_frame, IH. reflexivity.
Qed.

Lemma frame_of_split h l rest :
  is_octet h -> is_octet l -> N.to_nat (h * 256 + l) <= length rest ->
  h :: l :: rest = frame (firstn (N.to_nat (h * 256 + l)) rest) ++ skipn (N.to_nat (h * 256 + l)) rest.
Proof.
  unfold is_octet. intros Hh Hl Hlen. unfold frame. cbn [app].
  rewrite firstn_length, Nat.min_l by exact Hlen.
  change 256 with (N.to_nat 256). rewrite <- N2Nat.inj_div, <- N2Nat.inj_mod, !N2Nat.id.
  rewrite N.div_add_l, N.div_small, N.add_0_r by lia.
  rewrite N.add_comm, N.mod_add, N.mod_small by lia.
  rewrite firstn_skipn. reflexivity.
Qed.

Lemma deframe_framed : forall n s, length s <= n -> wf_bytes s -> exists t, framed (deframe s) t s.
Proof.
  induction n as [|n IH]; intros s Hn Hwf.
  - destruct s; [|simpl in Hn; lia]. exists []. rewrite deframe_short by (simpl; lia).
    constructor. left. simpl. lia.
  - destruct s as [|h [|l rest]].
    + exists []. rewrite deframe_short by (simpl; lia). constructor. left. simpl. lia.
    + exists [h]. rewrite deframe_short by (simpl; lia). constructor. left. simpl. lia.
    + rewrite deframe_cons.
      destruct (N.to_nat (h * 256 + l) <=? length rest) eqn:E.
      * apply Nat.leb_le in E.
        inversion Hwf as [|? ? Hh Hwf1]; subst. inversion Hwf1 as [|? ? Hl Hwf2]; subst.
        destruct (IH (skipn (N.to_nat (h * 256 + l)) rest)) as [t Ht].
        { rewrite skipn_length. simpl in Hn. lia. }
        { apply Forall_forall. intros x Hx. apply In_skipn in Hx.
          rewrite Forall_forall in Hwf2. auto. }
        exists t. rewrite (frame_of_split h l rest Hh Hl E).
        constructor; [|exact Ht].
        rewrite firstn_length, Nat.min_l by exact E. unfold is_octet in *. lia.
      * apply Nat.leb_gt in E. exists (h :: l :: rest). constructor. right.
        exists h, l, rest. split; [reflexivity|exact E].
Qed.

Lemma deframe_iff s ms : wf_bytes s -> (deframe s = ms <-> exists t, framed ms t s).
Proof.
  intros Hwf. split.
  - intros <-. apply (deframe_framed (length s)); auto.
  - intros [t H]. eapply framed_deframe; eauto.
Qed.

Lemma framed_frame_all ms :
  Forall (fun m => (N.of_nat (length m) < 65536)%N) ms -> framed ms [] (frame_all ms).
Proof.
  induction 1 as [|m ms Hm _ IH]; unfold frame_all; cbn [map concat].
  - constructor. left. simpl. lia.
  - constructor; assumption.
Qed.

Lemma wf_frame m : wf_bytes m -> (N.of_nat (length m) < 65536)%N -> wf_bytes (frame m).
Proof.
  intros Hwf Hlen. unfold frame. cbn [app]. constructor; [|constructor; [|exact Hwf]]; unfold is_octet.
  - assert (length m / 256 < 256).
    { apply Nat.div_lt_upper_bound; lia. }
    lia.
  - pose proof (Nat.mod_upper_bound (length m) 256). lia.
Qed.

Lemma wf_frame_all ms :
  Forall wf_bytes ms -> Forall (fun m => (N.of_nat (length m) < 65536)%N) ms -> wf_bytes (frame_all ms).
Proof.
  intros H1 H2. unfold frame_all. induction ms as [|m ms IH]; cbn [map concat]; [constructor|].
  inversion H1; inversion H2; subst. unfold wf_bytes. apply Forall_app. split; [apply wf_frame; auto|apply IH; auto].
Qed.

Section Service.
  Variable handler : bytes -> option bytes.

  Lemma service_nil e : service handler [] e = ([], e).
  Proof. reflexivity. Qed.

  Lemma service_cons_none m ms e : handler m = None -> service handler (m :: ms) e = ([], EndNoResponse).
  Proof. intros H. unfold service, all_answered. simpl. rewrite H. reflexivity. Qed.

  Lemma service_cons_some m ms e r : handler m = Some r ->
    service handler (m :: ms) e = (frame r :: fst (service handler ms e), snd (service handler ms e)).
  Proof. intros H. unfold service, all_answered. simpl. rewrite H. reflexivity. Qed.

  Lemma service_close_after_none pre m post e :
    all_answered handler pre = true -> handler m = None ->
    service handler (pre ++ m :: post) e = (fst (service handler pre e), EndNoResponse).
  Proof.
    intros Hpre Hm. induction pre as [|p pre IH].
    - simpl. rewrite service_cons_none by exact Hm. reflexivity.
    - simpl in Hpre. destruct (handler p) as [r|] eqn:Hp; [|discriminate].
      simpl app. rewrite (service_cons_some p _ e r Hp), (service_cons_some p pre e r Hp), IH by exact Hpre.
      reflexivity.
  Qed.

  Lemma service_all_answered ms e :
    all_answered handler ms = true ->
    length (fst (service handler ms e)) = length ms /\ snd (service handler ms e) = e.
  Proof.
    intros H. split.
    - induction ms as [|m ms IH]; [reflexivity|]. simpl in H.
      destruct (handler m) as [r|] eqn:Hm; [|discriminate].
      rewrite (service_cons_some m ms e r Hm). simpl. f_equal. apply IH. exact H.
    - unfold service. simpl. rewrite H. reflexivity.
  Qed.
End Service.
