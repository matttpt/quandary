(* Whether finish_with_mac in response mode panics, and how many octets it writes, depends on the hmac function only
   through the LENGTH of its output: the MAC is copied as raw RDATA (TYPE TSIG has no name components), no decision of
   the Writer looks at its octets. *)
From QV Require Import Model.ServerWT.
From QV Require Import Base.ListX Model.MsgWriter Proofs.MsgWriterP.
From QV Require Model.TsigMsg.
Local Open Scope nat_scope.


Definition res_shape {E A} (P : A -> A -> Prop) (r r' : res E A) : Prop :=
  match r, r' with
  | Ok x, Ok x' => P x x'
  | Err _, Err _ => True
  | Panic, Panic => True
  | _, _ => False
  end.

Lemma buf_write_len_eq b b' pos d d' : length b = length b' -> length d = length d' ->
  match buf_write b pos d, buf_write b' pos d' with
  | Some x, Some x' => length x = length x'
  | None, None => True
  | _, _ => False
  end.
Proof.
  intros Hb Hd. unfold buf_write. rewrite <- Hb, <- Hd. destruct (pos + length d <=? length b) eqn:E; [|exact I].
  apply Nat.leb_le in E. rewrite !app_length, !firstn_length, !skipn_length. lia.
Qed.

(* After the RDATA the two buffers differ, but the RDLENGTH back-patch behaves alike on both: whether buf_write succeeds
   depends on lengths only (buf_write_len_eq) *)
Lemma add_rr_raw_len h o ty cl ttl rd rd' v w : component_types cl ty = [] -> length rd = length rd' ->
  res_shape (fun x x' => MsgWriter.w_cursor (snd x) = MsgWriter.w_cursor (snd x'))
            (add_rr h o ty cl ttl rd v w) (add_rr h o ty cl ttl rd' v w).
Proof.
  intros Hct Hl. unfold res_shape, add_rr. rewrite Hct.
  destruct (write_hinted_name h o w) as [[pr w1]|[e w1]|]; cbn [bind]; auto.
  destruct (try_push_u16 ty (set_mro w1 pr)) as [[u2 w2]|[e w2]|]; cbn [bind]; auto.
  destruct (try_push_u16 cl w2) as [[u3 w3]|[e w3]|]; cbn [bind]; auto.
  destruct (try_push_u32 ttl w3) as [[u4 w4]|[e w4]|]; cbn [bind]; auto.
  destruct (MsgWriter.w_avail w4 <? MsgWriter.w_cursor w4); auto.
  destruct (MsgWriter.w_avail w4 - MsgWriter.w_cursor w4 <? 2); auto.
  cbn [write_components]. rewrite <- Hl.
  set (w5 := set_cursor w4 (MsgWriter.w_cursor w4 + 2)).
  destruct (length rd =? 0).
  - cbn [bind]. destruct (MsgWriter.w_cursor w5 <? MsgWriter.w_cursor w4 + 2); auto.
    destruct (lift (w_write w5 (MsgWriter.w_cursor w4) _) w5) as [[w7 u]|[e w7]|]; cbn [bind]; auto.
  - unfold try_push. rewrite <- Hl.
    destruct (MsgWriter.w_avail w5 <? MsgWriter.w_cursor w5); cbn [bind]; auto.
    destruct (length rd <=? MsgWriter.w_avail w5 - MsgWriter.w_cursor w5); cbn [bind]; auto.
    unfold w_write.
    pose proof (buf_write_len_eq (w_buf w5) (w_buf w5) (MsgWriter.w_cursor w5) rd rd' eq_refl Hl) as B.
    destruct (buf_write (w_buf w5) (MsgWriter.w_cursor w5) rd) as [b|]; destruct (buf_write (w_buf w5) (MsgWriter.w_cursor w5) rd') as [b'|];
      try contradiction; cbn [bind]; auto.
    cbn [MsgWriter.w_cursor set_cursor set_buf].
    destruct (MsgWriter.w_cursor w5 + length rd <? MsgWriter.w_cursor w4 + 2); auto.
    unfold lift. cbn [w_buf set_cursor set_buf].
    match goal with |- context [buf_write b ?p ?d] =>
      pose proof (buf_write_len_eq b b' p d d B eq_refl) as B2;
      destruct (buf_write b p d) as [c|]; destruct (buf_write b' p d) as [c'|]; try contradiction; cbn [bind]; auto end.
Qed.

Section Shape.
Variable hmac hmac' : TsigMsg.alg -> bytes -> bytes -> bytes.
Hypothesis Hlen : forall a k d, length (hmac a k d) = length (hmac' a k d).

Lemma sign_shape p msg m a k :
  match TsigMsg.sign hmac p msg m a k, TsigMsg.sign hmac' p msg m a k with
  | Ok (rd, _), Ok (rd', _) => length rd = length rd'
  | Err _, Err _ => True
  | Panic, Panic => True
  | _, _ => False
  end.
Proof.
  unfold TsigMsg.sign. destruct (TsigMsg.sign_digest p msg m a) as [d|e|]; cbn [bind]; auto.
  unfold TsigMsg.serialize_rdata, TsigMsg.new_tsig, TsigMsg.required_len. rewrite (Hlen a k d).
  destruct (N.of_nat _ <=? 65535)%N; cbn [TsigMsg.unwrap bind]; auto.
  unfold TsigMsg.serialize_tsig_unchecked. rewrite !app_length. rewrite (Hlen a k d). reflexivity.
Qed.

Lemma finish_signed_shape a sec rmac w :
  res_shape (fun x x' => fst x = fst x') (finish_signed hmac a sec rmac w) (finish_signed hmac' a sec rmac w).
Proof.
  unfold res_shape, finish_signed. destruct (finish_head w) as [w5|e|]; cbn [bind]; auto.
  destruct (MsgWriter.w_tsig w5) as [t|]; cbn [bind]; auto.
  destruct (length (w_buf w5) <? MsgWriter.w_cursor w5); cbn [bind]; auto.
  match goal with |- context [TsigMsg.sign hmac ?p ?msg ?m a sec] => pose proof (sign_shape p msg m a sec) as S;
    destruct (TsigMsg.sign hmac p msg m a sec) as [[rd mc]|e|]; destruct (TsigMsg.sign hmac' p msg m a sec) as [[rd' mc']|e'|];
    try contradiction; cbn [bind]; auto end.
  match goal with |- context [add_rr HNone ?o ?ty ?cl ?ttl rd None ?w'] =>
    pose proof (add_rr_raw_len HNone o ty cl ttl rd rd' None w' eq_refl S) as R;
    destruct (add_rr HNone o ty cl ttl rd None w') as [[v1 w6]|[e1 w6]|];
    destruct (add_rr HNone o ty cl ttl rd' None w') as [[v1' w6']|[e1' w6']|]; try contradiction; cbn [unwrap_w bind]; auto end.
Qed.

Lemma ser_tsig_shape buf tcp now w t :
  match ser_tsig hmac buf tcp now w t, ser_tsig hmac' buf tcp now w t with
  | Some (l, _), Some (l', _) => l = l'
  | None, None => True
  | _, _ => False
  end.
Proof.
  unfold ser_tsig. destruct (ser_prepare buf tcp w) as [w1|]; auto. destruct (tsig_fields_of now t) as [f|]; auto.
  destruct (t_mode t) as [aw|a sec mac].
  - destruct (MsgWriter.set_tsig _ _ _ _ _ _ _ w1) as [[u w2]|[e w2]|]; auto. destruct (finish w2) as [[l b]|e|]; auto.
  - destruct (set_tsig_signed _ _ _ _ _ _ _ _ w1) as [[u w2]|[e w2]|]; auto.
    pose proof (finish_signed_shape (tsig_alg_of a) sec mac w2) as S.
    destruct (finish_signed hmac (tsig_alg_of a) sec mac w2) as [[l b]|e|];
      destruct (finish_signed hmac' (tsig_alg_of a) sec mac w2) as [[l' b']|e'|]; try contradiction; auto.
Qed.

Definition wresp_shape (r r' : wresp) : Prop :=
  match r, r' with
  | ROctets l _, ROctets l' _ => l = l'
  | RAbs x, RAbs x' => x = x'
  | _, _ => False
  end.

Lemma wresp_shape_refl r : wresp_shape r r.
Proof. destruct r; reflexivity. Qed.

Lemma abs_wt_shape cfg buf w : res_shape wresp_shape (abs_wt hmac cfg buf w) (abs_wt hmac' cfg buf w).
Proof.
  unfold abs_wt. destruct (Server.w_tsig w) as [t|].
  - pose proof (ser_tsig_shape buf (is_tcp (c_transport cfg)) (c_now cfg) w t) as S.
    destruct (ser_tsig hmac buf _ _ w t) as [[l b]|]; destruct (ser_tsig hmac' buf _ _ w t) as [[l' b']|]; try contradiction; simpl; auto.
  - destruct (abs_w cfg buf w) as [r|e|]; simpl; auto. apply wresp_shape_refl.
Qed.

Definition opt_shape (o o' : option wresp) : Prop :=
  match o, o' with
  | Some r, Some r' => wresp_shape r r'
  | None, None => True
  | _, _ => False
  end.

Lemma some_shape (x x' : res reader_err wresp) : res_shape wresp_shape x x' ->
  res_shape opt_shape (let* r := x in Ok (Some r)) (let* r := x' in Ok (Some r)).
Proof. destruct x as [r|e|]; destruct x' as [r'|e'|]; simpl; auto. Qed.

Lemma handle_message_wt_shape zones negttl answer verify cfg buf req :
  res_shape opt_shape (handle_message_wt hmac zones negttl answer verify cfg buf req)
                      (handle_message_wt hmac' zones negttl answer verify cfg buf req).
Proof.
  unfold handle_message_wt. destruct (prescan verify cfg req) as [p|e|]; cbn [bind]; simpl; auto.
  destruct p as [|w|opc w]; [exact I|apply some_shape, abs_wt_shape|].
  destruct (opc =? OPCODE_QUERY)%N; [|apply some_shape, abs_wt_shape].
  apply some_shape. unfold handle_query_wt. destruct (Server.w_tsig w) as [t0|].
  - unfold handle_query_t. destruct (Server.w_question w) as [q|]; [|apply abs_wt_shape].
    destruct (existsb _ _); [apply abs_wt_shape|]. destruct (Reader.q_class q =? QCLASS_ANY)%N; [apply abs_wt_shape|].
    destruct (cat_lookup _ _ _ _) as [e|]; [|apply abs_wt_shape].
    destruct (e_kind e); [simpl; reflexivity|apply abs_wt_shape|apply abs_wt_shape].
  - destruct (handle_query_w zones negttl answer cfg buf w) as [r|e|]; simpl; auto. apply wresp_shape_refl.
Qed.

End Shape.
