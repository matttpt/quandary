(* C23: the RDATA of one record.  parse_rdata on the rendered RDATA of every type with a syntax of its own
   (name types, A, CH A, SOA, WKS, HINFO, MINFO, MX, TXT, AAAA, SRV) and on the RFC 3597 \# form. *)
From QV Require Import Base.ListX Model.NameWire Spec.NameWireS Spec.NameRepr Proofs.NameWireP
  Model.ZfReader Model.ZfParser Proofs.ZfReaderP Proofs.ZfStdP Spec.ZfValidS Proofs.ZfNameP Proofs.ZfParserP
  Proofs.ZfRecordP Proofs.ZfFieldsP Proofs.ZfRunP Proofs.ZfTokP Proofs.ZfNameRP Proofs.ZfSymP Proofs.ZfAddrP
  Spec.ZfRenderS.

Local Open Scope N_scope.

(* every statement below holds for either numbering of the bits of a WKS bit map, except where the parser's
   own numbering is needed (wks_runs, rdata_runs: hypothesis on [bo]; new_in_wks_runs is stated for that numbering) *)
Section Ord.
Context {bo : BitOrder}.

Definition ctx_of (x : sctx) : ctx :=
  mkCtx (option_map name_of (x_origin x)) (option_map name_of (x_owner x)) (x_ttl x) (x_class x) (x_default x).

Definition sctx_good (x : sctx) : Prop := origin_good (x_origin x).

Lemma tokch_plainb c : tokch c = true -> plainb c = true.
Proof. unfold tokch. intros H. apply andb_true_iff in H. tauto. Qed.

(* X begins with an octet that does not end a field; where X is the first field of an RDATA it is not taken
   for the marker \# of the RFC 3597 form (for every reader and tail: the fact is used after skip_to_next_field
   has produced a new reader, inside cbh_false_runs) *)
Definition starts_field (first : bool) (X : bytes) : Prop :=
  exists h tl, X = h :: tl /\ plainb h = true /\
    (first = true -> forall r t, r_rest r = X ++ t -> expect_field bh r = Ok (false, r)).

Lemma starts_fstart first X t : starts_field first X -> fstart (X ++ t).
Proof. intros (h & tl & -> & Hp & _). apply fstart_plain. exact Hp. Qed.

Lemma starts_app first X Y : starts_field first X -> starts_field first (X ++ Y).
Proof.
  intros (h & tl & -> & Hp & Hb). exists h, (tl ++ Y). split; [reflexivity|]. split; [exact Hp|].
  intros Hf r t E. rewrite <- app_assoc in E. exact (Hb Hf r _ E).
Qed.

Lemma starts_plain first h tl : plainb h = true -> h <> 92 -> starts_field first (h :: tl).
Proof.
  intros Hp Hh. exists h, tl. split; [reflexivity|]. split; [exact Hp|]. intros _ r t E.
  eapply expect_differs_head; [exact E|reflexivity|exact Hh].
Qed.

Lemma starts_num first h tl : h = 43 \/ 48 <= h <= 57 -> starts_field first (h :: tl).
Proof.
  intros [->|H]; [apply starts_plain; [reflexivity|discriminate]|]. apply starts_plain; [|lia].
  apply tokch_plainb, (digit_tokch 10); [lia|unfold digit_of; lia].
Qed.

Lemma digits_head base ds : base <= 10 -> ds <> [] -> Forall (digit_of base) ds -> exists h tl, ds = h :: tl /\ 48 <= h <= 57.
Proof.
  intros Hb Hne Hd. destruct ds as [|h tl]; [congruence|]. inversion Hd as [|? ? Hh _]; subst. unfold digit_of in Hh.
  exists h, tl. split; [reflexivity|lia].
Qed.

Lemma render_uint_head ic n : exists h tl, render_uint ic n = h :: tl /\ (h = 43 \/ 48 <= h <= 57).
Proof.
  destruct (uint_digits_val ic n) as (Hne & Hd & _). unfold render_uint. destruct (i_plus ic); [cbn [app]; eauto|].
  destruct (digits_head 10 _ ltac:(lia) Hne Hd) as (h & tl & -> & Hh). cbn [app]. eauto.
Qed.

Lemma uint_fstart ic n t : fstart (render_uint ic n ++ t).
Proof. destruct (render_uint_head ic n) as (h & tl & -> & Hh). exact (starts_fstart false _ t (starts_num _ h tl Hh)). Qed.

Lemma group_head drop upper g : group_ok drop g = true ->
  exists h tl, render_group drop upper g = h :: tl /\ h <> 92 /\ plainb h = true.
Proof.
  intros H. destruct (group_facts drop upper g H) as (Hh & _ & [L1 _] & Ht & _).
  destruct (render_group drop upper g) as [|h tl]; [simpl in L1; lia|]. exists h, tl. split; [reflexivity|].
  cbn [forallb] in Ht. apply andb_true_iff in Ht. destruct Ht as [Ht _]. split; [|apply tokch_plainb; exact Ht].
  inversion Hh as [|? ? Hx _]; subst. unfold is_hex in Hx. intros ->. apply Hx. reflexivity.
Qed.

Lemma starts_octets first es c s R : octets_ok KUnquoted es (c :: s) = true -> tailish R ->
  (first = true -> render_octets es (c :: s) ++ R <> bh) -> starts_field first (render_octets es (c :: s) ++ R).
Proof.
  intros Hok HR Hne. destruct (octets_tailish es (c :: s) R Hok HR) as [E|(h & tl & E & Hp)].
  - apply app_eq_nil in E. destruct E as [E _]. destruct (render_octets_nonempty _ _ _ E).
  - exists h, tl. split; [exact E|]. split; [exact Hp|]. intros Hf r t Er.
    eapply tok_expect_bh; [exact Hok|exact HR|exact (Hne Hf)|exact Er].
Qed.

Lemma rel_starts first ess ls S : ls <> [] -> labels_ok ess ls = true -> Forall good_label ls -> tailish S ->
  (first = true -> render_rel ess ls ++ S <> bh) -> starts_field first (render_rel ess ls ++ S).
Proof.
  intros Hne Hok Hg HS. destruct ls as [|l ls]; [congruence|]. cbn [labels_ok] in Hok. apply andb_true_iff in Hok. destruct Hok as [Hl _].
  inversion Hg as [|? ? Hgl _]; subst. unfold good_label in Hgl. destruct l as [|c l]; [simpl in Hgl; lia|].
  destruct (render_rel_shape ess (c :: l) ls) as (R & -> & HR & _). rewrite <- app_assoc.
  apply starts_octets; [apply octets_label_unq; exact Hl|apply tailish_app; assumption].
Qed.

Lemma name_starts first bol origin nc ls : name_ok first bol origin nc ls = true -> starts_field first (render_name nc ls).
Proof.
  unfold name_ok. intros H. apply andb_true_iff in H. destruct H as [Hg H]. apply good_labels_b_spec in Hg. destruct Hg as [Hg _].
  destruct nc as [|ess|k ess]; cbn [render_name] in *.
  - apply starts_plain; [reflexivity|discriminate].
  - apply andb_true_iff in H. destruct H as [Hok _]. destruct ls as [|l ls]; [apply starts_plain; [reflexivity|discriminate]|].
    apply rel_starts; [discriminate|exact Hok|exact Hg|right; eexists _, _; split; reflexivity|].
    (* the text ends with a dot *)
    intros _ E. change bh with ([92] ++ [35]) in E. apply app_inj_tail in E. destruct E as [_ E]. discriminate.
  - apply andb_true_iff in H. destruct H as [H _]. apply andb_true_iff in H. destruct H as [H Hbh].
    apply andb_true_iff in H. destruct H as [H _]. apply andb_true_iff in H. destruct H as [H Hok].
    apply andb_true_iff in H. destruct H as [H _]. apply andb_true_iff in H. destruct H as [Hk1 Hk2]. apply Nat.leb_le in Hk1, Hk2.
    rewrite <- (app_nil_r (render_rel ess (firstn k ls))) in *.
    apply rel_starts; [|exact Hok|apply good_firstn; exact Hg|left; reflexivity|].
    + destruct ls; [simpl in Hk2; lia|]. destruct k; [lia|discriminate].
    + intros ->. apply beq_false, negb_true_iff. exact Hbh.
Qed.

Lemma string_starts first sc s : string_ok first sc s = true -> starts_field first (render_string sc s).
Proof.
  unfold string_ok. intros H. apply andb_true_iff in H. destruct H as [_ H]. destruct sc as [es|es]; cbn [render_string].
  - apply starts_plain; [reflexivity|discriminate].
  - apply andb_true_iff in H. destruct H as [H Hbh]. apply andb_true_iff in H. destruct H as [H _].
    apply andb_true_iff in H. destruct H as [Hok Hne]. destruct s as [|c s]; [discriminate|].
    rewrite <- (app_nil_r (render_octets es (c :: s))) in *. apply starts_octets; [exact Hok|left; reflexivity|].
    intros ->. apply beq_false, negb_true_iff. exact Hbh.
Qed.

Lemma fok_name first o fc ls : field_ok first o fc (VName ls) = true -> name_ok first false o (fc_name fc) ls = true.
Proof. destruct fc; cbn [field_ok fc_name]; try discriminate; auto. Qed.
Lemma fok_u16 first o fc n : field_ok first o fc (VU16 n) = true -> uint_ok 65535 (fc_int fc) n = true.
Proof. destruct fc; cbn [field_ok fc_int]; try discriminate; auto. Qed.
Lemma fok_u32 first o fc n : field_ok first o fc (VU32 n) = true -> uint_ok 4294967295 (fc_int fc) n = true.
Proof. destruct fc; cbn [field_ok fc_int]; try discriminate; auto. Qed.
Lemma fok_oct first o fc n : field_ok first o fc (VOct n) = true -> oct_ok (fc_int fc) n = true.
Proof. destruct fc; cbn [field_ok fc_int]; try discriminate; auto. Qed.
Lemma fok_ip4 first o fc a b c d : field_ok first o fc (VIp4 a b c d) = true -> ip4_ok a b c d = true.
Proof. destruct fc; cbn [field_ok]; try discriminate; auto. Qed.
Lemma fok_ip6 first o fc gs : field_ok first o fc (VIp6 gs) = true -> ip6_ok (fc_ip6 fc) gs = true.
Proof. destruct fc; cbn [field_ok fc_ip6]; try discriminate; auto. Qed.
Lemma fok_str first o fc s : field_ok first o fc (VStr s) = true -> string_ok first (fc_str fc) s = true.
Proof. destruct fc; cbn [field_ok fc_str]; try discriminate; auto. Qed.
Lemma fok_proto first o fc p : field_ok first o fc (VProto p) = true -> proto_ok (fc_proto fc) p = true.
Proof. destruct fc; cbn [field_ok fc_proto]; try discriminate; auto. Qed.
Lemma fok_port first o fc p : field_ok first o fc (VPort p) = true -> uint_ok 65535 (fc_int fc) p = true.
Proof. destruct fc; cbn [field_ok fc_int]; try discriminate; auto. Qed.

Lemma fok_str_inv first o fc s : field_ok first o fc (VStr s) = true -> exists sc, fc = CStr sc /\ string_ok first sc s = true.
Proof. destruct fc; cbn [field_ok]; try discriminate; eauto. Qed.
Lemma fclosed_str sc s : field_closed (CStr sc) (VStr s) = string_closed sc.
Proof. destruct sc; reflexivity. Qed.
Lemma fclosed_other fc f : (forall s, f <> VStr s) -> field_closed fc f = false.
Proof. destruct f; try reflexivity. intros H. exfalso. eapply H. reflexivity. Qed.

Lemma name_ok_good first bol o nc ls : name_ok first bol o nc ls = true -> good_labels ls.
Proof. unfold name_ok. intros H. apply andb_true_iff in H. destruct H as [H _]. apply good_labels_b_spec. exact H. Qed.

Lemma field_starts first origin fc f : field_ok first origin fc f = true -> starts_field first (render_field fc f).
Proof.
  intros H. destruct f as [ls|n|n|n|a b c d|gs|s|pp|pp]; cbn [render_field].
  - eapply name_starts, fok_name, H.
  - destruct (render_uint_head (fc_int fc) n) as (h & tl & -> & Hh). apply starts_num, Hh.
  - destruct (render_uint_head (fc_int fc) n) as (h & tl & -> & Hh). apply starts_num, Hh.
  - destruct (digits_head 8 (render_oct (fc_int fc) n)) as (h & tl & -> & Hh); [lia| | |apply starts_num; right; exact Hh].
    + intros E. apply app_eq_nil in E. destruct E as [_ E]. exact (num_nonempty 8 n E).
    + apply Forall_app. split; [apply zeros_digits|apply num_digits]; lia.
  - unfold render_ip4. destruct (digits_head 10 (dec a)) as (h & tl & -> & Hh); [lia|apply num_nonempty|apply num_digits; lia|].
    apply starts_num. right. exact Hh.
  - destruct (ip6_head _ gs (fok_ip6 _ _ _ _ H)) as (h & tl & -> & Hh & Hp). apply starts_plain; assumption.
  - eapply string_starts, fok_str, H.
  - apply fok_proto in H. destruct (fc_proto fc) as [lows|lows|ic]; cbn [render_proto apply_case w_tcp w_udp].
    + destruct (hd false lows); apply starts_plain; [reflexivity|discriminate|reflexivity|discriminate].
    + destruct (hd false lows); apply starts_plain; [reflexivity|discriminate|reflexivity|discriminate].
    + destruct (render_uint_head ic pp) as (h & tl & -> & Hh). apply starts_num, Hh.
  - destruct (render_uint_head (fc_int fc) pp) as (h & tl & -> & Hh). apply starts_num, Hh.
Qed.

Lemma field_fstart first origin fc f t : field_ok first origin fc f = true -> fstart (render_field fc f ++ t).
Proof. intros H. eapply starts_fstart, field_starts, H. Qed.

Lemma fields_ok_cons o first closed p cs f fs p' : fields_ok o first closed p cs (f :: fs) = Some p' ->
  exists p1, sep_ok p closed (fst (hd (sep_none, CPlain) cs)) = Some p1 /\
             field_ok first o (snd (hd (sep_none, CPlain) cs)) f = true /\
             fields_ok o false (field_closed (snd (hd (sep_none, CPlain) cs)) f) p1 (tl cs) fs = Some p'.
Proof.
  cbn [fields_ok]. destruct (sep_ok p closed _) as [p1|]; [|discriminate].
  destruct (field_ok first o _ f); [|discriminate]. eauto.
Qed.

Lemma fields_ok_nil o first closed p cs p' : fields_ok o first closed p cs [] = Some p' -> p' = p.
Proof. cbn [fields_ok]. congruence. Qed.

Lemma sep_ok_tail p closed s p1 X : sep_ok p closed s = Some p1 -> (X = [] -> False) -> fstart X -> ftail closed (render_sep s ++ X).
Proof.
  intros H _ HX. apply sep_ok_inv in H. destruct H as [Hs He]. destruct closed; [exact I|].
  cbn [ftail]. eapply fend_sep; [exact Hs|apply He; reflexivity].
Qed.

Lemma fend_ftail t : fend t -> ftail false t. Proof. auto. Qed.

Lemma fields_tail o first closed p cs fs p3 e t : fields_ok o first closed p cs fs = Some p3 -> eol_ok p3 e = true ->
  eoft (e_term e) t -> ftail closed ((render_fields cs fs ++ render_eol e) ++ t).
Proof.
  intros H He Ht. destruct closed; [exact I|]. cbn [ftail]. rewrite <- app_assoc. destruct fs as [|f fs].
  - apply fields_ok_nil in H. subst p3. eapply fend_eol; eassumption.
  - apply fields_ok_cons in H. destruct H as (q & Hs & _). apply sep_ok_inv in Hs. destruct Hs as [Hs Hne].
    cbn [render_fields]. rewrite <- app_assoc. eapply fend_sep; [exact Hs|apply Hne; reflexivity].
Qed.

(* typed syntax: the first token is not \#, so that only the separator is skipped *)
Lemma cbh_false_runs {A} (T : bytes -> Prop) K (f : bool -> M A) s X p p1 p2 v :
  sep_paren p s = Some p1 -> starts_field true X ->
  runs T (skip_to_next_field K ;; f false) (render_sep s ++ X) p p2 v ->
  runs T (bindM (check_backslash_hash K) f) (render_sep s ++ X) p p2 v.
Proof.
  intros Hs HX R r t E P W Ht. destruct (R r t E P W Ht) as (r' & F & Po). exists r'. split; [|exact Po].
  rewrite <- app_assoc in E.
  destruct (skip_to_next_field_runs K s p p1 Hs r (X ++ t) E P W (starts_fstart _ _ _ HX)) as (r1 & F1 & E1 & _).
  destruct HX as (_ & _ & _ & _ & Hb). revert F. unfold check_backslash_hash, bindM. rewrite F1.
  fold bh. rewrite (Hb eq_refl r1 t E1). auto.
Qed.

(* RFC 3597 syntax: the marker is read *)
Lemma cbh_true_runsQ {A} (T : bytes -> Prop) K (f : bool -> M A) s X p p1 p2 Q :
  sep_paren p s = Some p1 -> (forall t, T t -> fend (X ++ t)) ->
  runsQ T (f true) X p1 p2 Q ->
  runsQ T (bindM (check_backslash_hash K) f) (render_sep s ++ bh ++ X) p p2 Q.
Proof.
  intros Hs Hf Hr. eapply runsQ_eq; [intros r; apply bindM_assoc|].
  eapply runs_bind_Q; [apply skip_to_next_field_runs; exact Hs| |].
  - intros t Ht. reflexivity.
  - cbv beta. eapply runs_bind_Q; [apply (expect_field_yes bh bytes_eqb); [reflexivity|repeat constructor; discriminate]|exact Hf|exact Hr].
Qed.

Lemma mk_rdata_runs (T : bytes -> Prop) l p : N.of_nat (length l) <= 65535 -> runs T (mk_rdata l) [] p p l.
Proof.
  intros H r t E P W _. unfold mk_rdata. rewrite (proj2 (N.ltb_ge 65535 (N.of_nat (length l)))) by lia.
  exists r. split; [reflexivity|]. simpl in E. subst t p. apply post_refl.
Qed.

Lemma u16_runs k ic n p : uint_ok 65535 ic n = true -> runs fend (parse_u16 k) (render_uint ic n) p p n.
Proof. intros H. apply (uint_field_runs U16_MAX); [unfold U16_MAX; lia|exact H]. Qed.

Lemma u32_runs k ic n p : uint_ok 4294967295 ic n = true -> runs fend (parse_u32 k) (render_uint ic n) p p n.
Proof. intros H. apply (uint_field_runs U32_MAX); [unfold U32_MAX; lia|exact H]. Qed.

Definition hexdig_good (n : N) : bool :=
  forallb (fun u => tokch (hexdig u n) && match hex_nibble (hexdig u n) with Some v => v =? n | None => false end) [true; false].
Lemma hexdig_sweep : forallb hexdig_good (map N.of_nat (seq 0 16)) = true.
Proof. vm_compute. reflexivity. Qed.

Lemma hexdig_facts u n : n < 16 -> plainb (hexdig u n) = true /\ hex_nibble (hexdig u n) = Some n.
Proof.
  intros Hn. pose proof (sweep_below _ 16 hexdig_sweep n ltac:(lia)) as S. unfold hexdig_good in S. rewrite forallb_forall in S.
  specialize (S u ltac:(destruct u; simpl; auto)). apply andb_true_iff in S. destruct S as [S1 S2].
  split; [apply tokch_plainb; exact S1|]. destruct (hex_nibble (hexdig u n)) as [v|]; [|discriminate]. apply N.eqb_eq in S2. congruence.
Qed.

(* a hexadecimal digit where one is expected; [k] is what either parser does with the octet *)
Lemma hex_octet_runs (k : option N -> M N) u n p : n < 16 -> (forall d, k (Some d) = hex_digit_of d) ->
  runs anyt (bindM read_field_octet k) [hexdig u n] p p n.
Proof.
  intros Hn Hk. destruct (hexdig_facts u n Hn) as [Hp Hv]. apply runs_app_nil.
  eapply runs_bind; [apply rfo_plain; exact Hp|intros; exact I|]. rewrite Hk. unfold hex_digit_of. rewrite Hv. apply runs_ret.
Qed.

Lemma hex_digit_runs u n p : n < 16 -> runs anyt parse_ascii_hex_digit [hexdig u n] p p n.
Proof. intros Hn. apply hex_octet_runs; [exact Hn|reflexivity]. Qed.

Lemma leading_direct_runs u n p : n < 16 -> runs anyt parse_leading_ascii_hex_digit [hexdig u n] p p n.
Proof. intros Hn. apply runs_getpos. intros q. apply hex_octet_runs; [exact Hn|reflexivity]. Qed.

Lemma leading_break_runs s u n p p' : sep_ok p false s = Some p' -> n < 16 ->
  runs anyt parse_leading_ascii_hex_digit (render_sep s ++ [hexdig u n]) p p' n.
Proof.
  intros Hs Hn. apply sep_ok_inv in Hs. destruct Hs as [Hs He]. apply runs_getpos. intros q.
  change (render_sep s ++ [hexdig u n]) with ([] ++ render_sep s ++ [hexdig u n]).
  eapply runs_bind; [apply rfo_end| |].
  - intros t _. rewrite <- app_assoc. eapply fend_sep; [exact Hs|apply He; reflexivity].
  - cbv beta iota. eapply runs_bind; [apply to_field_runs; exact Hs| |apply hex_digit_runs; exact Hn].
    intros t _. apply fstart_plain, (hexdig_facts u n Hn).
Qed.

Lemma octet_nibbles o : o < 256 -> o / 16 < 16 /\ o mod 16 < 16 /\ o / 16 * 16 + o mod 16 = o.
Proof.
  intros H. split; [apply N.div_lt_upper_bound; lia|]. split; [apply N.mod_lt; lia|].
  rewrite N.mul_comm. symmetry. apply N.div_mod. lia.
Qed.

Lemma hex_loop_runs : forall data ws acc p p', hex_ok false p ws data = Some p' ->
  runs anyt (hex_loop (length data) acc) (render_hex ws data) p p' (rev acc ++ data).
Proof.
  induction data as [|o data IH]; intros ws acc p p' H.
  - cbn [hex_ok] in H. inversion H; subst. cbn [length hex_loop render_hex]. rewrite app_nil_r, rev_fast_rev. apply runs_ret.
  - cbn [hex_ok] in H. destruct (o <? 256) eqn:Eo; [|discriminate]. apply N.ltb_lt in Eo.
    destruct (octet_nibbles o Eo) as (Hh & Hl & Hv).
    cbn [length hex_loop render_hex]. destruct (hd (None, false, false) ws) as [[so u1] u2] eqn:Ew. cbn [fst] in H.
    (* the two digits, whatever stands before the first, then the other octets *)
    assert (Two : forall X p1, runs anyt parse_leading_ascii_hex_digit (X ++ [hexdig u1 (o / 16)]) p p1 (o / 16) ->
                  hex_ok false p1 (tl ws) data = Some p' ->
                  runs anyt (do h <- parse_leading_ascii_hex_digit; do l <- parse_ascii_hex_digit; hex_loop (length data) ((h * 16 + l) :: acc))
                       ((X ++ [hexdig u1 (o / 16); hexdig u2 (o mod 16)]) ++ render_hex (tl ws) data) p p' (rev acc ++ o :: data)).
    { intros X p1 R1 H1. change [hexdig u1 (o / 16); hexdig u2 (o mod 16)] with ([hexdig u1 (o / 16)] ++ [hexdig u2 (o mod 16)]).
      rewrite app_assoc, <- (app_assoc _ [hexdig u2 (o mod 16)]).
      eapply runs_bind; [exact R1|intros; exact I|]. eapply runs_bind; [apply hex_digit_runs; exact Hl|intros; exact I|].
      cbv beta. rewrite Hv. replace (rev acc ++ o :: data) with (rev (o :: acc) ++ data) by (cbn [rev]; rewrite <- app_assoc; reflexivity).
      apply IH. exact H1. }
    unfold render_hex_octet. destruct so as [s|].
    + destruct (sep_ok p false s) as [p1|] eqn:Es; [|discriminate]. apply (Two _ p1); [apply leading_break_runs; assumption|exact H].
    + apply (Two [] p); [apply leading_direct_runs; exact Hh|exact H].
Qed.

Lemma bind_ret_l {A B} (a : A) (f : A -> M B) r : bindM (ret a) f r = f a r.
Proof. reflexivity. Qed.

Lemma runsQ_map {A B} (T : bytes -> Prop) (m : M A) (g : A -> M B) s b b' (Q : A -> Prop) w :
  runsQ T m s b b' Q -> (forall v r, Q v -> g v r = Ok (w, r)) -> runsQ T (bindM m g) s b b' (fun x => x = w).
Proof.
  intros H Hg r t E P W Ht. destruct (H r t E P W Ht) as (r' & v & F & Po & HQ).
  exists r', w. unfold bindM. rewrite F. split; [apply Hg; exact HQ|]. split; [exact Po|reflexivity].
Qed.

Section Generic.
Variable e : eolc.
Let T := eoft (e_term e).

(* the end of parse_unknown_rdata_impl *)
Lemma impl_end (v : pos * bytes) p3 : eol_ok p3 e = true ->
  runsQ T (expect_eol ;; ret v) (render_eol e) p3 false (fun v' => snd v' = snd v).
Proof.
  intros He. eapply runsQ_of_runs; [|reflexivity]. apply runs_app_nil.
  eapply runs_bind; [apply expect_eol_runs; exact He|intros t Ht; exact Ht|apply runs_ret].
Qed.

Lemma unknown_impl_runsQ s1 ic ws data p p1 p3 :
  sep_ok p false s1 = Some p1 -> uint_ok 65535 ic (N.of_nat (length data)) = true ->
  hex_ok true p1 ws data = Some p3 -> eol_ok p3 e = true ->
  runsQ T parse_unknown_rdata_impl
        (render_sep s1 ++ render_uint ic (N.of_nat (length data)) ++ render_hex ws data ++ render_eol e) p false
        (fun v => snd v = data).
Proof.
  intros Hs1 Hu Hh He. pose proof (proj1 (sep_ok_inv _ _ _ _ Hs1)) as HP1.
  unfold parse_unknown_rdata_impl.
  eapply runs_bind_Q; [apply skip_to_next_field_runs; exact HP1|intros t Ht; rewrite <- app_assoc; apply uint_fstart|].
  cbv beta.
  destruct data as [|o data].
  - cbn [hex_ok] in Hh. inversion Hh; subst p3. cbn [render_hex app length].
    eapply runs_bind_Q; [apply u16_runs; exact Hu|intros t Ht; eapply fend_eol; eassumption|].
    cbv beta. change (N.of_nat 0 =? 0) with true. cbv iota.
    eapply runsQ_eq; [intros r; apply bindM_assoc|]. apply runsQ_getpos. intros q.
    eapply runsQ_eq; [intros r; apply bind_ret_l|]. apply (impl_end (q, [])). exact He.
  - (* the word break before the first octet is mandatory *)
    cbn [hex_ok] in Hh. destruct (o <? 256) eqn:Eo; [|discriminate].
    destruct (hd (None, false, false) ws) as [[so u1] u2] eqn:Ew. cbn [fst] in Hh.
    destruct so as [s0|]; [|discriminate]. destruct (sep_ok p1 false s0) as [p2|] eqn:Es0; [|discriminate].
    pose proof (sep_ok_inv _ _ _ _ Es0) as [HP0 HE0].
    assert (Hh' : hex_ok false p2 ((None, u1, u2) :: tl ws) (o :: data) = Some p3).
    { cbn [hex_ok hd fst tl]. rewrite Eo. exact Hh. }
    assert (Etext : render_hex ws (o :: data) = render_sep s0 ++ render_hex ((None, u1, u2) :: tl ws) (o :: data)).
    { cbn [render_hex hd tl]. rewrite Ew. unfold render_hex_octet. rewrite <- !app_assoc. reflexivity. }
    rewrite Etext. rewrite <- !app_assoc.
    eapply runs_bind_Q; [apply u16_runs; exact Hu|intros t Ht; rewrite <- ?app_assoc; eapply fend_sep; [exact HP0|apply HE0; reflexivity]|].
    cbv beta.
    assert (Hnz : (N.of_nat (length (o :: data)) =? 0) = false) by (apply N.eqb_neq; cbn [length]; lia).
    rewrite Hnz.
    eapply runsQ_eq; [intros r; apply bindM_assoc|].
    eapply runs_bind_Q; [apply skip_to_next_field_runs; exact HP0| |].
    { intros t Ht. cbn [render_hex hd]. unfold render_hex_octet. cbn [app]. apply fstart_plain.
      apply N.ltb_lt in Eo. destruct (octet_nibbles o Eo) as (Hh1 & _). apply (hexdig_facts u1 _ Hh1). }
    cbv beta.
    eapply runsQ_eq; [intros r; apply bindM_assoc|]. apply runsQ_getpos. intros q.
    eapply runsQ_eq; [intros r; apply bindM_assoc|].
    rewrite Nat2N.id.
    eapply runs_bind_Q; [apply (hex_loop_runs _ _ [] _ _ Hh')|intros; exact I|].
    cbv beta. cbn [rev app].
    eapply runsQ_eq; [intros r; apply bindM_assoc|].
    change (render_eol e) with ([] ++ render_eol e).
    eapply runs_bind_Q; [apply (mk_rdata_runs anyt); unfold uint_ok in Hu; apply andb_true_iff in Hu; destruct Hu as [Hu _]; apply N.leb_le in Hu; exact Hu|intros; exact I|].
    cbv beta.
    eapply runsQ_eq; [intros r; apply bind_ret_l|]. apply (impl_end (q, o :: data)). exact He.
Qed.

Lemma runsQ_bind_ret {A B} (m : M A) (g : A -> M B) s b b' (Q : A -> Prop) w :
  runsQ T m s b b' Q -> (forall v r, Q v -> g v r = Ok (w, r)) -> runs T (bindM m g) s b b' w.
Proof. intros H Hg. apply runs_of_runsQ. exact (runsQ_map T m g s b b' Q w H Hg). Qed.

Definition generic_text (s0 s1 : sep) (ic : ichoice) (ws : list (option sep * bool * bool)) (data : bytes) : bytes :=
  render_sep s0 ++ bh ++ render_sep s1 ++ render_uint ic (N.of_nat (length data)) ++ render_hex ws data.

Definition generic_ok (p : bool) s0 s1 ic ws data (p3 : bool) : Prop :=
  exists p0 p1, sep_ok p false s0 = Some p0 /\ sep_ok p0 false s1 = Some p1 /\
    uint_ok 65535 ic (N.of_nat (length data)) = true /\ hex_ok true p1 ws data = Some p3.

(* the \# form, where [g] is what the parser does with the octets it has read *)
Lemma generic_runs K (f : bool -> M bytes) (g : pos * bytes -> M bytes) s0 s1 ic ws data p p3 :
  generic_ok p s0 s1 ic ws data p3 -> eol_ok p3 e = true -> f true = bindM parse_unknown_rdata_impl g ->
  (forall v r, snd v = data -> g v r = Ok (data, r)) ->
  runs T (bindM (check_backslash_hash K) f) (generic_text s0 s1 ic ws data ++ render_eol e) p false data.
Proof.
  intros (p0 & p1 & Hs0 & Hs1 & Hu & Hh) He Ef Hg. unfold generic_text. rewrite <- !app_assoc.
  pose proof (sep_ok_inv _ _ _ _ Hs0) as [HP0 _]. pose proof (sep_ok_inv _ _ _ _ Hs1) as [HP1 HE1].
  eapply cbh_true_runsQ with (Q := fun w => w = data) in HP0 as R; [apply runs_of_runsQ; exact R| |].
  - intros t Ht. rewrite <- app_assoc. eapply fend_sep; [exact HP1|apply HE1; reflexivity].
  - rewrite Ef. eapply runsQ_map; [eapply unknown_impl_runsQ; eassumption|exact Hg].
Qed.

(* a type without a syntax of its own *)
Lemma unknown_runs K K' s0 s1 ic ws data p p3 : generic_ok p s0 s1 ic ws data p3 -> eol_ok p3 e = true ->
  runs T (bindM (check_backslash_hash K) (fun bh => if negb bh then failHere K' else parse_unknown_rdata))
       (generic_text s0 s1 ic ws data ++ render_eol e) p false data.
Proof.
  intros Hg He. eapply generic_runs; [exact Hg|exact He|reflexivity|]. intros v r <-. reflexivity.
Qed.

(* a type with a syntax of its own, written in the \# form: the data must be valid for the type *)
Lemma validated_runs K (typed : M bytes) validator s0 s1 ic ws data p p3 :
  generic_ok p s0 s1 ic ws data p3 -> eol_ok p3 e = true -> validator data = Ok true ->
  runs T (bindM (check_backslash_hash K) (fun bh => if bh then parse_unknown_rdata_with_validation validator else typed))
       (generic_text s0 s1 ic ws data ++ render_eol e) p false data.
Proof.
  intros Hg He Hv. eapply generic_runs; [exact Hg|exact He|reflexivity|]. intros [q d] r Hd. cbn [fst snd] in *. subst d. rewrite Hv. reflexivity.
Qed.
End Generic.

Lemma nth_error_map_seq {A} (f : nat -> A) : forall len k off, (off < len)%nat ->
  nth_error (map f (seq k len)) off = Some (f (k + off)%nat).
Proof.
  induction len as [|len IH]; intros k off H; [lia|]. destruct off as [|off]; cbn [seq map nth_error].
  - rewrite Nat.add_0_r. reflexivity.
  - rewrite IH by lia. f_equal. f_equal. lia.
Qed.

Lemma list_set_map_seq {A} (f : nat -> A) v : forall len k off, (off < len)%nat ->
  list_set (map f (seq k len)) off v = Some (map (fun i => if (i =? k + off)%nat then v else f i) (seq k len)).
Proof.
  induction len as [|len IH]; intros k off H; [lia|]. destruct off as [|off]; cbn [seq map list_set].
  - rewrite Nat.add_0_r, Nat.eqb_refl. f_equal. f_equal. apply map_ext_in. intros i Hi. apply in_seq in Hi.
    destruct (i =? k)%nat eqn:E; [apply Nat.eqb_eq in E; lia|reflexivity].
  - rewrite (IH (S k) off) by lia. destruct (k =? k + S off)%nat eqn:E; [apply Nat.eqb_eq in E; lia|].
    f_equal. f_equal. apply map_ext. intros i. replace (S k + off)%nat with (k + S off)%nat by lia. reflexivity.
Qed.

Lemma expect_field_ci_yes fld tok b : length tok = length fld -> eq_ignore_case tok fld = true ->
  Forall (fun c => c <> 10) tok -> runs fend (expect_field_ci fld) tok b b true.
Proof. apply expect_field_tok. Qed.

Lemma apply_case_no_nl lows s : forallb (fun c => negb (c =? 10) && negb (lower c =? 10)) s = true ->
  Forall (fun c => c <> 10) (apply_case lows s).
Proof.
  revert lows. induction s as [|c s IH]; intros lows H; [constructor|]. cbn [forallb] in H.
  apply andb_true_iff in H. destruct H as [Hc H]. apply andb_true_iff in Hc. destruct Hc as [H1 H2].
  apply negb_true_iff, N.eqb_neq in H1, H2. constructor; [destruct (hd false lows); assumption|apply IH; exact H].
Qed.

Lemma cased_word_runs lows w b : forallb (fun c => negb (c =? 10) && negb (lower c =? 10)) w = true ->
  runs fend (expect_field_ci w) (apply_case lows w) b b true.
Proof.
  intros H. apply expect_field_ci_yes; [apply apply_case_length|rewrite eqic_apply_case, eqic_lower; apply bytes_eqb_refl|apply apply_case_no_nl; exact H].
Qed.

Definition wks_bits (i : nat) (ports : list N) : list N :=
  map (fun p => if p / 8 =? N.of_nat i then 2 ^ (p mod 8) else 0) ports.

Lemma map_seq_const {A} (x : A) : forall n k, map (fun _ => x) (seq k n) = repeat x n.
Proof. induction n as [|n IH]; intros k; [reflexivity|]. cbn [seq map repeat]. rewrite IH. reflexivity. Qed.

(* the buffer as a function of the octet's index: every port ors its bit into its octet *)
Lemma wks_set_mapi len : forall ports (f : nat -> N), (forall p, In p ports -> (N.to_nat (p / 8) < len)%nat) ->
  wks_set (map f (seq 0 len)) ports = Some (map (fun i => fold_left N.lor (wks_bits i ports) (f i)) (seq 0 len)).
Proof.
  induction ports as [|p t IH]; intros f Hb; [reflexivity|]. cbn [wks_set].
  assert (Hp : (N.to_nat (p / 8) < len)%nat) by (apply Hb; left; reflexivity).
  rewrite nth_error_map_seq, list_set_map_seq by exact Hp. cbn [Nat.add].
  rewrite IH by (intros q Hq; apply Hb; right; exact Hq). f_equal. apply map_ext. intros i.
  unfold wks_bits at 2. cbn [map fold_left]. fold (wks_bits i t).
  destruct (i =? N.to_nat (p / 8))%nat eqn:E.
  - apply Nat.eqb_eq in E. subst i. rewrite N2Nat.id, N.eqb_refl. reflexivity.
  - apply Nat.eqb_neq in E. destruct (p / 8 =? N.of_nat i) eqn:E2; [apply N.eqb_eq in E2; rewrite E2, Nat2N.id in E; congruence|].
    rewrite N.lor_0_r. reflexivity.
Qed.

Lemma list_max_fold : forall l, l <> [] -> ZfParser.list_max l = Some (fold_right N.max 0 l).
Proof.
  induction l as [|x l IH]; intros H; [congruence|]. cbn [ZfParser.list_max fold_right].
  destruct l as [|y l]; [cbn; rewrite N.max_0_r; reflexivity|]. rewrite IH by discriminate. reflexivity.
Qed.

Lemma fold_max_ge : forall l p, In p l -> p <= fold_right N.max 0 l.
Proof.
  induction l as [|x l IH]; intros p H; [destruct H|]. cbn [fold_right]. destruct H as [->|H]; [lia|]. specialize (IH p H). lia.
Qed.

Lemma fold_max_bound : forall l b, Forall (fun p => p <= b) l -> fold_right N.max 0 l <= b.
Proof. induction 1 as [|x l Hx _ IH]; cbn [fold_right]; lia. Qed.

Lemma new_in_wks_runs (T : bytes -> Prop) addr proto ports p : length addr = 4%nat -> Forall (fun q => q <= 65535) ports ->
  runs T (new_in_wks addr proto ports) [] p p (addr ++ [proto] ++ @wks_bitmap impl_order ports).
Proof.
  intros Ha Hp. unfold new_in_wks, wks_bitmap, wks_len. destruct ports as [|q ports].
  - cbn [ZfParser.list_max repeat wks_set seq map]. apply mk_rdata_runs. rewrite !app_length, Ha. simpl. lia.
  - set (ps := q :: ports) in *. rewrite (list_max_fold ps) by discriminate. rewrite Nat.add_1_r.
    set (len := S (N.to_nat (fold_right N.max 0 ps / 8))).
    rewrite <- (map_seq_const 0 len 0).
    rewrite (wks_set_mapi len ps).
    + apply mk_rdata_runs. rewrite !app_length, map_length, seq_length, Ha. cbn [length].
      pose proof (fold_max_bound ps 65535 Hp) as Hm. subst len.
      pose proof (N.div_le_mono _ _ 8 ltac:(lia) Hm) as Hd. change (65535 / 8) with 8191 in Hd.
      revert Hd. generalize (fold_right N.max 0 ps / 8). intros m8 Hd. lia.
    + intros r Hr. subst len. pose proof (fold_max_ge ps r Hr) as Hle.
      pose proof (N.div_le_mono _ _ 8 ltac:(lia) Hle) as Hd. revert Hd. generalize (fold_right N.max 0 ps / 8) (r / 8). intros m8 r8 Hd. lia.
Qed.

Lemma expect_ci_differs_head fld r h l d fl : r_rest r = h :: l -> fld = d :: fl -> lower h <> lower d ->
  expect_field_ci fld r = Ok (false, r).
Proof.
  intros E -> H. apply expect_field_differs. rewrite E. cbn [length firstn eq_ignore_case]. apply N.eqb_neq in H. rewrite H. reflexivity.
Qed.

Definition proto_m : M N :=
  do tcp <- expect_field_ci [84; 67; 80];
  (if tcp then ret 6 else do udp <- expect_field_ci [85; 68; 80]; if udp then ret 17 else parse_u8 InvalidInt).

Lemma proto_runs pc p b : proto_ok pc p = true -> runs fend proto_m (render_proto pc p) b b p.
Proof.
  intros H. unfold proto_m. destruct pc as [lows|lows|ic]; cbn [proto_ok render_proto] in *.
  - apply N.eqb_eq in H. subst p. apply runs_app_nil.
    eapply runs_bind; [apply (cased_word_runs lows w_tcp); reflexivity|intros t Ht; exact Ht|]. cbv beta iota. apply runs_ret.
  - apply N.eqb_eq in H. subst p. eapply runs_peek.
    { intros r t E _. cbn [apply_case w_udp app] in E. eapply expect_ci_differs_head; [exact E|reflexivity|]. destruct (hd false lows); discriminate. }
    cbv beta iota. apply runs_app_nil.
    eapply runs_bind; [apply (cased_word_runs lows w_udp); reflexivity|intros t Ht; exact Ht|]. cbv beta iota. apply runs_ret.
  - (* a sign or a digit is neither T nor U *)
    destruct (render_uint_head ic p) as (h & tl & Eh & Hh).
    assert (Hl : lower h = h) by (unfold lower; destruct ((65 <=? h) && (h <=? 90)) eqn:E; [apply andb_true_iff in E; destruct E as [E1 E2]; apply N.leb_le in E1, E2; lia|reflexivity]).
    eapply runs_peek.
    { intros r t E _. rewrite Eh in E. cbn [app] in E. eapply expect_ci_differs_head; [exact E|reflexivity|]. rewrite Hl. change (lower 84) with 116. lia. }
    cbv beta iota. eapply runs_peek.
    { intros r t E _. rewrite Eh in E. cbn [app] in E. eapply expect_ci_differs_head; [exact E|reflexivity|]. rewrite Hl. change (lower 85) with 117. lia. }
    cbv beta iota. apply (uint_field_runs U8_MAX); [unfold U8_MAX; lia|exact H].
Qed.

Definition is_port (f : fval) : Prop := exists p, f = VPort p.

Lemma ports_wire_nil fs : Forall is_port fs -> flat_map field_wire fs = [].
Proof. induction 1 as [|f fs [p ->] _ IH]; [reflexivity|]. cbn [flat_map field_wire app]. exact IH. Qed.

Lemma sep_render_nonempty s : sep_empty s = false -> render_sep s <> [].
Proof.
  unfold sep_empty, render_sep. destruct (s_groups s) as [|[bl it] gs].
  - destruct (s_tail s); [discriminate|]. intros _. discriminate.
  - intros _ Hn. cbn [flat_map] in Hn. unfold render_group_s in Hn at 1. cbn [fst snd] in Hn.
    apply app_eq_nil in Hn. destruct Hn as [Hn _]. apply app_eq_nil in Hn. destruct Hn as [Hn _]. apply app_eq_nil in Hn. destruct Hn as [_ Hn].
    destruct it as [| |[|]|? ?]; discriminate Hn.
Qed.

Lemma ports_value fs : Forall is_port fs -> forallb value_ok fs = true -> Forall (fun q => q <= 65535) (ports_of fs).
Proof.
  induction 1 as [|f fs [p ->] _ IH]; intros Hv; [constructor|]. cbn [forallb] in Hv. apply andb_true_iff in Hv. destruct Hv as [Hp Hv].
  cbn [ports_of flat_map app]. constructor; [cbn [value_ok] in Hp; apply N.leb_le; exact Hp|apply IH; exact Hv].
Qed.

Lemma wks_wire a b c d proto fs : Forall is_port fs ->
  rdata_wire (AFields (VIp4 a b c d :: VProto proto :: fs)) = [a; b; c; d] ++ [proto] ++ wks_bitmap (ports_of fs).
Proof.
  intros H. cbn [rdata_wire]. change (ports_of (VIp4 a b c d :: VProto proto :: fs)) with (ports_of fs).
  change (flat_map field_wire (VIp4 a b c d :: VProto proto :: fs)) with ([a; b; c; d] ++ [proto] ++ flat_map field_wire fs).
  rewrite (ports_wire_nil fs H). destruct (ports_of fs) eqn:E; [reflexivity|]. rewrite app_nil_r. reflexivity.
Qed.

Lemma string_ok_len first sc s : string_ok first sc s = true -> (length s <= 255)%nat.
Proof. unfold string_ok. intros H. apply andb_true_iff in H. destruct H as [H _]. apply Nat.leb_le. exact H. Qed.

Lemma chunk_wire s : (length s <= 255)%nat -> (N.of_nat (length s) mod 256) :: s = string_wire s.
Proof. intros H. unfold string_wire. rewrite N.mod_small by lia. reflexivity. Qed.

Definition chunk_of (f : fval) : bytes := match f with VStr s => (N.of_nat (length s) mod 256) :: s | _ => [] end.
Definition is_str (f : fval) : Prop := exists s, f = VStr s.

Lemma value_str s : value_ok (VStr s) = true -> (length s <= 255)%nat.
Proof. cbn [value_ok]. intros H. apply andb_true_iff in H. destruct H as [H _]. apply Nat.leb_le. exact H. Qed.

Lemma concat_chunks fs : Forall is_str fs -> forallb value_ok fs = true -> concat (map chunk_of fs) = flat_map field_wire fs.
Proof.
  induction 1 as [|f fs [s ->] _ IH]; intros Hv; [reflexivity|]. cbn [forallb] in Hv. apply andb_true_iff in Hv. destruct Hv as [Hs Hv].
  cbn [map concat flat_map chunk_of field_wire]. rewrite (IH Hv), (chunk_wire s (value_str s Hs)). reflexivity.
Qed.

Lemma txt_valid fs : fs <> [] -> Forall is_str fs -> forallb value_ok fs = true -> validate_as_txt (flat_map field_wire fs) = Ok true.
Proof.
  intros Hne Hall Hv. rewrite <- (concat_chunks fs Hall Hv). apply ok_txt; [|destruct fs; [congruence|discriminate]].
  apply Forall_forall. intros c Hc. apply in_map_iff in Hc. destruct Hc as (f & <- & Hf).
  rewrite Forall_forall in Hall. destruct (Hall f Hf) as [s ->]. exists s. split; [|reflexivity].
  apply value_str. rewrite forallb_forall in Hv. apply Hv. exact Hf.
Qed.

Lemma str_ports fs : Forall is_str fs -> ports_of fs = [].
Proof. induction 1 as [|f fs [s ->] _ IH]; [reflexivity|]. cbn [ports_of flat_map app]. exact IH. Qed.

Lemma str_wire fs : Forall is_str fs -> rdata_wire (AFields fs) = flat_map field_wire fs.
Proof. intros H. cbn [rdata_wire]. rewrite (str_ports fs H). reflexivity. Qed.

Lemma rdata_ok_inv o p class type dc d p3 : rdata_ok o p class type dc d = Some p3 ->
  N.of_nat (length (rdata_wire d)) <= 65535 /\ rdata_fits class type d = true /\
  ((exists cs fs, dc = DFields cs /\ d = AFields fs /\ fields_ok o true false p cs fs = Some p3) \/
   (exists s0 s1 ic ws, dc = DGeneric s0 s1 ic ws /\ generic_ok p s0 s1 ic ws (rdata_wire d) p3)).
Proof.
  unfold rdata_ok. destruct (rdata_fits class type d) eqn:Ef; [|discriminate]. cbn [andb].
  destruct (N.of_nat (length (rdata_wire d)) <=? 65535) eqn:El; [|discriminate]. apply N.leb_le in El.
  intros H. split; [exact El|]. split; [reflexivity|]. destruct dc as [cs|s0 s1 ic ws].
  - destruct d as [fs|data]; [|discriminate]. left. eauto.
  - right. exists s0, s1, ic, ws. split; [reflexivity|]. unfold generic_ok.
    destruct (sep_ok p false s0) as [p0|] eqn:E0; [|discriminate]. destruct (sep_ok p0 false s1) as [p1|] eqn:E1; [|discriminate].
    destruct (uint_ok 65535 ic _) eqn:Eu; [|discriminate]. exists p0, p1. repeat split; auto.
Qed.

(* parse_rdata and rform_of make the same distinction of cases *)
Lemma parse_rdata_cases (P : rform -> M bytes -> Prop) c class type :
  P (FFixed [KName]) (parse_name_rdata c) -> P (FFixed [KIp4]) parse_in_a_rdata -> P (FFixed [KName; KOct]) (parse_ch_a_rdata c) ->
  P (FFixed [KName; KName; KU32; KU32; KU32; KU32; KU32]) (parse_soa_rdata c) -> P FWks parse_in_wks_rdata ->
  P (FFixed [KStr; KStr]) parse_hinfo_rdata -> P (FFixed [KName; KName]) (parse_minfo_rdata c) ->
  P (FFixed [KU16; KName]) (parse_mx_rdata c) -> P FTxt parse_txt_rdata -> P (FFixed [KIp6]) parse_in_aaaa_rdata ->
  P (FFixed [KU16; KU16; KU16; KName]) (parse_in_srv_rdata c) ->
  P FNone (do bh <- check_backslash_hash ExpectedBackslashHash; if negb bh then failHere ExpectedBackslashHash else parse_unknown_rdata) ->
  P (rform_of class type) (parse_rdata c class type).
Proof.
  intros. cbv [parse_rdata rform_of in_types name_rdata_types name_types TYPE_NS TYPE_MD TYPE_MF TYPE_CNAME TYPE_MB TYPE_MG TYPE_MR TYPE_PTR
    TYPE_A TYPE_SOA TYPE_WKS TYPE_HINFO TYPE_MINFO TYPE_MX TYPE_TXT TYPE_AAAA TYPE_SRV CLASS_IN CLASS_CH].
  destruct (existsb (N.eqb type) [2; 3; 4; 5; 7; 8; 9; 12]); [assumption|].
  destruct ((type =? 1) && (class =? 1)); [assumption|]. destruct ((type =? 1) && (class =? 3)); [assumption|].
  destruct (type =? 6); [assumption|]. destruct ((type =? 11) && (class =? 1)); [assumption|].
  destruct (type =? 13); [assumption|]. destruct (type =? 14); [assumption|]. destruct (type =? 15); [assumption|].
  destruct (type =? 16); [assumption|]. destruct ((type =? 28) && (class =? 1)); [assumption|].
  destruct ((type =? 33) && (class =? 1)); assumption.
Qed.

Lemma good_name_of ls : good_labels ls -> good_name (name_of ls).
Proof. intros H. exists ls. auto. Qed.

Lemma value_name ls : value_ok (VName ls) = true -> good_labels ls.
Proof. apply good_labels_b_spec. Qed.

Lemma flat_sbe16_len : forall l : list N, length (flat_map sbe16 l) = (2 * length l)%nat.
Proof. induction l as [|g l IH]; [reflexivity|]. cbn [flat_map]. rewrite app_length, IH. change (length (sbe16 g)) with 2%nat. cbn [length]. lia. Qed.

Section Typed.
Variable x : sctx.
Hypothesis Hx : sctx_good x.
Variables (e : eolc).
Let T := eoft (e_term e).
Let o := x_origin x.
Notation dflt := (sep_none, CPlain).

Lemma sep_step {B} K (body : M B) first closed p cs f fs p3 w :
  fields_ok o first closed p cs (f :: fs) = Some p3 ->
  (forall q, field_ok first o (snd (hd dflt cs)) f = true ->
             fields_ok o false (field_closed (snd (hd dflt cs)) f) q (tl cs) fs = Some p3 ->
             runs T body (render_field (snd (hd dflt cs)) f ++ render_fields (tl cs) fs ++ render_eol e) q false w) ->
  runs T (skip_to_next_field K ;; body) (render_fields cs (f :: fs) ++ render_eol e) p false w.
Proof.
  intros H Hb. apply fields_ok_cons in H. destruct H as (q & Hs & Hf & H). apply sep_ok_inv in Hs. destruct Hs as [Hs _].
  cbn [render_fields]. rewrite <- !app_assoc.
  eapply runs_bind; [apply skip_to_next_field_runs; exact Hs|intros t Ht; rewrite <- app_assoc; eapply field_fstart; exact Hf|apply Hb; assumption].
Qed.

Lemma field_then {A B} (m : M A) (k : A -> M B) closed q cs fs p3 X v w :
  fields_ok o false closed q cs fs = Some p3 -> eol_ok p3 e = true -> runs (ftail closed) m X q q v ->
  runs T (k v) (render_fields cs fs ++ render_eol e) q false w ->
  runs T (bindM m k) (X ++ render_fields cs fs ++ render_eol e) q false w.
Proof. intros H He Hm Hk. eapply runs_bind; [exact Hm|intros t Ht; eapply fields_tail; eassumption|exact Hk]. Qed.

Lemma field_step {A B} K (m : M A) (k : A -> M B) first closed p cs f fs p3 v w :
  fields_ok o first closed p cs (f :: fs) = Some p3 -> eol_ok p3 e = true ->
  (field_ok first o (snd (hd dflt cs)) f = true ->
   forall q, runs (ftail (field_closed (snd (hd dflt cs)) f)) m (render_field (snd (hd dflt cs)) f) q q v) ->
  (forall q, fields_ok o false (field_closed (snd (hd dflt cs)) f) q (tl cs) fs = Some p3 ->
             runs T (k v) (render_fields (tl cs) fs ++ render_eol e) q false w) ->
  runs T (skip_to_next_field K ;; bindM m k) (render_fields cs (f :: fs) ++ render_eol e) p false w.
Proof. intros H He Hm Hk. eapply sep_step; [exact H|]. intros q Hf H1. eapply field_then; [exact H1|exact He|apply Hm, Hf|apply Hk, H1]. Qed.

Lemma fields_end closed q cs p3 l : fields_ok o false closed q cs [] = Some p3 -> eol_ok p3 e = true ->
  N.of_nat (length l) <= 65535 -> runs T (expect_eol ;; mk_rdata l) (render_fields cs [] ++ render_eol e) q false l.
Proof.
  intros H He Hl. apply fields_ok_nil in H. subst p3. cbn [render_fields app]. apply runs_app_nil.
  eapply runs_bind; [apply expect_eol_runs; exact He|intros t Ht; exact Ht|apply mk_rdata_runs; exact Hl].
Qed.

Lemma name_field_runs first fc ls : field_ok first o fc (VName ls) = true ->
  forall q, runs fend (parse_name (c_origin (ctx_of x))) (render_field fc (VName ls)) q q (name_of ls).
Proof. intros H q. exact (name_runs _ _ _ _ _ _ (fok_name _ _ _ _ H) Hx). Qed.

Lemma u16_field_runs k first fc n : field_ok first o fc (VU16 n) = true ->
  forall q, runs fend (parse_u16 k) (render_field fc (VU16 n)) q q n.
Proof. intros H q. apply u16_runs. eapply fok_u16, H. Qed.

Lemma u32_field_runs k first fc n : field_ok first o fc (VU32 n) = true ->
  forall q, runs fend (parse_u32 k) (render_field fc (VU32 n)) q q n.
Proof. intros H q. apply u32_runs. eapply fok_u32, H. Qed.

Lemma str_field_runs first fc s : field_ok first o fc (VStr s) = true ->
  forall q, runs (ftail (field_closed fc (VStr s))) parse_character_string (render_field fc (VStr s)) q q s.
Proof. intros H q. destruct (fok_str_inv _ _ _ _ H) as (sc & -> & Hk). rewrite fclosed_str. eapply string_runs, Hk. Qed.

(* [m] reads the RDATA of the types whose fields have the form [form], written either way *)
Definition reads_form (form : rform) (m : M bytes) : Prop := forall class type dc d p p3,
  rform_of class type = form -> bo = impl_order \/ wks_listed dc d = false ->
  rdata_ok o p class type dc d = Some p3 -> eol_ok p3 e = true ->
  runs T m (render_rdata dc d ++ render_eol e) p false (rdata_wire d).

(* a type with a syntax of its own: what is to be shown of its parser [typed] and of its validator (the
   validator accepts the wire form: needed when the same values are written in the \# form, validated_runs) *)
Lemma typed_case K validator typed form :
  (forall class type fs, rform_of class type = form -> fields_fit class type fs = true ->
     N.of_nat (length (rdata_wire (AFields fs))) <= 65535 ->
     fs <> [] /\ validator (rdata_wire (AFields fs)) = Ok true /\
     forall cs p p3, bo = impl_order \/ ports_of fs = [] -> fields_ok o true false p cs fs = Some p3 -> eol_ok p3 e = true ->
       runs T (skip_to_next_field K ;; typed) (render_fields cs fs ++ render_eol e) p false (rdata_wire (AFields fs))) ->
  form <> FNone ->
  reads_form form (bindM (check_backslash_hash K) (fun bh => if bh then parse_unknown_rdata_with_validation validator else typed)).
Proof.
  intros Hcase Hform class type dc d p p3 Ef Hord H He. apply rdata_ok_inv in H. destruct H as (Hlen & Hfit & Hlay).
  destruct d as [fs|data]; [|unfold rdata_fits in Hfit; rewrite Ef in Hfit; destruct form; congruence].
  destruct (Hcase class type fs Ef Hfit Hlen) as (Hne & Hval & Htyped).
  destruct Hlay as [(cs & fs' & -> & [= <-] & Hok)|(s0 & s1 & ic & ws & -> & Hgen)].
  - cbn [render_rdata]. destruct fs as [|f fs]; [congruence|].
    assert (R : runs T (skip_to_next_field K ;; typed) (render_fields cs (f :: fs) ++ render_eol e) p false (rdata_wire (AFields (f :: fs)))).
    { eapply Htyped; [|exact Hok|exact He]. destruct Hord as [Hi|Hw]; [left; exact Hi|right].
      cbn [wks_listed] in Hw. destruct (ports_of (f :: fs)); [reflexivity|discriminate]. }
    destruct (fields_ok_cons _ _ _ _ _ _ _ _ Hok) as (q & Hs & Hf & _). apply sep_ok_inv in Hs. destruct Hs as [Hs _].
    cbn [render_fields] in R |- *. rewrite <- app_assoc in R |- *.
    eapply cbh_false_runs; [exact Hs|apply starts_app, starts_app, (field_starts _ _ _ _ Hf)|exact R].
  - eapply validated_runs; eassumption.
Qed.

Lemma fixed_case K validator typed ks :
  (forall fs, forallb value_ok fs = true -> kinds_eqb (map kind_of fs) ks = true ->
     N.of_nat (length (rdata_wire (AFields fs))) <= 65535 ->
     fs <> [] /\ validator (rdata_wire (AFields fs)) = Ok true /\
     forall cs p p3, fields_ok o true false p cs fs = Some p3 -> eol_ok p3 e = true ->
       runs T (skip_to_next_field K ;; typed) (render_fields cs fs ++ render_eol e) p false (rdata_wire (AFields fs))) ->
  reads_form (FFixed ks) (bindM (check_backslash_hash K) (fun bh => if bh then parse_unknown_rdata_with_validation validator else typed)).
Proof.
  intros Hcase. apply typed_case; [|discriminate]. intros class type fs Ef Hfit Hlen. unfold fields_fit in Hfit. rewrite Ef in Hfit.
  apply andb_true_iff in Hfit. destruct Hfit as [Hv Hk]. destruct (Hcase fs Hv Hk Hlen) as (Hne & Hval & Hty).
  split; [exact Hne|]. split; [exact Hval|]. intros cs p p3 _. apply Hty.
Qed.

(* the fields of a list whose kinds are given *)
Ltac inv_kinds H fs :=
  repeat (destruct fs as [|?f fs]; [try discriminate H|destruct f; try discriminate H];
          cbn [map kind_of kinds_eqb fkind_eqb andb] in H).
(* value_ok of each of them: Hv0 for the first field, Hv1 for the second, ... (up to seven fields) *)
Ltac split_values Hv :=
  cbn [forallb] in Hv; apply andb_true_iff in Hv; destruct Hv as [Hv0 Hv];
  try (apply andb_true_iff in Hv; destruct Hv as [Hv1 Hv];
  try (apply andb_true_iff in Hv; destruct Hv as [Hv2 Hv];
  try (apply andb_true_iff in Hv; destruct Hv as [Hv3 Hv];
  try (apply andb_true_iff in Hv; destruct Hv as [Hv4 Hv];
  try (apply andb_true_iff in Hv; destruct Hv as [Hv5 Hv];
  try (apply andb_true_iff in Hv; destruct Hv as [Hv6 Hv])))))).

(* NS, MD, MF, CNAME, MB, MG, MR, PTR: one name *)
Lemma name_rdata_runs : reads_form (FFixed [KName]) (parse_name_rdata (ctx_of x)).
Proof.
  apply fixed_case. intros fs Hv Hk Hlen. inv_kinds Hk fs. split_values Hv.
  cbn [rdata_wire ports_of flat_map field_wire app] in *. rewrite app_nil_r in *.
  split; [discriminate|]. split; [apply vname_all_wire, value_name, Hv0|]. intros cs p p3 H He.
  eapply field_step; [exact H|exact He|apply name_field_runs|intros q1 H1]. eapply fields_end; eassumption.
Qed.

Lemma in_a_runs : reads_form (FFixed [KIp4]) parse_in_a_rdata.
Proof.
  apply fixed_case. intros fs Hv Hk Hlen. inv_kinds Hk fs. cbn [rdata_wire ports_of flat_map field_wire app] in *.
  split; [discriminate|]. split; [reflexivity|]. intros cs p p3 H He.
  eapply field_step; [exact H|exact He|intros Hf q; apply ip4_field_runs; eapply fok_ip4, Hf|intros q1 H1]. eapply fields_end; eassumption.
Qed.

(* A in class CH: LAN name, octal address *)
Lemma ch_a_runs : reads_form (FFixed [KName; KOct]) (parse_ch_a_rdata (ctx_of x)).
Proof.
  apply fixed_case. intros fs Hv Hk Hlen. inv_kinds Hk fs. split_values Hv.
  cbn [rdata_wire ports_of flat_map field_wire app] in *. rewrite app_nil_r in *.
  split; [discriminate|]. split; [apply (ok_ch_a (name_of _)), good_name_of, value_name, Hv0|]. intros cs p p3 H He.
  eapply field_step; [exact H|exact He|apply name_field_runs|intros q1 H1].
  eapply field_step; [exact H1|exact He|intros Hf q; apply oct_field_runs; eapply fok_oct, Hf|intros q2 H2]. eapply fields_end; eassumption.
Qed.

(* SOA: MNAME RNAME SERIAL REFRESH RETRY EXPIRE MINIMUM *)
Lemma soa_runs : reads_form (FFixed [KName; KName; KU32; KU32; KU32; KU32; KU32]) (parse_soa_rdata (ctx_of x)).
Proof.
  apply fixed_case. intros fs Hv Hk Hlen. inv_kinds Hk fs. split_values Hv.
  cbn [rdata_wire ports_of flat_map field_wire app] in *. rewrite app_nil_r in *.
  split; [discriminate|]. split.
  { apply (ok_soa (name_of _) (name_of _)); [apply good_name_of, value_name, Hv0|apply good_name_of, value_name, Hv1|reflexivity]. }
  intros cs p p3 H He.
  eapply field_step; [exact H|exact He|apply name_field_runs|intros q1 H1].
  eapply field_step; [exact H1|exact He|apply name_field_runs|intros q2 H2].
  eapply field_step; [exact H2|exact He|apply u32_field_runs|intros q3 H3].
  eapply field_step; [exact H3|exact He|apply u32_field_runs|intros q4 H4].
  eapply field_step; [exact H4|exact He|apply u32_field_runs|intros q5 H5].
  eapply field_step; [exact H5|exact He|apply u32_field_runs|intros q6 H6].
  eapply field_step; [exact H6|exact He|apply u32_field_runs|intros q7 H7]. eapply fields_end; eassumption.
Qed.

(* HINFO: CPU, OS *)
Lemma hinfo_runs : reads_form (FFixed [KStr; KStr]) parse_hinfo_rdata.
Proof.
  apply fixed_case. intros fs Hv Hk Hlen. inv_kinds Hk fs. split_values Hv.
  cbn [rdata_wire ports_of flat_map field_wire app] in *. rewrite app_nil_r in *.
  rewrite <- (chunk_wire _ (value_str _ Hv0)), <- (chunk_wire _ (value_str _ Hv1)) in *.
  split; [discriminate|]. split; [apply ok_hinfo; apply value_str; assumption|]. intros cs p p3 H He.
  eapply field_step; [exact H|exact He|apply str_field_runs|intros q1 H1].
  eapply field_step; [exact H1|exact He|apply str_field_runs|intros q2 H2]. eapply fields_end; eassumption.
Qed.

Lemma minfo_runs : reads_form (FFixed [KName; KName]) (parse_minfo_rdata (ctx_of x)).
Proof.
  apply fixed_case. intros fs Hv Hk Hlen. inv_kinds Hk fs. split_values Hv.
  cbn [rdata_wire ports_of flat_map field_wire app] in *. rewrite app_nil_r in *.
  split; [discriminate|]. split; [apply (ok_minfo (name_of _) (name_of _)); apply good_name_of, value_name; assumption|].
  intros cs p p3 H He.
  eapply field_step; [exact H|exact He|apply name_field_runs|intros q1 H1].
  eapply field_step; [exact H1|exact He|apply name_field_runs|intros q2 H2]. eapply fields_end; eassumption.
Qed.

(* MX: preference, exchange *)
Lemma mx_runs : reads_form (FFixed [KU16; KName]) (parse_mx_rdata (ctx_of x)).
Proof.
  apply fixed_case. intros fs Hv Hk Hlen. inv_kinds Hk fs. split_values Hv.
  cbn [rdata_wire ports_of flat_map field_wire app] in *. rewrite app_nil_r in *.
  split; [discriminate|]. split; [apply (ok_mx _ (name_of _)), good_name_of, value_name, Hv1|]. intros cs p p3 H He.
  eapply field_step; [exact H|exact He|apply u16_field_runs|intros q1 H1].
  eapply field_step; [exact H1|exact He|apply name_field_runs|intros q2 H2]. eapply fields_end; eassumption.
Qed.

Lemma in_aaaa_runs : reads_form (FFixed [KIp6]) parse_in_aaaa_rdata.
Proof.
  apply fixed_case. intros fs Hv Hk Hlen. inv_kinds Hk fs. split_values Hv.
  cbn [rdata_wire ports_of flat_map field_wire app] in *. rewrite app_nil_r in *.
  split; [discriminate|]. split.
  { unfold validate_as_in_aaaa. rewrite flat_sbe16_len. cbn [value_ok] in Hv0. apply andb_true_iff in Hv0. destruct Hv0 as [L _].
    apply Nat.eqb_eq in L. rewrite L. reflexivity. }
  intros cs p p3 H He.
  eapply field_step; [exact H|exact He|intros Hf q; apply ip6_field_runs; eapply fok_ip6, Hf|intros q1 H1]. eapply fields_end; eassumption.
Qed.

(* SRV: priority, weight, port, target *)
Lemma srv_runs : reads_form (FFixed [KU16; KU16; KU16; KName]) (parse_in_srv_rdata (ctx_of x)).
Proof.
  apply fixed_case. intros fs Hv Hk Hlen. inv_kinds Hk fs. split_values Hv.
  cbn [rdata_wire ports_of flat_map field_wire app] in *. rewrite app_nil_r in *.
  split; [discriminate|]. split; [apply (ok_srv _ _ _ (name_of _)), good_name_of, value_name, Hv3|]. intros cs p p3 H He.
  eapply field_step; [exact H|exact He|apply u16_field_runs|intros q1 H1].
  eapply field_step; [exact H1|exact He|apply u16_field_runs|intros q2 H2].
  eapply field_step; [exact H2|exact He|apply u16_field_runs|intros q3 H3].
  eapply field_step; [exact H3|exact He|apply name_field_runs|intros q4 H4]. eapply fields_end; eassumption.
Qed.

Lemma unknown_rdata_runs :
  reads_form FNone (do bh <- check_backslash_hash ExpectedBackslashHash; if negb bh then failHere ExpectedBackslashHash else parse_unknown_rdata).
Proof.
  intros class type dc d p p3 Ef _ H He. apply rdata_ok_inv in H. destruct H as (_ & Hfit & Hlay).
  unfold rdata_fits, fields_fit in Hfit. rewrite Ef in Hfit. destruct d as [fs|data]; [rewrite andb_false_r in Hfit; discriminate|].
  destruct Hlay as [(cs & fs' & _ & Hd & _)|(z0 & z1 & ic & ws & -> & Hgen)]; [discriminate|]. eapply unknown_runs; eassumption.
Qed.

Lemma txt_loop_runs start : forall fs cs sc s first p1 p3 written chunks_rev fuel,
  string_ok first sc s = true -> fields_ok o false (string_closed sc) p1 cs fs = Some p3 -> Forall is_str fs ->
  eol_ok p3 e = true -> written + N.of_nat (length (flat_map field_wire (VStr s :: fs))) <= 65535 ->
  runsN fuel T (txt_loop fuel start written chunks_rev)
        (render_string sc s ++ render_fields cs fs ++ render_eol e) p1 false
        (rev (map chunk_of (VStr s :: fs)) ++ chunks_rev).
Proof.
  induction fs as [|f fs IH]; intros cs sc s first p1 p3 written chunks_rev fuel Hk H Hall He Hlen;
    (destruct fuel as [|fuel]; [apply runsN_0|]); cbn [txt_loop].
  all: eapply runsN_bind_dec;
    [eapply string_runs; exact Hk|destruct (string_starts _ _ _ Hk) as (h & tl & -> & _); discriminate
    |intros t Ht; eapply fields_tail; eassumption|]; cbv beta zeta.
  all: change (flat_map field_wire (VStr s :: ?l)) with (string_wire s ++ flat_map field_wire l) in Hlen;
    unfold string_wire in Hlen at 1; rewrite app_length in Hlen; cbn [length] in Hlen.
  all: rewrite (proj2 (N.ltb_ge 65535 (written + N.of_nat (length s) + 1))) by lia.
  - apply fields_ok_nil in H. subst p3. cbn [render_fields app].
    apply runs_N. apply runs_app_nil. eapply runs_bind; [apply through_eol_runs; exact He|intros t Ht; exact Ht|].
    cbv beta iota. cbn [map rev chunk_of app]. apply runs_ret.
  - inversion Hall as [|? ? [s2 ->] Hall']; subst.
    destruct (fields_ok_cons _ _ _ _ _ _ _ _ H) as (q & Hs & Hf & H'). apply sep_ok_inv in Hs. destruct Hs as [Hs _].
    destruct (fok_str_inv _ _ _ _ Hf) as (sc2 & E2 & Hk2). cbn [render_fields]. rewrite E2 in *. cbn [render_field fc_str]. rewrite fclosed_str in H'.
    rewrite <- !app_assoc.
    eapply runsN_bind; [apply through_field_runs; exact Hs|intros t Ht; rewrite <- app_assoc; eapply (starts_fstart false), string_starts, Hk2|].
    cbv beta iota.
    replace (rev (map chunk_of (VStr s :: VStr s2 :: fs)) ++ chunks_rev)
      with (rev (map chunk_of (VStr s2 :: fs)) ++ chunk_of (VStr s) :: chunks_rev)
      by (cbn [map rev]; rewrite <- !app_assoc; reflexivity).
    eapply IH; [exact Hk2|exact H'|exact Hall'|exact He|lia].
Qed.

Lemma txt_runs : reads_form FTxt parse_txt_rdata.
Proof.
  apply typed_case; [|discriminate]. intros class type fs Ef Hfit Hlen. unfold fields_fit in Hfit. rewrite Ef in Hfit.
  apply andb_true_iff in Hfit. destruct Hfit as [Hv Hk]. apply andb_true_iff in Hk. destruct Hk as [Hne Hstr].
  assert (Hall : Forall is_str fs).
  { apply Forall_forall. intros f Hf. rewrite forallb_forall in Hstr. specialize (Hstr f Hf). destruct f; try discriminate Hstr. eexists. reflexivity. }
  rewrite (str_wire _ Hall) in *. destruct fs as [|f fs]; [discriminate Hne|].
  split; [discriminate|]. split; [apply txt_valid; [discriminate|exact Hall|exact Hv]|]. intros cs p p3 _ H He.
  eapply sep_step; [exact H|intros q Hf H1]. inversion Hall as [|? ? [s ->] Hall']; subst.
  destruct (fok_str_inv _ _ _ _ Hf) as (sc & E1 & Hk). rewrite E1 in *. cbn [render_field fc_str]. rewrite fclosed_str in H1.
  apply runs_getpos. intros start. apply runs_get_fuel. intros fuel. apply runsN_app_nil.
  eapply runsN_bind_l; [eapply (txt_loop_runs start fs (tl cs) sc s true q p3 0 [] fuel); eassumption|intros t Ht; exact Ht|].
  cbv beta. rewrite app_nil_r, rev_fast_rev, rev_involutive, (concat_chunks _ Hall Hv). apply mk_rdata_runs. exact Hlen.
Qed.

Lemma wks_loop_runs start : forall fs cs p1 p3 count ports_rev fuel,
  fields_ok o false false p1 cs fs = Some p3 -> Forall is_port fs -> eol_ok p3 e = true ->
  count + N.of_nat (length fs) <= 65535 ->
  runsN fuel T (wks_loop fuel start count ports_rev) (render_fields cs fs ++ render_eol e) p1 false
        (rev (ports_of fs) ++ ports_rev).
Proof.
  induction fs as [|f fs IH]; intros cs p1 p3 count ports_rev fuel H Hall He Hc;
    (destruct fuel as [|fuel]; [apply runsN_0|]); cbn [wks_loop].
  - apply fields_ok_nil in H. subst p3. cbn [render_fields app ports_of flat_map rev].
    apply runs_N. apply runs_app_nil. eapply runs_bind; [apply through_eol_runs; exact He|intros t Ht; exact Ht|].
    cbv beta iota. apply runs_ret.
  - apply fields_ok_cons in H. destruct H as (q & Hs & Hf & H). pose proof (sep_ok_inv _ _ _ _ Hs) as [HP HE].
    inversion Hall as [|? ? [pp ->] Hall']; subst. cbn [length] in Hc.
    cbn [render_fields]. rewrite <- !app_assoc.
    eapply runsN_bind_dec; [apply through_field_runs; exact HP|apply sep_render_nonempty, HE; reflexivity
                           |intros t Ht; rewrite <- app_assoc; eapply field_fstart; exact Hf|].
    cbv beta iota. rewrite (proj2 (N.leb_gt 65535 count)) by lia.
    eapply runsN_bind; [apply u16_runs; eapply fok_port, Hf|intros t Ht; eapply (fields_tail _ _ false); eassumption|].
    cbv beta.
    replace (rev (ports_of (VPort pp :: fs)) ++ ports_rev) with (rev (ports_of fs) ++ pp :: ports_rev)
      by (cbn [ports_of flat_map app rev]; fold (ports_of fs); rewrite <- app_assoc; reflexivity).
    eapply IH; [exact H|exact Hall'|exact He|lia].
Qed.

Theorem wks_runs : reads_form FWks parse_in_wks_rdata.
Proof.
  apply typed_case; [|discriminate]. intros class type fs Ef Hfit Hlen. unfold fields_fit in Hfit. rewrite Ef in Hfit.
  apply andb_true_iff in Hfit. destruct Hfit as [Hv Hk]. destruct fs as [|f1 [|f2 ports]]; try discriminate Hk.
  apply andb_true_iff in Hk. destruct Hk as [Hk Hcount]. apply andb_true_iff in Hk. destruct Hk as [Hk Hports].
  apply andb_true_iff in Hk. destruct Hk as [Hk1 Hk2]. destruct f1; try discriminate Hk1. destruct f2; try discriminate Hk2.
  apply N.leb_le in Hcount.
  assert (Hall : Forall is_port ports).
  { apply Forall_forall. intros f Hf. rewrite forallb_forall in Hports. specialize (Hports f Hf). destruct f; try discriminate Hports. eexists. reflexivity. }
  cbn [forallb] in Hv. apply andb_true_iff in Hv. destruct Hv as [_ Hv]. apply andb_true_iff in Hv. destruct Hv as [_ Hv].
  rewrite (wks_wire _ _ _ _ _ _ Hall) in *. split; [discriminate|]. split; [reflexivity|]. intros cs p0 p3 Hord H He.
  (* the two numberings agree on the bit map *)
  replace (wks_bitmap (ports_of ports)) with (@wks_bitmap impl_order (ports_of ports))
    by (destruct Hord as [->|Ep]; [reflexivity|change (ports_of (VIp4 a b c d :: VProto p :: ports)) with (ports_of ports) in Ep; rewrite Ep; reflexivity]).
  eapply sep_step; [exact H|intros q1 Hf1 H1]. apply runs_getpos. intros start.
  eapply field_then; [exact H1|exact He|apply ip4_field_runs; eapply fok_ip4, Hf1|]. cbv beta.
  eapply sep_step; [exact H1|intros q2 Hf2 H2].
  eapply runs_eq; [intros r; symmetry; apply (bindM_assoc (expect_field_ci [84; 67; 80]))|].
  eapply field_then; [exact H2|exact He|apply proto_runs; eapply fok_proto, Hf2|]. cbv beta.
  apply runs_get_fuel. intros fuel. apply runsN_app_nil.
  eapply runsN_bind_l; [eapply (wks_loop_runs start); [exact H2|exact Hall|exact He|lia]|intros t Ht; exact Ht|].
  cbv beta. rewrite app_nil_r, rev_fast_rev, rev_involutive. apply new_in_wks_runs; [reflexivity|apply ports_value; assumption].
Qed.
End Typed.

Theorem rdata_runs x class type dc d e p p3 : sctx_good x -> bo = impl_order \/ wks_listed dc d = false ->
  rdata_ok (x_origin x) p class type dc d = Some p3 -> eol_ok p3 e = true ->
  runs (eoft (e_term e)) (parse_rdata (ctx_of x) class type) (render_rdata dc d ++ render_eol e) p false (rdata_wire d).
Proof.
  intros Hx Hord H He.
  assert (R : reads_form x e (rform_of class type) (parse_rdata (ctx_of x) class type)); [|exact (R class type dc d p p3 eq_refl Hord H He)].
  apply parse_rdata_cases.
  - apply name_rdata_runs, Hx.
  - apply in_a_runs.
  - apply ch_a_runs, Hx.
  - apply soa_runs, Hx.
  - apply wks_runs.
  - apply hinfo_runs.
  - apply minfo_runs, Hx.
  - apply mx_runs, Hx.
  - apply txt_runs.
  - apply in_aaaa_runs.
  - apply srv_runs, Hx.
  - apply unknown_rdata_runs.
Qed.

End Ord.
