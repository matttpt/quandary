(* C03: the octet-for-octet echo of the question, request side and glue.
   Request side: when the QNAME of the single question is written without compression
   ([qname_uncompressed], Spec/MsgWalkS.v: the label sequence at offset 12 ends in the root label),
   the question the Reader returns has, as its name's wire form followed by the big-endian QTYPE and
   QCLASS, exactly the request's octets [12, end of question) (the C14 specification: for a
   pointer-free name the wire form IS the octets read).
   Glue: the response octets produced by the byte-level composition the server-level runner uses
   (Model/QueryW.v respond_w / respond_plain on the Writer model of C12) carry, at [12, end of
   question), exactly those octets (Proofs/ServerEchoWP.v). *)
From QV Require Import Base.ListX Model.NameWire Model.Reader Spec.NameWireS Spec.NameRepr Spec.ReaderS Spec.MsgWalkS
  Proofs.NameWireP Proofs.ReaderP Proofs.RdNameP Model.RdataLite Model.Server Proofs.ServerP.
From QV Require Import Model.ZoneTree Model.Query Proofs.QueryNameP Model.MsgWriter Model.QueryW Proofs.ServerEchoWP.
From QV Require Import Spec.MsgWriterS Proofs.ServerPlainP Proofs.MsgWalkP.
Local Open Scope nat_scope.

(* the first label sequence, when it ends in the root label, is the whole name: it decodes without any pointer, so its
   octets are the wire form (NameWireP.decodes_nc_end) *)
Lemma s_name_end_nc b : forall cs i ls e, decodes b cs i ls e -> forall fuel used e',
  s_name_end fuel b i used = Some (e', false) -> e' = e /\ slice b i e = wire_of ls.
Proof.
  intros cs i ls e D fuel used e' HS. assert (D0 : e' = e /\ decodes b 0 i ls e).
  { revert fuel used HS.
    induction D as [cs i H | cs i len rest e H Hp Hl Hb Hd IH | cs i hi lo rest e2 H Hh Hlo Ht Hd IH];
      intros [|f] used HS; try discriminate; cbn [s_name_end] in HS; rewrite H in HS.
    - change (0 =? 0)%N with true in HS. cbv iota in HS. destruct (used + 1 <=? 255); [|discriminate].
      injection HS as <-. split; [reflexivity|constructor; exact H].
    - destruct (len =? 0)%N eqn:Z; [apply N.eqb_eq in Z; lia|].
      destruct (len <=? 63)%N eqn:L; [|apply N.leb_gt in L; lia].
      destruct (IH _ _ HS) as [-> D0]. split; [reflexivity|constructor; assumption].
    - destruct (hi =? 0)%N eqn:Z; [apply N.eqb_eq in Z; lia|].
      destruct (hi <=? 63)%N eqn:L; [apply N.leb_le in L; lia|].
      destruct (192 <=? hi)%N; [|discriminate]. destruct (used + 1 <=? 255); discriminate. }
  destruct D0 as [-> D0]. split; [reflexivity|exact (proj2 (decodes_nc_end _ _ _ _ _ D0 eq_refl))].
Qed.

Lemma sbe16_slice b a v : wf_bytes b -> sbe16 b a = Some v -> slice b a (a + 2) = be16 v.
Proof.
  intros Hw. unfold sbe16. destruct (nth_error b a) as [h|] eqn:A; [|discriminate].
  destruct (nth_error b (a + 1)) as [l|] eqn:B; [|discriminate]. intros X; inversion X; subst v.
  pose proof (nth_error_Forall _ _ _ _ Hw A) as Hh. pose proof (nth_error_Forall _ _ _ _ Hw B) as Hl.
  unfold is_octet in *.
  rewrite (slice_cons b a h) by (auto; lia). replace (S a) with (a + 1) by lia.
  rewrite (slice_cons b (a + 1) l) by (auto; lia). replace (S (a + 1)) with (a + 2) by lia. rewrite slice_nil.
  unfold be16. f_equal; [|f_equal].
  - assert (E : ((h * 256 + l) / 256 = h)%N) by (symmetry; apply (N.div_unique _ 256 h l); lia).
    rewrite E. symmetry. apply N.mod_small. exact Hh.
  - apply (N.mod_unique _ 256 h l); lia.
Qed.

Theorem question_octets req r1 q : wf_bytes req -> 12 <= length req ->
  read_question (r0_of req) = (r1, Ok q) -> qname_uncompressed req ->
  exists ls, Reader.q_name q = name_of ls /\ labels_of (Reader.q_name q) = ls /\
    r_cursor r1 = 12 + length (nm_wire ls ++ be16 (Reader.q_type q) ++ be16 (Reader.q_class q)) /\
    slice req 12 (r_cursor r1) = nm_wire ls ++ be16 (Reader.q_type q) ++ be16 (Reader.q_class q).
Proof.
  intros Hw H12 E [e0 U]. pose proof (read_question_facts (r0_of req) (r0_inv req Hw H12)) as (_ & _ & _ & F).
  rewrite E in F. cbn [fst snd] in F. destruct (F q eq_refl) as (ls & D & Nm & _). exists ls.
  cbn [r_octets r_cursor r0_of] in D. remember (r_cursor r1) as c1 eqn:Hc1.
  inversion D as [ls' l qt qc DN Sq Sc Hend]; subst ls' qt qc.
  destruct DN as (e & De & Hl & Hlen).
  unfold s_first_name in U. destruct (s_name_end_nc _ _ _ _ _ De _ _ _ U) as [-> Hs].
  pose proof (decodes_end_le _ _ _ _ _ De) as [Hlt Hle].
  assert (El : 12 + l = e) by lia. rewrite El in *. assert (Hend : c1 = e + 4) by lia. clear Hc1. subst c1.
  split; [exact Nm|]. split.
  { rewrite Nm. apply labels_of_name_of. eapply decodes_labels_valid; eauto. }
  assert (L16 : forall v, length (be16 v) = 2) by reflexivity.
  assert (Lw : length (nm_wire ls) = e - 12).
  { change (nm_wire ls) with (wire_of ls). rewrite <- Hs. rewrite slice_length; lia. }
  pose proof (sbe16_slice _ _ _ Hw Sq) as S1. pose proof (sbe16_slice _ _ _ Hw Sc) as S2.
  split.
  - rewrite !app_length, !L16, Lw. lia.
  - replace (e + 4) with (e + 2 + 2) by lia.
    rewrite (slice_app req 12 e (e + 2 + 2)) by lia. rewrite (slice_app req e (e + 2) (e + 2 + 2)) by lia.
    rewrite Hs, S1, S2. reflexivity.
Qed.

Theorem respond_w_echo req r1 q negttl buf tcp id rd edns limit z len b : wf_bytes req -> 12 <= length req ->
  read_question (r0_of req) = (r1, Ok q) -> qname_uncompressed req ->
  respond_w negttl buf tcp id rd (labels_of (Reader.q_name q)) (Reader.q_type q) (Reader.q_class q) edns limit z = Some (len, b) ->
  r_cursor r1 <= len /\ slice b 12 (r_cursor r1) = slice req 12 (r_cursor r1).
Proof.
  intros Hw H12 E U R. destruct (question_octets req r1 q Hw H12 E U) as (ls & _ & Lb & Hc & Hs).
  rewrite Lb in R. destruct (respond_w_question _ _ _ _ _ _ _ _ _ _ _ _ _ R) as [A B]. cbv zeta in *.
  rewrite Hs, Hc. split; [exact B|exact A].
Qed.

Theorem respond_plain_echo req r1 q buf tcp id rd edns limit rcode len b : wf_bytes req -> 12 <= length req ->
  read_question (r0_of req) = (r1, Ok q) -> qname_uncompressed req ->
  respond_plain buf tcp id rd (labels_of (Reader.q_name q)) (Reader.q_type q) (Reader.q_class q) edns limit rcode = Some (len, b) ->
  r_cursor r1 <= len /\ slice b 12 (r_cursor r1) = slice req 12 (r_cursor r1).
Proof.
  intros Hw H12 E U R. destruct (question_octets req r1 q Hw H12 E U) as (ls & _ & Lb & Hc & Hs).
  rewrite Lb in R. destruct (respond_plain_question _ _ _ _ _ _ _ _ _ _ _ _ R) as [A B]. cbv zeta in *.
  rewrite Hs, Hc. split; [exact B|exact A].
Qed.

Theorem prepare_w_echo req r1 q buf tcp id rd edns limit w : wf_bytes req -> 12 <= length req ->
  read_question (r0_of req) = (r1, Ok q) -> qname_uncompressed req ->
  prepare_w buf tcp id rd (labels_of (Reader.q_name q)) (Reader.q_type q) (Reader.q_class q) edns limit = Some w ->
  MsgWriter.w_rr_start w = r_cursor r1 /\ slice (MsgWriter.w_buf w) 12 (r_cursor r1) = slice req 12 (r_cursor r1).
Proof.
  intros Hw H12 E U R. destruct (question_octets req r1 q Hw H12 E U) as (ls & _ & Lb & Hc & Hs).
  rewrite Lb in R. destruct (prepare_QK _ _ _ _ _ _ _ _ _ _ R) as (_ & A & B).
  rewrite Hs, Hc. split; [exact A|exact B].
Qed.

Lemma response_question answer verify cfg req w q : wf_cfg cfg -> wf_bytes req ->
  handle_message answer verify cfg req = Ok (Some w) -> Server.w_question w = Some q ->
  12 <= length req /\ exists r1, read_question (r0_of req) = (r1, Ok q).
Proof.
  intros Hc Hw H Q. destruct (handle_message_response answer verify cfg req w Hc Hw H) as (_ & QE & _). split.
  - destruct (le_lt_dec 12 (length req)) as [X|X]; [exact X|]. exfalso.
    pose proof (proj2 (handle_message_silent_iff answer verify cfg req Hc Hw) (or_introl X)) as S0. congruence.
  - unfold question_echo in QE. rewrite Q in QE. destruct QE as [QE|(_ & r1 & q' & RQ & QE)]; [discriminate|].
    inversion QE; subst q'. exists r1. exact RQ.
Qed.

(* end to end: whenever the server model answers with a question, that question was read from the
   request, and every response the byte-level composition builds for it repeats the request's
   question octets *)
Theorem handle_message_echo answer verify cfg req w q : wf_cfg cfg -> wf_bytes req ->
  handle_message answer verify cfg req = Ok (Some w) -> Server.w_question w = Some q -> qname_uncompressed req ->
  exists r1, read_question (r0_of req) = (r1, Ok q) /\ 12 <= length req /\
    (forall negttl buf tcp id rd edns limit z len b,
       respond_w negttl buf tcp id rd (labels_of (Reader.q_name q)) (Reader.q_type q) (Reader.q_class q) edns limit z = Some (len, b) ->
       r_cursor r1 <= len /\ slice b 12 (r_cursor r1) = slice req 12 (r_cursor r1)) /\
    (forall buf tcp id rd edns limit rcode len b,
       respond_plain buf tcp id rd (labels_of (Reader.q_name q)) (Reader.q_type q) (Reader.q_class q) edns limit rcode = Some (len, b) ->
       r_cursor r1 <= len /\ slice b 12 (r_cursor r1) = slice req 12 (r_cursor r1)).
Proof.
  intros Hc Hw H Q U. destruct (response_question answer verify cfg req w q Hc Hw H Q) as (H12 & r1 & RQ).
  exists r1. split; [exact RQ|]. split; [exact H12|]. split.
  - intros. eapply respond_w_echo; eauto.
  - intros. eapply respond_plain_echo; eauto.
Qed.


Lemma sbe16_lt b a v : wf_bytes b -> sbe16 b a = Some v -> (v < 65536)%N.
Proof.
  intros Hw. unfold sbe16. destruct (nth_error b a) as [h|] eqn:A; [|discriminate].
  destruct (nth_error b (a + 1)) as [l|] eqn:B; [|discriminate]. intros X; inversion X; subst.
  pose proof (nth_error_Forall _ _ _ _ Hw A) as Hh. pose proof (nth_error_Forall _ _ _ _ Hw B) as Hl.
  unfold is_octet in *. lia.
Qed.

Lemma valid_labels_count (ls : list bytes) : Forall RdataFormatS.valid_label ls -> 2 * length ls + 1 <= wire_len ls.
Proof.
  induction 1 as [|l r [H1 H2] _ IH]; [vm_compute; lia|]. rewrite wire_len_cons. simpl length. lia.
Qed.

(* a response of the server model that carries a question and does not come from query answering, rendered by
   the byte-level composition: the independent decoder returns the REQUEST's id, QR = 1, opcode 0, AA = TC = 0,
   RD as in the model's response, RA = Z = 0, the RCODE, the question, no records, and an OPT (owner root,
   class = the configured payload size, TTL 0) exactly when the model's response is an EDNS response *)
Theorem plain_response_end_to_end answer verify cfg req w q buf tcp limit rcode len b : wf_cfg cfg -> wf_bytes req ->
  handle_message answer verify cfg req = Ok (Some w) -> Server.w_question w = Some q -> (rcode < 16)%N ->
  respond_plain buf tcp (Server.w_id w) (Server.w_rd w) (labels_of (Reader.q_name q)) (Reader.q_type q) (Reader.q_class q)
                (option_map fst (Server.w_edns w)) limit rcode = Some (len, b) ->
  exists m, decode_msg (firstn len b) = Some m /\
    sbe16 req 0 = Some (m_id m) /\ N.testbit (m_flags2 m) 7 = true /\ ((m_flags2 m / 8) mod 16 = 0)%N /\
    N.testbit (m_flags2 m) 2 = false /\ N.testbit (m_flags2 m) 1 = false /\ N.testbit (m_flags2 m) 0 = Server.w_rd w /\
    N.testbit (m_flags3 m) 7 = false /\ ((m_flags3 m / 16) mod 8 = 0)%N /\ (m_flags3 m mod 16 = rcode)%N /\
    (exists d, m_qs m = [d] /\ dq_type d = Reader.q_type q /\ dq_class d = Reader.q_class q) /\
    m_an m = [] /\ m_ns m = [] /\
    match Server.w_edns w with
    | None => m_ar m = []
    | Some _ => exists d, m_ar m = [d] /\ dr_owner d = [] /\ dr_type d = 41%N /\ dr_class d = c_edns_size cfg /\ dr_ttl d = 0%N
    end.
Proof.
  intros Hcfg Hwf HM Hq Hrc R. pose proof Hcfg as (H512 & H64k & _).
  destruct (handle_message_response answer verify cfg req w Hcfg Hwf HM) as ((Hid & _) & _ & EO & _).
  destruct (response_question answer verify cfg req w q Hcfg Hwf HM Hq) as (H12 & r1 & RQ).
  pose proof (read_question_facts (r0_of req) (r0_inv req Hwf H12)) as (_ & _ & _ & Fq).
  rewrite RQ in Fq. cbn [fst snd] in Fq. destruct (Fq q eq_refl) as (ls & Dq & Nm & _).
  cbn [r_octets r_cursor r0_of] in Dq. inversion Dq as [ls' l qt qc DN Sq Sc Hend]; subst ls' qt qc.
  destruct DN as (e & De & _ & Hlen).
  pose proof (decodes_labels_valid _ _ _ _ _ De) as Hv.
  rewrite Nm, (labels_of_name_of ls Hv) in R.
  assert (Hidv : sbe16 req 0 = Some (Server.w_id w) /\ (Server.w_id w < 65536)%N).
  { destruct (@be16_at_sbe16 reader_err req 0 ltac:(lia)) as (v & V1 & V2).
    unfold rd_id in Hid. cbn [r_octets r0_of] in Hid. change (N.to_nat ID_START) with 0 in Hid. rewrite V1 in Hid.
    inversion Hid; subst v. split; [exact V2|exact (sbe16_lt _ _ _ Hwf V2)]. }
  destruct Hidv as [Hid0 Hidlt].
  assert (Hwn : Proofs.MsgWriterNameP.wf_name ls).
  { split; [exact Hv|]. pose proof (valid_labels_count ls Hv). lia. }
  destruct (respond_plain_decodes buf tcp (Server.w_id w) (Server.w_rd w) ls (Reader.q_type q) (Reader.q_class q)
              (option_map fst (Server.w_edns w)) limit rcode len b Hidlt Hwn Hlen
              (sbe16_lt _ _ _ Hwf Sq) (sbe16_lt _ _ _ Hwf Sc) Hrc) as (m & D & M1 & M2 & M3 & M4 & M5 & M6 & M7 & M8 & M9 & Mq & Ma & Mn & Mr).
  { intros sz Hs. unfold edns_ok in EO. destruct (Server.w_edns w) as [[sz' up]|]; [|discriminate].
    cbn in Hs. inversion Hs; subst. lia. }
  { exact R. }
  exists m. split; [exact D|]. rewrite M1. split; [exact Hid0|]. repeat (split; [assumption|]).
  split. { destruct Mq as (d & E1 & _ & E2 & E3). exists d. auto. }
  split; [exact Ma|]. split; [exact Mn|].
  unfold edns_ok in EO. destruct (Server.w_edns w) as [[sz up]|]; cbn [option_map fst] in Mr; [|exact Mr].
  destruct Mr as (d & R1 & R2 & R3 & R4 & R5). exists d. subst sz. auto.
Qed.
