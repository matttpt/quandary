(* FromStr / Display of names and the NameBuilder against the declarative text relation. *)
From QV Require Import Base.ListX Model.NameWire Model.DecU16 Model.NameText Spec.NameWireS Spec.NameRepr Spec.NameTextS
  Proofs.NameWireP Proofs.NameLabelsP.

(* abstract builder state: finished labels + the label being written *)

Definition astate := (list (list N) * list N)%type.

Definition awire (st : astate) : nat := length (lwire (fst st)) + 1 + length (snd st).

Definition astep (st : astate) (t : tok) : option astate :=
  match t with
  | TOct v => if (length (snd st) <? 63) && (awire st <? 255) then Some (fst st, snd st ++ [v]) else None
  | TDot => if negb (is_nil (snd st)) && (awire st <? 255) then Some (fst st ++ [snd st], []) else None
  end.

Fixpoint arun (ts : list tok) (st : astate) : option astate :=
  match ts with
  | [] => Some st
  | t :: r => match astep st t with Some st' => arun r st' | None => None end
  end.

Definition ast_ok (st : astate) : Prop :=
  Forall (fun l : list N => 1 <= length l <= 63) (fst st) /\ length (snd st) <= 63 /\ awire st <= 255.

(* The builder value that represents an abstract state.  The 0 after the finished labels is the length octet of
   the open label, written only when the label is closed; the last offset is its position.  [astep] asks
   [awire st < 255] before either step: an octet, or the next label's length octet, needs the room. *)
Definition brepr (b : builder) (st : astate) : Prop :=
  b_wire b = lwire (fst st) ++ 0%N :: snd st /\
  b_offsets b = offs_all 0 (fst st) ++ [(N.of_nat (length (lwire (fst st))) mod 256)%N] /\
  b_label_start b = length (lwire (fst st)) /\
  b_label_len b = N.of_nat (length (snd st)).

Definition feed1 (b : builder) (t : tok) : res name_err builder :=
  match t with TOct v => try_push b v | TDot => next_label b end.

Lemma brepr_wire_len b st : brepr b st -> length (b_wire b) = awire st.
Proof. intros (Hw & _). rewrite Hw, app_length. unfold awire. cbn. lia. Qed.

Lemma feed1_step b st t : brepr b st -> ast_ok st ->
  match astep st t with
  | Some st' => exists b', feed1 b t = Ok b' /\ brepr b' st' /\ ast_ok st'
  | None => exists e, feed1 b t = Err e
  end.
Proof.
  intros Hb (Hds & Hcur & Hw). pose proof (brepr_wire_len b st Hb) as Hlen.
  destruct Hb as (Ewire & Eoffs & Estart & Elen). destruct st as [ds cur].
  destruct t as [v|]; cbn [astep feed1]; unfold brepr, ast_ok, awire in *; cbn [fst snd] in *.
  - unfold try_push, u8_add. rewrite Elen, Hlen.
    change (max_label_len mod 256)%N with 63%N. change max_wire_len with 255.
    destruct (Nat.ltb_spec (length cur) 63), (N.leb_spec 63 (N.of_nat (length cur))); try lia;
      [|eexists; reflexivity].
    destruct (Nat.ltb_spec (length (lwire ds) + 1 + length cur) 255); [|eexists; reflexivity].
    destruct (N.ltb_spec 255 (N.of_nat (length cur) + 1)); [lia|].
    eexists. split; [reflexivity|]. cbn [b_wire b_offsets b_label_start b_label_len andb fst snd].
    rewrite Ewire, <- app_assoc, app_length. cbn [app length]. repeat split; auto; lia.
  - unfold next_label, is_fully_qualified, update_label_len.
    rewrite Elen, Hlen, Estart, Ewire, set_nth_app. change max_wire_len with 255.
    destruct cur as [|c cur']; [eexists; reflexivity|]. cbn [is_nil negb andb].
    destruct (N.eqb_spec (N.of_nat (length (c :: cur'))) 0); [discriminate|].
    destruct (Nat.ltb_spec (length (lwire ds) + 1 + length (c :: cur')) 255),
             (Nat.leb_spec 255 (length (lwire ds) + 1 + length (c :: cur'))); try lia; [|eexists; reflexivity].
    pose proof (lwire_labels_len ds Hds).
    rewrite push_offset_ok by (rewrite Eoffs, app_length, offs_all_length; cbn [length]; lia).
    eexists. split; [reflexivity|]. cbn [b_wire b_offsets b_label_start b_label_len fst snd].
    rewrite Eoffs, offs_all_app, lwire_snoc, app_length.
    cbn [offs_all app length Nat.add] in *. repeat split; auto; try lia.
    apply Forall_app. split; [assumption|]. constructor; [cbn [length]; lia|constructor].
Qed.

Fixpoint feed (ts : list tok) (b : builder) : res name_err builder :=
  match ts with
  | [] => Ok b
  | t :: r => let* b' := feed1 b t in feed r b'
  end.

Lemma feed_run ts : forall b st, brepr b st -> ast_ok st ->
  match arun ts st with
  | Some st' => exists b', feed ts b = Ok b' /\ brepr b' st' /\ ast_ok st'
  | None => exists e, feed ts b = Err e
  end.
Proof.
  induction ts as [|t r IH]; intros b st Hb Hok; cbn [arun feed].
  - exists b. auto.
  - pose proof (feed1_step b st t Hb Hok) as H. destruct (astep st t) as [st'|].
    + destruct H as (b' & -> & Hb' & Hok'). apply IH; assumption.
    + destruct H as (e & ->). eexists. reflexivity.
Qed.

Lemma finish_repr b st : brepr b st ->
  finish b = if is_nil (snd st) then Ok (name_of (fst st)) else Err NonNullTerminal.
Proof.
  intros (Ewire & Eoffs & Estart & Elen). unfold finish, is_fully_qualified. rewrite Elen.
  destruct st as [ds [|c cur]]; [|reflexivity]. cbn [fst snd is_nil length] in *.
  unfold name_of. rewrite Ewire, Eoffs, offs_of_all. unfold all_labels. rewrite offs_all_app. reflexivity.
Qed.

Lemma arun_sound ts : forall st st', arun ts st = Some st' ->
  exists more, fst st' = fst st ++ more /\ map TOct (snd st) ++ ts = flat_map label_toks more ++ map TOct (snd st').
Proof.
  induction ts as [|t r IH]; intros [ds cur] st' H; cbn [arun] in H.
  - injection H as <-. exists []. cbn. rewrite !app_nil_r. auto.
  - destruct (astep (ds, cur) t) as [st1|] eqn:E; [|discriminate].
    destruct (IH _ _ H) as (more & H1 & H2).
    destruct t as [v|]; cbn [astep fst snd] in E; (destruct (_ && _); [|discriminate]);
      injection E as <-; cbn [fst snd] in *.
    + exists more. rewrite map_app, <- app_assoc in H2. auto.
    + exists (cur :: more). rewrite H1, <- app_assoc. split; [reflexivity|].
      cbn [flat_map]. unfold label_toks at 1. rewrite <- !app_assoc. cbn [app]. do 2 f_equal. exact H2.
Qed.

Lemma arun_label (l : list N) : forall ds cur r,
  length (cur ++ l) <= 63 -> cur ++ l <> [] -> length (lwire ds) + 1 + length (cur ++ l) < 255 ->
  arun (map TOct l ++ TDot :: r) (ds, cur) = arun r (ds ++ [cur ++ l], []).
Proof.
  induction l as [|v l IH]; intros ds cur r H1 H2 H3; cbn [map app arun astep fst snd]; unfold awire; cbn [fst snd].
  - rewrite app_nil_r in *. destruct cur as [|c cur]; [congruence|]. cbn [is_nil negb andb].
    destruct (Nat.ltb_spec (length (lwire ds) + 1 + length (c :: cur)) 255); [reflexivity|lia].
  - rewrite app_length in H1, H3. cbn [length] in H1, H3.
    destruct (Nat.ltb_spec (length cur) 63), (Nat.ltb_spec (length (lwire ds) + 1 + length cur) 255); try lia.
    cbn [andb]. change (cur ++ v :: l) with (cur ++ [v] ++ l) in *. rewrite app_assoc in *.
    apply IH; rewrite ?app_length; cbn [length]; (assumption || lia).
Qed.

Lemma arun_complete (more : list (list N)) : forall ds,
  Forall (fun l : list N => 1 <= length l <= 63) more -> length (lwire (ds ++ more)) + 1 <= 255 ->
  arun (flat_map label_toks more) (ds, []) = Some (ds ++ more, []).
Proof.
  induction more as [|l more IH]; intros ds Hf Hw.
  - cbn. rewrite app_nil_r. reflexivity.
  - inversion Hf; subst. cbn [flat_map]. unfold label_toks at 1. rewrite <- app_assoc. cbn [app].
    change (ds ++ l :: more) with (ds ++ [l] ++ more) in *. rewrite app_assoc in *.
    pose proof Hw as Hw'. rewrite lwire_app, lwire_snoc, !app_length in Hw'. cbn [length] in Hw'.
    rewrite (arun_label l ds []); cbn [app]; [apply IH; assumption|lia|destruct l; [cbn in H1; lia|discriminate]|lia].
Qed.

Lemma is_digitb_spec c : is_digitb c = true <-> is_digit c.
Proof. unfold is_digitb, is_digit. rewrite andb_true_iff, !N.leb_le. tauto. Qed.

Lemma is_dec_digit_digitb c : is_dec_digit c = is_digitb c.
Proof. reflexivity. Qed.

(* The first token of a text and the text after it.  [tokenize] and the loop of FromStr both go through the
   text by this step; what each does with the token is all that differs. *)
Definition lex1 (s : bytes) : option (tok * bytes) :=
  match s with
  | [] => None
  | c :: r =>
    if (c =? 92)%N then
      match r with
      | [] => None
      | a :: r1 =>
        if is_digitb a then
          match r1 with
          | b :: d :: r3 =>
            if is_digitb b && is_digitb d && (esc_value a b d <=? 255)%N
            then Some (TOct (esc_value a b d), r3) else None
          | _ => None
          end
        else Some (TOct a, r1)
      end
    else if (c =? 46)%N then Some (TDot, r) else Some (TOct c, r)
  end.

Lemma tokenize_lex1 c r :
  tokenize (c :: r) =
  match lex1 (c :: r) with Some (t, r') => option_map (cons t) (tokenize r') | None => None end.
Proof.
  cbn [tokenize lex1]. destruct (c =? 92)%N; [|destruct (c =? 46)%N; reflexivity].
  destruct r as [|a r1]; [reflexivity|]. destruct (is_digitb a); [|reflexivity].
  destruct r1 as [|b [|d r3]]; try reflexivity. destruct (_ && _ && _); reflexivity.
Qed.

Lemma loop_lex1 f c r b : (c < 128)%N ->
  from_str_loop (S f) (c :: r) b =
  match lex1 (c :: r) with
  | Some (t, r') => let* b' := feed1 b t in from_str_loop f r' b'
  | None => Err InvalidEscape
  end.
Proof.
  intros Hc. cbn [from_str_loop lex1]. destruct (c =? 92)%N.
  - destruct r as [|a r1]; [reflexivity|]. cbn [parse_escape]. change is_dec_digit with is_digitb.
    destruct (is_digitb a); [|reflexivity]. destruct r1 as [|b1 [|d r3]]; try reflexivity.
    fold (esc_value a b1 d).
    destruct (is_digitb b1 && is_digitb d); [|reflexivity]. cbn [andb].
    destruct (N.leb_spec (esc_value a b1 d) 255), (N.ltb_spec 255 (esc_value a b1 d)); try lia; [|reflexivity].
    cbn [bind]. rewrite N.mod_small by lia. reflexivity.
  - destruct (c =? 46)%N; [reflexivity|]. rewrite (proj2 (N.leb_gt _ _) Hc). reflexivity.
Qed.

Lemma lex1_suffix s t r' : lex1 s = Some (t, r') -> exists pre, pre <> [] /\ s = pre ++ r'.
Proof.
  unfold lex1. destruct s as [|c r]; [discriminate|].
  destruct (c =? 92)%N; [|destruct (c =? 46)%N; intros [= <- <-]; exists [c]; (split; [discriminate|reflexivity])].
  destruct r as [|a r1]; [discriminate|].
  destruct (is_digitb a); [|intros [= <- <-]; exists [c; a]; split; [discriminate|reflexivity]].
  destruct r1 as [|b [|d r3]]; try discriminate. destruct (_ && _ && _); [|discriminate].
  intros [= <- <-]. exists [c; a; b; d]. split; [discriminate|reflexivity].
Qed.

Lemma lex1_length s t r' : lex1 s = Some (t, r') -> length r' < length s.
Proof.
  intros H. destruct (lex1_suffix _ _ _ H) as ([|x pre] & Hne & ->); [congruence|].
  rewrite app_length. cbn [length]. lia.
Qed.

Lemma lex1_Forall (P : N -> Prop) s t r' : lex1 s = Some (t, r') -> Forall P s -> Forall P r'.
Proof. intros H. destruct (lex1_suffix _ _ _ H) as (pre & _ & ->). intros F. apply Forall_app in F. apply F. Qed.

Lemma lex1_tokens s t r' ts : lex1 s = Some (t, r') -> tokens r' ts -> tokens s (t :: ts).
Proof.
  unfold lex1. destruct s as [|c r]; [discriminate|]. destruct (N.eqb_spec c 92) as [->|H92].
  - destruct r as [|a r1]; [discriminate|]. destruct (is_digitb a) eqn:Ea.
    + destruct r1 as [|b [|d r3]]; try discriminate. destruct (_ && _ && _) eqn:E; [|discriminate].
      intros [= <- <-] T. apply andb_true_iff in E as [E Hv]. apply andb_true_iff in E as [Eb Ed].
      apply tk_esc_dec; try (apply is_digitb_spec; assumption); [apply N.leb_le|]; assumption.
    + intros [= <- <-] T. apply tk_esc_char; [|exact T]. rewrite <- is_digitb_spec. congruence.
  - destruct (N.eqb_spec c 46) as [->|H46]; intros [= <- <-] T; [apply tk_dot|apply tk_plain]; assumption.
Qed.

(* [n] only bounds the induction; callers pass [le_n _] *)
Lemma tokenize_tokens n : forall s ts, length s <= n -> tokenize s = Some ts -> tokens s ts.
Proof.
  induction n as [|n IH]; intros [|c r] ts Hn H; try (injection H as <-; constructor); [cbn in Hn; lia|].
  rewrite tokenize_lex1 in H. destruct (lex1 (c :: r)) as [[t r']|] eqn:L; [|discriminate].
  destruct (tokenize r') as [ts'|] eqn:T; [|discriminate]. injection H as <-.
  apply (lex1_tokens _ _ _ _ L), IH; [|exact T]. apply lex1_length in L. lia.
Qed.

Lemma tokens_tokenize s ts : tokens s ts -> tokenize s = Some ts.
Proof.
  induction 1 as [|s ts H IH|c s ts H46 H92 H IH|c s ts Hd H IH|a b c s ts Ha Hb Hc Hv H IH];
    cbn [tokenize N.eqb Pos.eqb]; [reflexivity|..].
  - rewrite IH. reflexivity.
  - apply N.eqb_neq in H46, H92. rewrite H92, H46, IH. reflexivity.
  - destruct (is_digitb c) eqn:E; [apply is_digitb_spec in E; contradiction|]. rewrite IH. reflexivity.
  - apply is_digitb_spec in Ha, Hb, Hc. apply N.leb_le in Hv. rewrite Ha, Hb, Hc, Hv, IH. reflexivity.
Qed.

Lemma tokens_app s1 t1 : tokens s1 t1 -> forall s2 t2, tokens s2 t2 -> tokens (s1 ++ s2) (t1 ++ t2).
Proof.
  induction 1; intros s2 t2 Hsnd; cbn [app]; try (constructor; auto; fail). exact Hsnd.
Qed.

(* the parsing loop = tokenize, then feed, then finish; its fuel is one unit per token, and a token takes an
   octet or more of the text *)

Lemma loop_feed fuel : forall rem b n, length rem < fuel -> Forall (fun c => (c < 128)%N) rem ->
  (from_str_loop fuel rem b = Ok n <->
   match tokenize rem with Some ts => (let* b' := feed ts b in finish b') = Ok n | None => False end).
Proof.
  induction fuel as [|f IH]; intros rem b n Hf Hasc; [lia|]. destruct rem as [|c r]; [reflexivity|].
  rewrite loop_lex1, tokenize_lex1 by (inversion Hasc; assumption).
  destruct (lex1 (c :: r)) as [[t r']|] eqn:L; [|split; [discriminate|contradiction]].
  assert (IH' : forall b1, from_str_loop f r' b1 = Ok n <->
            match tokenize r' with Some ts => (let* b' := feed ts b1 in finish b') = Ok n | None => False end).
  { intros b1. apply IH; [apply lex1_length in L; cbn [length] in *; lia|exact (lex1_Forall _ _ _ _ L Hasc)]. }
  destruct (tokenize r') as [ts|]; cbn [option_map feed]; destruct (feed1 b t) as [b1|e|]; cbn [bind].
  - apply IH'.
  - reflexivity.
  - reflexivity.
  - apply IH'.
  - split; [discriminate|contradiction].
  - split; [discriminate|contradiction].
Qed.

Definition tok_ok (t : tok) : Prop := match t with TOct v => (v < 256)%N | TDot => True end.

Lemma tokens_vals s ts : tokens s ts -> Forall (fun c => (c < 128)%N) s -> Forall tok_ok ts.
Proof.
  induction 1 as [|s ts H IH|c s ts H46 H92 H IH|c s ts Hd H IH|a b c s ts Ha Hb Hc Hv H IH]; intros Hasc.
  - constructor.
  - constructor; [exact I|]. apply IH. exact (Forall_inv_tail Hasc).
  - inversion Hasc; subst. constructor; [cbn; lia|auto].
  - apply Forall_inv_tail in Hasc. inversion Hasc; subst. constructor; [cbn; lia|auto].
  - constructor; [cbn; lia|]. apply IH. do 4 apply Forall_inv_tail in Hasc. exact Hasc.
Qed.

Lemma label_toks_vals (more : list (list N)) : Forall tok_ok (flat_map label_toks more) -> Forall wf_bytes more.
Proof.
  induction more as [|l r IH]; intros H; [constructor|].
  cbn [flat_map] in H. unfold label_toks in H. rewrite <- app_assoc in H. apply Forall_app in H as [Hl Hr].
  inversion Hr; subst. constructor; [|auto]. rewrite Forall_map in Hl. exact Hl.
Qed.

Lemma builder_new_repr : brepr builder_new ([], []) /\ ast_ok ([], []).
Proof. split; [repeat split|]. unfold ast_ok, awire. cbn. repeat split; try lia. constructor. Qed.

Lemma root_name_of : root_name = name_of [].
Proof. reflexivity. Qed.

Lemma map_TOct_inj (a b : list N) : map TOct a = map TOct b -> a = b.
Proof.
  revert b. induction a as [|x a IH]; intros [|y b] H; try discriminate; [reflexivity|].
  cbn in H. inversion H; subst. f_equal. auto.
Qed.

Lemma tokens_nil_inv ts : tokens [] ts -> ts = [].
Proof. inversion 1. reflexivity. Qed.

Lemma tokens_dot_inv ts : tokens [46%N] ts -> ts = [TDot].
Proof.
  intros H. inversion H as [|? ? Hr|? ? ? Hc| |]; subst; try congruence.
  apply tokens_nil_inv in Hr. subst. reflexivity.
Qed.

(* a name with labels has two tokens or more, so that neither the empty text nor "." is its text *)
Lemma label_toks_two_or_more (l : label) (ls : list label) : 1 <= length l -> exists t1 t2 ts, flat_map label_toks (l :: ls) = t1 :: t2 :: ts.
Proof. destruct l as [|x [|y l]]; cbn; [lia|eauto..]. Qed.

Theorem name_from_str_sound s n : Forall (fun c => (c < 128)%N) s -> name_from_str s = Ok n ->
  exists ls, text_denotes s ls /\ wf_name ls /\ n = name_of ls.
Proof.
  intros Hasc H. unfold name_from_str in H. destruct s as [|c r]; [discriminate|].
  destruct ((c =? 46)%N && is_nil r) eqn:Eroot.
  - apply andb_true_iff in Eroot as [Ec Er]. apply N.eqb_eq in Ec. destruct r; [|discriminate].
    injection H as <-. subst c. exists []. repeat split; [left; auto|constructor|cbn; lia].
  - apply loop_feed in H; [|lia|exact Hasc].
    destruct (tokenize (c :: r)) as [ts|] eqn:Ht; [|contradiction].
    apply (tokenize_tokens _ _ _ (le_n _)) in Ht.
    destruct builder_new_repr as [Hb0 Hok0]. pose proof (feed_run ts _ _ Hb0 Hok0) as Hrun.
    destruct (arun ts ([], [])) as [[ds cur]|] eqn:Erun; [|destruct Hrun as (e & He); rewrite He in H; discriminate].
    destruct Hrun as (b' & Hfd & Hb' & Hf & _ & Hw). rewrite Hfd in H. cbn [bind] in H.
    rewrite (finish_repr b' _ Hb') in H. cbn [fst snd] in *.
    destruct cur; [|discriminate]. injection H as <-.
    destruct (arun_sound ts _ _ Erun) as (more & Hds & Hts). cbn [fst snd map app] in Hds, Hts.
    rewrite app_nil_r in Hts. subst ds ts. exists more. split; [|split; [|reflexivity]].
    + right. split; [|exact Ht]. intros ->. inversion Ht.
    + pose proof (label_toks_vals more (tokens_vals _ _ Ht Hasc)) as Hwb. unfold awire in Hw. cbn [fst snd length] in Hw.
      split; [|rewrite wire_len_lwire; lia].
      rewrite Forall_forall in *. intros l Hl. split; [apply Hf|apply Hwb]; exact Hl.
Qed.

Theorem name_from_str_complete s ls : Forall (fun c => (c < 128)%N) s -> text_denotes s ls -> wf_name ls ->
  name_from_str s = Ok (name_of ls).
Proof.
  intros Hasc Hden (Hwf & Hlen). destruct Hden as [[-> ->]|[Hne Htok]]; [reflexivity|].
  assert (Hf : Forall (fun l : list N => 1 <= length l <= 63) ls).
  { eapply Forall_impl; [|exact Hwf]. intros l Hl. apply Hl. }
  destruct ls as [|l ls']; [congruence|].
  destruct (label_toks_two_or_more l ls') as (t1 & t2 & ts & Ets); [inversion Hf; lia|].
  pose proof Htok as Htok2. rewrite Ets in Htok2.
  unfold name_from_str. destruct s as [|c r]; [apply tokens_nil_inv in Htok2; discriminate|].
  destruct ((c =? 46)%N && is_nil r) eqn:Eroot.
  - exfalso. apply andb_true_iff in Eroot as [Ec Er]. apply N.eqb_eq in Ec. destruct r; [|discriminate].
    subst c. apply tokens_dot_inv in Htok2. discriminate.
  - apply loop_feed; [lia|exact Hasc|]. rewrite (tokens_tokenize _ _ Htok).
    destruct builder_new_repr as [Hb0 Hok0].
    pose proof (feed_run (flat_map label_toks (l :: ls')) _ _ Hb0 Hok0) as Hrun.
    rewrite (arun_complete _ [] Hf) in Hrun by (cbn [app]; rewrite wire_len_lwire in Hlen; lia).
    destruct Hrun as (b' & -> & Hb' & _). apply (finish_repr b' _ Hb').
Qed.

Lemma feed1_total b st t : brepr b st -> ast_ok st -> feed1 b t <> Panic.
Proof.
  intros Hb Hok. pose proof (feed1_step b st t Hb Hok) as H. destruct (astep st t).
  - destruct H as (b' & E & _). congruence.
  - destruct H as (e & E). congruence.
Qed.

Definition octet_text_ok (b : N) : bool :=
  match tokenize (label_octet_text b) with
  | Some [TOct v] => (v =? b)%N
  | _ => false
  end && forallb (fun c => (c <? 128)%N) (label_octet_text b).

Lemma octet_text_sweep : forallb octet_text_ok (upto 256) = true.
Proof. vm_compute. reflexivity. Qed.

Lemma label_octet_tokens b : (b < 256)%N ->
  tokens (label_octet_text b) [TOct b] /\ Forall (fun c => (c < 128)%N) (label_octet_text b).
Proof.
  intros Hb. pose proof octet_text_sweep as H. rewrite forallb_forall in H.
  specialize (H b (upto_In 256 b Hb)). unfold octet_text_ok in H. apply andb_true_iff in H. destruct H as [H1 H2].
  split.
  - destruct (tokenize (label_octet_text b)) as [[|[v|] [|? ?]]|] eqn:E; try discriminate.
    apply N.eqb_eq in H1. subst v. apply (tokenize_tokens _ _ _ (le_n _) E).
  - rewrite forallb_forall in H2. apply Forall_forall. intros c Hc. apply N.ltb_lt. apply H2. exact Hc.
Qed.

Lemma label_text_tokens (l : list N) : wf_bytes l ->
  tokens (label_to_text l) (map TOct l) /\ Forall (fun c => (c < 128)%N) (label_to_text l).
Proof.
  induction l as [|b l IH]; intros H; [split; constructor|].
  inversion H; subst. destruct (label_octet_tokens b H2) as [T1 A1]. destruct (IH H3) as [T2 A2].
  unfold label_to_text. cbn [flat_map map]. split.
  - apply (tokens_app _ _ T1 _ _ T2).
  - apply Forall_app. auto.
Qed.

Definition dotted_text (ls : list (list N)) : list N := flat_map (fun l => label_to_text l ++ [46%N]) ls.

Lemma dotted_join r : forall l0 : list N,
  label_to_text l0 ++ flat_map (fun l => 46%N :: label_to_text l) (r ++ [[]]) = dotted_text (l0 :: r).
Proof.
  induction r as [|l1 r IH]; intros l0; unfold dotted_text in *; cbn [app flat_map].
  - cbn. rewrite app_nil_r. reflexivity.
  - rewrite <- app_assoc. cbn [app]. f_equal. f_equal. rewrite IH. reflexivity.
Qed.

Lemma dotted_tokens (ls : list (list N)) : Forall wf_bytes ls ->
  tokens (dotted_text ls) (flat_map label_toks ls) /\ Forall (fun c => (c < 128)%N) (dotted_text ls).
Proof.
  induction ls as [|l r IH]; intros H; [split; constructor|].
  inversion H; subst. destruct (label_text_tokens l H2) as [T1 A1]. destruct (IH H3) as [T2 A2].
  unfold dotted_text. cbn [flat_map]. split.
  - unfold label_toks at 1. rewrite <- !app_assoc. apply (tokens_app _ _ T1). cbn [app]. apply tk_dot. exact T2.
  - apply Forall_app. split; [|exact A2]. apply Forall_app. split; [exact A1|]. constructor; [lia|constructor].
Qed.

Theorem name_to_text_spec ls : wire_len ls <= 255 ->
  name_to_text (name_of ls) = Ok (match ls with [] => [46%N] | _ => dotted_text ls end).
Proof.
  intros Hlen. unfold name_to_text. rewrite name_len_name_of, all_labels_length. destruct ls as [|l0 r]; [reflexivity|].
  cbn [length Nat.leb]. rewrite (labels_name_of _ Hlen). cbn [bind]. unfold all_labels. cbn [app].
  rewrite dotted_join. reflexivity.
Qed.

Theorem text_roundtrip ls : wf_name ls ->
  exists t, name_to_text (name_of ls) = Ok t /\ Forall (fun c => (c < 128)%N) t /\ text_denotes t ls /\
            name_from_str t = Ok (name_of ls).
Proof.
  intros Hwf. pose proof Hwf as (Hf & Hlen). rewrite (name_to_text_spec ls Hlen).
  eexists. split; [reflexivity|].
  assert (Hwb : Forall wf_bytes ls).
  { rewrite Forall_forall in *. intros l Hl. apply (Hf l Hl). }
  destruct ls as [|l0 r].
  - split; [constructor; [lia|constructor]|]. split; [left; auto|reflexivity].
  - destruct (dotted_tokens (l0 :: r) Hwb) as [T A]. split; [exact A|].
    assert (Hden : text_denotes (dotted_text (l0 :: r)) (l0 :: r)) by (right; split; [discriminate|exact T]).
    split; [exact Hden|]. apply name_from_str_complete; assumption.
Qed.

Theorem name_from_str_iff s n : is_ascii_text s ->
  (name_from_str s = Ok n <-> exists ls, text_denotes s ls /\ wf_name ls /\ n = name_of ls).
Proof.
  intros Hasc. split.
  - apply name_from_str_sound. exact Hasc.
  - intros (ls & Hd & Hwf & ->). apply name_from_str_complete; assumption.
Qed.

Theorem builder_finish b st : brepr b st -> ast_ok st ->
  finish b = (if is_nil (snd st) then Ok (name_of (fst st)) else Err NonNullTerminal) /\
  (snd st = [] -> Forall (fun l : list N => 1 <= length l <= 63) (fst st) /\ wire_len (fst st) <= 255).
Proof.
  intros Hb (Hf & _ & Hw). split; [apply finish_repr; exact Hb|].
  intros E. split; [exact Hf|]. unfold awire in Hw. rewrite E in Hw. cbn [length] in Hw.
  rewrite wire_len_lwire. lia.
Qed.
