(* Preservation of [Inv]: submit, submit_or_spawn, start_oneshot. *)
From Coq Require Import Lia Permutation.
From QV Require Import Model.Pool Proofs.PoolLemmas Proofs.PoolInv.

(* after [task_wakeup.notify_one] in a submission that found room, a woken worker is there for
   the new task: nobody waited and all counted workers are woken already, or one is woken now *)
Lemma notify_task_room s c l' : Inv s -> psd s = false -> length (queue s) < avail s ->
  notify_one on_task c (thr s) = Some l' -> length (queue s) < cnt is_wwoken l'.
Proof.
  intros I Hp Hlt H. pose proof (i_cnt_eq s I Hp) as Hav. pose proof (i_queue s I) as Hq.
  rewrite cnt_counted_split in Hav.
  destruct (notify_one_cases _ _ _ _ H) as [[-> Hz] | (j & p & E & G & ->)]; [lia|].
  pose proof (sumf_upd (fun p => b2n (is_wwoken p)) _ _ _ (wake p) E) as U.
  destruct p; try discriminate. simpl in *. lia.
Qed.

Lemma inv_submit_section s i pi r blocked ob o c s' :
  Inv s -> nth_error (thr s) i = Some pi ->
  (exists ops, pi = SIdle ops) \/ pi = SWoken r ->
  blocked = SWait r \/ blocked = SSpawn r ->
  submit_section s i r blocked ob o c = Some s' -> Inv s'.
Proof.
  intros I E Hpi Hb H. unfold submit_section in H.
  destruct (psd s) eqn:Ep.
  - (* refused: the caller goes from one pc that [Inv] does not read to another *)
    destruct o; try discriminate. inversion H; subst s'.
    apply (inv_relax_pc _ _ _ _ I E). destruct Hpi as [[ops ->]| ->]; repeat split; simpl; lia.
  - destruct (length (queue s) <? avail s) eqn:Elt.
    + (* pushed: first the notification, then the caller returns with the task queued *)
      destruct o; try discriminate.
      destruct (notify_one on_task c (thr s)) as [l'|] eqn:En; [|discriminate].
      inversion H; subst s'; clear H. apply Nat.ltb_lt in Elt.
      pose proof (notify_task_room _ _ _ I Ep Elt En) as Hroom.
      assert (E' : nth_error l' i = Some pi).
      { eapply notify_one_nth; [exact En | exact E |]. destruct Hpi as [[ops ->]| ->]; reflexivity. }
      (* i_queue moves (by [Hroom]) and i_tasks (the new id) *)
      apply (inv_move _ _ i pi (SIdle r) [] (inv_notify_one _ _ _ _ I En) E'); [reflexivity|].
      intros R HR I1. simpl in HR. rewrite HR in Hroom. clear - Hpi Hroom I1.
      destruct s; destruct Hpi as [[ops ->]| ->]; inv_clauses I1.
    + (* no room: the caller blocks, or goes on to spawn *)
      assert (s' = set_pc i blocked s) as -> by (destruct o, ob; try discriminate; congruence).
      (* only i_psd_w moves: a new waiter on available_wakeup, while the pool is open *)
      eapply (inv_set I E); [reflexivity|]. clear - Hpi Hb Ep. intros R I.
      destruct s; simpl in Ep; subst; destruct Hpi as [[ops ->]| ->], Hb as [-> | ->]; inv_clauses I.
Qed.

Lemma inv_submit s i o c s' : Inv s -> step true s (LSubmit i o c) = Some s' -> Inv s'.
Proof.
  intros I H. simpl in H. unfold sub_enter in H.
  destruct (nth_error (thr s) i) as [pi|] eqn:E; [|discriminate].
  destruct pi as [[|[] r]| |r| | | | | | | | | | | | | | | | | | |]; try discriminate;
    (eapply inv_submit_section; [exact I | exact E | | left; reflexivity | exact H]);
    [left; eexists; reflexivity | right; reflexivity].
Qed.

Lemma inv_sos s i o c s' : Inv s -> step true s (LSos i o c) = Some s' -> Inv s'.
Proof.
  intros I H. simpl in H. unfold sos_enter in H.
  destruct (nth_error (thr s) i) as [pi|] eqn:E; [|discriminate].
  destruct pi as [[|[] r]| | | | | | | | | | | | | | | | | | | | |]; try discriminate.
  eapply inv_submit_section; [exact I | exact E | left; eexists; reflexivity | right; reflexivity | exact H].
Qed.

Lemma inv_spawn s i o s' : Inv s -> step true s (LSpawn i o) = Some s' -> Inv s'.
Proof.
  intros I H. simpl in H.
  destruct (glock s); [discriminate|].
  destruct (nth_error (thr s) i) as [[]|] eqn:E; try discriminate.
  destruct (gsd s) eqn:Eg.
  - destruct o; try discriminate. inversion H; subst s'.
    apply (inv_relax_pc _ _ _ _ I E). repeat split; simpl; lia.
  - destruct o; try discriminate; inversion H; subst s'; clear H.
    + (* a new auxiliary worker starts on the task: i_live, i_tasks, i_started move; i_gsd_w and
         i_awret see the new thread_count, under a premise [gsd s = true] that is false *)
      apply (inv_move _ _ _ _ (SIdle rest) [WRun Aux (next s)] I E).
      { intros w. simpl. pose proof (sumf_upd w _ _ _ (SIdle rest) E) as U.
        pose proof (sumf_upd w _ _ _ (SIdle rest) (nth_snoc_lt _ _ _ (WRun Aux (next s)) E)) as U'.
        rewrite sumf_snoc in U'. lia. }
      clear - Eg. intros R _ I. destruct s; simpl in Eg; subst. inv_clauses I.
    + (* the spawn failed: thread_count is back where it was *)
      apply (inv_relax_pc _ _ _ _ I E). repeat split; simpl; lia.
Qed.
