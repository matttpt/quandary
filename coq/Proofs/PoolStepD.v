(* Preservation of [Inv]: OneshotHandle::drop / RespawnableHandle::drop (end_thread, respawn). *)
From Coq Require Import Lia Permutation.
From QV Require Import Model.Pool Proofs.PoolLemmas Proofs.PoolInv.

Lemma drop_enter_pc s i rm : drop_enter s i = Some rm ->
  exists p, nth_error (thr s) i = Some p /\ ((exists k, p = WDrop k) \/ p = RWoken).
Proof.
  unfold drop_enter. destruct (nth_error (thr s) i) as [[]|]; try discriminate; eauto.
Qed.

(* end_thread: the thread whose handle is dropped is live, so [thread_count -= 1] does not
   underflow; if the group is shutting down and this was its last thread, the waiters on
   shutdown_wakeup are woken first (which preserves [Inv] and leaves none waiting).
   i_live moves; i_gsd_w and i_awret see the new thread_count: when it reaches 0 under [gsd],
   i_gsd_w wants nobody in await_shutdown's wait, which is [Z]. *)
Lemma inv_exit s i rm : Inv s -> drop_enter s i = Some rm -> Inv (end_thread (set_pc i WExited s)).
Proof.
  intros I Ed. destruct (drop_enter_pc _ _ _ Ed) as (p & E & Hp).
  assert (Ht : tcount s <> 0).
  { pose proof (i_live s I) as Hlv. pose proof (sumf_nth_le (fun p => b2n (is_live p)) _ _ _ E) as Hi.
    destruct Hp as [[k ->] | ->]; simpl in Hi; lia. }
  pose proof (sd_wakes (thr s)) as Z.
  assert (E' : nth_error (notify_all on_sd (thr s)) i = Some p)
    by (apply nth_na_other; [exact E | destruct Hp as [[k ->] | ->]; reflexivity]).
  pose proof (inv_notify_all _ on_sd I) as I1. clear Ed.
  destruct s as [tc gs ? ? ? ? ? th ? ? ? ? ?]; unfold end_thread; simpl in *.
  destruct tc as [|n]; [congruence|]. clear Ht.
  destruct gs; [destruct n|]; simpl.
  1: { rewrite na_upd by reflexivity.
    eapply (inv_move _ _ _ _ _ [] I1 E'); [reflexivity|]. intros R HR I2. simpl in HR. rewrite !HR in Z.
    clear - Hp Z I2. destruct Hp as [[k ->] | ->]; inv_clauses I2. }
  all: eapply (inv_set I E); [reflexivity|]; clear - Hp; intros R I2;
    destruct Hp as [[k ->] | ->]; inv_clauses I2.
Qed.

(* a permanent worker is replaced: the new thread is counted before the old one ends, so
   nothing moves but the terms of i_live; i_gsd_w, i_awret hold for lack of [gsd] *)
Lemma inv_respawn s i rm : Inv s -> drop_enter s i = Some rm -> gsd s = false ->
  Inv (end_thread (respawn (set_pc i WExited s))).
Proof.
  intros I Ed Hg. destruct (drop_enter_pc _ _ _ Ed) as (p & E & Hp).
  apply (inv_move _ _ _ _ WExited [WIdle Perm] I E).
  - intros w. unfold end_thread, respawn. simpl. rewrite Hg. simpl. rewrite sumf_snoc. lia.
  - clear - Hp Hg. intros R _ I2. destruct s; unfold end_thread, respawn; simpl in *; subst.
    destruct Hp as [[k ->] | ->]; inv_clauses I2.
Qed.

Lemma inv_drop s i o s' : Inv s -> step true s (LDrop i o) = Some s' -> Inv s'.
Proof.
  intros I H. simpl in H.
  destruct (glock s); [discriminate|].
  destruct (drop_enter s i) as [[rs mw]|] eqn:Ed; [|discriminate].
  destruct rs, (gsd s) eqn:Eg; cbn [andb negb] in H; destruct o; try discriminate.
  1,4,5,6: inversion H; exact (inv_exit _ _ _ I Ed).
  2: inversion H; exact (inv_respawn _ _ _ I Ed Eg).
  (* a permanent worker's handle waits out its throttling delay: only i_gsd_w moves (a new
     waiter on shutdown_wakeup), and the group is not shutting down *)
  destruct mw; inversion H. unfold drop_enter in Ed.
  destruct (nth_error (thr s) i) as [[]|] eqn:E; try discriminate. destruct k; try discriminate.
  eapply (inv_set I E); [reflexivity|]. clear - Eg. intros R I2.
  destruct s; simpl in *; subst. inv_clauses I2.
Qed.
