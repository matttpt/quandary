(* Composition (C04 clause (iv) in general; a bridge to C05): whenever the answering logic succeeds on the octet-level
   Writer, the abstract message of its trace is the response of the idealised run (Model/Query.v on rec_iface) with
   some of the OPTIONAL tail of its additional section omitted.  Both runs are the same function on two interfaces
   and share every zone lookup and RDATA parse, so each lemma unfolds both and follows the Writer's outcomes. *)
From QV Require Import Base.ListX Gen.ZoneConsts Gen.QueryConsts Model.NameWire Model.MsgWriter Model.ZoneTree
  Spec.ZoneLookupS Proofs.ZoneBaseP Proofs.ZoneInvP Proofs.ZoneTopP Model.Query Model.QueryW
  Spec.NameWireS Spec.MsgWriterS Spec.MsgWriterAbsS Spec.RespS
  Proofs.MsgWriterP Proofs.MsgWriterScanP Proofs.MsgWriterNameP Proofs.MsgWriterInvP Proofs.MsgWriterOpP
  Proofs.MsgWriterStepP Proofs.MsgWriterDecP Proofs.MsgWriterHdrP Proofs.MsgWriterRtP
  Proofs.QueryNameP Proofs.QueryWfP Proofs.QueryP
  Proofs.ComposeTraceP Proofs.ComposeWfP Proofs.ComposeNameP Proofs.ComposeKeyP Proofs.ComposeTopP Proofs.ComposeRespP
  Proofs.ComposeTcP Proofs.ComposeGlueP.
Local Open Scope nat_scope.

(* a recorded record as an abstract record of the Writer's message (standard compression mode) *)
Definition q2a (q : qrr) : arr := mkAR (q_owner q) Standard (q_type q) (q_class q) (ttl_rfc (q_ttl q)) (q_rdata q).
Lemma q2a_map owner ty c ttl rds : map q2a (map (mk_qrr owner ty c ttl) rds) = map (mkAR owner Standard ty c (ttl_rfc ttl)) rds.
Proof. rewrite map_map. reflexivity. Qed.

Definition Rel (A : amsg) (r : recorder) : Prop :=
  am_mode A = Standard /\ am_an A = map q2a (rc_an r) /\ am_ns A = map q2a (rc_ns r).
(* exact: nothing omitted so far *)
Definition RelE (A : amsg) (r : recorder) : Prop := Rel A r /\ am_ar A = map q2a (rc_ar r).
(* a record whose owner is at/below the owner of some authority record (in particular: referral glue) *)
Definition in_bailiwick (ns : list qrr) (q : qrr) : Prop :=
  exists n, In n ns /\ eq_or_subdomain_of (q_owner q) (q_owner n) = true.
(* the additional section: a kept part M in both, then a sub-selection X of the idealised optional tail O;
   no record of the optional tail is in-bailiwick *)
Definition RelO (A : amsg) (r : recorder) : Prop :=
  Rel A r /\ exists M X Oq, am_ar A = M ++ X /\ map q2a (rc_ar r) = M ++ map q2a Oq /\ Sub X (map q2a Oq) /\
                            Forall (fun q => ~ in_bailiwick (rc_ns r) q) Oq.

(* the decoded message m is the idealised response r: answer and authority record by record; of r's additional
   section a kept part M, then a sub-selection X of its optional tail Oq (no record of which is in-bailiwick), then
   only pseudo-records *)
Definition decoded_up_to_optional (r : recorder) (m : dmsg) : Prop :=
  Forall2 (rr_rel xparts) (map q2a (rc_an r)) (m_an m) /\
  Forall2 (rr_rel xparts) (map q2a (rc_ns r)) (m_ns m) /\
  exists M X Oq dsM dsX dsP,
    map q2a (rc_ar r) = M ++ map q2a Oq /\ Sub X (map q2a Oq) /\
    Forall (fun q => ~ in_bailiwick (rc_ns r) q) Oq /\
    m_ar m = dsM ++ dsX ++ dsP /\ Forall2 (rr_rel xparts) M dsM /\ Forall2 (rr_rel xparts) X dsX /\
    forallb is_pseudo dsP = true.

Lemma RelE_O A r : RelE A r -> RelO A r.
Proof.
  intros [H E]. split; [exact H|]. exists (am_ar A), [], []. cbn [map]. rewrite !app_nil_r.
  split; [reflexivity|]. split; [congruence|]. split; constructor.
Qed.

Lemma RelE_secs A r r1 : RelE A r -> rc_an r1 = rc_an r -> rc_ns r1 = rc_ns r -> rc_ar r1 = rc_ar r -> RelE A r1.
Proof. intros [(M & An & Ns) Ar] E1 E2 E3. unfold RelE, Rel. rewrite E1, E2, E3. auto. Qed.

Lemma RelE_add A r s l : RelE A r ->
  RelE (add_rrs A (sec_of s) (map q2a l)) (rec_add s l r).
Proof.
  intros [(M & An & Ns) Ar]. destruct s; unfold RelE, Rel, add_rrs, rec_add; cbn; rewrite ?map_app; repeat split; congruence.
Qed.

Lemma RelE_flags A r aa tc rc : RelE A r -> RelE A (mk_rec aa tc rc (rc_an r) (rc_ns r) (rc_ar r)).
Proof. intros H. exact H. Qed.

Section Abs.
Variable req : N -> N -> bytes -> bytes -> bool.
Variable apex : name.
Variable cls : N.
Variable R : list record.
Variable z : zone.
Hypothesis Hinv : Inv req apex cls z R.
Hypothesis HR : Forall (fun r => Pz (fun _ _ => True) (r_type r) (r_rdata r)) R.
Hypothesis Hapex : good_name apex.
Hypothesis Hclass : (cls < 65536)%N.

Definition addr_qs (owner : zname) (sbc : bool) : list qrr :=
  match zl (zone_lookup_addrs z owner false sbc) with
  | Some (AFound a aaaa _) =>
    (match a with Some (ttl, rds) => map (mk_qrr owner ZoneConsts.TYPE_A (z_class z) ttl) rds | None => [] end) ++
    (if (z_class z =? ZoneConsts.CLASS_IN)%N
     then match aaaa with Some (ttl, rds) => map (mk_qrr owner ZoneConsts.TYPE_AAAA ZoneConsts.CLASS_IN ttl) rds | None => [] end
     else [])
  | _ => []
  end.

Lemma addr_qs_rrs owner sbc : map q2a (addr_qs owner sbc) = addr_rrs z owner sbc.
Proof.
  unfold addr_qs, addr_rrs. destruct (zl (zone_lookup_addrs z owner false sbc)) as [[a aaaa sos|c ns| |]|]; try reflexivity.
  rewrite map_app. f_equal.
  - destruct a as [[t rds]|]; [apply q2a_map|reflexivity].
  - destruct (z_class z =? ZoneConsts.CLASS_IN)%N; [|reflexivity]. destruct aaaa as [[t rds]|]; [apply q2a_map|reflexivity].
Qed.

Lemma zl_addrs_some owner sbc : zl (zone_lookup_addrs z owner false sbc) <> None.
Proof.
  destruct (zone_lookup_addrs_refines req apex cls z R owner false sbc Hinv) as (r & Hz & _); [discriminate|].
  rewrite Hz. discriminate.
Qed.

Lemma rec_addrs owner h sbc r : add_additional_addresses rec_iface z owner h sbc r = Ok (rec_add SAr (addr_qs owner sbc) r).
Proof.
  pose proof (zl_addrs_some owner sbc) as NS. unfold add_additional_addresses, addr_qs.
  destruct (zl (zone_lookup_addrs z owner false sbc)) as [[a aaaa sos|c ns| |]|]; try congruence;
    try (rewrite rec_add_nil; reflexivity).
  (* in every case at most two additions to the additional section, merged by rec_add_add *)
  destruct a as [[ta ra]|]; rewrite ?rec_add_rrset; cbn [app];
    destruct (z_class z =? ZoneConsts.CLASS_IN)%N; try destruct aaaa as [[tb rb]|]; rewrite ?rec_add_rrset, ?rec_add_add, ?app_nil_r, ?rec_add_nil; reflexivity.
Qed.

Definition rd_addr_qs (start : nat) (rd : bytes) : list qrr :=
  match read_name_from_rdata rd start with Ok nm => addr_qs nm false | _ => [] end.
Lemma rd_addr_qs_rrs start rds : map q2a (flat_map (rd_addr_qs start) rds) = flat_map (rd_addrs z start) rds.
Proof.
  induction rds as [|rd rds IH]; [reflexivity|]. cbn [flat_map]. rewrite map_app, IH. f_equal.
  unfold rd_addr_qs, rd_addrs. destruct (read_name_from_rdata rd start); try reflexivity. apply addr_qs_rrs.
Qed.

Definition parses (start : nat) (rd : bytes) : Prop := exists nm, read_name_from_rdata rd start = Ok nm.

Lemma rec_additional_loop start : forall rds v idx r, Forall (parses start) rds ->
  additional_loop rec_iface z start rds v idx r = Ok (tt, rec_add SAr (flat_map (rd_addr_qs start) rds) r).
Proof.
  induction rds as [|rd rds IH]; intros v idx r Hp; cbn [additional_loop flat_map]; [rewrite rec_add_nil; reflexivity|].
  inversion Hp as [|? ? [nm Hn] Hrest]; subst. unfold rd_addr_qs at 1. rewrite Hn. rewrite rec_addrs. cbn [allow_truncation].
  rewrite IH by exact Hrest. rewrite rec_add_add. reflexivity.
Qed.

Lemma additional_loop_parses {W} (wi : wiface W) start : forall rds v idx w x,
  additional_loop wi z start rds v idx w = Ok x -> Forall (parses start) rds.
Proof.
  induction rds as [|rd rds IH]; intros v idx w x H; [constructor|]. cbn [additional_loop] in H.
  destruct (read_name_from_rdata rd start) as [nm|e|] eqn:En; try discriminate.
  constructor; [exists nm; exact En|].
  destruct (allow_truncation (add_additional_addresses wi z nm (hint_from_vec v idx) false w)) as [[u w1]|e|]; try discriminate.
  eapply IH; eauto.
Qed.

Definition addl_qs (ty : N) (rds : list bytes) : list qrr :=
  if negb (existsb (N.eqb (z_class z)) ADDITIONAL_CLASSES) then []
  else match lookup_offset ADDITIONAL_TABLE ty with
       | Some start => flat_map (rd_addr_qs start) rds
       | None => []
       end.
Lemma addl_qs_rrs ty rds : map q2a (addl_qs ty rds) = addl_rrs z ty rds.
Proof.
  unfold addl_qs, addl_rrs. destruct (negb _); [reflexivity|]. destruct (lookup_offset _ _); [apply rd_addr_qs_rrs|reflexivity].
Qed.

Lemma rec_glue_loop : forall l v r,
  glue_loop rec_iface z l v r = Ok (tt, rec_add SAr (flat_map (fun t => addr_qs (snd t) true) l) r).
Proof.
  induction l as [|[idx n] l IH]; intros v r; cbn [glue_loop flat_map]; [rewrite rec_add_nil; reflexivity|].
  rewrite rec_addrs. cbn [lift_add]. rewrite IH, rec_add_add. reflexivity.
Qed.
Lemma rec_optional_loop : forall l v r,
  optional_loop rec_iface z l v r = Ok (tt, rec_add SAr (flat_map (fun t => addr_qs (snd t) true) l) r).
Proof.
  induction l as [|[idx n] l IH]; intros v r; cbn [optional_loop flat_map]; [rewrite rec_add_nil; reflexivity|].
  rewrite rec_addrs. cbn [allow_truncation]. rewrite IH, rec_add_add. reflexivity.
Qed.
Lemma flat_addr_qs_rrs sbc (l : list (nat * zname)) :
  map q2a (flat_map (fun t => addr_qs (snd t) sbc) l) = flat_map (fun t => addr_rrs z (snd t) sbc) l.
Proof. induction l as [|t l IH]; [reflexivity|]. cbn [flat_map]. rewrite map_app, IH, addr_qs_rrs. reflexivity. Qed.


Lemma addr_qs_owner owner sbc q : In q (addr_qs owner sbc) -> q_owner q = owner.
Proof.
  unfold addr_qs. destruct (zl (zone_lookup_addrs z owner false sbc)) as [[a aaaa sos|c ns| |]|]; try (intros []).
  intros H. apply in_app_or in H. destruct H as [H|H].
  - destruct a as [[t rds]|]; [|destruct H]. apply in_map_iff in H as (rd & <- & _). reflexivity.
  - destruct (z_class z =? ZoneConsts.CLASS_IN)%N; [|destruct H]. destruct aaaa as [[t rds]|]; [|destruct H].
    apply in_map_iff in H as (rd & <- & _). reflexivity.
Qed.

Lemma referral_names_adds child : forall rds idx glues adds, referral_names child rds idx = Ok (glues, adds) ->
  forall i nm, In (i, nm) adds -> eq_or_subdomain_of nm child = false.
Proof.
  induction rds as [|rd rds IH]; intros idx glues adds; cbn [referral_names].
  - intros H. inversion H; subst. intros i nm [].
  - destruct (read_name_from_rdata rd 0) as [n|e|]; cbn [bind]; try discriminate.
    destruct (referral_names child rds (S idx)) as [[g1 a1]|e|] eqn:Ern; cbn [bind]; try discriminate.
    destruct (eq_or_subdomain_of n child) eqn:En; intros H; inversion H; subst; intros i nm Hin.
    + eapply IH; eauto.
    + destruct Hin as [E|Hin]; [inversion E; subst; exact En|eapply IH; eauto].
Qed.

Variable Pop : wop -> Prop.
Hypothesis Hpop_rrset : forall s hs owner ty cl ttl rds vec, Pop (OAddRrset s hs owner ty cl ttl rds vec).
Hypothesis Hpop_rr : forall s hs owner ty cl ttl rd vec, Pop (OAddRr s hs owner ty cl ttl rd vec).
Hypothesis Hpop_aa : forall b, Pop (OSetAa b).
Hypothesis Hpop_rc : Pop (OSetRcode RCODE_NXDOMAIN).      (* the only RCODE the answering logic itself sets *)
Variable negttl : N -> N -> N.
Variable d0 : dstate.
Variable g0 : gn.
Variable A0 : amsg.

Notation Pz0 := (Pz (fun _ _ => True)).
Notation StA := (StA Pop d0 g0 A0).
Notation zc16A := (zc16 req apex cls R z Hinv Hclass).
Notation znA := (Hzn req apex cls R z Hinv).
Notation StA_add_rr := (StA_add_rr Pop Hpop_rr d0 g0 A0).

Definition QC {T} (d : dstate) (g : gn) (Post : amsg -> recorder -> Prop)
    (q : res (perr * writer) (T * writer)) (qr : res (perr * recorder) (T * recorder)) : Prop :=
  match q with
  | Ok (t, w') => exists d' g' A' r', StA d' g' A' /\ d_w d' = w' /\ Frame d g d' g' /\ qr = Ok (t, r') /\ Post A' r'
  | Err _ => True
  | Panic => False
  end.

Lemma QC_frame {T} d g d1 g1 Post (q : res (perr * writer) (T * writer)) qr :
  Frame d g d1 g1 -> QC d1 g1 Post q qr -> QC d g Post q qr.
Proof.
  intros F. destruct q as [[t w']|e|]; cbn [QC]; auto. intros (d' & g' & A' & r' & H1 & H2 & H3 & H4).
  exists d', g', A', r'. split; [exact H1|]. split; [exact H2|]. split; [eapply Frame_trans; eauto|exact H4].
Qed.
Lemma QC_weaken {T} d g (P P' : amsg -> recorder -> Prop) (q : res (perr * writer) (T * writer)) qr :
  (forall A r, P A r -> P' A r) -> QC d g P q qr -> QC d g P' q qr.
Proof.
  intros HP. destruct q as [[t w']|e|]; cbn [QC]; auto. intros (d' & g' & A' & r' & H1 & H2 & H3 & H4 & H5).
  exists d', g', A', r'. auto 10.
Qed.

Lemma QC_here {T} d g A r (Post : amsg -> recorder -> Prop) (t : T) : StA d g A -> Post A r -> QC d g Post (Ok (t, d_w d)) (Ok (t, r)).
Proof. intros HS HP. exists d, g, A, r. split; [exact HS|]. split; [reflexivity|]. split; [apply Frame_refl|]. auto. Qed.

Lemma negsoa_C d g A r : StA d g A -> RelE A r ->
  QC d g RelE (add_negative_caching_soa w_iface negttl z (d_w d)) (add_negative_caching_soa rec_iface negttl z r).
Proof.
  intros HS HRel.
  destruct (zone_lookup_refines req apex cls z R apex 6 true false Hinv (fun _ => in_zone_apex' apex)) as (lr & Hz & Hs).
  pose proof (zone_soa_lookup z) as L. rewrite znA in L. change ZoneConsts.TYPE_SOA with 6%N in L.
  rewrite L in Hz. inversion Hz as [Hr]. clear Hz L.
  pose proof (spec_lookup_good req apex cls R Pz0 HR _ _ _ _ _ Hs) as G.
  unfold add_negative_caching_soa.
  destruct (zone_soa z) as [[ttl rds]|]; [|exact I].
  subst lr. cbn [lookup_good] in G. destruct G as [GP _]. cbn [snd] in GP.
  destruct rds as [|rd rest]; [exact I|].
  inversion GP as [|? ? (Grd & _ & _) _]; subst.
  pose proof (soa_minimum_spec rd) as Hm.
  destruct (read_soa_minimum rd) as [m|e|]; [| |contradiction]; [|exact I].
  assert (Hown : good_name (zone_name z)) by (rewrite znA; exact Hapex).
  pose proof (StA_add_rr d g A SNs QhNone HsNone (zone_name z) ZoneConsts.TYPE_SOA (z_class z) (negttl ttl m) rd HS eq_refl Hown Grd eq_refl zc16A I) as X.
  rewrite rec_add_rr. cbn [lift_add].
  destruct (wi_add_rr w_iface SNs QhNone (zone_name z) ZoneConsts.TYPE_SOA (z_class z) (negttl ttl m) rd (d_w d)) as [w1|[e w1]|]; cbn [QC]; auto.
  destruct X as (d1 & g1 & HS1 & Hw1 & F1 & _). eexists d1, g1, _, _. split; [exact HS1|]. split; [exact Hw1|].
  split; [exact F1|]. split; [reflexivity|].
  pose proof HRel as [(Hm' & _) _]. rewrite Hm'.
  exact (RelE_add A r SNs [mk_qrr (zone_name z) ZoneConsts.TYPE_SOA (z_class z) (negttl ttl m) rd] HRel).
Qed.

Lemma negsoa_O d g A r : StA d g A -> RelE A r ->
  QC d g RelO (add_negative_caching_soa w_iface negttl z (d_w d)) (add_negative_caching_soa rec_iface negttl z r).
Proof. intros HS HRel. eapply QC_weaken; [apply RelE_O|]. exact (negsoa_C d g A r HS HRel). Qed.

(* the idealised run never fails on the Writer's side, but it does stop at an RDATA that does not parse: that the
   Writer's run got through says it did not *)
Lemma additional_rec ty rs v vr w x r : do_additional_section_processing w_iface z ty rs v w = Ok x ->
  do_additional_section_processing rec_iface z ty rs vr r = Ok (tt, rec_add SAr (addl_qs ty (snd rs)) r).
Proof.
  unfold do_additional_section_processing, addl_qs.
  destruct (negb (existsb (N.eqb (z_class z)) ADDITIONAL_CLASSES)); [intros _; rewrite rec_add_nil; reflexivity|].
  destruct (lookup_offset ADDITIONAL_TABLE ty) as [start|]; [|intros _; rewrite rec_add_nil; reflexivity].
  intros H. apply additional_loop_parses in H. apply rec_additional_loop. exact H.
Qed.

(* [rc_ns r = []] (here and below): nothing is in the authority section yet, so that
   [in_bailiwick] of the final recorder is judged against the NS RRset of the one referral alone (and against nothing
   for a positive answer) *)
Lemma found_C h hs hr owner ty rs d g A r : StA d g A -> RelE A r -> rc_ns r = [] -> good_name owner -> single_good Pz0 ty rs ->
  hint_agrees (d_regs d) h hs -> hs_contract (d_regs d) g hs owner ->
  QC d g RelO (add_found w_iface z h owner ty rs (d_w d)) (add_found rec_iface z hr owner ty rs r).
Proof.
  intros HS HRel Hns0 Gn Gs Hh Hc. pose proof HRel as [(Hm & Han & Hns) Har].
  pose proof (found_A req apex cls R z Hinv HR Hclass Pop Hpop_rrset d0 g0 A0 h hs owner ty rs d g A HS Hm Gn Gs Hh Hc) as Q.
  destruct (add_found w_iface z h owner ty rs (d_w d)) as [[u w']|e|] eqn:Ef; cbn [QSA QC] in Q |- *; auto.
  destruct Q as (d' & g' & A' & HS' & Hw' & F & Hm' & Ean & Ens & (X & Ear & HsubX)).
  assert (Er : add_found rec_iface z hr owner ty rs r =
               Ok (tt, rec_add SAr (addl_qs ty (snd rs)) (rec_add SAn (map (mk_qrr owner ty (z_class z) (fst rs)) (snd rs)) r))).
  { unfold add_found in Ef |- *. rewrite rec_add_rrset. cbn [lift_addv].
    destruct (wi_add_rrset w_iface SAn h owner ty (z_class z) (fst rs) (snd rs) true (d_w d)) as [[v w1]|[e w1]|]; cbn [lift_addv] in Ef; try discriminate.
    eapply additional_rec; eauto. }
  destruct u. eexists d', g', A', _. split; [exact HS'|]. split; [exact Hw'|]. split; [exact F|]. split; [exact Er|].
  split.
  - unfold Rel, rec_add. cbn. rewrite map_app, q2a_map. repeat split; congruence.
  - exists (am_ar A), X, (addl_qs ty (snd rs)). split; [exact Ear|]. split; [|split].
    + unfold rec_add. cbn. rewrite map_app. congruence.
    + rewrite addl_qs_rrs. exact HsubX.
    + apply Forall_forall. intros q _ (n & Hn & _). unfold rec_add in Hn. cbn in Hn. rewrite Hns0 in Hn. destruct Hn.
Qed.

Lemma referral_C child ns d g A r : StA d g A -> RelE A r -> rc_ns r = [] -> good_name child -> Forall (Pz0 2%N) (snd ns) ->
  QC d g RelO (do_referral w_iface z child ns (d_w d)) (do_referral rec_iface z child ns r).
Proof.
  intros HS HRel Hns0 Gc GP. pose proof HRel as [(Hm & Han & Hns) Har].
  pose proof (referral_A req apex cls R z Hinv HR Hclass Pop Hpop_rrset d0 g0 A0 child ns d g A HS Hm Gc GP) as Q.
  destruct (do_referral w_iface z child ns (d_w d)) as [[u w']|e|] eqn:Ef; cbn [QSA QC] in Q |- *; auto.
  destruct Q as (d' & g' & A' & HS' & Hw' & F & Hm' & Ean & Ens & (X & Ear & HsubX)).
  unfold do_referral in Ef |- *. rewrite rec_add_rrset. cbn [lift_addv].
  destruct (wi_add_rrset w_iface SNs QhNone child ZoneConsts.TYPE_NS (z_class z) (fst ns) (snd ns) true (d_w d)) as [[v w1]|[e w1]|]; cbn [lift_addv] in Ef; try discriminate.
  unfold glue_rrs, opt_rrs in *.
  destruct (referral_names child (snd ns) 0) as [[glues adds]|e|] eqn:Ern; try discriminate.
  rewrite rec_glue_loop, rec_optional_loop.
  destruct u. eexists d', g', A', _. split; [exact HS'|]. split; [exact Hw'|]. split; [exact F|]. split; [reflexivity|].
  split.
  - unfold Rel, rec_add. cbn. rewrite map_app, q2a_map. repeat split; congruence.
  - exists (am_ar A ++ flat_map (fun t => addr_rrs z (snd t) true) glues), X, (flat_map (fun t => addr_qs (snd t) true) adds).
    split; [rewrite Ear, app_assoc; reflexivity|]. split; [|split].
    + unfold rec_add. cbn. rewrite !map_app, Har. rewrite (flat_addr_qs_rrs true glues). reflexivity.
    + rewrite flat_addr_qs_rrs. exact HsubX.
    + apply Forall_forall. intros q Hq (n & Hn & Hsub).
      apply in_flat_map in Hq as ([i nm] & Hin & Hq). cbn [snd] in Hq. apply addr_qs_owner in Hq.
      unfold rec_add in Hn. cbn in Hn. rewrite Hns0 in Hn. cbn [app] in Hn. apply in_map_iff in Hn as (rd & <- & _). cbn [q_owner] in Hsub.
      rewrite Hq in Hsub. rewrite (referral_names_adds child _ _ _ _ Ern i nm Hin) in Hsub. discriminate.
Qed.


Lemma set_rcode_QC {T} d g A r (Post : amsg -> recorder -> Prop)
    (k : writer -> res (perr * writer) (T * writer)) (kr : recorder -> res (perr * recorder) (T * recorder)) :
  StA d g A -> RelE A r ->
  (forall d1 r1, StA d1 g A -> d_regs d1 = d_regs d -> RelE A r1 -> rc_ns r1 = rc_ns r -> QC d1 g Post (k (d_w d1)) (kr r1)) ->
  QC d g Post (match lift_set (wi_set_rcode w_iface RCODE_NXDOMAIN (d_w d)) with Ok (_, w1) => k w1 | Err e => Err e | Panic => Panic end)
              (match lift_set (wi_set_rcode rec_iface RCODE_NXDOMAIN r) with Ok (_, r1) => kr r1 | Err e => Err e | Panic => Panic end).
Proof.
  intros HS HRel Hk. destruct (StA_set_rcode _ _ _ _ d g A RCODE_NXDOMAIN HS eq_refl Hpop_rc) as (w' & E & HS'). rewrite E, rec_set_rcode. cbn [lift_set].
  apply (QC_frame d g (mkD w' (d_regs d)) g); [split; [reflexivity|split; apply prefix_refl]|].
  apply (Hk (mkD w' (d_regs d))); auto.
Qed.
Lemma set_aa_then_QC d g A r (Post : amsg -> recorder -> Prop)
    (k : writer -> res (perr * writer) (unit * writer)) (kr : recorder -> res (perr * recorder) (unit * recorder)) :
  StA d g A -> RelE A r ->
  (forall d1 r1, StA d1 g A -> d_regs d1 = d_regs d -> RelE A r1 -> rc_ns r1 = rc_ns r -> QC d1 g Post (k (d_w d1)) (kr r1)) ->
  QC d g Post (set_aa_then w_iface k (d_w d)) (set_aa_then rec_iface kr r).
Proof.
  intros HS HRel Hk. unfold set_aa_then. destruct (StA_set_aa _ _ _ _ d g A true HS (Hpop_aa true)) as (w' & E & HS'). rewrite E, rec_set_aa. cbn [lift_set].
  apply (QC_frame d g (mkD w' (d_regs d)) g); [split; [reflexivity|split; apply prefix_refl]|].
  apply (Hk (mkD w' (d_regs d))); auto.
Qed.

Variable qname : zname.
Hypothesis Hqn : good_name qname.

Lemma cname_C ty : forall fuel cn os d g A r, StA d g A -> RelE A r -> rc_ns r = [] -> Gq qname g -> Forall (Pz0 5%N) (snd cn) ->
  1 <= fuel -> length os + fuel = 8 ->
  (forall o, Query.last_opt os = Some o -> good_name o /\ g_r g = Some o) ->
  QC d g RelO (follow_cname_1 w_iface negttl z fuel qname ty cn os (d_w d)) (follow_cname_1 rec_iface negttl z fuel qname ty cn os r).
Proof.
  induction fuel as [|fuel IH]; intros cn os d g A r HS HRel Hns0 HGq Hrds Hf Hlen Hlast; [lia|].
  cbn [follow_cname_1].
  destruct (snd cn) as [|rd rest] eqn:Ecn; [exact I|].
  inversion Hrds as [|? ? (Grd & _ & _) _]; subst. pose proof Grd as [Hrd _].
  pose proof (name_from_all_no_panic rd) as NP.
  destruct (name_from_all rd) as [[[cname wire]|]|e|] eqn:En; try congruence; try exact I.
  destruct (name_from_all_facts _ _ _ Hrd En) as (-> & Hne & Gcn & _).
  destruct (zname_eqb cname qname || existsb (zname_eqb cname) os); [exact I|].
  pose proof HRel as [(Hm & _) _].
  destruct (cname_owner qname Hqn (d_regs d) g os HGq Hlast) as (h & hs & owner & -> & Gown & Hh & Hc).
  (* rd <> [] made visible, so that the model's [match cname_wire with [] => Panic] reduces on both runs *)
  destruct rd as [|b0 rd']; [congruence|]. set (rd := b0 :: rd') in *.
  pose proof (StA_add_rr d g A SAn h hs owner ZoneConsts.TYPE_CNAME (z_class z) (fst cn) rd HS Hh Gown Grd eq_refl zc16A Hc) as X.
  rewrite rec_add_rr. cbn [lift_add].
  destruct (wi_add_rr w_iface SAn h owner ZoneConsts.TYPE_CNAME (z_class z) (fst cn) rd (d_w d)) as [w1|[e w1]|]; cbn [lift_add QC]; auto.
  destruct X as (d1 & g1 & HS1 & <- & F1 & (Gq1 & Go1 & Gr1)).
  apply (QC_frame d g d1 g1 _ _ _ F1).
  assert (HGq1 : Gq qname g1) by (unfold Gq; rewrite Gq1; exact HGq).
  assert (Hgr : g_r g1 = Some cname).
  { rewrite Gr1. change ZoneConsts.TYPE_CNAME with TYPE_CNAME. rewrite (cname_rd_names (z_class z) rd cname rd Hrd En). reflexivity. }
  rewrite Hm in HS1.
  set (A1 := add_rrs A (sec_of SAn) [mkAR owner Standard ZoneConsts.TYPE_CNAME (z_class z) (ttl_rfc (fst cn)) rd]) in *.
  set (r1 := rec_add SAn [mk_qrr owner ZoneConsts.TYPE_CNAME (z_class z) (fst cn) rd] r).
  assert (HRel1 : RelE A1 r1) by (exact (RelE_add A r SAn [mk_qrr owner ZoneConsts.TYPE_CNAME (z_class z) (fst cn) rd] HRel)).
  assert (Hns1 : rc_ns r1 = []) by exact Hns0.
  unfold follow_cname_2_body.
  destruct (zone_lookup_refines req apex cls z R cname ty false false Hinv) as (lr & Hz & Hs); [discriminate|].
  rewrite Hz. cbn [zl].
  pose proof (spec_lookup_good req apex cls R Pz0 HR _ _ _ _ _ Hs) as G.
  destruct lr as [s sos|next sos|c ns|sos| |]; cbn [lookup_good] in G.
  - apply (found_C QhRdata HsRdata QhRdata cname ty s d1 g1 A1 r1); auto; [reflexivity|].
    exact (contract_same _ _ HsRdata _ Hgr).
  - destruct G as [GP _].
    destruct (_ <? PREVIOUS_OWNERS_CAP) eqn:L; change PREVIOUS_OWNERS_CAP with 7 in L; [|exact I].
    apply Nat.ltb_lt in L.
    pose proof (cname_fuel os cname fuel Hlen L) as Hfu.
    apply (IH next (os ++ [cname]) d1 g1 A1 r1); auto; try tauto.
    intros o Ho. rewrite last_opt_snoc in Ho. inversion Ho; subst. auto.
  - destruct G as [GP Gs]. apply (referral_C c ns d1 g1 A1 r1); auto. eapply good_name_suffix; eauto.
  - apply (negsoa_O d1 g1 A1 r1); auto.
  - apply (set_rcode_QC d1 g1 A1 r1); auto. intros d2 r2 HS2 _ HRel2 _.
    apply (negsoa_O d2 g1 A1 r2); auto.
  - apply (QC_here d1 g1 A1 r1); [exact HS1|apply RelE_O; exact HRel1].
Qed.


Lemma any_loop_C : forall rrsets n d g A r, StA d g A -> RelE A r -> Gq qname g ->
  Forall (fun x => Forall (Pz0 (rs_type x)) (rs_rdatas x) /\ rs_rdatas x <> []) rrsets ->
  QC d g RelE (any_loop w_iface z qname rrsets n (d_w d)) (any_loop rec_iface z qname rrsets n r).
Proof.
  induction rrsets as [|x rrsets IH]; intros n d g A r HS HRel HGq Hall; cbn [any_loop].
  - apply (QC_here d g A r); assumption.
  - inversion Hall as [|? ? (HxP & Hxne) Hrest]; subst. destruct (Pz_split _ _ _ HxP) as [Hx1 _]. pose proof (Pz_ty _ _ _ HxP Hxne) as Hx3.
    assert (Hc : hs_contract (d_regs d) g HsQname qname).
    { exact (contract_same _ _ HsQname _ HGq). }
    pose proof (StA_add_rrset Pop Hpop_rrset d0 g0 A0 d g A SAn QhQname HsQname qname (rs_type x) (z_class z) (rs_ttl x) (rs_rdatas x) false
                  HS eq_refl Hqn Hx1 Hx3 zc16A Hc) as X.
    rewrite rec_add_rrset. cbn [lift_addv].
    destruct (wi_add_rrset w_iface SAn QhQname qname (rs_type x) (z_class z) (rs_ttl x) (rs_rdatas x) false (d_w d)) as [[v w1]|[e w1]|];
      cbn [lift_addv QC]; auto.
    destruct X as (d1 & g1 & HS1 & <- & F1 & _). pose proof F1 as (Gq1 & _).
    apply (QC_frame d g d1 g1 _ _ _ F1).
    pose proof HRel as [(Hm & _) _]. rewrite Hm in HS1. rewrite <- q2a_map in HS1.
    eapply IH; eauto.
    + exact (RelE_add A r SAn _ HRel).
    + unfold Gq. rewrite Gq1. exact HGq.
Qed.

Hypothesis Hzone : in_zone apex qname = true.

Lemma nxdomain_C d g A r : StA d g A -> RelE A r ->
  QC d g RelO (nxdomain w_iface negttl z (d_w d)) (nxdomain rec_iface negttl z r).
Proof.
  intros HS HRel. unfold nxdomain. apply (set_rcode_QC d g A r); auto. intros d1 r1 HS1 _ HRel1 _.
  apply (set_aa_then_QC d1 g A r1); auto. intros d2 r2 HS2 _ HRel2 _.
  apply (negsoa_O d2 g A r2); auto.
Qed.

Lemma answer_C ty d g A r : StA d g A -> RelE A r -> rc_ns r = [] -> Gq qname g ->
  QC d g RelO (answer w_iface negttl z qname ty (d_w d)) (answer rec_iface negttl z qname ty r).
Proof.
  intros HS HRel Hns0 HGq. unfold answer.
  destruct (zone_lookup_refines req apex cls z R qname ty true false Hinv (fun _ => Hzone)) as (lr & Hz & Hs).
  rewrite Hz. cbn [zl].
  pose proof (spec_lookup_good req apex cls R Pz0 HR _ _ _ _ _ Hs) as G.
  pose proof (spec_lookup_not_wrong req apex cls R qname ty true false Hzone) as Hnw.
  destruct lr as [s sos|cn sos|c ns|sos| |]; cbn [lookup_good norm_lookup] in *.
  - apply (set_aa_then_QC d g A r); auto. intros d1 r1 HS1 Hr1 HRel1 Hns1.
    apply (found_C QhQname HsQname QhQname qname ty s d1 g A r1); auto; [congruence|reflexivity|].
    exact (contract_same _ _ HsQname _ HGq).
  - destruct G as [GP _]. unfold do_cname. destruct (StA_set_aa _ _ _ _ d g A true HS (Hpop_aa true)) as (w' & E & HS'). rewrite E, rec_set_aa. cbn [lift_set].
    apply (QC_frame d g (mkD w' (d_regs d)) g); [split; [reflexivity|split; apply prefix_refl]|].
    change (S PREVIOUS_OWNERS_CAP) with 8.
    apply (cname_C ty 8 cn [] (mkD w' (d_regs d)) g A); auto; try (cbn; lia).
    intros o Ho. discriminate.
  - destruct G as [GP Gs]. apply (referral_C c ns d g A r); auto. eapply good_name_suffix; eauto.
  - apply (set_aa_then_QC d g A r); auto. intros d1 r1 HS1 _ HRel1 _.
    apply (negsoa_O d1 g A r1); auto.
  - apply (nxdomain_C d g A r); auto.
  - congruence.
Qed.

Lemma answer_any_C d g A r : StA d g A -> RelE A r -> rc_ns r = [] -> Gq qname g ->
  QC d g RelO (answer_any w_iface negttl z qname (d_w d)) (answer_any rec_iface negttl z qname r).
Proof.
  intros HS HRel Hns0 HGq. unfold answer_any.
  destruct (zone_lookup_all_refines req apex cls z R qname true false Hinv (fun _ => Hzone)) as (lr & Hz & Hs).
  rewrite Hz. cbn [zl].
  pose proof (spec_all_good req apex cls R Pz0 HR _ _ _ _ Hs) as G.
  pose proof (spec_lookup_all_not_wrong req apex cls R qname true false Hzone) as Hnw.
  destruct lr as [rrsets sos|c ns| |]; cbn [all_good norm_all] in *.
  - apply (set_aa_then_QC d g A r); auto. intros d1 r1 HS1 _ HRel1 _.
    pose proof (any_loop_C rrsets 0 d1 g A r1 HS1 HRel1 HGq G) as Q.
    destruct (any_loop w_iface z qname rrsets 0 (d_w d1)) as [[n w2]|[e w2]|]; cbn [QC] in Q |- *; auto.
    destruct Q as (d2 & g2 & A2 & r2 & HS2 & Hw2 & F2 & Er2 & HRel2). rewrite Er2. subst w2.
    destruct (n =? 0).
    + apply (QC_frame d1 g d2 g2 _ _ _ F2). apply (negsoa_O d2 g2 A2 r2); auto.
    + exists d2, g2, A2, r2. split; [exact HS2|]. split; [reflexivity|]. split; [exact F2|]. split; [reflexivity|apply RelE_O; exact HRel2].
  - destruct G as [GP Gs]. apply (referral_C c ns d g A r); auto. eapply good_name_suffix; eauto.
  - apply (nxdomain_C d g A r); auto.
  - congruence.
Qed.

End Abs.

Section AbsTop.
Variable reqf : N -> N -> bytes -> bytes -> bool.
Variable apex : name.
Variable cls : N.
Variable R : list record.
Variable z : zone.
Hypothesis Hinv : Inv reqf apex cls z R.
Hypothesis Hapex : good_name apex.
Hypothesis Hclass : (cls < 65536)%N.
Hypothesis HR : Forall (fun r => Pz (fun _ _ => True) (r_type r) (r_rdata r)) R.
Variable negttl : N -> N -> N.

Definition answering {W} (wi : wiface W) (qname : zname) (qtype : N) (w : W) : res (perr * W) (unit * W) :=
  if (qtype =? QTYPE_ANY)%N then answer_any wi negttl z qname w else answer wi negttl z qname qtype w.

Theorem respond_w_vs_ideal buf tcp id rd qname qtype qclass edns limit :
  512 <= length buf -> good_name qname -> in_zone apex qname = true ->
  (id < 65536)%N -> (qtype < 65536)%N -> (qclass < 65536)%N -> (forall s, edns = Some s -> (s < 65536)%N) ->
  exists w len b m,
    prepare_w buf tcp id rd qname qtype qclass edns limit = Some w /\
    respond_w negttl buf tcp id rd qname qtype qclass edns limit z = Some (len, b) /\
    decode_msg (firstn len b) = Some m /\
    match answering w_iface qname qtype w with
    | Ok _ =>
      exists r, answering rec_iface qname qtype rec_empty = Ok (tt, r) /\
        (forall tcp', handle_non_axfr_query rec_iface negttl z qname qtype tcp' rec_empty = Some r) /\
        decoded_up_to_optional r m
    | _ => True
    end.
Proof.
  intros Hb Gq Hz Hid Hqt Hqc Hed.
  destruct (respond_w_ok reqf apex cls R z Hinv Hapex Hclass HR negttl buf tcp id rd qname qtype qclass edns limit Hb Gq Hz Hid Hqt Hqc Hed)
    as (w & Lp & len & b & m & Ew & Hip & Er & Em & Hok).
  exists w, len, b, m. split; [exact Ew|]. split; [exact Er|]. split; [exact Em|].
  assert (Q : QC Pop_t (mkD w []) (g_prepared qname) (pre_amsg qname qtype qclass) (mkD w []) (g_prepared qname) RelO
                 (answering w_iface qname qtype w) (answering rec_iface qname qtype rec_empty)).
  { pose proof (StA_nil Pop_t _ _ (pre_amsg qname qtype qclass) Lp Hip) as Sp.
    assert (HRel0 : RelE (pre_amsg qname qtype qclass) rec_empty) by (unfold RelE, Rel; cbn; auto).
    unfold answering. destruct (qtype =? QTYPE_ANY)%N.
    - apply (answer_any_C reqf apex cls R z Hinv HR Hapex Hclass Pop_t (fun _ _ _ _ _ _ _ _ => I) (fun _ _ _ _ _ _ _ _ => I)
               (fun _ => I) I negttl _ _ _ qname Gq Hz (mkD w []) (g_prepared qname) _ rec_empty Sp HRel0 eq_refl eq_refl).
    - apply (answer_C reqf apex cls R z Hinv HR Hapex Hclass Pop_t (fun _ _ _ _ _ _ _ _ => I) (fun _ _ _ _ _ _ _ _ => I)
               (fun _ => I) I negttl _ _ _ qname Gq Hz qtype (mkD w []) (g_prepared qname) _ rec_empty Sp HRel0 eq_refl eq_refl). }
  destruct (answering w_iface qname qtype w) as [[[] w1]|e|] eqn:Edr; [|exact I|exact I]. cbn [QC] in Q.
  destruct Q as (d3 & g3 & A3 & r3 & HS3 & <- & _ & Er3 & ((_ & Han & Hns) & (M & X & O & Har & Hro & HsubX & HnoB))).
  destruct (Hok tt d3 g3 A3 Edr HS3) as (Hdan & Hdns & ds & dP & Ear & Hds & HdP).
  exists r3. split; [exact Er3|]. split.
  { intros tcp'. unfold handle_non_axfr_query. unfold answering in Er3. destruct (qtype =? QTYPE_ANY)%N; rewrite Er3; reflexivity. }
  rewrite Han in Hdan. rewrite Hns in Hdns. split; [exact Hdan|]. split; [exact Hdns|].
  rewrite Har in Hds. apply Forall2_app_inv_l in Hds as (dM & dX & HM & HX & ->).
  exists M, X, O, dM, dX, dP. rewrite <- app_assoc in Ear. auto 10.
Qed.

End AbsTop.

(* for zones built by adds, and against the RFC resolution algorithm (C05) *)
From QV Require Proofs.QueryTopP Spec.ResolveS Spec.ResolveRepr.

Theorem respond_w_vs_resolve reqf apex cls wide recs z buf tcp id rd qname qtype qclass edns limit :
  (forall c t a b d, reqf c t a b = true -> reqf c t b d = true -> reqf c t a d = true) ->
  zone_build reqf (zone_new apex cls wide) recs = Some z ->
  Forall (fun r => good_rd (r_rdata r) /\ (r_type r < 65536)%N) recs -> good_name apex -> (cls < 65536)%N ->
  512 <= length buf -> good_name qname -> in_zone apex qname = true ->
  (id < 65536)%N -> (qtype < 65536)%N -> (qclass < 65536)%N -> (forall s, edns = Some s -> (s < 65536)%N) ->
  exists w len b m,
    prepare_w buf tcp id rd qname qtype qclass edns limit = Some w /\
    respond_w neg_ttl buf tcp id rd qname qtype qclass edns limit z = Some (len, b) /\
    decode_msg (firstn len b) = Some m /\
    match answering z neg_ttl w_iface qname qtype w with
    | Ok _ =>
      exists r, (forall tcp', answer_rec z qname qtype tcp' = Some r) /\
        ResolveRepr.norm_rec r = ResolveS.resolve reqf apex cls (accepted apex cls recs) qname qtype /\
        decoded_up_to_optional r m
    | _ => True
    end.
Proof.
  intros Ht Hb Hrecs Ga Hc Hbuf Gq Hz Hid Hqt Hqc Hed.
  destruct (respond_w_vs_ideal reqf apex cls (accepted apex cls recs) z (ZoneTopP.build_inv reqf Ht apex cls wide recs z Hb) Ga Hc
              (accepted_Pz apex cls recs Hrecs) neg_ttl
              buf tcp id rd qname qtype qclass edns limit Hbuf Gq Hz Hid Hqt Hqc Hed) as (w & len & b & m & E1 & E2 & E3 & Hm).
  exists w, len, b, m. split; [exact E1|]. split; [exact E2|]. split; [exact E3|].
  destruct (answering z neg_ttl w_iface qname qtype w) as [[u w1]|e|]; auto.
  destruct Hm as (r & _ & Hh & Hdec).
  assert (Hwf : QueryTopP.records_wf recs).
  { unfold QueryTopP.records_wf. eapply Forall_impl; [|exact Hrecs]. intros a [[A _] _]. exact A. }
  destruct (QueryTopP.build_answer_refines reqf Ht apex cls wide recs z qname qtype tcp Hb Hwf Hz) as (r' & Er' & Hres).
  assert (Er : answer_rec z qname qtype tcp = Some r) by exact (Hh tcp).
  rewrite Er in Er'. inversion Er'; subst r'.
  exists r. split; [exact Hh|]. split; [exact Hres|exact Hdec].
Qed.
