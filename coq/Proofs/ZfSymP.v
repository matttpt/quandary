(* C23: CLASS and TYPE tokens (mnemonics in any letter case, CLASSnnn / TYPEnnn), and the
   TTL / class reading order of parse_ttl_and_class on every presence/order choice. *)
From QV Require Import Base.ListX Model.ZfReader Model.ZfParser Proofs.ZfReaderP Proofs.ZfStdP Proofs.ZfFieldsP
  Proofs.ZfRunP Proofs.ZfTokP Spec.ZfRenderS.

Local Open Scope N_scope.

Lemma eqic_lower : forall a b, eq_ignore_case a b = bytes_eqb (map lower a) (map lower b).
Proof. induction a as [|x a IH]; intros [|y b]; simpl; try reflexivity. rewrite IH. reflexivity. Qed.

Lemma apply_case_lower : forall s lows, map lower (apply_case lows s) = map lower s.
Proof.
  induction s as [|c s IH]; intros lows; [reflexivity|]. cbn [apply_case map]. rewrite IH.
  destruct (hd false lows); [rewrite lower_idem|]; reflexivity.
Qed.

Lemma apply_case_length : forall s lows, length (apply_case lows s) = length s.
Proof. induction s as [|c s IH]; intros lows; simpl; [reflexivity|]. rewrite IH. reflexivity. Qed.

Lemma eqic_apply_case lows m m' : eq_ignore_case (apply_case lows m) m' = eq_ignore_case m m'.
Proof. rewrite !eqic_lower, apply_case_lower. reflexivity. Qed.

(* every mnemonic of the specification is found in the parser's table, with the same value, whatever its case *)
Definition tbl_agree (spec gen : list (bytes * N)) : bool :=
  forallb (fun mv => existsb (fun mw => eq_ignore_case (fst mv) (fst mw)) gen &&
                     forallb (fun mw => implb (eq_ignore_case (fst mv) (fst mw)) (snd mw =? snd mv)) gen) spec.

Lemma class_tbl_agree : tbl_agree spec_classes class_mnemonics = true. Proof. vm_compute. reflexivity. Qed.
Lemma type_tbl_agree : tbl_agree spec_types type_mnemonics = true. Proof. vm_compute. reflexivity. Qed.
Lemma caseless_val : class_mnemonics_caseless = true /\ type_mnemonics_caseless = true.
Proof. split; reflexivity. Qed.
Lemma prefix_val : class_prefix = spec_class_prefix /\ type_prefix = spec_type_prefix.
Proof. split; reflexivity. Qed.

Lemma mnemonic_of_in : forall tbl v m, mnemonic_of tbl v = Some m -> In (m, v) tbl.
Proof.
  induction tbl as [|[m' w] tbl IH]; intros v m H; simpl in H; [discriminate|].
  destruct (w =? v) eqn:E.
  - apply N.eqb_eq in E. inversion H; subst. left. reflexivity.
  - right. apply IH. exact H.
Qed.

Lemma lookup_ci : forall gen s v,
  (exists mw, In mw gen /\ eq_ignore_case s (fst mw) = true) ->
  (forall mw, In mw gen -> eq_ignore_case s (fst mw) = true -> snd mw = v) ->
  lookup_mnemonic true gen s = Some v.
Proof.
  induction gen as [|[m' w] gen IH]; intros s v (mw & Hin & He) Hall; [destruct Hin|].
  cbn [lookup_mnemonic]. destruct (eq_ignore_case s m') eqn:E.
  - f_equal. apply (Hall (m', w)); [left; reflexivity|exact E].
  - apply IH.
    + destruct Hin as [<-|Hin]; [cbn [fst] in He; congruence|]. eauto.
    + intros mw' Hin'. apply Hall. right. exact Hin'.
Qed.

Lemma lookup_mnemonic_cased spec gen lows m v : tbl_agree spec gen = true -> In (m, v) spec ->
  lookup_mnemonic true gen (apply_case lows m) = Some v.
Proof.
  unfold tbl_agree. intros H Hin. rewrite forallb_forall in H. specialize (H _ Hin). cbn [fst snd] in H.
  apply andb_true_iff in H. destruct H as [H1 H2]. apply existsb_exists in H1. destruct H1 as (mw & Hmw & He).
  rewrite forallb_forall in H2. apply lookup_ci.
  - exists mw. split; [exact Hmw|]. rewrite eqic_apply_case. exact He.
  - intros mw' Hin' He'. rewrite eqic_apply_case in He'. specialize (H2 _ Hin'). rewrite He' in H2. cbn [implb] in H2.
    apply N.eqb_eq. exact H2.
Qed.

Lemma tokch_lower_sweep : forallb (fun c => implb (tokch c) (tokch (lower c))) octets256 = true.
Proof. vm_compute. reflexivity. Qed.

Lemma tokch_lower c : tokch c = true -> tokch (lower c) = true.
Proof.
  intros H. assert (Hc : c < 256).
  { unfold tokch in H. apply andb_true_iff in H. destruct H as [_ H]. apply N.ltb_lt in H. lia. }
  pose proof (sweep_below _ 256 tokch_lower_sweep c Hc) as G. cbv beta in G. rewrite H in G. exact G.
Qed.

Lemma tokch_apply_case : forall s lows, forallb tokch s = true -> forallb tokch (apply_case lows s) = true.
Proof.
  induction s as [|c s IH]; intros lows H; [reflexivity|]. cbn [forallb] in H. apply andb_true_iff in H. destruct H as [Hc Hs].
  cbn [apply_case forallb]. rewrite (IH _ Hs). destruct (hd false lows); [rewrite tokch_lower by exact Hc|rewrite Hc]; reflexivity.
Qed.

Definition tbl_tok (tbl : list (bytes * N)) : bool :=
  forallb (fun mv => forallb tokch (fst mv) && (length (fst mv) <=? 8)%nat) tbl.
Lemma spec_tbls_tok : tbl_tok spec_classes = true /\ tbl_tok spec_types = true /\
  forallb tokch spec_class_prefix = true /\ forallb tokch spec_type_prefix = true.
Proof. repeat split; vm_compute; reflexivity. Qed.

(* CLASSnnn / TYPEnnn is not a mnemonic: the first two letters differ from those of every mnemonic *)
Lemma prefix_keys : negb (existsb (bytes_eqb (key class_prefix)) (keys_of class_mnemonics)) = true /\
                    negb (existsb (bytes_eqb (key type_prefix)) (keys_of type_mnemonics)) = true.
Proof. split; vm_compute; reflexivity. Qed.

Lemma key_prefixed lows prefix rest : (2 <= length prefix)%nat -> key (apply_case lows prefix ++ rest) = key prefix.
Proof.
  intros H. unfold key. rewrite firstn_app. rewrite apply_case_length.
  replace (2 - length prefix)%nat with 0%nat by lia. rewrite firstn_O, app_nil_r.
  rewrite <- !firstn_map, apply_case_lower. reflexivity.
Qed.

Lemma lookup_none_by_key tbl s : negb (existsb (bytes_eqb (key s)) (keys_of tbl)) = true ->
  lookup_mnemonic true tbl s = None.
Proof.
  intros H. destruct (lookup_mnemonic true tbl s) as [v|] eqn:E; [|reflexivity].
  apply lookup_key in E. apply negb_true_iff in H.
  assert (existsb (bytes_eqb (key s)) (keys_of tbl) = true); [|congruence].
  apply existsb_exists. exists (key s). split; [exact E|apply bytes_eqb_refl].
Qed.

Section Sym.
Variables (spec gen : list (bytes * N)) (prefix : bytes).
Hypothesis Hagree : tbl_agree spec gen = true.
Hypothesis Hkeys : negb (existsb (bytes_eqb (key prefix)) (keys_of gen)) = true.
Hypothesis Hplen : (2 <= length prefix <= 8)%nat.
Hypothesis Htok : tbl_tok spec = true.
Hypothesis Hptok : forallb tokch prefix = true.

Lemma sym_roundtrip sc v : sym_ok spec sc v = true ->
  sym_from_str true gen prefix (render_sym spec prefix sc v) = inl v.
Proof.
  unfold sym_ok, render_sym, sym_from_str. destruct sc as [lows|lows ic].
  - destruct (mnemonic_of spec v) as [m|] eqn:Em; [|discriminate]. intros _.
    rewrite (lookup_mnemonic_cased spec gen lows m v Hagree (mnemonic_of_in _ _ _ Em)). reflexivity.
  - intros Hok. rewrite lookup_none_by_key by (rewrite key_prefixed by lia; exact Hkeys).
    rewrite app_length, apply_case_length.
    assert (L : (length prefix <=? length prefix + length (render_uint ic v))%nat = true) by (apply Nat.leb_le; lia).
    rewrite L.
    assert (F : firstn (length prefix) (apply_case lows prefix ++ render_uint ic v) = apply_case lows prefix)
      by (rewrite <- (apply_case_length prefix lows); apply firstn_app_exact).
    assert (S : skipn (length prefix) (apply_case lows prefix ++ render_uint ic v) = render_uint ic v)
      by (rewrite <- (apply_case_length prefix lows); apply skipn_app_exact).
    rewrite F, S.
    rewrite eqic_apply_case, eqic_lower, bytes_eqb_refl. cbn [andb].
    change U16_MAX with 65535. rewrite (uint_roundtrip _ _ _ Hok). reflexivity.
Qed.

Lemma sym_tok sc v : sym_ok spec sc v = true ->
  forallb tokch (render_sym spec prefix sc v) = true /\ N.of_nat (length (render_sym spec prefix sc v)) <= 65536.
Proof.
  unfold sym_ok, render_sym. destruct sc as [lows|lows ic].
  - destruct (mnemonic_of spec v) as [m|] eqn:Em; [|discriminate]. intros _.
    apply mnemonic_of_in in Em. unfold tbl_tok in Htok. rewrite forallb_forall in Htok. specialize (Htok _ Em).
    cbn [fst] in Htok. apply andb_true_iff in Htok. destruct Htok as [H1 H2]. apply Nat.leb_le in H2.
    split; [apply tokch_apply_case; exact H1|]. rewrite apply_case_length. lia.
  - intros Hok. destruct (uint_tok 65535 ic v ltac:(lia) Hok) as [H1 H2]. split.
    + rewrite forallb_app, (tokch_apply_case _ _ Hptok), H1. reflexivity.
    + rewrite app_length, apply_case_length. pose proof (render_uint_length 65535 ic v ltac:(lia) Hok). lia.
Qed.
End Sym.

Theorem class_roundtrip sc v : sym_ok spec_classes sc v = true -> class_from_str (render_class sc v) = inl v.
Proof.
  apply (sym_roundtrip spec_classes class_mnemonics spec_class_prefix class_tbl_agree (proj1 prefix_keys)). simpl. lia.
Qed.

Theorem type_roundtrip sc v : sym_ok spec_types sc v = true -> type_from_str (render_type sc v) = inl v.
Proof.
  apply (sym_roundtrip spec_types type_mnemonics spec_type_prefix type_tbl_agree (proj2 prefix_keys)). simpl. lia.
Qed.

Lemma class_tok sc v : sym_ok spec_classes sc v = true ->
  forallb tokch (render_class sc v) = true /\ N.of_nat (length (render_class sc v)) <= 65536.
Proof.
  destruct spec_tbls_tok as (H1 & _ & H3 & _). apply sym_tok; [simpl; lia|exact H1|exact H3].
Qed.

Lemma type_tok sc v : sym_ok spec_types sc v = true ->
  forallb tokch (render_type sc v) = true /\ N.of_nat (length (render_type sc v)) <= 65536.
Proof.
  destruct spec_tbls_tok as (_ & H2 & _ & H4). apply sym_tok; [simpl; lia|exact H2|exact H4].
Qed.

Definition is_tok (tok : bytes) : Prop := forallb tokch tok = true /\ N.of_nat (length tok) <= 65536.
(* the tail begins with a given token, which ends there (the TYPE token: try_ok parse_ttl / parse_class have to
   be shown to fail on it) *)
Definition toktail (tok t : bytes) : Prop := exists t', t = tok ++ t' /\ fend t'.

Lemma tok_fstart tok l : forallb tokch tok = true -> tok <> [] -> fstart (tok ++ l).
Proof.
  destruct tok as [|c tok]; [congruence|]. cbn [forallb app]. intros H _.
  apply andb_true_iff in H. destruct H as [Hc _]. apply andb_true_iff in Hc. apply fstart_plain, Hc.
Qed.

Lemma toktail_fstart tok t : is_tok tok -> tok <> [] -> toktail tok t -> fstart t.
Proof. intros [Ht _] Hne (t' & -> & _). exact (tok_fstart tok t' Ht Hne). Qed.

(* a token that is no TTL (no class) is left where it is: the next action sees the same input *)
Lemma peek_not_ttl {B} tok e (T : bytes -> Prop) (f : option N -> M B) s b b' v :
  is_tok tok -> parse_uint U32_MAX tok = inr e -> (forall t, T t -> toktail tok (s ++ t)) ->
  runs T (f None) s b b' v -> runs T (bindM (try_ok parse_ttl) f) s b b' v.
Proof.
  intros [H1 H2] He HT. apply runs_peek. intros r t E Ht. destruct (HT t Ht) as (t' & Et & Hf). rewrite Et in E.
  eapply try_ok_fails. unfold parse_ttl, parse_u32, bindM. rewrite (read_field_fails _ _ tok e r t' H1 H2 He E Hf). reflexivity.
Qed.

Lemma peek_not_class {B} tok e (T : bytes -> Prop) (f : option N -> M B) s b b' v :
  is_tok tok -> class_from_str tok = inr e -> (forall t, T t -> toktail tok (s ++ t)) ->
  runs T (f None) s b b' v -> runs T (bindM (try_ok parse_class) f) s b b' v.
Proof.
  intros [H1 H2] He HT. apply runs_peek. intros r t E Ht. destruct (HT t Ht) as (t' & Et & Hf). rewrite Et in E.
  eapply try_ok_fails. unfold parse_class. exact (read_field_fails _ _ tok e r t' H1 H2 He E Hf).
Qed.

Lemma class_not_uint tok c : class_from_str tok = inl c -> exists e, parse_uint U32_MAX tok = inr e.
Proof.
  intros H. destruct (parse_uint U32_MAX tok) as [v|e] eqn:E; [|eauto].
  destruct (proj1 (fields_disjoint tok) v E) as [D _]. destruct (D c H).
Qed.

Lemma type_not_uint tok ty : type_from_str tok = inl ty -> exists e, parse_uint U32_MAX tok = inr e.
Proof.
  intros H. destruct (parse_uint U32_MAX tok) as [v|e] eqn:E; [|eauto].
  destruct (proj1 (fields_disjoint tok) v E) as [_ D]. destruct (D ty H).
Qed.

Lemma type_not_class tok ty : type_from_str tok = inl ty -> exists e, class_from_str tok = inr e.
Proof.
  intros H. destruct (class_from_str tok) as [c|e] eqn:E; [|eauto].
  destruct (proj2 (fields_disjoint tok) c E ty H).
Qed.

Lemma ttl_from_denote raw : ttl_from raw = ttl_denote raw.
Proof.
  unfold ttl_from, ttl_denote. destruct (2147483647 <? raw) eqn:E1; destruct (raw <=? 2147483647) eqn:E2; try reflexivity.
  - apply N.ltb_lt in E1. apply N.leb_le in E2. lia.
  - apply N.ltb_ge in E1. apply N.leb_gt in E2. lia.
Qed.

Lemma ttl_runs ic raw p : uint_ok 4294967295 ic raw = true ->
  runs fend (try_ok parse_ttl) (render_uint ic raw) p p (Some (ttl_denote raw)).
Proof.
  intros H. apply runs_try_ok. unfold parse_ttl, parse_u32. apply runs_app_nil.
  eapply runs_bind; [apply (uint_field_runs U32_MAX); [unfold U32_MAX; lia|exact H]|intros t Ht; exact Ht|].
  cbv beta. rewrite ttl_from_denote. apply runs_ret.
Qed.

Lemma class_runs sc v p : sym_ok spec_classes sc v = true ->
  runs fend (try_ok parse_class) (render_class sc v) p p (Some v).
Proof.
  intros H. apply runs_try_ok. unfold parse_class. destruct (class_tok sc v H) as [H1 H2].
  apply read_field_runs; [exact H1|exact H2|apply class_roundtrip; exact H].
Qed.

(* a CLASS or TYPE token is not empty: no mnemonic of the table is, nor the prefix *)
Lemma render_sym_nonempty tbl prefix sc v :
  forallb (fun mv => negb (beq (fst mv) [])) tbl = true -> prefix <> [] -> render_sym tbl prefix sc v <> [].
Proof.
  intros Ht Hp. assert (Hc : forall lows s, s <> [] -> apply_case lows s <> [])
    by (intros lows [|c s] H; [congruence|discriminate]).
  destruct sc as [lows|lows ic]; cbn [render_sym].
  - destruct (mnemonic_of tbl v) as [m|] eqn:Em.
    + apply Hc. apply mnemonic_of_in in Em. rewrite forallb_forall in Ht. specialize (Ht _ Em). intros ->. discriminate Ht.
    + intros H. apply app_eq_nil in H. exact (Hp (proj1 H)).
  - intros H. apply app_eq_nil in H. exact (Hc lows prefix Hp (proj1 H)).
Qed.

Lemma render_class_nonempty sc v : render_class sc v <> [].
Proof. apply render_sym_nonempty; [reflexivity|discriminate]. Qed.

Lemma render_type_nonempty sc v : render_type sc v <> [].
Proof. apply render_sym_nonempty; [reflexivity|discriminate]. Qed.

Lemma render_uint_nonempty ic n : render_uint ic n <> [].
Proof. intros E. apply app_eq_nil in E. exact (proj1 (uint_digits_val ic n) (proj2 E)). Qed.

Lemma opt_eqb_eq o v : opt_eqb o v = true -> o = Some v.
Proof. destruct o as [x|]; simpl; [|discriminate]. intros H. apply N.eqb_eq in H. congruence. Qed.

Lemma ttl_shown_inv raw ic r : ttl_shown_ok raw ic r = true ->
  uint_ok 4294967295 ic raw = true /\ ttl_denote raw = a_ttl r.
Proof. intros H. apply andb_true_iff in H. destruct H as [Hu Hd]. apply N.eqb_eq in Hd. auto. Qed.

(* the part of the text read by parse_ttl_and_class itself, and the separator left to its caller *)
Definition tc_text1 (tc : tcchoice) (class : N) : bytes :=
  match tc with
  | TcNone => []
  | TcT raw ic s => render_uint ic raw ++ render_sep s
  | TcC sc s => render_class sc class ++ render_sep s
  | TcTC raw ic s1 sc s2 => render_uint ic raw ++ render_sep s1 ++ render_class sc class
  | TcCT sc s1 raw ic s2 => render_class sc class ++ render_sep s1 ++ render_uint ic raw
  end.
Definition tc_sep2 (tc : tcchoice) : sep :=
  match tc with TcTC _ _ _ _ s2 | TcCT _ _ _ _ s2 => s2 | _ => sep_none end.

Lemma render_tc_split tc class : render_tc tc class = tc_text1 tc class ++ render_sep (tc_sep2 tc).
Proof.
  destruct tc; cbn [render_tc tc_text1 tc_sep2]; rewrite <- ?app_assoc; try reflexivity;
    change (render_sep sep_none) with (@nil N); rewrite ?app_nil_r; reflexivity.
Qed.

Lemma sep_ok_inv p closed s p' : sep_ok p closed s = Some p' ->
  sep_paren p s = Some p' /\ (closed = false -> sep_empty s = false).
Proof.
  unfold sep_ok. destruct (sep_empty s) eqn:E; destruct closed; cbn [negb andb]; try discriminate; intros H; split; auto; discriminate.
Qed.

(* a separator that had to be there ends the token before it *)
Lemma sep_ok_fend p s p' l : sep_ok p false s = Some p' -> fend (render_sep s ++ l).
Proof. intros H. apply sep_ok_inv in H. eapply fend_sep; [apply H|apply H; reflexivity]. Qed.

Definition ctx_tc (x : sctx) (c : ctx) : Prop :=
  c_prev_ttl c = x_ttl x /\ c_prev_class c = x_class x /\ c_default_ttl c = x_default x.

Lemma default_or_previous_eq x c : ctx_tc x c -> default_or_previous_ttl c = default_or_previous x.
Proof. intros (H1 & H2 & H3). unfold default_or_previous_ttl, default_or_previous. rewrite H1, H3. reflexivity. Qed.

(* parse_ttl_and_class together with the skip its caller does next: the last separator of render_tc is read by
   that skip, hence the split of the text into tc_text1 and tc_sep2 *)
Definition tc_m (c : ctx) : M (N * N) := do tc <- parse_ttl_and_class c; skip_to_next_field ExpectedType ;; ret tc.

Lemma skip_to_type {A} k s p p' tok (v : A) : sep_paren p s = Some p' -> is_tok tok -> tok <> [] ->
  runs (toktail tok) (skip_to_next_field k ;; ret v) (render_sep s) p p' v.
Proof.
  intros Hs Htok Hne. apply runs_app_nil.
  eapply runs_bind; [apply skip_to_next_field_runs; exact Hs|intros t Ht; eapply toktail_fstart; eassumption|apply runs_ret].
Qed.

Theorem tc_runs x c tc r p p' ttok ty : ctx_tc x c -> tc_ok x p tc r = Some p' ->
  is_tok ttok -> type_from_str ttok = inl ty ->
  runs (toktail ttok) (tc_m c) (render_tc tc (a_class r)) p p' (a_ttl r, a_class r).
Proof.
  intros Hc Hok Htok Hty.
  assert (Hne : ttok <> []) by (intros ->; rewrite type_from_str_nil in Hty; discriminate).
  destruct (type_not_uint _ _ Hty) as (e1 & Hnu). destruct (type_not_class _ _ Hty) as (e2 & Hnc).
  pose proof (default_or_previous_eq x c Hc) as Hdp. destruct Hc as (_ & Hpc & _).
  (* at the type token neither a TTL nor a class is found *)
  assert (PeekT : forall B (f : option N -> M B) b v, runs (toktail ttok) (f None) [] b b v ->
                  runs (toktail ttok) (bindM (try_ok parse_ttl) f) [] b b v)
    by (intros B f b v; apply (peek_not_ttl ttok e1); [exact Htok|exact Hnu|intros t Ht; exact Ht]).
  assert (PeekC : forall B (f : option N -> M B) b v, runs (toktail ttok) (f None) [] b b v ->
                  runs (toktail ttok) (bindM (try_ok parse_class) f) [] b b v)
    by (intros B f b v; apply (peek_not_class ttok e2); [exact Htok|exact Hnc|intros t Ht; exact Ht]).
  rewrite render_tc_split. unfold tc_m.
  destruct tc as [|raw ic s|sc s|raw ic s1 sc s2|sc s1 raw ic s2]; cbn [tc_ok tc_text1 tc_sep2] in *.
  - (* neither *)
    destruct (opt_eqb (default_or_previous x) (a_ttl r)) eqn:E1; [|discriminate].
    destruct (opt_eqb (x_class x) (a_class r)) eqn:E2; [|discriminate]. injection Hok as <-.
    apply opt_eqb_eq in E1, E2.
    eapply runs_bind; [|intros t Ht; exact Ht|apply skip_to_type; [reflexivity|exact Htok|exact Hne]].
    unfold parse_ttl_and_class. apply PeekT. apply PeekC. rewrite Hdp, E1, Hpc, E2. apply runs_ret.
  - (* TTL only *)
    destruct (ttl_shown_ok raw ic r) eqn:E1; [|discriminate].
    destruct (opt_eqb (x_class x) (a_class r)) eqn:E2; [|discriminate]. cbn [andb] in Hok.
    apply opt_eqb_eq in E2. apply ttl_shown_inv in E1. destruct E1 as [Hu Hd].
    eapply runs_bind; [|intros t Ht; exact Ht|apply skip_to_type; [reflexivity|exact Htok|exact Hne]].
    unfold parse_ttl_and_class.
    eapply runs_bind; [apply ttl_runs; exact Hu|intros t _; eapply sep_ok_fend; exact Hok|]. cbv beta iota.
    apply runs_app_nil. apply sep_ok_inv in Hok.
    eapply runs_bind; [apply skip_to_next_field_runs, Hok|intros t Ht; eapply toktail_fstart; eassumption|].
    cbv beta. apply PeekC. rewrite Hpc, E2, Hd. apply runs_ret.
  - (* class only *)
    destruct (class_shown_ok sc r) eqn:E1; [|discriminate].
    destruct (opt_eqb (default_or_previous x) (a_ttl r)) eqn:E2; [|discriminate]. cbn [andb] in Hok.
    apply opt_eqb_eq in E2. unfold class_shown_ok in E1.
    destruct (class_not_uint _ _ (class_roundtrip _ _ E1)) as (e3 & Hcu).
    eapply runs_bind; [|intros t Ht; exact Ht|apply skip_to_type; [reflexivity|exact Htok|exact Hne]].
    unfold parse_ttl_and_class. eapply peek_not_ttl; [exact (class_tok _ _ E1)|exact Hcu| |].
    { intros t _. eexists. split; [symmetry; apply app_assoc|eapply sep_ok_fend; exact Hok]. }
    eapply runs_bind; [apply class_runs; exact E1|intros t _; eapply sep_ok_fend; exact Hok|]. cbv beta iota.
    apply runs_app_nil. apply sep_ok_inv in Hok.
    eapply runs_bind; [apply skip_to_next_field_runs, Hok|intros t Ht; eapply toktail_fstart; eassumption|].
    cbv beta. apply PeekT. rewrite Hdp, E2. apply runs_ret.
  - (* TTL, class *)
    destruct (ttl_shown_ok raw ic r) eqn:E1; [|discriminate]. destruct (class_shown_ok sc r) eqn:E2; [|discriminate].
    cbn [andb] in Hok. destruct (sep_ok p false s1) as [p1|] eqn:Es1; [|discriminate].
    apply ttl_shown_inv in E1. destruct E1 as [Hu Hd]. unfold class_shown_ok in E2.
    eapply runs_bind; [|intros t _; eapply sep_ok_fend; exact Hok
                       |apply skip_to_type; [apply (sep_ok_inv _ _ _ _ Hok)|exact Htok|exact Hne]].
    unfold parse_ttl_and_class.
    eapply runs_bind; [apply ttl_runs; exact Hu|intros t _; rewrite <- app_assoc; eapply sep_ok_fend; exact Es1|].
    cbv beta iota. apply sep_ok_inv in Es1.
    eapply runs_bind; [apply skip_to_next_field_runs, Es1| |].
    { intros t _. apply tok_fstart; [apply (class_tok _ _ E2)|apply render_class_nonempty]. }
    cbv beta. apply runs_app_nil. eapply runs_bind; [apply class_runs; exact E2|intros t Ht; exact Ht|].
    cbv beta iota. rewrite Hd. apply runs_ret.
  - (* class, TTL *)
    destruct (ttl_shown_ok raw ic r) eqn:E1; [|discriminate]. destruct (class_shown_ok sc r) eqn:E2; [|discriminate].
    cbn [andb] in Hok. destruct (sep_ok p false s1) as [p1|] eqn:Es1; [|discriminate].
    apply ttl_shown_inv in E1. destruct E1 as [Hu Hd]. unfold class_shown_ok in E2.
    destruct (class_not_uint _ _ (class_roundtrip _ _ E2)) as (e3 & Hcu).
    eapply runs_bind; [|intros t _; eapply sep_ok_fend; exact Hok
                       |apply skip_to_type; [apply (sep_ok_inv _ _ _ _ Hok)|exact Htok|exact Hne]].
    unfold parse_ttl_and_class. eapply peek_not_ttl; [exact (class_tok _ _ E2)|exact Hcu| |].
    { intros t _. eexists. split; [rewrite <- !app_assoc; reflexivity|eapply sep_ok_fend; exact Es1]. }
    eapply runs_bind; [apply class_runs; exact E2|intros t _; rewrite <- app_assoc; eapply sep_ok_fend; exact Es1|].
    cbv beta iota. apply sep_ok_inv in Es1.
    eapply runs_bind; [apply skip_to_next_field_runs, Es1| |].
    { intros t _. apply tok_fstart; [apply (uint_tok 4294967295 ic raw (N.le_refl _) Hu)|apply render_uint_nonempty]. }
    cbv beta. apply runs_app_nil. eapply runs_bind; [apply ttl_runs; exact Hu|intros t Ht; exact Ht|].
    cbv beta iota. rewrite Hd. apply runs_ret.
Qed.
