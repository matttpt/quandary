(* C09 at the byte level for ANSWERED responses: when the request carried an OPT (the server model hands
   its payload size to the byte-level composition), every response [QueryW.respond_w] produces ENDS with
   the 11 octets of the OPT pseudo-record — owner root, TYPE 41, CLASS = the server's payload size, TTL
   field 0 (extended-RCODE bits 0, version 0, flags 0), RDLENGTH 0 — whatever query answering wrote
   before it.  The EDNS setting survives the whole of query answering (invariant [EK]); [finish] emits
   the record at the cursor. *)
From QV Require Import Base.ListX Gen.Consts Model.MsgWriter Proofs.MsgWriterP Proofs.MsgWriterNameP
  Proofs.MsgWriterInvP Model.ZoneTree Model.Query Model.QueryW Proofs.QueryWP.
Local Open Scope nat_scope.

Definition opt_octets (size ttl : N) : bytes := [0%N] ++ be16 41 ++ be16 size ++ be32 ttl ++ be16 0.

Lemma component_types_opt cl : component_types cl 41 = [].
Proof. reflexivity. Qed.

Lemma add_rr_opt cl ttl w v w' : add_rr HNone [] 41 cl ttl [] None w = Ok (v, w') ->
  w_cursor w' = w_cursor w + 11 /\ slice (w_buf w') (w_cursor w) (w_cursor w + 11) = opt_octets cl ttl /\
  w_tsig w' = w_tsig w.
Proof.
  unfold add_rr. set (c := w_cursor w).
  assert (Hn : write_hinted_name HNone [] w = write_uncompressed_name [] w).
  { unfold write_hinted_name. destruct (w_mode w); reflexivity. }
  rewrite Hn. unfold write_uncompressed_name, try_push_u16, try_push_u32.
  destruct (try_push (nm_wire []) w) as [[[] w1]|[e w1]|] eqn:P1; cbn [bind]; try discriminate.
  destruct (try_push_acc c _ _ _ _ P1 (Nat.le_refl _)) as (b1 & -> & _ & _ & S1).
  match goal with |- context [try_push (be16 41) ?x] => set (x1 := x) end.
  destruct (try_push (be16 41) x1) as [[[] w2]|[e w2]|] eqn:P2; cbn [bind]; try discriminate.
  destruct (try_push_acc c _ _ _ _ P2 (Nat.le_add_r _ _)) as (b2 & -> & _ & _ & S2).
  match goal with |- context [try_push (be16 cl) ?x] => set (x2 := x) end.
  destruct (try_push (be16 cl) x2) as [[[] w3]|[e w3]|] eqn:P3; cbn [bind]; try discriminate.
  destruct (try_push_acc c _ _ _ _ P3) as (b3 & -> & _ & _ & S3); [cbn; lia|].
  match goal with |- context [try_push (be32 ttl) ?x] => set (x3 := x) end.
  destruct (try_push (be32 ttl) x3) as [[[] w4]|[e w4]|] eqn:P4; cbn [bind]; try discriminate.
  destruct (try_push_acc c _ _ _ _ P4) as (b4 & -> & _ & _ & S4); [cbn; lia|].
  clear P1 P2 P3 P4 Hn. change (nm_wire []) with [0%N] in *.
  assert (L16 : forall x, length (be16 x) = 2) by reflexivity. assert (L32 : forall x, length (be32 x) = 4) by reflexivity.
  cbn [w_cursor w_buf x1 x2 x3 set_mro set_cursor set_buf length] in *. rewrite ?L16, ?L32 in *.
  fold c in S1, S2, S3, S4 |- *. rewrite S3, S2, S1, slice_nil in S4. clear S1 S2 S3.
  (* no RDATA; RDLENGTH 0 goes where two octets were skipped *)
  destruct (_ <? _); [discriminate|]. destruct (_ <? 2); [discriminate|].
  rewrite component_types_opt. cbn [write_components length Nat.eqb bind w_cursor set_cursor].
  destruct (_ <? _); [discriminate|].
  replace (c + 1 + 2 + 2 + 4 + 2 - (c + 1 + 2 + 2 + 4) - 2) with 0 by lia.
  unfold lift. destruct (w_write _ _ _) as [w7|e|] eqn:P5; cbn [bind]; try discriminate.
  apply w_write_inv in P5 as (b5 & B5 & ->). cbn [w_buf set_cursor set_buf] in B5.
  intros H; injection H as _ <-. cbn [w_cursor w_buf w_tsig set_cursor set_buf x3 x2 x1 set_mro].
  split; [lia|]. split; [|reflexivity]. replace (c + 11) with (c + 1 + 2 + 2 + 4 + 2) by lia.
  rewrite (slice_app b5 c (c + 1 + 2 + 2 + 4)) by lia.
  rewrite (agree_slice _ _ _ _ _ (buf_write_agree _ _ _ _ _ B5 (Nat.le_refl _))) by lia.
  pose proof (buf_write_data _ _ _ _ B5) as D. rewrite L16 in D. rewrite S4, D. unfold opt_octets. rewrite <- !app_assoc. reflexivity.
Qed.

Lemma finish_opt w size up len b : w_edns w = Some (mkEdns size up) -> w_tsig w = None ->
  finish w = Ok (len, b) ->
  len = w_cursor w + 11 /\ slice b (w_cursor w) len = opt_octets size (up * 16777216).
Proof.
  intros He Ht E. destruct (finish_counts _ _ E) as (b4 & _ & _ & P). revert P. unfold finish_pseudo.
  cbn [w_edns set_buf]. rewrite He. cbn [e_udp e_upper].
  destruct (add_rr HNone [] TYPE_OPT size (up * 16777216) [] None _) as [[v w5]|[e w5]|] eqn:A; cbn [unwrap_w bind]; try discriminate.
  change TYPE_OPT with 41%N in A. destruct (add_rr_opt _ _ _ _ _ A) as (C5 & S5 & T5).
  cbn [w_cursor w_tsig set_avail set_limit_avail set_buf] in C5, S5, T5. rewrite T5, Ht.
  intros H; injection H as <- <-. rewrite C5. auto.
Qed.

(* the upper extended-RCODE bits are fixed at 0 because set_rcode ends in clear_upper; no TSIG, so that the OPT
   is the last record finish writes *)
Definition EK (size : N) (w : writer) : Prop := Inv_n w /\ w_edns w = Some (mkEdns size 0) /\ w_tsig w = None.

Lemma EK_ext size c0 w w' : EK size w -> ext c0 w w' -> Inv_n w' -> EK size w'.
Proof. intros (Hi & He & Ht) X Hi'. split; [exact Hi'|]. rewrite (x_edns _ _ _ X), (x_tsig _ _ _ X). auto. Qed.

(* EK size is [WK (edns_is size)] *)
Definition edns_is (size : N) (w : writer) : Prop := w_edns w = Some (mkEdns size 0) /\ w_tsig w = None.

Lemma EK_keeps size w w' : Inv_n w -> edns_is size w -> keeps w w' -> edns_is size w'.
Proof. intros _ H X. unfold edns_is. rewrite (k_edns _ _ X), (k_tsig _ _ X). exact H. Qed.

Lemma EK_modify size w i f w' : Inv_n w -> edns_is size w -> w_modify w i f = Ok w' -> edns_is size w'.
Proof. intros _ H E. destruct (w_modify_at _ _ _ _ E) as (x & b' & _ & -> & _). exact H. Qed.

Lemma EK_set_rcode size rc w w' : Inv_n w -> edns_is size w -> set_rcode rc w = Ok w' -> edns_is size w'.
Proof.
  intros Hi H E. apply set_rcode_inv in E as (w1 & E1 & ->). destruct (EK_modify _ _ _ _ _ Hi H E1) as (He & Ht).
  unfold edns_is, clear_upper. rewrite He. auto.
Qed.

Theorem handle_EK size negttl z qname qtype tcp w w' : EK size w ->
  handle_non_axfr_query w_iface negttl z qname qtype tcp w = Some w' -> EK size w'.
Proof.
  apply (handle_keeps (edns_is size) (EK_keeps size)).
  - intros b w0 w0'. apply EK_modify.
  - intros rc w0 w0' _. apply EK_set_rcode.
  - intros b w0 w0'. apply EK_modify.
Qed.

Lemma prepare_EK buf tcp id rd qname qtype qclass size limit w :
  prepare_w buf tcp id rd qname qtype qclass (Some size) limit = Some w -> EK size w.
Proof.
  intros E. destruct (prepare_w_shape _ _ _ _ _ _ _ _ _ _ E) as (Hi & _ & _ & _ & _ & _ & He & Ht & _).
  exact (conj Hi (conj He Ht)).
Qed.

Lemma EK_finish size w len b : EK size w -> finish w = Ok (len, b) ->
  11 <= len /\ slice b (len - 11) len = opt_octets size 0.
Proof.
  intros (_ & He & Ht) Ef. destruct (finish_opt w size 0 len b He Ht Ef) as [Hl Hs].
  split; [lia|]. replace (len - 11) with (w_cursor w) by lia. exact Hs.
Qed.

Theorem respond_w_opt_tail negttl buf tcp id rd qname qtype qclass size limit z len b :
  respond_w negttl buf tcp id rd qname qtype qclass (Some size) limit z = Some (len, b) ->
  11 <= len /\ slice b (len - 11) len = opt_octets size 0.
Proof.
  intros R. destruct (respond_w_inv _ _ _ _ _ _ _ _ _ _ _ _ R) as (w & w' & Ep & Eh & Ef).
  exact (EK_finish _ _ _ _ (handle_EK _ _ _ _ _ _ _ _ (prepare_EK _ _ _ _ _ _ _ _ _ _ Ep) Eh) Ef).
Qed.

Theorem respond_plain_opt_tail buf tcp id rd qname qtype qclass size limit rcode len b :
  respond_plain buf tcp id rd qname qtype qclass (Some size) limit rcode = Some (len, b) ->
  11 <= len /\ slice b (len - 11) len = opt_octets size 0.
Proof.
  intros R. destruct (respond_plain_inv _ _ _ _ _ _ _ _ _ _ _ R) as (w & w' & Ep & Er & Ef).
  destruct (prepare_EK _ _ _ _ _ _ _ _ _ _ Ep) as (Hi & H).
  apply (EK_finish size w'); [|exact Ef]. split; [|exact (EK_set_rcode _ _ _ _ Hi H Er)].
  apply set_rcode_inv in Er as (w1 & E1 & ->). apply inv_clear_upper. exact (inv_w_modify _ _ _ _ Hi E1).
Qed.

Example opt_octets_example : opt_octets 1232 0 = [0; 0;41; 4;208; 0;0;0;0; 0;0]%N.
Proof. reflexivity. Qed.
