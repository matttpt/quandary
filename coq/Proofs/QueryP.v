(* C05: the query model on the idealised (never-truncating) writer refines the flat-record resolver
   of Spec/ResolveS.v.  Built on the C06 refinement of the zone lookups (Proofs/ZoneTopP.v). *)
From QV Require Import Base.ListX Gen.ZoneConsts Gen.QueryConsts Model.ZoneTree Spec.ZoneLookupS
  Proofs.ZoneBaseP Proofs.ZoneInvP Proofs.ZoneTopP Model.Query Spec.ResolveS Spec.ResolveRepr
  Proofs.QueryNameP Proofs.QueryWfP.
Local Open Scope nat_scope.

Lemma rec_add_add s a b w : rec_add s b (rec_add s a w) = rec_add s (a ++ b) w.
Proof. destruct s, w; unfold rec_add; cbn; rewrite <- app_assoc; reflexivity. Qed.
Lemma rec_add_nil s w : rec_add s [] w = w.
Proof. destruct s, w; unfold rec_add; cbn; rewrite app_nil_r; reflexivity. Qed.

Lemma rec_add_rrset s h o ty c ttl rds b w :
  wi_add_rrset rec_iface s h o ty c ttl rds b w = Ok ([], rec_add s (map (mk_qrr o ty c ttl) rds) w).
Proof. reflexivity. Qed.
Lemma rec_add_rr s h o ty c ttl rd w :
  wi_add_rr rec_iface s h o ty c ttl rd w = Ok (rec_add s [mk_qrr o ty c ttl rd] w).
Proof. reflexivity. Qed.
Lemma rec_set_aa b w :
  wi_set_aa rec_iface b w = Some (mk_rec b (rc_tc w) (rc_rcode w) (rc_an w) (rc_ns w) (rc_ar w)).
Proof. reflexivity. Qed.
Lemma rec_set_rcode c w :
  wi_set_rcode rec_iface c w = Some (mk_rec (rc_aa w) (rc_tc w) (Some c) (rc_an w) (rc_ns w) (rc_ar w)).
Proof. reflexivity. Qed.

Lemma norm_map owner ty c ttl rds :
  map norm_rr (map (mk_qrr owner ty c ttl) rds) = map (mk_srr (lc owner) ty c ttl) rds.
Proof. rewrite map_map. reflexivity. Qed.

Lemma norm_rec_add s rrs w :
  norm_rec (rec_add s rrs w) =
  let r := norm_rec w in
  match s with
  | SAn => mk_sresp (s_rcode r) (s_aa r) (s_an r ++ map norm_rr rrs) (s_ns r) (s_ar r)
  | SNs => mk_sresp (s_rcode r) (s_aa r) (s_an r) (s_ns r ++ map norm_rr rrs) (s_ar r)
  | SAr => mk_sresp (s_rcode r) (s_aa r) (s_an r) (s_ns r) (s_ar r ++ map norm_rr rrs)
  end.
Proof. destruct s, w; unfold norm_rec; cbn; rewrite map_app; reflexivity. Qed.

Lemma norm_rec_set_rcode c w rc aa an ns ar : norm_rec w = mk_sresp rc aa an ns ar ->
  norm_rec (mk_rec (rc_aa w) (rc_tc w) (Some c) (rc_an w) (rc_ns w) (rc_ar w)) = mk_sresp c aa an ns ar.
Proof. intros [= _ <- <- <- <-]. reflexivity. Qed.

Lemma all_some_cons {A} (o : option A) l :
  all_some (o :: l) = match o, all_some l with Some x, Some r => Some (x :: r) | _, _ => None end.
Proof. reflexivity. Qed.

Lemma existsb_map_lc c os : existsb (name_eqb (lc c)) (map lc os) = existsb (zname_eqb c) os.
Proof. induction os as [|o os IH]; simpl; auto. rewrite IH, zname_eqb_lc. reflexivity. Qed.

Lemma offset_table ty : lookup_offset ADDITIONAL_TABLE ty = name_offset ty.
Proof.
  unfold name_offset, ADDITIONAL_TABLE. cbn [lookup_offset existsb].
  rewrite (N.eqb_sym 7 ty), (N.eqb_sym 3 ty), (N.eqb_sym 4 ty), (N.eqb_sym 2 ty), (N.eqb_sym 15 ty), (N.eqb_sym 33 ty).
  destruct (ty =? 7)%N, (ty =? 3)%N, (ty =? 4)%N, (ty =? 2)%N; reflexivity.
Qed.

Definition Qr := res (perr * recorder) (unit * recorder).
(* what the outcome of the answering logic means for the final response: Ok = the recorded
   response; ServFail = the SERVFAIL response, whatever had been recorded by then, because
   handle_non_axfr_query clears the sections on that path; a Truncation or a panic never happens *)
Definition fin_ok (q : Qr) (sp : sresp) : Prop :=
  match q with
  | Ok (_, w') => norm_rec w' = sp
  | Err (PServFail, _) => sp = servfail
  | _ => False
  end.

Section Main.
Variable req : N -> N -> bytes -> bytes -> bool.
Variable apex : name.
Variable cls : N.
Variable R : list record.
Variable z : zone.
Hypothesis Hinv : Inv req apex cls z R.

Lemma zone_name_apex : zone_name z = apex. Proof. destruct Hinv as (H & _ & _). exact H. Qed.
Lemma zone_class_cls : z_class z = cls. Proof. destruct Hinv as (_ & H & _). exact H. Qed.

Lemma in_zone_apex : in_zone apex apex = true.
Proof. unfold in_zone. apply is_suffixb_refl. Qed.

(* what add_additional_addresses records: the A RRset, then in class IN the AAAA RRset *)
Definition opt_rrs (owner : zname) (ty c : N) (o : option single_rrset) : list qrr :=
  match o with Some s => map (mk_qrr owner ty c (fst s)) (snd s) | None => [] end.

Definition rec_addrs (owner : zname) (sbc : bool) : list qrr :=
  match zl (zone_lookup_addrs z owner false sbc) with
  | Some (AFound a aaaa _) =>
    opt_rrs owner TYPE_A (z_class z) a ++
    (if (z_class z =? CLASS_IN)%N then opt_rrs owner TYPE_AAAA CLASS_IN aaaa else [])
  | _ => []
  end.

Lemma addrs_ok owner h sbc w :
  add_additional_addresses rec_iface z owner h sbc w = Ok (rec_add SAr (rec_addrs owner sbc) w).
Proof.
  destruct (zone_lookup_addrs_refines req apex cls z R owner false sbc Hinv) as (r & Hz & _); [discriminate|].
  unfold add_additional_addresses, rec_addrs. rewrite Hz. cbn [zl].
  destruct r as [a aaaa sos|c ns| |]; try (rewrite rec_add_nil; reflexivity).
  rewrite <- rec_add_add. destruct a as [[ta ra]|]; cbn [opt_rrs]; rewrite ?rec_add_nil;
    (destruct (z_class z =? CLASS_IN)%N; [destruct aaaa as [[tb rb]|]|]); cbn [opt_rrs];
    rewrite ?rec_add_nil; reflexivity.
Qed.

Lemma opt_rrs_norm owner ty c o :
  map norm_rr (opt_rrs owner ty c o) = match o with Some s => rrs c owner ty s | None => [] end.
Proof. destruct o; [apply norm_map|reflexivity]. Qed.

Lemma rec_addrs_norm owner sbc : map norm_rr (rec_addrs owner sbc) = addrs_of req apex cls R owner sbc.
Proof.
  destruct (zone_lookup_addrs_refines req apex cls z R owner false sbc Hinv) as (r & Hz & Hs); [discriminate|].
  unfold rec_addrs, addrs_of. rewrite Hz, Hs. cbn [zl].
  destruct r as [a aaaa sos|c ns| |]; cbn [norm_addrs]; try reflexivity.
  rewrite zone_class_cls, map_app, opt_rrs_norm. f_equal. change CLASS_IN with 1%N.
  destruct (N.eqb_spec cls 1) as [C|C].
  - rewrite opt_rrs_norm, <- C. reflexivity.
  - apply N.eqb_neq in C. rewrite (spec_addrs_aaaa req apex cls R owner false sbc a aaaa _ Hs C). reflexivity.
Qed.

Lemma rec_addrs_flat names sbc :
  map norm_rr (flat_map (fun n => rec_addrs n sbc) names) = flat_map (fun n => addrs_of req apex cls R n sbc) names.
Proof.
  induction names as [|n names IH]; [reflexivity|]. cbn [flat_map]. rewrite map_app, rec_addrs_norm, IH. reflexivity.
Qed.

Lemma additional_loop_ok off : forall rds v idx w,
  match all_some (map (fun rd => rdata_name rd off) rds) with
  | Some names => additional_loop rec_iface z off rds v idx w =
                  Ok (tt, rec_add SAr (flat_map (fun n => rec_addrs n false) names) w)
  | None => exists w', additional_loop rec_iface z off rds v idx w = Err (PServFail, w')
  end.
Proof.
  induction rds as [|rd rds IH]; intros v idx w.
  - cbn [map all_some fold_right additional_loop flat_map]. rewrite rec_add_nil. reflexivity.
  - cbn [map additional_loop]. rewrite all_some_cons, read_name_spec.
    destruct (rdata_name rd off) as [n|]; [|exists w; reflexivity].
    rewrite addrs_ok. cbn [allow_truncation].
    specialize (IH v (S idx) (rec_add SAr (rec_addrs n false) w)).
    destruct (all_some (map (fun rd0 => rdata_name rd0 off) rds)) as [names|]; [|exact IH].
    rewrite IH, rec_add_add. reflexivity.
Qed.

Lemma additional_ok ty s v w :
  match additional req apex cls R ty s with
  | Some ar =>
    exists rrs', do_additional_section_processing rec_iface z ty s v w = Ok (tt, rec_add SAr rrs' w) /\
                 map norm_rr rrs' = ar
  | None => exists w', do_additional_section_processing rec_iface z ty s v w = Err (PServFail, w')
  end.
Proof.
  unfold additional, do_additional_section_processing. rewrite zone_class_cls.
  change ADDITIONAL_CLASSES with [1%N; 3%N]. cbn [existsb]. rewrite orb_false_r.
  destruct (negb ((cls =? 1)%N || (cls =? 3)%N)).
  - exists []. rewrite rec_add_nil. auto.
  - rewrite offset_table. destruct (name_offset ty) as [off|].
    + pose proof (additional_loop_ok off (snd s) v 0 w) as H.
      destruct (all_some (map (fun rd => rdata_name rd off) (snd s))) as [names|]; [|exact H].
      eexists. split; [exact H|apply rec_addrs_flat].
    + exists []. rewrite rec_add_nil. auto.
Qed.

(* [zone_soa z] read as an unchecked lookup of SOA at the apex, the form zone_lookup_refines speaks of;
   the CNAME and no-records arms are there only to make it an equation *)
Lemma zone_soa_lookup : zone_lookup z (zone_name z) TYPE_SOA true false =
  Ok (match zone_soa z with
      | Some s => LFound s None
      | None => match rr_lookup TYPE_CNAME (node_data (z_apex z)) with
                | Some rs => LCname (to_single rs) None
                | None => LNoRecords None
                end
      end).
Proof.
  unfold zone_lookup, lookup_base, zone_soa. cbn [negb andb]. unfold usub. rewrite Nat.leb_refl, Nat.sub_diag.
  cbn [bind lookup_impl negb andb].
  destruct (rr_lookup TYPE_SOA (node_data (z_apex z))); reflexivity.
Qed.

Lemma negsoa_ok w :
  match negative_soa req apex cls R with
  | Some soa => exists q, add_negative_caching_soa rec_iface neg_ttl z w = Ok (tt, rec_add SNs [q] w) /\
                          norm_rr q = soa
  | None => exists w', add_negative_caching_soa rec_iface neg_ttl z w = Err (PServFail, w')
  end.
Proof.
  destruct (zone_lookup_refines req apex cls z R apex 6 true false Hinv (fun _ => in_zone_apex)) as (r & Hz & Hs).
  pose proof zone_soa_lookup as L. rewrite zone_name_apex in L. change TYPE_SOA with 6%N in L.
  rewrite L in Hz. inversion Hz as [Hr]. clear Hz L.
  unfold negative_soa. rewrite (spec_lookup_unchecked req apex cls R apex 6 false in_zone_apex), Hs.
  unfold add_negative_caching_soa.
  destruct (zone_soa z) as [[ttl rds]|].
  - subst r. cbn [norm_lookup] in *. destruct rds as [|rd rest].
    + exists w. reflexivity.
    + pose proof (soa_minimum_spec rd) as Hm.
      destruct (read_soa_minimum rd) as [m|e|]; [| |contradiction].
      * rewrite Hm. rewrite rec_add_rr. cbn [lift_add].
        eexists. split; [reflexivity|]. unfold norm_rr. cbn.
        rewrite zone_name_apex, zone_class_cls. unfold neg_ttl. rewrite ttl_from_value. reflexivity.
      * destruct Hm as [-> Hm]. rewrite Hm. exists w. reflexivity.
  - destruct (rr_lookup TYPE_CNAME (node_data (z_apex z))); subst r; cbn [norm_lookup]; exists w; reflexivity.
Qed.

Lemma neg_ok w rc an : norm_rec w = mk_sresp rc true an [] [] ->
  fin_ok (add_negative_caching_soa rec_iface neg_ttl z w) (negative req apex cls R rc an).
Proof.
  intros Hw. unfold negative. pose proof (negsoa_ok w) as H.
  destruct (negative_soa req apex cls R) as [soa|].
  - destruct H as (q & -> & <-). cbn [fin_ok]. rewrite norm_rec_add, Hw. reflexivity.
  - destruct H as (w' & ->). reflexivity.
Qed.

Lemma referral_names_ok child : forall rds idx,
  match all_some (map (fun rd => rdata_name rd 0) rds) with
  | Some targets =>
    exists glues adds, referral_names child rds idx = Ok (glues, adds) /\
      map snd glues = filter (fun t => is_suffixb (lc child) (lc t)) targets /\
      map snd adds = filter (fun t => negb (is_suffixb (lc child) (lc t))) targets
  | None => referral_names child rds idx = Err PServFail
  end.
Proof.
  induction rds as [|rd rds IH]; intros idx.
  - cbn. exists [], []. auto.
  - cbn [map referral_names]. rewrite all_some_cons, read_name_spec.
    destruct (rdata_name rd 0) as [n|]; [|reflexivity]. cbn [bind]. specialize (IH (S idx)).
    destruct (all_some (map (fun rd0 => rdata_name rd0 0) rds)) as [targets|]; [|rewrite IH; reflexivity].
    destruct IH as (g & a & -> & Hg & Ha). cbn [bind].
    rewrite eq_or_subdomain_of_in_zone. unfold in_zone. cbn [filter].
    destruct (is_suffixb (lc child) (lc n)); cbn [negb].
    + exists ((idx, n) :: g), a. cbn [map snd]. rewrite Hg. auto.
    + exists g, ((idx, n) :: a). cbn [map snd]. rewrite Ha. auto.
Qed.

Lemma glue_loop_ok : forall l v w,
  glue_loop rec_iface z l v w = Ok (tt, rec_add SAr (flat_map (fun n => rec_addrs n true) (map snd l)) w).
Proof.
  induction l as [|[idx n] l IH]; intros v w.
  - cbn [glue_loop map flat_map]. rewrite rec_add_nil. reflexivity.
  - cbn [glue_loop map snd flat_map]. rewrite addrs_ok. cbn [lift_add]. rewrite IH, rec_add_add. reflexivity.
Qed.

(* nothing is ever truncated on the recorder, so the two loops of do_referral agree *)
Lemma optional_loop_glue : forall l v w, optional_loop rec_iface z l v w = glue_loop rec_iface z l v w.
Proof.
  induction l as [|[idx n] l IH]; intros v w; [reflexivity|]. cbn [optional_loop glue_loop].
  rewrite addrs_ok. apply IH.
Qed.

Lemma referral_ok child ns w aa an : norm_rec w = mk_sresp 0 aa an [] [] ->
  fin_ok (do_referral rec_iface z child ns w) (referral req apex cls R aa an (lc child) ns).
Proof.
  intros Hw. unfold do_referral, referral. rewrite rec_add_rrset. cbn [lift_addv].
  pose proof (referral_names_ok child (snd ns) 0) as H.
  destruct (all_some (map (fun rd => rdata_name rd 0) (snd ns))) as [targets|]; [|rewrite H; reflexivity].
  destruct H as (g & a & -> & Hg & Ha).
  rewrite glue_loop_ok, optional_loop_glue, glue_loop_ok.
  cbn [fin_ok]. rewrite !norm_rec_add, Hw, !rec_addrs_flat. cbn [s_rcode s_aa s_an s_ns s_ar app]. f_equal.
  - unfold rrs. rewrite norm_map, zone_class_cls, lc_idem. reflexivity.
  - rewrite Hg, Ha, lc_idem, flat_map_app. reflexivity.
Qed.

Lemma found_ok h owner ty s w an : norm_rec w = mk_sresp 0 true an [] [] ->
  fin_ok (add_found rec_iface z h owner ty s w) (positive req apex cls R an owner ty s).
Proof.
  intros Hw. unfold add_found, positive. rewrite rec_add_rrset. cbn [lift_addv].
  pose proof (additional_ok ty s (@Some hvec []) (rec_add SAn (map (mk_qrr owner ty (z_class z) (fst s)) (snd s)) w)) as H.
  destruct (additional req apex cls R ty s) as [ar|].
  - destruct H as (r & -> & <-). cbn [fin_ok]. rewrite !norm_rec_add, Hw. cbn [s_rcode s_aa s_an s_ns s_ar app].
    unfold rrs. rewrite norm_map, zone_class_cls. reflexivity.
  - destruct H as (w' & ->). reflexivity.
Qed.

Lemma last_opt_snoc {A} (l : list A) x : last_opt (l ++ [x]) = Some x.
Proof. unfold last_opt. rewrite rev_app_distr. reflexivity. Qed.

(* The simulation: the specification's [links] is the model's fuel, its visited names are the query
   name and the owners seen, its current owner the last of them; [length os + fuel = 8] holds at every
   call.  The 8 is the specification's; the model's S PREVIOUS_OWNERS_CAP meets it by conversion
   and by [change PREVIOUS_OWNERS_CAP with 7], so a regenerated constant breaks this proof. *)
Lemma cname_ok qname ty : forall fuel cn os w an,
  1 <= fuel -> length os + fuel = 8 -> norm_rec w = mk_sresp 0 true an [] [] ->
  fin_ok (follow_cname_1 rec_iface neg_ttl z fuel qname ty cn os w)
         (chase req apex cls R fuel (lc qname :: map lc os)
                (match last_opt os with Some o => o | None => qname end) cn an ty).
Proof.
  induction fuel as [|fuel IH]; intros cn os w an Hf Hlen Hw; [lia|].
  cbn [follow_cname_1 chase].
  destruct (snd cn) as [|rd rest] eqn:Ecn; [reflexivity|].
  pose proof (name_from_all_spec rd) as Hn.
  destruct (name_from_all rd) as [[[cname wire]|]|e|]; try contradiction.
  2:{ rewrite Hn. reflexivity. }
  destruct Hn as (Hn & -> & Hne). rewrite Hn.
  cbn [existsb]. rewrite existsb_map_lc, <- zname_eqb_lc.
  destruct (zname_eqb cname qname || existsb (zname_eqb cname) os); [reflexivity|].
  (* the recorder ignores the hint: from here on any (hint, owner) pair will do
     ([return name]: the owner on the specification's side is typed [name], not [zname]) *)
  set (ho := match last_opt os with Some o => (QhRdata, o) | None => (QhQname, qname) end).
  set (ow := match last_opt os return name with Some o => o | None => qname end).
  assert (E : ow = snd ho) by (unfold ow, ho; destruct (last_opt os); reflexivity).
  rewrite E. destruct ho as [h owner].
  cbn [snd]. destruct rd as [|b0 rd']; [congruence|]. set (rd := b0 :: rd') in *.
  rewrite rec_add_rr. cbn [lift_add].
  set (w1 := rec_add SAn [mk_qrr owner TYPE_CNAME (z_class z) (fst cn) rd] w).
  set (an1 := an ++ [mk_srr (lc owner) 5 cls (fst cn) rd]).
  assert (Hw1 : norm_rec w1 = mk_sresp 0 true an1 [] []).
  { unfold w1. rewrite norm_rec_add, Hw, zone_class_cls. reflexivity. }
  clearbody w1. unfold follow_cname_2_body.
  destruct (zone_lookup_refines req apex cls z R cname ty false false Hinv) as (r & Hz & Hs); [discriminate|].
  rewrite Hz, Hs. cbn [zl].
  destruct r as [s sos|next sos|c ns|sos| |]; cbn [norm_lookup].
  - apply found_ok; auto.
  - destruct (length os <? PREVIOUS_OWNERS_CAP) eqn:L; change PREVIOUS_OWNERS_CAP with 7 in L.
    + apply Nat.ltb_lt in L. specialize (IH next (os ++ [cname]) w1 an1).
      rewrite last_opt_snoc, map_app in IH. apply IH; auto; try lia. rewrite app_length. simpl. lia.
    + (* the model fails on the full owners_seen, the specification on its last link: the same call *)
      apply Nat.ltb_ge in L. assert (fuel = 0) by lia. subst fuel. reflexivity.
  - apply referral_ok; auto.
  - apply neg_ok; auto.
  - rewrite rec_set_rcode. cbn [lift_set]. apply neg_ok, (norm_rec_set_rcode _ _ _ _ _ _ _ Hw1).
  - exact Hw1.
Qed.

Lemma any_loop_ok qname : forall rrsets n w,
  any_loop rec_iface z qname rrsets n w =
  Ok (n + length rrsets,
      rec_add SAn (flat_map (fun r => map (mk_qrr qname (rs_type r) (z_class z) (rs_ttl r)) (rs_rdatas r)) rrsets) w).
Proof.
  induction rrsets as [|r rrsets IH]; intros n w.
  - cbn [any_loop flat_map length]. rewrite rec_add_nil, Nat.add_0_r. reflexivity.
  - cbn [any_loop]. rewrite rec_add_rrset. cbn [lift_addv]. rewrite IH, rec_add_add.
    cbn [flat_map length]. f_equal. f_equal. lia.
Qed.

Lemma any_rrs_norm qname (l : rrset_list) :
  map norm_rr (flat_map (fun r => map (mk_qrr qname (rs_type r) cls (rs_ttl r)) (rs_rdatas r)) l) =
  flat_map (fun r => rrs cls qname (rs_type r) (rs_ttl r, rs_rdatas r)) l.
Proof.
  induction l as [|x l IH]; cbn [flat_map map]; [reflexivity|].
  rewrite map_app, IH. unfold rrs. rewrite norm_map. reflexivity.
Qed.

Lemma handle_fin qname qtype tcp sp :
  fin_ok (if (qtype =? QTYPE_ANY)%N then answer_any rec_iface neg_ttl z qname rec_empty
          else answer rec_iface neg_ttl z qname qtype rec_empty) sp ->
  exists r, answer_rec z qname qtype tcp = Some r /\ norm_rec r = sp.
Proof.
  unfold answer_rec, handle_non_axfr_query.
  destruct (if (qtype =? QTYPE_ANY)%N then _ else _) as [[u w1]|[[|] w1]|]; cbn [fin_ok]; intros H;
    try contradiction.
  - eauto.
  - subst sp. eexists. split; reflexivity.
Qed.

Lemma nxdomain_ok : fin_ok (nxdomain rec_iface neg_ttl z rec_empty) (negative req apex cls R 3 []).
Proof. exact (neg_ok (mk_rec true false (Some RCODE_NXDOMAIN) [] [] []) 3 [] eq_refl). Qed.

Theorem answer_refines qname qtype tcp : in_zone apex qname = true ->
  exists r, answer_rec z qname qtype tcp = Some r /\ norm_rec r = resolve req apex cls R qname qtype.
Proof.
  intros Z. apply handle_fin. unfold resolve. change QTYPE_ANY with 255%N.
  (* [set_aa_then k rec_empty] is [k w0] *)
  set (w0 := mk_rec true false None [] [] []).
  destruct (qtype =? 255)%N.
  - unfold answer_any.
    destruct (zone_lookup_all_refines req apex cls z R qname true false Hinv (fun _ => Z)) as (r & Hz & Hs).
    rewrite (spec_lookup_all_unchecked req apex cls R qname false Z), Hs, Hz. cbn [zl].
    pose proof (spec_lookup_all_not_wrong req apex cls R qname true false Z) as Hnw.
    destruct r as [rrsets sos|c ns| |]; cbn [norm_all] in *.
    + change (set_aa_then rec_iface ?k rec_empty) with (k w0). cbv beta.
      rewrite any_loop_ok. destruct rrsets as [|r0 rrsets].
      * cbn [length Nat.add Nat.eqb flat_map]. rewrite rec_add_nil. apply (neg_ok w0). reflexivity.
      * cbn [length Nat.add Nat.eqb fin_ok]. rewrite norm_rec_add. change (norm_rec w0) with (mk_sresp 0 true [] [] []).
        cbn [s_rcode s_aa s_an s_ns s_ar app]. f_equal. rewrite zone_class_cls. apply any_rrs_norm.
    + apply referral_ok; auto.
    + apply nxdomain_ok.
    + congruence.
  - unfold answer.
    destruct (zone_lookup_refines req apex cls z R qname qtype true false Hinv (fun _ => Z)) as (r & Hz & Hs).
    rewrite (spec_lookup_unchecked req apex cls R qname qtype false Z), Hs, Hz. cbn [zl].
    pose proof (spec_lookup_not_wrong req apex cls R qname qtype true false Z) as Hnw.
    destruct r as [s sos|cn sos|c ns|sos| |]; cbn [norm_lookup] in *.
    + apply (found_ok QhQname qname qtype s w0); auto.
    + apply (cname_ok qname qtype 8 cn [] w0); auto; cbn; lia.
    + apply referral_ok; auto.
    + apply (neg_ok w0). reflexivity.
    + apply nxdomain_ok.
    + congruence.
Qed.

End Main.
