(* Composition: the extended composed server model (Model/ServerWT.v: handle_message_wt).
   Every response whose TSIG record is UNSIGNED (BADKEY, BADSIG, FORMERR for a MAC of a forbidden size) is
   produced in octets, never a Panic; those octets respect the limit, are a well-formed response, and end with
   the TSIG record RFC 8945 prescribes.  Everything else is Model/ServerW.v's handle_message_w.
   The theorems here assume a verifier that never accepts a MAC ([unverified]); the signing modes (BADTIME,
   verified) are the subject of Proofs/SignTopP.v. *)
From QV Require Import Base.ListX Gen.Consts Model.NameWire Spec.NameWireS Spec.NameRepr Spec.ReaderS Model.Reader Model.RdataLite
  Model.Server Model.ServerW Model.ServerWT Proofs.ReaderP Proofs.ServerP Proofs.ServerLimitP Proofs.ServerTsigP
  Model.MsgWriter Model.ZoneTree Model.Query Model.QueryW
  Spec.MsgWriterS Spec.RdataFormatS Spec.RespS Spec.TsigRespS
  Proofs.MsgWriterNameP Proofs.RdNameP Proofs.QueryNameP Proofs.ComposeTraceP Proofs.ComposeTopP Proofs.ComposeSerP Proofs.ComposeSrvP
  Proofs.ComposeTsigP Proofs.ComposeTsigWfP.
Local Open Scope nat_scope.

(* the verifier never says "the MAC is right" (neither verified nor BADTIME) *)
Definition unverified (verify : tsig_verifier) : Prop :=
  forall rd o m a s n, verify rd o m a s n <> Server.VOk /\ verify rd o m a s n <> Server.VBadTime.

Lemma unverified_unsigned verify t : unverified verify -> tsig_src verify t -> exists aw, t_mode t = TUnsigned aw.
Proof.
  intros U (_ & _ & _ & M). destruct (t_mode t) as [aw|a sec mac]; [eauto|].
  destruct M as ((rd & o & m & a' & s & n & [E|E]) & _); destruct (U rd o m a' s n) as [U1 U2]; contradiction.
Qed.

Section TopT.
Variable hmac : TsigMsg.alg -> bytes -> bytes -> bytes.
Variable verify : tsig_verifier.
Variable cfg : config.
Variable buf : bytes.
Hypothesis Hcfg : wf_cfg cfg.
Hypothesis Hbuf : length buf = c_buflen cfg.
Hypothesis Hnow : (c_now cfg < 281474976710656)%N.

Lemma qname_len req w q : wf_bytes req -> early_or_clean cfg req w -> Server.w_question w = Some q ->
  length (nm_wire (labels_of (Reader.q_name q))) = length (n_wire (Reader.q_name q)).
Proof.
  intros Hwf (H12 & _ & _ & QE & _) Hq. unfold question_echo in QE. rewrite Hq in QE.
  destruct QE as [QE|(_ & r1 & q' & RQ & QE)]; [discriminate|]. inversion QE; subst q'.
  pose proof (read_question_facts (r0_of req) (r0_inv req Hwf H12)) as (_ & _ & _ & Fq).
  rewrite RQ in Fq. cbn [fst snd] in Fq. destruct (Fq q eq_refl) as (ls & Dq & Nm & _).
  assert (Hv : Forall RdataFormatS.valid_label ls).
  { inversion Dq as [ls' l qt qc DN _ _]; subst. destruct DN as (e & De & _). eapply RdNameP.decodes_labels_valid; eauto. }
  rewrite Nm. rewrite (QueryNameP.labels_of_name_of ls Hv). reflexivity.
Qed.

Definition edns_flag (w : resp) : bool := match Server.w_edns w with Some _ => true | None => false end.

(* for a response [w'] derived from the pre-scan's [w], the numbers of the Writer after ser_prepare are the
   server model's: its limit, the cursor after the question, the OPT reservation; whatever TSIG record follows *)
Lemma writer_numbers req w w' : wf_bytes req -> early_or_clean cfg req w ->
  Server.w_question w' = Server.w_question w -> Server.w_cursor w' = qcur w' -> lim_ok cfg req w' ->
  let tcp := is_tcp (c_transport cfg) in
  (Server.w_edns w' <> None -> tcp = false -> first_limit tcp buf <= Server.w_limit w') /\
  wlim buf w' tcp = Server.w_limit w' /\ wcur w' = Server.w_cursor w' /\ wres w' = reserved w'.
Proof.
  clear Hnow. (* lia below would otherwise draw it into the closed statement *)
  intros Hwf Hec Eq Pc (Lb & Ll) tcp. pose proof Hcfg as (H512 & H64k & Hbl).
  assert (HL0 : first_limit tcp buf = ServerLimitP.L0 cfg).
  { unfold first_limit, ServerLimitP.L0, tcp, is_tcp. rewrite Hbuf. destruct (c_transport cfg); reflexivity. }
  assert (HL0ge : 512 <= ServerLimitP.L0 cfg).
  { unfold ServerLimitP.L0, tcp_limit, udp_limit in *. destruct (c_transport cfg); lia. }
  assert (Hlims : (Server.w_edns w' <> None -> tcp = false -> first_limit tcp buf <= Server.w_limit w') /\
                  wlim buf w' tcp = Server.w_limit w').
  { unfold wlim. rewrite HL0. destruct Ll as [Ll|(Tr & Ed & their & _ & Ll)].
    - split; [intros _ _; lia|]. rewrite Ll. destruct (Server.w_edns w'); [|reflexivity]. destruct tcp; [reflexivity|].
      unfold ServerLimitP.L0. rewrite Hbuf. lia.
    - assert (Hn : 512 <= negotiated cfg their /\ negotiated cfg their <= c_buflen cfg).
      { unfold negotiated. rewrite Tr in Hbl. lia. }
      assert (HU : ServerLimitP.L0 cfg = 512).
      { unfold ServerLimitP.L0. rewrite Tr. unfold udp_limit. rewrite Tr in Hbl. change (N.to_nat 512) with 512. lia. }
      assert (Ht : tcp = false) by (unfold tcp, is_tcp; rewrite Tr; reflexivity).
      split; [intros _ _; lia|]. destruct (Server.w_edns w'); [|exfalso; apply Ed; reflexivity].
      rewrite Ht, Hbuf. lia. }
  destruct Hlims as [Hlim Hwl]. split; [exact Hlim|]. split; [exact Hwl|]. split; [|reflexivity].
  rewrite Pc. unfold wcur, qcur. destruct (Server.w_question w') as [q|] eqn:Eqq; [|reflexivity].
  assert (Hqw : Server.w_question w = Some q) by congruence. rewrite (qname_len req w q Hwf Hec Hqw). lia.
Qed.

Theorem abs_wt_unsigned req w w' t aw : wf_bytes req -> early_or_clean cfg req w ->
  Server.w_question w' = Server.w_question w -> tsig_post verify w' -> lim_ok cfg req w' ->
  Server.w_tsig w' = Some t -> t_mode t = TUnsigned aw ->
  exists len b f,
    abs_wt hmac cfg buf w' = Ok (ROctets len b) /\ len <= Server.w_limit w' /\
    wf_response (firstn len b) = true /\
    tsig_fields_of (c_now cfg) t = Some f /\
    unsigned_tsig_response (firstn len b) (edns_flag w') (tf_key f) (nm_lower (tf_alg f)) (tf_time f) TSIG_FUDGE
      (tf_origid f) (tf_error f) [].
Proof.
  intros Hwf Hec Eq (Pc & Pt) L Et Em. rewrite Et in Pt. destruct Pt as (Pfit & Psrc & _).
  pose proof (buf_512 cfg buf Hcfg Hbuf) as Hb512.
  pose proof (abs_question cfg buf Hcfg Hbuf req w w' Hwf Hec Eq) as Hq.
  destruct (tsig_fields_total verify (c_now cfg) t Hnow Psrc) as (f & Ef & Hf).
  destruct (writer_numbers req w w' Hwf Hec Eq Pc L) as (Hlim & Hwl & Hcur & Hres).
  set (tcp := is_tcp (c_transport cfg)) in *.
  destruct Psrc as (_ & _ & _ & M). rewrite Em in M. destruct M as (_ & Mres & Mnb).
  assert (Hnb : tf_error f <> 18%N) by (rewrite (fo_err _ _ Hf); exact Mnb).
  assert (Hfit : wcur w' + (length (nm_wire (tf_key f)) + length (nm_wire (tf_alg f)) + 26) + wres w' <= wlim buf w' tcp).
  { rewrite (fo_klen _ _ Hf), (fo_alen _ _ Hf), Em, Hcur, Hres, Hwl. cbn [mode_alg_wire]. lia. }
  destruct (ser_tsig_unsigned_wf buf Hb512 w' Hq tcp t f Hf Hnb Hlim Hfit) as (w1 & w2 & len & b & E1 & E2 & EF & Hlen & Hwfr & Hts).
  exists len, b, f. split.
  - unfold abs_wt. rewrite Et. unfold ser_tsig. fold tcp. rewrite E1, Ef, Em, E2, EF. reflexivity.
  - split; [lia|]. split; [exact Hwfr|]. split; [exact Ef|exact Hts].
Qed.

End TopT.

Section SrvT.
Variable hmac : TsigMsg.alg -> bytes -> bytes -> bytes.
Variable zones : nat -> option zone.
Variable negttl : N -> N -> N.
Variable answer : answer_fn.
Variable verify : tsig_verifier.
Variable cfg : config.
Variable buf : bytes.
Hypothesis Hcfg : wf_cfg cfg.
Hypothesis Hbuf : length buf = c_buflen cfg.
Hypothesis Hnow : (c_now cfg < 281474976710656)%N.
Hypothesis Hunv : unverified verify.

(* under [unverified] a clean request never carries TSIG settings *)
Lemma clean_no_tsig req opc w : wf_bytes req -> prescan verify cfg req = Ok (PClean opc w) -> Server.w_tsig w = None.
Proof.
  intros Hwf E. pose proof (prescan_tsig verify cfg req _ Hcfg Hwf E) as (_ & SB).
  destruct (Server.w_tsig w) as [t|] eqn:Et; [|reflexivity]. exfalso.
  destruct (SB ltac:(discriminate)) as (rd & o & m & a & s & n & [X|X]); destruct (Hunv rd o m a s n); contradiction.
Qed.

Lemma abs_wt_cases req w w' : wf_bytes req -> early_or_clean cfg req w -> Server.w_question w' = Server.w_question w ->
  tsig_post verify w' -> lim_ok cfg req w' ->
  match Server.w_tsig w' with
  | None => abs_wt hmac cfg buf w' = abs_w cfg buf w'
  | Some t =>
    exists len b f,
      abs_wt hmac cfg buf w' = Ok (ROctets len b) /\ len <= Server.w_limit w' /\ wf_response (firstn len b) = true /\
      tsig_fields_of (c_now cfg) t = Some f /\
      unsigned_tsig_response (firstn len b) (edns_flag w') (tf_key f) (nm_lower (tf_alg f)) (tf_time f) TSIG_FUDGE
        (tf_origid f) (tf_error f) []
  end.
Proof.
  intros Hwf Hec Eq P L. destruct (Server.w_tsig w') as [t|] eqn:Et.
  - pose proof P as (_ & Pt). rewrite Et in Pt. destruct Pt as (_ & Psrc & _).
    destruct (unverified_unsigned verify t Hunv Psrc) as (aw & Em).
    exact (abs_wt_unsigned hmac verify cfg buf Hcfg Hbuf Hnow req w w' t aw Hwf Hec Eq P L Et Em).
  - unfold abs_wt. rewrite Et. reflexivity.
Qed.

Theorem handle_message_wt_ok Q req : catalog_okQ Q cfg zones -> wf_bytes req ->
  exists x, handle_message_wt hmac zones negttl answer verify cfg buf req = Ok x /\
    ((forall c recs, Q c recs -> zone_rdata_valid c recs) ->
     forall len b, x = Some (ROctets len b) -> wf_response (firstn len b) = true).
Proof.
  intros Hcat Hwf. destruct (prescan_facts verify cfg req Hcfg Hwf) as (p & Ep & Post).
  pose proof (prescan_tsig verify cfg req p Hcfg Hwf Ep) as PT. pose proof (prescan_lim verify cfg req p Ep) as PL.
  destruct (handle_message_w_ok zones negttl answer verify cfg buf Hcfg Hbuf Q Hcat req Hwf) as (x0 & E0 & W0).
  unfold handle_message_wt. unfold handle_message_w in E0. rewrite Ep in *. cbn [bind] in *.
  assert (HA : forall w w', early_or_clean cfg req w -> Server.w_question w' = Server.w_question w ->
            tsig_post verify w' -> lim_ok cfg req w' ->
            exists x, (let* r := abs_wt hmac cfg buf w' in Ok (Some r)) = Ok x /\
              (forall len b, x = Some (ROctets len b) -> wf_response (firstn len b) = true)).
  { intros w w' Hec Eq P L. pose proof (abs_wt_cases req w w' Hwf Hec Eq P L) as C.
    destruct (Server.w_tsig w') as [t|].
    - destruct C as (len & b & f & -> & _ & Hw & _). eexists. split; [reflexivity|]. intros len' b' [= <- <-]. exact Hw.
    - rewrite C. exact (abs_ok cfg buf Hcfg Hbuf req w w' Hwf Hec Eq). }
  destruct p as [|w|opc w].
  - eexists. split; [reflexivity|discriminate].
  - destruct (HA w w Post eq_refl PT PL) as (x & E & W). eauto.
  - destruct Post as [Hec _]. destruct PT as [PT _].
    destruct (opc =? OPCODE_QUERY)%N eqn:Eo.
    + unfold handle_query_wt. rewrite (clean_no_tsig req opc w Hwf Ep). exists x0. split; [exact E0|exact W0].
    + destruct (HA w (Server.set_rcode w RC_NOTIMP) Hec eq_refl) as (x & E & W);
        [apply post_set_rcode; exact PT|apply lim_set_rcode; exact PL|]. eauto.
Qed.

Theorem handle_message_wt_total Q req : catalog_okQ Q cfg zones -> wf_bytes req ->
  exists x, handle_message_wt hmac zones negttl answer verify cfg buf req = Ok x.
Proof. intros Hcat Hwf. destruct (handle_message_wt_ok Q req Hcat Hwf) as (x & E & _). exists x. exact E. Qed.

Theorem handle_message_wt_wf req len b : catalog_valid cfg zones -> wf_bytes req ->
  handle_message_wt hmac zones negttl answer verify cfg buf req = Ok (Some (ROctets len b)) ->
  wf_response (firstn len b) = true.
Proof.
  intros Hcat Hwf H. destruct (handle_message_wt_ok zone_rdata_valid req Hcat Hwf) as (x & E & W).
  rewrite E in H. inversion H; subst x. exact (W (fun _ _ HQ => HQ) len b eq_refl).
Qed.

(* the TSIG-bearing responses: whenever the response of the abstract server model (Model/Server.v) carries TSIG
   settings, the extended composed model produces it in octets, within the limit, well formed, and ending with
   the RFC 8945 record for those settings *)
Theorem tsig_response_octets req wa t : wf_bytes req ->
  Server.handle_message answer verify cfg req = Ok (Some wa) -> Server.w_tsig wa = Some t ->
  exists len b f,
    handle_message_wt hmac zones negttl answer verify cfg buf req = Ok (Some (ROctets len b)) /\
    len <= Server.w_limit wa /\ lim_ok cfg req wa /\ wf_response (firstn len b) = true /\
    tsig_fields_of (c_now cfg) t = Some f /\ tf_error f = Server.t_error t /\
    unsigned_tsig_response (firstn len b) (edns_flag wa) (tf_key f) (nm_lower (tf_alg f)) (tf_time f) TSIG_FUDGE
      (tf_origid f) (tf_error f) [].
Proof.
  intros Hwf HA Et. pose proof (handle_message_limit answer verify cfg req wa HA) as PLa.
  destruct (prescan_facts verify cfg req Hcfg Hwf) as (p & Ep & Post).
  pose proof (prescan_tsig verify cfg req p Hcfg Hwf Ep) as PT. pose proof (prescan_lim verify cfg req p Ep) as PL.
  unfold Server.handle_message in HA. unfold handle_message_wt. rewrite Ep in *. cbn [bind] in *.
  destruct p as [|w|opc w]; [discriminate| |].
  - inversion HA; subst wa. pose proof (abs_wt_cases req w w Hwf Post eq_refl PT PL) as C. rewrite Et in C.
    destruct C as (len & b & f & E & Hl & Hw & Ef & Hu). exists len, b, f. rewrite E. cbn [bind].
    split; [reflexivity|]. split; [exact Hl|]. split; [exact PL|]. split; [exact Hw|]. split; [exact Ef|]. split; [|exact Hu].
    unfold tsig_fields_of in Ef. destruct (TsigMsg.time_signed_of_unix _); [|discriminate]. destruct (req_origid _); [|discriminate].
    destruct (if (Server.t_error t =? XRC_BADTIME)%N then _ else _); [|discriminate]. inversion Ef. reflexivity.
  - exfalso. pose proof (clean_no_tsig req opc w Hwf Ep) as Hn.
    destruct (opc =? OPCODE_QUERY)%N; inversion HA; subst wa.
    + unfold handle_query in Et. destruct (Server.w_question w) as [q|]; [|cbn in Et; congruence].
      destruct (existsb _ _); [cbn in Et; congruence|]. destruct (_ =? _)%N; [cbn in Et; congruence|].
      destruct (cat_lookup _ _ _ _) as [e|]; [|cbn in Et; congruence].
      destruct (e_kind e); try (cbn in Et; congruence).
      unfold apply_body in Et. destruct (b_rcode _); cbn in Et; congruence.
    + cbn in Et. congruence.
Qed.

End SrvT.
