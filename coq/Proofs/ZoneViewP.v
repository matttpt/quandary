(* The tree seen as a partial map from descent paths (labels from the apex downwards) to
   (node name, RRsets), and what get_or_create_descendant + RrsetList::add do to that map. *)
From QV Require Import Base.Res Base.Octets Base.ListX Model.ZoneTree Spec.ZoneLookupS
  Proofs.ZoneBaseP Proofs.ZoneRrsetP.

Fixpoint view (p : list label) (t : node) : option (name * rrset_list) :=
  match p with
  | [] => Some (node_name t, node_data t)
  | l :: p' =>
    match find_child l (node_children t) with
    | Some c => view p' c
    | None => None
    end
  end.

Fixpoint descent (nm : name) (level : nat) : list label :=
  match level with
  | 0 => []
  | S l => nth l nm [] :: descent nm l
  end.

(* the label of [d] is the stored key, as in find_child *)
Fixpoint prefixb (p d : list label) : bool :=
  match p, d with
  | [], _ => true
  | x :: p', y :: d' => label_eqb y x && prefixb p' d'
  | _ :: _, [] => false
  end.

Lemma descent_length nm level : length (descent nm level) = level.
Proof. induction level; simpl; auto. Qed.

Lemma descent_rev nm level : level <= length nm -> descent nm level = rev (firstn level nm).
Proof.
  induction level as [|l IH]; intros H; cbn [descent]; auto.
  rewrite (firstn_S_snoc nm l []) by lia. rewrite rev_app_distr. simpl. rewrite IH by lia. reflexivity.
Qed.

Lemma prefixb_length p d : prefixb p d = true -> length p <= length d.
Proof.
  revert d; induction p as [|x p IH]; intros [|y d]; simpl; intros H; try discriminate; try lia.
  apply andb_true_iff in H. destruct H as [_ H]. apply IH in H. lia.
Qed.

Lemma prefixb_iff p d : prefixb p d = true <-> exists q, lc d = lc p ++ q.
Proof.
  revert d; induction p as [|x p IH]; intros d.
  - simpl. split; auto. intros _. exists (lc d). reflexivity.
  - destruct d as [|y d].
    + simpl. split; [discriminate|]. intros [q H]. discriminate.
    + cbn [prefixb]. rewrite andb_true_iff, label_eqb_iff, IH. rewrite !lc_cons. split.
      * intros [E [q H]]. exists q. simpl. rewrite E, H. reflexivity.
      * intros [q H]. simpl in H. inversion H. split; eauto.
Qed.

Lemma find_child_set_same lab x c c' ch : find_child lab ch = Some c -> label_eqb lab x = true ->
  find_child x (set_child lab c' ch) = Some c'.
Proof.
  intros H E. induction ch as [|[k c0] ch IH]; simpl in *; [discriminate|].
  pose proof (label_eqb_congr _ _ E k) as T.
  destruct (label_eqb k lab) eqn:K; simpl; rewrite <- T; auto.
Qed.

Lemma find_child_set_other lab x c' ch : label_eqb lab x = false ->
  find_child x (set_child lab c' ch) = find_child x ch.
Proof.
  intros E. induction ch as [|[k c0] ch IH]; simpl in *; auto.
  destruct (label_eqb k lab) eqn:K; simpl.
  - destruct (label_eqb k x) eqn:Kx; auto.
    apply label_eqb_iff in K. apply label_eqb_iff in Kx.
    assert (label_eqb lab x = true) by (apply label_eqb_iff; congruence). congruence.
  - destruct (label_eqb k x); auto.
Qed.

Lemma find_child_app_none x ch k c : find_child x ch = None ->
  find_child x (ch ++ [(k, c)]) = if label_eqb k x then Some c else None.
Proof.
  induction ch as [|[k0 c0] ch IH]; simpl; auto.
  destruct (label_eqb k0 x); [discriminate|]. auto.
Qed.

Lemma find_child_app_some x ch k c c0 : find_child x ch = Some c0 ->
  find_child x (ch ++ [(k, c)]) = Some c0.
Proof.
  induction ch as [|[k1 c1] ch IH]; simpl; [discriminate|].
  destruct (label_eqb k1 x); auto.
Qed.

Lemma find_child_eqv a b ch : label_eqb a b = true -> find_child a ch = find_child b ch.
Proof.
  intros E. induction ch as [|[k c] ch IH]; simpl; auto.
  rewrite (label_eqb_congr _ _ E k). destruct (label_eqb k b); auto.
Qed.

(* what get_or_create_descendant does to the children map at one level: overwrite the entry found, or append *)
Definition put_child (lab : label) (c' : node) (ch : list (label * node)) : list (label * node) :=
  match find_child lab ch with Some _ => set_child lab c' ch | None => ch ++ [(lab, c')] end.

Lemma find_child_put lab c' ch x :
  find_child x (put_child lab c' ch) = if label_eqb lab x then Some c' else find_child x ch.
Proof.
  unfold put_child. destruct (find_child lab ch) as [c|] eqn:F; destruct (label_eqb lab x) eqn:E.
  - exact (find_child_set_same _ _ _ _ _ F E).
  - exact (find_child_set_other _ _ _ _ E).
  - rewrite find_child_app_none, E by (rewrite <- (find_child_eqv _ _ _ E); exact F). reflexivity.
  - destruct (find_child x ch) as [c1|] eqn:F0.
    + exact (find_child_app_some _ _ _ _ _ F0).
    + rewrite (find_child_app_none _ _ _ _ F0), E. reflexivity.
Qed.

(* the node at [p], or what node_update would create there on its way down [nm] *)
Definition viewd (p : list label) (t : node) (nm : name) (level : nat) : name * rrset_list :=
  match view p t with
  | Some x => x
  | None => (skipn (level - length p) nm, [])
  end.

Definition apply_f (f : rrset_list -> res zone_err rrset_list) (d : rrset_list) : rrset_list :=
  match f d with Ok d' => d' | _ => d end.
Definition err_of (f : rrset_list -> res zone_err rrset_list) (d : rrset_list) : option zone_err :=
  match f d with Err e => Some e | _ => None end.

Lemma view_node_new p sup : view p (node_new sup) = match p with [] => Some (sup, []) | _ => None end.
Proof. destruct p; reflexivity. Qed.

(* node_update applies [f] to the data of one node of the tree, or to no data *)
Lemma node_update_ext f1 f2 level nm : forall t, f1 [] = f2 [] ->
  (forall p n d, view p t = Some (n, d) -> f1 d = f2 d) ->
  node_update level nm f1 t = node_update level nm f2 t.
Proof.
  induction level as [|l IH]; intros t H0 H; cbn [node_update].
  - rewrite (H [] _ _ eq_refl). reflexivity.
  - destruct (name_index nm l) as [lab| |]; cbn [bind]; auto.
    destruct (find_child lab (node_children t)) as [c|] eqn:F.
    + rewrite (IH c H0); [reflexivity|]. intros p n d V. apply (H (lab :: p) n d). cbn [view]. rewrite F. exact V.
    + destruct (superdomain nm l) as [sup|]; auto. rewrite (IH (node_new sup) H0); [reflexivity|].
      intros p n d V. rewrite view_node_new in V. destruct p; [|discriminate]. injection V as _ <-. exact H0.
Qed.

(* The new tree has the old view off the descent path; along it every node exists (created with the
   superdomain as its name and no data if it was absent) and the data at its end went through [f].
   A Panic of [f] would be passed on, hence the premise. *)
Lemma node_update_view f : (forall d, f d <> Panic) ->
  forall level nm t, level <= length nm ->
  let old := snd (viewd (descent nm level) t nm level) in
  exists t', node_update level nm f t = Ok (t', err_of f old) /\
    node_name t' = node_name t /\
    forall p, view p t' =
      if prefixb p (descent nm level) then
        Some (fst (viewd p t nm level), if length p =? level then apply_f f old else snd (viewd p t nm level))
      else view p t.
Proof.
  intros Hf. induction level as [|l IH]; intros nm t Hlen; cbv zeta.
  - simpl. unfold viewd. simpl. unfold err_of, apply_f.
    destruct (f (node_data t)) as [d'|e|] eqn:F; [| |exfalso; eapply Hf; eauto];
      (eexists; split; [reflexivity|]; split; [reflexivity|]; intros [|x p]; simpl; rewrite ?F; reflexivity).
  - cbn [node_update descent].
    assert (Hnth : nth_error nm l = Some (nth l nm [])) by (apply nth_error_nth'; lia).
    unfold name_index. rewrite Hnth. cbn [bind].
    set (lab := nth l nm []) in *.
    (* the child the walk continues in: the one found, or a new one *)
    set (c := match find_child lab (node_children t) with Some c => c | None => node_new (skipn l nm) end).
    assert (Ec : forall x p, label_eqb lab x = true -> viewd (x :: p) t nm (S l) = viewd p c nm l).
    { intros x p E. unfold viewd, c. cbn [view]. rewrite <- (find_child_eqv _ _ _ E). simpl length.
      destruct (find_child lab (node_children t)); [reflexivity|].
      rewrite view_node_new. destruct p; simpl; [rewrite Nat.sub_0_r|]; reflexivity. }
    destruct (IH nm c ltac:(lia)) as (c' & Hup & Hname & Hview). cbv zeta in Hup, Hview.
    rewrite <- (Ec lab _ (label_eqb_refl lab)) in Hup, Hview.
    (* found or created, the child ends up under [lab] *)
    exists (Node (node_name t) (put_child lab c' (node_children t)) (node_data t)). split.
    { unfold put_child, c in *. destruct (find_child lab (node_children t)); [rewrite Hup; reflexivity|].
      unfold superdomain, name_len. destruct (l <? S (length nm)) eqn:Lt; [|apply Nat.ltb_ge in Lt; lia].
      rewrite Hup. reflexivity. }
    split; [reflexivity|].
    intros [|x p]; [reflexivity|].
    cbn [view prefixb node_children]. rewrite find_child_put.
    destruct (label_eqb lab x) eqn:E; cbn [andb]; [|reflexivity].
    rewrite Hview, (Ec x p E). simpl length. change (S (length p) =? S l) with (length p =? l).
    destruct (prefixb p (descent nm l)) eqn:Pp; [reflexivity|].
    unfold c. rewrite <- (find_child_eqv _ _ _ E). destruct (find_child lab (node_children t)); [reflexivity|].
    rewrite view_node_new. destruct p; [discriminate Pp|reflexivity].
Qed.
