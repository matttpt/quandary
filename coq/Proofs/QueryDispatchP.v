(* The hypothesis "the query name is at or below the apex" of c05_answer_refines, discharged from the
   server model: the catalog entry that handle_query selects (Model/Server.v: cat_lookup, longest
   suffix within the class) has a name that is a suffix of the query name. *)
From QV Require Import Base.ListX Model.NameWire Model.Reader Model.Server Proofs.ServerP
  Model.ZoneTree Spec.ZoneLookupS Proofs.ZoneBaseP Model.Query.
Local Open Scope nat_scope.

Lemma wire_labels_same : forall fuel w, Server.wire_labels_aux fuel w = q_wire_labels fuel w.
Proof.
  induction fuel as [|f IH]; intros w; [reflexivity|]. cbn [Server.wire_labels_aux q_wire_labels].
  destruct w as [|l r]; [reflexivity|]. destruct (l =? 0)%N; [reflexivity|]. rewrite IH. reflexivity.
Qed.

Lemma name_key_labels nm : name_key nm = lc (labels_of nm).
Proof. unfold name_key, labels_of, Server.wire_labels, lower_labels, lc. rewrite wire_labels_same. reflexivity. Qed.

Lemma is_suffix_suffixb s l : Server.is_suffix s l = is_suffixb s l.
Proof.
  unfold Server.is_suffix, is_suffixb. f_equal. apply eq_true_iff_eq.
  rewrite labels_eqb_spec, name_eqb_eq. split; intros E; symmetry; exact E.
Qed.

Theorem dispatch_in_zone es (q : question) cls e apex :
  cat_lookup es (name_key (q_name q)) cls None = Some e ->
  e_name e = lower_labels apex ->
  in_zone apex (labels_of (q_name q)) = true.
Proof.
  intros H Hn. pose proof (cat_lookup_spec es _ _ _ _ H) as S. cbn in S.
  destruct S as ([S|(_ & _ & S)] & _); [discriminate|].
  unfold in_zone. rewrite <- name_key_labels. rewrite <- is_suffix_suffixb.
  change (lc apex) with (lower_labels apex). rewrite <- Hn. exact S.
Qed.
