(* C03 / C09 at the byte level for the responses that do not come from query answering
   (REFUSED, NOTIMP for the special QTYPEs / QCLASS ANY, SERVFAIL for zones that are not loaded):
   [QueryW.respond_plain] is a run of the Writer operation language of C12, so the message-level
   round trip of C12 applies: the independent RFC 1035 decoder of Spec/MsgWriterS.v, applied to the
   finished octets, returns the request's ID, QR = 1, opcode 0, AA = TC = 0, RD as copied, RA = 0,
   Z = 0, the RCODE, exactly one question (the given one), empty answer and authority sections and,
   when the request carried an OPT, exactly one OPT record: owner root, class = the server's payload
   size, TTL field 0 (extended-RCODE bits 0, version 0, flags 0). *)
From QV Require Import Base.ListX Gen.Consts Model.MsgWriter Spec.MsgWriterS Spec.MsgWriterAbsS
  Proofs.MsgWriterP Proofs.MsgWriterNameP Proofs.MsgWriterInvP Proofs.MsgWriterStepP Proofs.MsgWriterHdrP
  Proofs.MsgWriterDecP Proofs.MsgWriterRtP Model.ZoneTree Model.Query Model.QueryW.
Local Open Scope nat_scope.

Definition plain_ops (tcp : bool) (id : N) (rd : bool) (qname : wname) (qtype qclass : N) (edns : option N)
    (limit : nat) (rcode : N) : list wop :=
  [OSetId id; OSetQr true; OSetOpcode 0; OSetRd rd; OAddQuestion qname qtype qclass] ++
  match edns with
  | Some size => OSetEdns size :: (if tcp then [] else [OSetLimit limit])
  | None => []
  end ++ [OSetRcode rcode].

Definition simple_op (o : wop) : Prop :=
  match o with
  | OAddRr _ _ _ _ _ _ _ _ | OAddRrset _ _ _ _ _ _ _ _ | OTemplate _ | OTemplateSubsequent => False
  | _ => True
  end.

Lemma stops_simple o r : simple_op o -> stops o r = false.
Proof. destruct o; simpl; try contradiction; reflexivity. Qed.

Lemma run_cons d o rest d1 d2 rs alive : simple_op o -> step d o = Ok (d1, RUnit) ->
  run d1 rest = Ok (d2, rs, alive) -> run d (o :: rest) = Ok (d2, RUnit :: rs, alive).
Proof. intros S E R. cbn [run]. rewrite E. cbn [bind]. rewrite (stops_simple o RUnit S), R. reflexivity. Qed.

Lemma run_contract_simple : forall ops d g, Forall simple_op ops -> Forall op_wf ops -> run_contract d g ops.
Proof.
  induction ops as [|o rest IH]; intros d g S W; cbn [run_contract]; [exact I|].
  inversion S; subst. inversion W; subst. split; [assumption|]. split; [destruct o; simpl; auto; contradiction|].
  destruct (step d o) as [[d1 r]|e|]; auto. rewrite (stops_simple o r) by assumption. apply IH; assumption.
Qed.

Lemma plain_ops_simple tcp id rd qname qt qc edns limit rcode : Forall simple_op (plain_ops tcp id rd qname qt qc edns limit rcode).
Proof. unfold plain_ops. destruct edns as [sz|]; [destruct tcp|]; repeat constructor. Qed.

Ltac run_step S := eapply run_cons; [|exact S|]; [exact I|].

(* respond_plain IS a run of the operation language, every operation succeeding *)
Lemma respond_plain_run buf tcp id rd qname qt qc edns limit rcode len b :
  respond_plain buf tcp id rd qname qt qc edns limit rcode = Some (len, b) ->
  exists rr, run_writer buf (if tcp then tcp_limit_w else udp_limit_w) (plain_ops tcp id rd qname qt qc edns limit rcode) = Ok rr /\
             rr_final rr = Some (len, b) /\
             rr_outcomes rr = map (fun _ => RUnit) (plain_ops tcp id rd qname qt qc edns limit rcode).
Proof.
  unfold respond_plain, prepare_w.
  destruct (writer_new buf (if tcp then tcp_limit_w else udp_limit_w)) as [w0|e|] eqn:E0; try discriminate.
  destruct (set_id id w0) as [w1|e|] eqn:E1; cbn [bind]; try discriminate.
  destruct (set_qr true w1) as [w2|e|] eqn:E2; cbn [bind]; try discriminate.
  destruct (set_opcode 0 w2) as [w3|e|] eqn:E3; cbn [bind]; try discriminate.
  destruct (set_rd rd w3) as [w4|e|] eqn:E4; try discriminate.
  destruct (add_question qname qt qc w4) as [[u w5]|e|] eqn:E5; try discriminate.
  assert (S1 : step (mkD w0 []) (OSetId id) = Ok (mkD w1 [], RUnit)) by (cbn [step d_w of_R]; rewrite E1; reflexivity).
  assert (S2 : step (mkD w1 []) (OSetQr true) = Ok (mkD w2 [], RUnit)) by (cbn [step d_w of_R]; rewrite E2; reflexivity).
  assert (S3 : step (mkD w2 []) (OSetOpcode 0) = Ok (mkD w3 [], RUnit)) by (cbn [step d_w of_R]; rewrite E3; reflexivity).
  assert (S4 : step (mkD w3 []) (OSetRd rd) = Ok (mkD w4 [], RUnit)) by (cbn [step d_w of_R]; rewrite E4; reflexivity).
  assert (S5 : step (mkD w4 []) (OAddQuestion qname qt qc) = Ok (mkD w5 [], RUnit)) by (cbn [step d_w of_M]; rewrite E5; reflexivity).
  assert (Prefix : forall tailops d2 rs alive, run (mkD w5 []) tailops = Ok (d2, rs, alive) ->
            run (mkD w0 []) ([OSetId id; OSetQr true; OSetOpcode 0; OSetRd rd; OAddQuestion qname qt qc] ++ tailops) =
            Ok (d2, RUnit :: RUnit :: RUnit :: RUnit :: RUnit :: rs, alive)).
  { intros tailops d2 rs alive R. cbn [app].
    run_step S1. run_step S2. run_step S3.
    run_step S4. run_step S5. exact R. }
  assert (Fin : forall tailops wf rs, run (mkD w5 []) tailops = Ok (mkD wf [], rs, true) -> finish wf = Ok (len, b) ->
            rs = map (fun _ => RUnit) tailops ->
            exists rr, run_writer buf (if tcp then tcp_limit_w else udp_limit_w)
                         ([OSetId id; OSetQr true; OSetOpcode 0; OSetRd rd; OAddQuestion qname qt qc] ++ tailops) = Ok rr /\
                       rr_final rr = Some (len, b) /\
                       rr_outcomes rr = map (fun _ => RUnit)
                         ([OSetId id; OSetQr true; OSetOpcode 0; OSetRd rd; OAddQuestion qname qt qc] ++ tailops)).
  { intros tailops wf rs R F Hrs. unfold run_writer, run_writer_gen. rewrite E0. cbn [bind].
    rewrite (Prefix _ _ _ _ R). cbn [bind d_w d_regs]. rewrite F. cbn [bind].
    eexists. split; [reflexivity|]. split; [reflexivity|]. cbn [rr_outcomes]. rewrite Hrs. reflexivity. }
  unfold plain_ops. destruct edns as [size|].
  - destruct (set_edns size w5) as [[u6 w6]|e|] eqn:E6; try discriminate.
    assert (S6 : step (mkD w5 []) (OSetEdns size) = Ok (mkD w6 [], RUnit)) by (cbn [step d_w of_M]; rewrite E6; destruct u6; reflexivity).
    destruct tcp.
    + destruct (set_rcode rcode w6) as [w'|e|] eqn:Er; try discriminate.
      destruct (finish w') as [[len' b']|e|] eqn:Ef; try discriminate. intros X; inversion X; subst len' b'.
      assert (S7 : step (mkD w6 []) (OSetRcode rcode) = Ok (mkD w' [], RUnit)) by (cbn [step d_w of_R]; rewrite Er; reflexivity).
      apply (Fin [OSetEdns size; OSetRcode rcode] w' [RUnit; RUnit]); [|exact Ef|reflexivity].
      run_step S6. run_step S7. reflexivity.
    + destruct (MsgWriter.set_limit limit w6) as [w7|e|] eqn:E7; try discriminate.
      destruct (set_rcode rcode w7) as [w'|e|] eqn:Er; try discriminate.
      destruct (finish w') as [[len' b']|e|] eqn:Ef; try discriminate. intros X; inversion X; subst len' b'.
      assert (S7 : step (mkD w6 []) (OSetLimit limit) = Ok (mkD w7 [], RUnit)) by (cbn [step d_w of_R]; rewrite E7; reflexivity).
      assert (S8 : step (mkD w7 []) (OSetRcode rcode) = Ok (mkD w' [], RUnit)) by (cbn [step d_w of_R]; rewrite Er; reflexivity).
      apply (Fin [OSetEdns size; OSetLimit limit; OSetRcode rcode] w' [RUnit; RUnit; RUnit]); [|exact Ef|reflexivity].
      run_step S6. run_step S7. run_step S8. reflexivity.
  - destruct (set_rcode rcode w5) as [w'|e|] eqn:Er; try discriminate.
    destruct (finish w') as [[len' b']|e|] eqn:Ef; try discriminate. intros X; inversion X; subst len' b'.
    assert (S7 : step (mkD w5 []) (OSetRcode rcode) = Ok (mkD w' [], RUnit)) by (cbn [step d_w of_R]; rewrite Er; reflexivity).
    apply (Fin [OSetRcode rcode] w' [RUnit]); [|exact Ef|reflexivity].
    run_step S7. reflexivity.
Qed.

Lemma Forall2_nil_l {A B} (R : A -> B -> Prop) l : Forall2 R [] l -> l = [].
Proof. intros H. inversion H. reflexivity. Qed.

Theorem respond_plain_decodes buf tcp id rd qname qt qc edns limit rcode len b :
  (id < 65536)%N -> wf_name qname -> length (nm_wire qname) <= 255 -> (qt < 65536)%N -> (qc < 65536)%N ->
  (rcode < 16)%N -> (forall sz, edns = Some sz -> (sz < 65536)%N) ->
  respond_plain buf tcp id rd qname qt qc edns limit rcode = Some (len, b) ->
  exists m, decode_msg (firstn len b) = Some m /\
    m_id m = id /\ N.testbit (m_flags2 m) 7 = true /\ ((m_flags2 m / 8) mod 16 = 0)%N /\
    N.testbit (m_flags2 m) 2 = false /\ N.testbit (m_flags2 m) 1 = false /\ N.testbit (m_flags2 m) 0 = rd /\
    N.testbit (m_flags3 m) 7 = false /\ ((m_flags3 m / 16) mod 8 = 0)%N /\ (m_flags3 m mod 16 = rcode)%N /\
    (exists d, m_qs m = [d] /\ map (map lower) qname = map (map lower) (dq_name d) /\ dq_type d = qt /\ dq_class d = qc) /\
    m_an m = [] /\ m_ns m = [] /\
    match edns with
    | None => m_ar m = []
    | Some sz => exists d, m_ar m = [d] /\ dr_owner d = [] /\ dr_type d = 41%N /\ dr_class d = sz /\ dr_ttl d = 0%N
    end.
Proof.
  intros Hid Hwn Hlen Hqt Hqc Hrc Hsz R.
  destruct (respond_plain_run _ _ _ _ _ _ _ _ _ _ _ _ R) as (rr & Run & Fin & Outs).
  destruct (writer_new buf (if tcp then tcp_limit_w else udp_limit_w)) as [w0|e|] eqn:E0;
    [|unfold run_writer, run_writer_gen in Run; rewrite E0 in Run; discriminate
     |unfold run_writer, run_writer_gen in Run; rewrite E0 in Run; discriminate].
  set (ops := plain_ops tcp id rd qname qt qc edns limit rcode) in *.
  assert (Hsz' : match edns with Some sz => (sz < 65536)%N | None => True end).
  { destruct edns as [sz|]; [apply (Hsz sz eq_refl)|exact I]. }
  assert (W1 : Forall op_wf ops).
  { unfold ops, plain_ops. destruct edns as [sz|]; [destruct tcp|]; cbn [app];
      repeat (apply Forall_cons; [cbn [op_wf]; auto|]); apply Forall_nil. }
  assert (W2 : Forall op_wf2 ops).
  { unfold ops, plain_ops. destruct edns as [sz|]; [destruct tcp|]; cbn [app];
      repeat (apply Forall_cons; [cbn [op_wf2]; auto|]); apply Forall_nil. }
  assert (W3 : Forall op_wf3 ops).
  { unfold ops, plain_ops. destruct edns as [sz|]; [destruct tcp|]; cbn [app];
      repeat (apply Forall_cons; [cbn [op_wf3]; auto; lia|]); apply Forall_nil. }
  destruct (roundtrip_full buf _ w0 ops E0 (run_contract_simple ops _ _ (plain_ops_simple _ _ _ _ _ _ _ _ _) W1) W1 W2 W3)
    as (rr' & Run' & RT).
  rewrite Run in Run'. inversion Run'; subst rr'. clear Run'. rewrite Fin, Outs in RT.
  destruct RT as (m & D & Hh & Hq & Ha & Hn & Hr & _). exists m. split; [exact D|].
  assert (HH : hreplay ah0 ops (map (fun _ => RUnit) ops) =
               mkAH id true 0 false false rd false rcode (match edns with Some sz => Some (sz, 0%N) | None => None end) None).
  { unfold ops, plain_ops. destruct edns as [sz|]; [destruct tcp|]; reflexivity. }
  assert (AA : areplay am0 ops (map (fun _ => RUnit) ops) = mkAM Standard [mkAQ qname Standard qt qc] [] [] []).
  { unfold ops, plain_ops. destruct edns as [sz|]; [destruct tcp|]; reflexivity. }
  rewrite HH in Hh, Hr. rewrite AA in Hq, Ha, Hn, Hr. cbn [am_qs am_an am_ns am_ar am_mode] in *.
  destruct Hh as (H1 & H2 & H3 & H4 & H5 & H6 & H7 & H8 & H9). cbn [h_id h_qr h_opcode h_aa h_tc h_rd h_ra h_rcode] in *.
  repeat (split; [assumption|]).
  destruct (Forall2_one_l _ _ _ Hq) as (d & Eq & Qr). destruct Qr as (Q1 & Q2 & Q3). cbn in Q1, Q2, Q3.
  split; [exists d; auto|]. split; [apply (Forall2_nil_l _ _ Ha)|]. split; [apply (Forall2_nil_l _ _ Hn)|].
  unfold pseudo_of in Hr. cbn [h_edns h_tsig app] in Hr. destruct edns as [sz|].
  - cbn [app] in Hr. destruct (Forall2_one_l _ _ _ Hr) as (d' & Er & Rr). exists d'. split; [exact Er|].
    destruct Rr as (R1 & R2 & R3 & R4 & _). cbn in R1, R2, R3, R4.
    split; [symmetry in R1; apply map_eq_nil in R1; exact R1|]. auto.
  - cbn [app] in Hr. apply (Forall2_nil_l _ _ Hr).
Qed.
