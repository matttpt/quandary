(* The octet-buffer model of RdataSetOwned refines the list model. *)
From QV Require Import Base.Res Base.Octets Base.ListX Model.ZoneTree Model.RdataBuf.

Definition encode (l : list bytes) : bytes := flat_map buf_from l.

Definition short (rd : bytes) : Prop := length rd < 256 * 256.

Lemma buf_next_from rd rest : short rd -> buf_next (buf_from rd ++ rest) = Some (rd, rest).
Proof.
  unfold short. intros H. unfold buf_from, u16_ne_bytes. cbn [app buf_next].
  rewrite !Nnat.Nat2N.id.
  assert (Hlen : length rd mod 256 + 256 * ((length rd / 256) mod 256) = length rd).
  { rewrite (Nat.mod_small (length rd / 256) 256).
    - rewrite Nat.add_comm. symmetry. apply Nat.div_mod. lia.
    - apply Nat.div_lt_upper_bound; lia. }
  rewrite Hlen. cbn [length]. rewrite app_length.
  assert (Hle : (length rd + 2 <=? S (S (length rd + length rest))) = true) by (apply Nat.leb_le; lia).
  rewrite Hle. f_equal. f_equal.
  - unfold slice. replace (length rd + 2 - 2) with (length rd) by lia. cbn [skipn].
    rewrite firstn_app, Nat.sub_diag, firstn_all, firstn_O. apply app_nil_r.
  - replace (length rd + 2) with (S (S (length rd))) by lia. cbn [skipn].
    rewrite skipn_app, Nat.sub_diag, skipn_all. reflexivity.
Qed.

Lemma buf_next_nil : buf_next [] = None.
Proof. reflexivity. Qed.

Lemma buf_iter_encode l : Forall short l -> forall fuel, length l < fuel -> buf_iter fuel (encode l) = l.
Proof.
  induction 1 as [|rd l Hrd Hl IH]; intros fuel Hf.
  - destruct fuel; reflexivity.
  - destruct fuel; [simpl in Hf; lia|]. cbn [buf_iter]. unfold encode. cbn [flat_map].
    rewrite buf_next_from by exact Hrd. f_equal. apply IH. simpl in Hf. lia.
Qed.

Lemma encode_length l : length l <= length (encode l).
Proof.
  induction l as [|rd l IH]; [apply Nat.le_refl|].
  unfold encode. cbn [flat_map]. fold (encode l). rewrite app_length.
  assert (2 <= length (buf_from rd)) by (unfold buf_from, u16_ne_bytes; rewrite app_length; cbn [length]; lia).
  cbn [length]. lia.
Qed.

Theorem buf_rdatas_encode l : Forall short l -> buf_rdatas (encode l) = l.
Proof.
  intros H. unfold buf_rdatas. apply buf_iter_encode; auto. pose proof (encode_length l). lia.
Qed.

Theorem buf_from_encode rd : buf_from rd = encode [rd].
Proof. unfold encode. cbn [flat_map]. symmetry. apply app_nil_r. Qed.

Theorem buf_insert_encode req cls ty s rd : Forall short s ->
  buf_insert req cls ty (encode s) rd = encode (rdataset_insert req cls ty s rd).
Proof.
  intros H. unfold buf_insert, rdataset_insert. rewrite (buf_rdatas_encode s H).
  destruct (existsb (fun ex => req cls ty rd ex) s); auto.
  unfold encode. rewrite flat_map_app. cbn [flat_map]. rewrite app_nil_r. reflexivity.
Qed.

Corollary buf_insert_rdatas req cls ty s rd : Forall short s -> short rd ->
  buf_rdatas (buf_insert req cls ty (encode s) rd) = rdataset_insert req cls ty s rd.
Proof.
  intros H Hrd. rewrite buf_insert_encode by exact H. apply buf_rdatas_encode.
  unfold rdataset_insert. destruct (existsb _ s); auto. apply Forall_app. split; auto.
Qed.
