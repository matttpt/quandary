(* The names an answer reports (referral child zone, source of synthesis) are node names, and node
   names are spelled as the specification says: exact (not only case-insensitive) agreement. *)
From QV Require Import Base.Res Base.Octets Base.ListX Gen.ZoneConsts Model.ZoneTree Spec.ZoneLookupS
  Proofs.ZoneBaseP Proofs.ZoneRrsetP Proofs.ZoneViewP Proofs.ZoneInvP Proofs.ZoneLookupP Proofs.ZoneTopP.

Definition node_in (t : node) (n : name) : Prop := exists p d, view p t = Some (n, d).

Definition base_names (b : base_result) : list name :=
  match b with
  | BFound _ (Some w) => [w]
  | BReferral c _ => [c]
  | _ => []
  end.

Lemma node_in_child t x c n : find_child x (node_children t) = Some c -> node_in c n -> node_in t n.
Proof.
  intros F (p & d & V). exists (x :: p), d. cbn [view]. rewrite F. exact V.
Qed.

Lemma lookup_impl_nodes level : forall t nm sbc at_apex b,
  lookup_impl level t nm sbc at_apex = Ok b -> forall n, In n (base_names b) -> node_in t n.
Proof.
  induction level as [|l IH]; intros t nm sbc at_apex b H n Hn; rewrite lookup_impl_unfold in H.
  (* a referral names the node the walk stands on *)
  all: destruct (if negb at_apex && negb sbc then rr_lookup TYPE_NS (node_data t) else None);
    [inversion H; subst; destruct Hn as [<-|[]]; exists [], (node_data t); reflexivity|].
  - inversion H; subst. destruct Hn.
  - destruct (name_index nm l) as [lab| |]; cbn [bind] in H; try discriminate.
    destruct (find_child lab (node_children t)) as [c|] eqn:F.
    + eapply node_in_child; eauto.
    + destruct (find_child ASTERISK_LABEL (node_children t)) as [w|] eqn:Fw.
      * inversion H; subst. simpl in Hn. destruct Hn as [<-|[]].
        exists [ASTERISK_LABEL], (node_data w). cbn [view]. rewrite Fw. reflexivity.
      * inversion H; subst. destruct Hn.
Qed.

Lemma lookup_base_nodes z nm u sbc b : lookup_base z nm u sbc = Ok b ->
  forall n, In n (base_names b) -> node_in (z_apex z) n.
Proof.
  unfold lookup_base. intros H n Hn.
  destruct (negb u && negb (eq_or_subdomain_of nm (zone_name z))).
  - inversion H; subst. destruct Hn.
  - destruct (usub _ _) as [level| |]; cbn [bind] in H; try discriminate.
    eapply lookup_impl_nodes; eauto.
Qed.

Section Spell.
Variable req : N -> N -> bytes -> bytes -> bool.
Variable apex : name.
Variable cls : N.
Variables (z : zone) (R : list record).
Hypothesis HI : Inv req apex cls z R.
Hypothesis HS : Inv_sp apex z R.

Lemma node_spelled n : node_in (z_apex z) n -> spelled apex R (lc n) = n.
Proof.
  intros (p & d & V). pose proof (Inv_node _ _ _ _ _ p HI) as Hv. rewrite V in Hv.
  destruct Hv as (_ & Hn & _). rewrite Hn. symmetry. eapply HS; eauto.
Qed.

Lemma sos_spelled s : (forall n, s = Some n -> spelled apex R (lc n) = n) ->
  option_map (spelled apex R) (norm_sos s) = s.
Proof. destruct s as [n|]; simpl; auto. intros H. rewrite H; auto. Qed.

(* an answer selected from lookup_base's is unchanged by [sp] if the selection of any base result is,
   given that the names the base result reports are spelled as the specification spells them *)
Lemma spell_via_base {A} (sel : base_result -> A) (sp : A -> A) qn u sbc r :
  (let* b := lookup_base z qn u sbc in Ok (sel b)) = Ok r ->
  (forall b, (forall n, In n (base_names b) -> spelled apex R (lc n) = n) -> sp (sel b) = sel b) ->
  sp r = r.
Proof.
  destruct (lookup_base z qn u sbc) as [b| |] eqn:B; cbn [bind]; try discriminate.
  intros [= <-] H. apply H. intros n Hn. apply node_spelled. exact (lookup_base_nodes _ _ _ _ _ B n Hn).
Qed.

Lemma lookup_spell qn ty u sbc r : zone_lookup z qn ty u sbc = Ok r ->
  spell_lookup apex R (norm_lookup r) = r.
Proof.
  intros H. apply (spell_via_base _ (fun r => spell_lookup apex R (norm_lookup r)) qn u sbc r H).
  intros [data sos|c ns| |] Hn; simpl in *; auto.
  - assert (Hs : option_map (spelled apex R) (norm_sos sos) = sos) by (apply sos_spelled; intros n ->; apply Hn; left; reflexivity).
    destruct (rr_lookup ty data); simpl; [rewrite Hs; reflexivity|].
    destruct (rr_lookup TYPE_CNAME data); simpl; rewrite Hs; reflexivity.
  - rewrite Hn; auto.
Qed.

Lemma lookup_addrs_spell qn u sbc r : zone_lookup_addrs z qn u sbc = Ok r ->
  spell_addrs apex R (norm_addrs r) = r.
Proof.
  intros H. apply (spell_via_base _ (fun r => spell_addrs apex R (norm_addrs r)) qn u sbc r H).
  intros [data sos|c ns| |] Hn; simpl in *; auto.
  - rewrite sos_spelled; auto. intros n ->. apply Hn. left. reflexivity.
  - rewrite Hn; auto.
Qed.

Lemma lookup_all_spell qn u sbc r : zone_lookup_all z qn u sbc = Ok r ->
  spell_all apex R (norm_all r) = r.
Proof.
  intros H. apply (spell_via_base _ (fun r => spell_all apex R (norm_all r)) qn u sbc r H).
  intros [data sos|c ns| |] Hn; simpl in *; auto.
  - rewrite sos_spelled; auto. intros n ->. apply Hn. left. reflexivity.
  - rewrite Hn; auto.
Qed.

End Spell.

Section FinalSp.
Variable req : N -> N -> bytes -> bytes -> bool.
Hypothesis req_trans : forall cls ty a b c,
  req cls ty a b = true -> req cls ty b c = true -> req cls ty a c = true.

(* a normalised answer of the specification and its spelling give the answer itself *)
Lemma exact_via_refines {A} (norm spell : A -> A) (lk : res zone_err A) (sp : option A) :
  (exists r, lk = Ok r /\ sp = Some (norm r)) -> (forall r, lk = Ok r -> spell (norm r) = r) ->
  exists r', sp = Some r' /\ lk = Ok (spell r').
Proof. intros (r & Hr & Hs) H. exists (norm r). rewrite (H r Hr). auto. Qed.

Lemma build_lookup_exact apex cls wide recs z qn ty u sbc :
  zone_build req (zone_new apex cls wide) recs = Some z ->
  (u = true -> in_zone apex qn = true) ->
  exists r', spec_lookup req apex cls (accepted apex cls recs) qn ty u sbc = Some r' /\
             zone_lookup z qn ty u sbc = Ok (spell_lookup apex (accepted apex cls recs) r').
Proof.
  intros H Hu. apply (exact_via_refines norm_lookup).
  - apply (build_lookup_refines req req_trans apex cls wide recs z qn ty u sbc H Hu).
  - apply (lookup_spell req apex cls z _ (build_inv req req_trans _ _ _ _ _ H)
             (build_inv_sp req req_trans _ _ _ _ _ H)).
Qed.

Lemma build_lookup_addrs_exact apex cls wide recs z qn u sbc :
  zone_build req (zone_new apex cls wide) recs = Some z ->
  (u = true -> in_zone apex qn = true) ->
  exists r', spec_lookup_addrs req apex cls (accepted apex cls recs) qn u sbc = Some r' /\
             zone_lookup_addrs z qn u sbc = Ok (spell_addrs apex (accepted apex cls recs) r').
Proof.
  intros H Hu. apply (exact_via_refines norm_addrs).
  - apply (build_lookup_addrs_refines req req_trans apex cls wide recs z qn u sbc H Hu).
  - apply (lookup_addrs_spell req apex cls z _ (build_inv req req_trans _ _ _ _ _ H)
             (build_inv_sp req req_trans _ _ _ _ _ H)).
Qed.

Lemma build_lookup_all_exact apex cls wide recs z qn u sbc :
  zone_build req (zone_new apex cls wide) recs = Some z ->
  (u = true -> in_zone apex qn = true) ->
  exists r', spec_lookup_all req apex cls (accepted apex cls recs) qn u sbc = Some r' /\
             zone_lookup_all z qn u sbc = Ok (spell_all apex (accepted apex cls recs) r').
Proof.
  intros H Hu. apply (exact_via_refines norm_all).
  - apply (build_lookup_all_refines req req_trans apex cls wide recs z qn u sbc H Hu).
  - apply (lookup_all_spell req apex cls z _ (build_inv req req_trans _ _ _ _ _ H)
             (build_inv_sp req req_trans _ _ _ _ _ H)).
Qed.

End FinalSp.
