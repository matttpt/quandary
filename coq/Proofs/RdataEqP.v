(* Rdata::equals (model, with the repaired names_equal) against the characterisation
   spec_equals; the equals dispatch table against the RFC list of case-insensitive types. *)
From QV Require Import Base.ListX Model.NameWire Spec.NameWireS Spec.NameRepr Proofs.NameWireP
  Proofs.NameWireSP Model.RdataM Spec.RdataFormatS Spec.RdataEqS Proofs.RdNameP Proofs.RdataFormatSP
  Proofs.RdataVP Proofs.RdataRP Proofs.RdNameEqP Proofs.RdataEqSP Model.RdataSetM Proofs.RdataSetP.
Local Open Scope nat_scope.

Lemma label_ci_len a b : label_ci_eqb a b = true -> length a = length b.
Proof.
  revert b; induction a as [|x a IH]; intros [|y b]; simpl; intros H; try discriminate; auto.
  apply andb_true_iff in H. destruct H as [_ H]. f_equal. apply IH. exact H.
Qed.

Lemma labels_ci_wire_len a b : labels_ci_eqb a b = true -> wire_len a = wire_len b.
Proof.
  revert b; induction a as [|x a IH]; intros [|y b]; simpl; intros H; try discriminate; auto.
  apply andb_true_iff in H. destruct H as [H1 H2]. rewrite !wire_len_cons.
  rewrite (label_ci_len _ _ H1), (IH _ H2). reflexivity.
Qed.

Lemma ci_fields_bytes n g a b :
  ci_fields (FBytes n :: g) a b =
  octets_eqb (firstn n a) (firstn n b) && ci_fields g (skipn n a) (skipn n b).
Proof. reflexivity. Qed.

Lemma ci_fields_name g a b :
  ci_fields (FName :: g) a b =
  match spec_decode_name a 0, spec_decode_name b 0 with
  | Some (la, na), Some (lb, nb) => labels_ci_eqb la lb && ci_fields g (skipn na a) (skipn nb b)
  | _, _ => false
  end.
Proof. reflexivity. Qed.

(* the characterisation for a format [g], whatever (class, type) has it; the handlers are
   proved against it, spec_equals_eq_spec (below) carries it to spec_equals *)

Definition eq_spec (g : list field) (a b : bytes) : bool :=
  if smatch g a && smatch g b then ci_fields g a b else octets_eqb a b.

Lemma eq_spec_false g a b : a <> b -> ci_fields g a b = false -> eq_spec g a b = false.
Proof.
  intros N C. unfold eq_spec. destruct (smatch g a && smatch g b); [exact C|].
  destruct (octets_eqb a b) eqn:E; [|reflexivity]. apply octets_eqb_eq in E. contradiction.
Qed.

Lemma eq_spec_invalid g a b : smatch g a = false \/ smatch g b = false ->
  eq_spec g a b = octets_eqb a b.
Proof.
  intros [H|H]; unfold eq_spec; rewrite H; [|rewrite andb_false_r]; reflexivity.
Qed.

Fixpoint tnf_spec (n : nat) (a b : bytes) (off : nat) : option (option nat) :=
  match n with
  | O => Some (Some off)
  | S n' =>
    match spec_decode_name (skipn off a) 0, spec_decode_name (skipn off b) 0 with
    | None, None => None
    | Some _, None | None, Some _ => Some None
    | Some (la, na), Some (lb, _) =>
      if labels_ci_eqb la lb then tnf_spec n' a b (off + na) else Some None
    end
  end.

Lemma tnf_loop_spec : forall n a b off,
  off <= length a -> off <= length b ->
  tnf_loop n a b off = Ok (tnf_spec n a b off).
Proof.
  induction n as [|n IH]; intros a b off La Lb; cbn [tnf_loop tnf_spec]; [reflexivity|].
  rewrite !slice_from_ok by lia. cbn [bind].
  pose proof (parse_unc_spec (skipn off a)) as Da.
  pose proof (parse_unc_spec (skipn off b)) as Db.
  destruct (parse_uncompressed_name (skipn off a) false) as [[nma na]|ea|]; [| |contradiction];
    destruct (parse_uncompressed_name (skipn off b) false) as [[nmb nb]|eb|]; try contradiction.
  - destruct Da as (la & Sa & ->). destruct Db as (lb & Sb & ->). rewrite Sa, Sb.
    destruct (decode0_facts _ la na Sa) as (Va & Na & _ & _ & La').
    destruct (decode0_facts _ lb nb Sb) as (Vb & Nb & _ & _ & Lb').
    rewrite (name_eq_spec la lb) by auto. cbn [bind].
    destruct (labels_ci_eqb la lb) eqn:L; [|reflexivity].
    pose proof (labels_ci_wire_len la lb L) as W. rewrite skipn_length in La', Lb'.
    apply IH; auto; lia.
  - destruct Da as (la & -> & _). destruct Db as [-> _]. reflexivity.
  - destruct Db as (lb & -> & _). destruct Da as [-> _]. reflexivity.
  - destruct Da as [-> _]. destruct Db as [-> _]. reflexivity.
Qed.

(* what each outcome says about the format [n names; g] from the offset on:
   - all n names valid in both and equal without case: both RDATA match the names and the
     rest of the format is compared on what follows;
   - a definite "different": the octets differ and so do the fields;
   - an invalid name in both at the same place: neither RDATA matches the format *)
Lemma tnf_spec_cases : forall n a b off g, off <= length a -> off <= length b ->
  match tnf_spec n a b off with
  | Some (Some len) =>
    off <= len /\ len <= length a /\ len <= length b /\
    smatch (repeat FName n ++ g) (skipn off a) = smatch g (skipn len a) /\
    smatch (repeat FName n ++ g) (skipn off b) = smatch g (skipn len b) /\
    ci_fields (repeat FName n ++ g) (skipn off a) (skipn off b) = ci_fields g (skipn len a) (skipn len b)
  | Some None =>
    skipn off a <> skipn off b /\
    ci_fields (repeat FName n ++ g) (skipn off a) (skipn off b) = false
  | None =>
    smatch (repeat FName n ++ g) (skipn off a) = false /\
    smatch (repeat FName n ++ g) (skipn off b) = false
  end.
Proof.
  induction n as [|n IH]; intros a b off g La Lb; cbn [tnf_spec repeat app]; [repeat split; auto|].
  rewrite !smatch_name, ci_fields_name. unfold sname.
  destruct (spec_decode_name (skipn off a) 0) as [[la na]|] eqn:Sa;
    destruct (spec_decode_name (skipn off b) 0) as [[lb nb]|] eqn:Sb;
    try (split; [intros E; rewrite E in Sa; congruence|reflexivity]); [|auto].
  destruct (labels_ci_eqb la lb) eqn:L.
  2: { split; [|reflexivity]. intros E. rewrite E, Sb in Sa. injection Sa as <- <-.
       rewrite labels_ci_refl in L. discriminate. }
  destruct (decode0_facts _ _ _ Sa) as (_ & Na & _ & _ & La'), (decode0_facts _ _ _ Sb) as (_ & Nb & _ & _ & Lb').
  rewrite skipn_length in La', Lb'. pose proof (labels_ci_wire_len _ _ L) as W.
  assert (nb = na) as -> by lia. rewrite !skipn_plus. cbn [andb].
  specialize (IH a b (off + na) g ltac:(lia) ltac:(lia)).
  destruct (tnf_spec n a b (off + na)) as [[len|]|]; [| |exact IH].
  - destruct IH as (H1 & IH). split; [lia|exact IH].
  - destruct IH as [N C]. split; [|exact C]. intros E. apply N. rewrite <- !skipn_plus, E. reflexivity.
Qed.

(* a handler built on test_n_name_fields, against the characterisation of the format
   [n names; g]: only what it does after n equal names is its own *)
Lemma tnf_handler n g a b (K : nat -> res rd_err bool) :
  (forall len, len <= length a -> len <= length b ->
     K len = Ok (if smatch g (skipn len a) && smatch g (skipn len b)
                 then ci_fields g (skipn len a) (skipn len b) else octets_eqb a b)) ->
  (let* r := test_n_name_fields a b n in
   match r with
   | Some (Some len) => K len
   | Some None => Ok false
   | None => Ok (bytes_eqb a b)
   end) = Ok (eq_spec (repeat FName n ++ g) a b).
Proof.
  intros HK. unfold test_n_name_fields. rewrite tnf_loop_spec by lia. cbn [bind].
  pose proof (tnf_spec_cases n a b 0 g ltac:(lia) ltac:(lia)) as T. cbn [skipn] in T.
  destruct (tnf_spec n a b 0) as [[len|]|].
  - destruct T as (_ & La & Lb & Fa & Fb & Fc). unfold eq_spec. rewrite Fa, Fb, Fc. apply HK; assumption.
  - f_equal. symmetry. apply eq_spec_false; apply T.
  - rewrite bytes_eqb_octets. f_equal. symmetry. apply eq_spec_invalid. left. apply T.
Qed.

(* nothing after the names (NS .. PTR, MINFO): equal exactly when both RDATA end there *)
Lemma nil_tail a b len : len <= length a -> len <= length b ->
  Ok (if smatch [] (skipn len a) && smatch [] (skipn len b)
      then ci_fields [] (skipn len a) (skipn len b) else octets_eqb a b)
  = (if (len =? length a) && (len =? length b) then Ok true else Ok (octets_eqb a b)) :> res rd_err bool.
Proof.
  intros La Lb. rewrite !smatch_nil, !is_nil_skipn. cbn [ci_fields].
  destruct (Nat.eqb_spec len (length a)), (Nat.eqb_spec len (length b)),
    (Nat.leb_spec0 (length a) len), (Nat.leb_spec0 (length b) len); try lia; cbn [andb]; try reflexivity.
  rewrite !skipn_all2 by lia. reflexivity.
Qed.

Theorem names_equal_char a b : names_equal a b = Ok (eq_spec [FName] a b).
Proof.
  apply (tnf_handler 1 []). intros len La Lb. rewrite nil_tail, bytes_eqb_octets by assumption. reflexivity.
Qed.

Theorem dispatch_equals c t :
  match lookup equals_arms equals_default c t with
  | E_names_equal => ci_type c t = true /\ grammar c t = [FName]
  | E_equals_as_ch_a => ci_type c t = true /\ grammar c t = [FName; FBytes 2]
  | E_equals_as_soa => ci_type c t = true /\
      grammar c t = [FName; FName; FBytes 4; FBytes 4; FBytes 4; FBytes 4; FBytes 4]
  | E_equals_as_minfo => ci_type c t = true /\ grammar c t = [FName; FName]
  | E_equals_as_mx => ci_type c t = true /\ grammar c t = [FBytes 2; FName]
  | E_equals_as_in_srv => ci_type c t = true /\ grammar c t = [FBytes 2; FBytes 2; FBytes 2; FName]
  | E_bitwise => ci_type c t = false /\ True
  end.
Proof.
  unfold ci_type, grammar, one_of, equals_arms, equals_default. unfold_types.
  cbn [lookup]. unfold arm_matches. cbn [existsb fst snd]. case_types c t.
Qed.

Lemma spec_equals_eq_spec c t a b : ci_type c t = true -> spec_equals c t a b = eq_spec (grammar c t) a b.
Proof. intros H. unfold spec_equals, eq_spec, spec_valid. rewrite H. reflexivity. Qed.

(* the handlers of this file: the eight single-name types and every bitwise type *)
Definition char_proved (h : ehandler) : bool :=
  match h with E_names_equal | E_bitwise => true | _ => false end.

Theorem equals_char_partial c t a b :
  char_proved (lookup equals_arms equals_default c t) = true ->
  equals c t a b = Ok (spec_equals c t a b).
Proof.
  intros P. unfold equals. pose proof (dispatch_equals c t) as D.
  destruct (lookup equals_arms equals_default c t); try discriminate; cbn [run_equals].
  - destruct D as [C G]. rewrite (spec_equals_eq_spec c t a b C), G. apply names_equal_char.
  - destruct D as [C _]. unfold spec_equals. rewrite C. cbn [andb]. rewrite bytes_eqb_octets. reflexivity.
Qed.

Lemma laws_of_char c t :
  (forall a b, wf_bytes a -> wf_bytes b -> equals c t a b = Ok (spec_equals c t a b)) ->
  (forall a, wf_bytes a -> equals c t a a = Ok true) /\
  (forall a b, wf_bytes a -> wf_bytes b -> equals c t a b = equals c t b a) /\
  (forall a b d, wf_bytes a -> wf_bytes b -> wf_bytes d ->
     equals c t a b = Ok true -> equals c t b d = Ok true -> equals c t a d = Ok true).
Proof.
  intros Char. split; [|split].
  - intros a Ha. rewrite Char, spec_equals_refl by assumption. reflexivity.
  - intros a b Ha Hb. rewrite !Char, spec_equals_sym by assumption. reflexivity.
  - intros a b d Ha Hb Hd. rewrite !Char by assumption. intros [= E1] [= E2].
    rewrite (spec_equals_trans c t a b d E1 E2). reflexivity.
Qed.

Theorem equals_laws_partial c t : char_proved (lookup equals_arms equals_default c t) = true ->
  (forall a, wf_bytes a -> equals c t a a = Ok true) /\
  (forall a b, wf_bytes a -> wf_bytes b -> equals c t a b = equals c t b a) /\
  (forall a b d, wf_bytes a -> wf_bytes b -> wf_bytes d ->
     equals c t a b = Ok true -> equals c t b d = Ok true -> equals c t a d = Ok true).
Proof. intros P. apply laws_of_char. intros a b _ _. apply equals_char_partial, P. Qed.

(* the pre-fix code is not symmetric *)
Theorem equals_prefix_asym :
  equals_prefix 1 2 [1; 97; 0]%N [1; 97; 0; 9]%N = Ok true /\
  equals_prefix 1 2 [1; 97; 0; 9]%N [1; 97; 0]%N = Ok false.
Proof. split; vm_compute; reflexivity. Qed.

(* which (class, type) the partial theorems cover: everything except SOA, MINFO, MX, CH A, IN SRV *)
Theorem covered_types c t :
  char_proved (lookup equals_arms equals_default c t) =
  negb (one_of t [6; 14; 15]%N || ((c =? 3)%N && (t =? 1)%N) || ((c =? 1)%N && (t =? 33)%N)).
Proof.
  unfold one_of, equals_arms, equals_default. unfold_types.
  cbn [lookup]. unfold arm_matches. cbn [existsb fst snd]. case_types c t.
Qed.

Theorem set_partial c t be rs :
  char_proved (lookup equals_arms equals_default c t) = true ->
  Forall small rs -> Forall wf_bytes rs ->
  forall inner, from_iter be c t rs = Ok (Some inner) ->
  set_iter be inner = nodup_by (spec_equals c t) [] rs.
Proof.
  intros P Hs Hw.
  apply (from_iter_spec c t (spec_equals c t) rs); auto; [|apply incl_refl].
  intros x y _ _. apply equals_char_partial, P.
Qed.
