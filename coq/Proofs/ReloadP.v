(* C31: the reload function of Model/Reload.v (with the previous entry found by the exact
   Catalog::get) meets the per-zone specification of Spec/ReloadS.v.  Builds on the
   catalog refinement of C22 (Proofs/CatTreeCatP.v). *)
From QV Require Import Model.CatTree Model.Reload Spec.CatTreeS Spec.ReloadS
  Proofs.CatTreeP Proofs.CatTreeInvP Proofs.CatTreeSP Proofs.CatTreeCatP.

(* What the specification sees of an entry.  [obs] forgets which placeholder it is and a placeholder's
   metadata: on a failed load the code clones the old placeholder with its old metadata, and nothing
   that serves queries or the next reload can tell.  Every C31 statement is about [obs] of [abs]. *)

Definition obs (o : option rentry) : served :=
  match o with
  | None => SGone
  | Some e => match e_val e with
              | (VLoaded z, md) => SLoaded z (md_path md) (md_mtime md)
              | _ => SUnserved
              end
  end.

Definition to_smtime (m : mt_res) : s_mtime :=
  match m with MtOk t => SmOk t | MtUnsupported => SmUnsupported | MtErr => SmErr end.
Definition to_sload (l : ld_res) : option N :=
  match l with LdOk z => Some z | LdErr => None end.

Definition rkey (e : rentry) : skey := key_of (@e_name payload) (@e_class payload) e.

Definition has_zkey (k : skey) (cfg : zone_cfg) : bool := if skey_eq_dec (zkey cfg) k then true else false.

Lemma find_has_zkey k zones cfg : find (has_zkey k) zones = Some cfg -> In cfg zones /\ zkey cfg = k.
Proof.
  intros H. apply find_some in H. unfold has_zkey in H.
  destruct (skey_eq_dec (zkey cfg) k); [tauto|destruct H; discriminate].
Qed.

Lemma find_has_zkey_none k zones : ~ In k (map zkey zones) -> find (has_zkey k) zones = None.
Proof.
  intros Hk. destruct (find (has_zkey k) zones) as [cfg|] eqn:Hf; [|reflexivity].
  apply find_has_zkey in Hf. destruct Hf as [Hin <-]. destruct Hk. apply in_map, Hin.
Qed.

Lemma zkey_eqb_spec a b : zkey_eqb a b = true <-> a = b.
Proof.
  unfold zkey_eqb. destruct a as [c1 n1], b as [c2 n2]. simpl.
  rewrite andb_true_iff, N.eqb_eq. destruct (list_eq_dec label_eq_dec n1 n2); split.
  - intros [H _]. congruence.
  - intros H. inversion H. auto.
  - intros [_ H]. discriminate.
  - intros H. inversion H. congruence.
Qed.

Lemma set_mem_spec k s : set_mem k s = true <-> In k s.
Proof.
  unfold set_mem. rewrite existsb_exists. split.
  - intros [x [Hin Hx]]. apply zkey_eqb_spec in Hx. congruence.
  - intros H. exists k. split; [exact H|]. apply zkey_eqb_spec. reflexivity.
Qed.

Lemma find_dup_spec : forall zones seen,
  find_dup seen zones = None <->
  NoDup (map zkey zones) /\ forall k, In k (map zkey zones) -> ~ In k seen.
Proof.
  induction zones as [|z rest IH]; intros seen; cbn [find_dup map].
  - split; [intros _; split; [constructor|intros k []]|reflexivity].
  - rewrite NoDup_cons_iff. cbn [In]. destruct (set_mem (zkey z) seen) eqn:Hm.
    + apply set_mem_spec in Hm. split; [discriminate|]. intros [_ H]. destruct (H (zkey z)); auto.
    + assert (Hn : ~ In (zkey z) seen) by (rewrite <- set_mem_spec; congruence).
      rewrite IH. cbn [In]. split.
      * intros [Hnd Hs]. split; [split; [intros Hin; apply (Hs _ Hin); auto|exact Hnd]|].
        intros k [<-|Hk] Hin; [auto|apply (Hs k Hk); auto].
      * intros [[Hx Hnd] Hs]. split; [exact Hnd|]. intros k Hk [<-|Hin]; [auto|apply (Hs k); auto].
Qed.

Lemma find_duplicated_zone_spec zones :
  find_duplicated_zone zones = None <-> NoDup (map zkey zones).
Proof.
  unfold find_duplicated_zone. rewrite find_dup_spec. split; [tauto|]. intros H. split; [exact H|]. auto.
Qed.

Section R.
Variable fs_mtime : N -> mt_res.
Variable fs_load : zone_cfg -> ld_res.

Definition to_szone (cfg : zone_cfg) : s_zone :=
  mkSZone (zkey cfg) (zc_path cfg) (to_smtime (fs_mtime (zc_path cfg))) (to_sload (fs_load cfg)).

Lemma entry_of_obs cfg pe :
  obs (Some (entry_of fs_mtime fs_load cfg pe)) = spec_zone (to_szone cfg) (obs pe).
Proof.
  unfold entry_of, check_mtime, spec_zone, unchanged, fresh, to_szone.
  (* previous entry: none, loaded (with or without a recorded time), either placeholder;
     file time: a time, unsupported, an error; load: data or an error.
     Both sides compute the same answer outright in every combination but one. *)
  destruct pe as [[nm c [[z| |] [p [t0|]]]]|], (fs_mtime (zc_path cfg)) as [t| |], (fs_load cfg) as [d|];
    cbn; rewrite ?andb_false_r; try reflexivity.
  (* loaded from [p] at [t0], file time [t]: kept on both sides iff same path and t <= t0 *)
  all: destruct ((p =? zc_path cfg)%N && (t <=? t0)%N); reflexivity.
Qed.

(* in each of the same combinations the entry is the previous one or is made from the configured
   name and class *)
Lemma entry_of_key cfg pe :
  (forall e, pe = Some e -> rkey e = zkey cfg) -> rkey (entry_of fs_mtime fs_load cfg pe) = zkey cfg.
Proof.
  intros Hpe. unfold entry_of, check_mtime, make_error_catalog_entry.
  destruct pe as [[nm c [[z| |] md]]|]; [specialize (Hpe _ eq_refl)..|];
    destruct (fs_mtime (zc_path cfg)), (fs_load cfg); cbn; auto; destruct (_ && _); auto.
Qed.

(* the mtime skip is sound: it keeps the previous entry only for the same path and a file
   time not newer than the recorded one.  McSkip also carries the error entry when the file time
   cannot be read; the premise [MtOk t] selects the first meaning. *)
Lemma check_mtime_skip_sound cfg e e' t :
  fs_mtime (zc_path cfg) = MtOk t -> check_mtime fs_mtime cfg (Some e) = McSkip e' ->
  obs (Some e') = obs (Some e) /\ e_name e' = e_name e /\ e_class e' = e_class e /\
  exists z md t0, e_val e = (VLoaded z, md) /\ md_path md = zc_path cfg /\
                  md_mtime md = Some t0 /\ (t <= t0)%N.
Proof.
  intros Hm. unfold check_mtime. rewrite Hm.
  destruct (e_val e) as [[z| |] md] eqn:Hv; try discriminate.
  destruct (md_mtime md) as [t0|] eqn:Ht; [|rewrite andb_false_r; discriminate].
  destruct ((md_path md =? zc_path cfg)%N && (t <=? t0)%N) eqn:Hc; [|discriminate].
  intros H. inversion H; subst e'. simpl. rewrite Hv.
  apply andb_true_iff in Hc. destruct Hc as [H1 H2]. apply N.eqb_eq in H1. apply N.leb_le in H2.
  split; [reflexivity|]. split; [reflexivity|]. split; [reflexivity|].
  exists z, md, t0. auto.
Qed.

Definition pabs (prev : option rcatalog) (k : skey) : option rentry :=
  match prev with Some c => abs c k | None => None end.

Definition prev_ok (prev : option rcatalog) : Prop :=
  match prev with Some c => wf_cat c | None => True end.

Lemma pabs_key prev k e : prev_ok prev -> pabs prev k = Some e -> rkey e = k.
Proof.
  destruct prev as [c|]; simpl; [|discriminate]. intros Hwf H.
  exact (abs_consistent payload c Hwf k e H).
Qed.

Lemma prev_get prev cfg : prev_ok prev ->
  match prev with
  | None => Ok None
  | Some c => cat_get c (zc_name cfg) (zc_class cfg)
  end = (Ok (pabs prev (zkey cfg)) : res unit _).
Proof. destruct prev as [c|]; [apply (cat_get_refine payload)|reflexivity]. Qed.

Lemma load_loop_spec prev : prev_ok prev -> forall zones c, wf_cat c -> NoDup (map zkey zones) ->
  exists c', load_loop fs_mtime fs_load true zones prev c = Ok c' /\ wf_cat c' /\
    forall k, abs c' k = match find (has_zkey k) zones with
                         | Some cfg => Some (entry_of fs_mtime fs_load cfg (pabs prev (zkey cfg)))
                         | None => abs c k
                         end.
Proof.
  intros Hprev. induction zones as [|cfg rest IH]; intros c Hwf Hnd.
  - simpl. exists c. auto.
  - inversion Hnd as [|? ? Hx Hr]; subst. cbn [load_loop]. rewrite (prev_get prev cfg Hprev). cbn [bind].
    set (e := entry_of fs_mtime fs_load cfg (pabs prev (zkey cfg))).
    assert (Hk : rkey e = zkey cfg).
    { apply entry_of_key. intros e0 He0. eapply pabs_key; eauto. }
    destruct (cat_insert_refine payload c e Hwf) as [c1 [-> [Habs Hwf1]]]. cbn [bind].
    destruct (IH c1 Hwf1 Hr) as [c' [Hloop [Hwf' Hres]]].
    exists c'. split; [exact Hloop|]. split; [exact Hwf'|].
    (* no later zone has the key of [cfg], so what was inserted for it stays *)
    intros k. rewrite Hres, Habs. unfold CatTreeS.rm_insert. fold (rkey e). rewrite Hk.
    cbn [find]. unfold has_zkey at 2. destruct (skey_eq_dec (zkey cfg) k) as [<-|E].
    + rewrite (find_has_zkey_none _ _ Hx). destruct (skey_eq_dec (zkey cfg) (zkey cfg)); [reflexivity|congruence].
    + destruct (skey_eq_dec k (zkey cfg)); [congruence|reflexivity].
Qed.

Lemma find_to_szone k zones :
  find (has_skey k) (map to_szone zones) = option_map to_szone (find (has_zkey k) zones).
Proof.
  induction zones as [|cfg rest IH]; [reflexivity|].
  cbn [map find]. unfold has_skey at 1, has_zkey at 1. cbn [sz_key to_szone].
  destruct (skey_eq_dec (zkey cfg) k); [reflexivity|exact IH].
Qed.

Lemma load_impl_per_zone zones prev : prev_ok prev -> NoDup (map zkey zones) ->
  exists c', load_impl fs_mtime fs_load zones prev = Ok c' /\ wf_cat c' /\
    forall k, obs (abs c' k) = spec_reload (map to_szone zones) (fun k => obs (pabs prev k)) k.
Proof.
  intros Hprev Hnd. unfold load_impl, load_impl_gen.
  destruct (load_loop_spec prev Hprev zones cat_new I Hnd) as [c' [Hl [Hwf Hres]]].
  exists c'. split; [exact Hl|]. split; [exact Hwf|].
  intros k. rewrite Hres. unfold spec_reload. rewrite find_to_szone.
  destruct (find (has_zkey k) zones) as [cfg|] eqn:Hf; [|reflexivity].
  apply find_has_zkey in Hf. destruct Hf as [_ <-]. apply entry_of_obs.
Qed.

Lemma load_impl_removed zones prev k : prev_ok prev -> NoDup (map zkey zones) ->
  ~ In k (map zkey zones) ->
  exists c', load_impl fs_mtime fs_load zones prev = Ok c' /\ abs c' k = None.
Proof.
  intros Hprev Hnd Hk. unfold load_impl, load_impl_gen.
  destruct (load_loop_spec prev Hprev zones cat_new I Hnd) as [c' [Hl [Hwf Hres]]].
  exists c'. split; [exact Hl|]. rewrite Hres, (find_has_zkey_none _ _ Hk). reflexivity.
Qed.

End R.

(* independence: the result at k depends only on zone k's configuration and file and on what was
   held for exactly k before *)

Lemma spec_reload_local zs1 zs2 prev1 prev2 k :
  find (has_skey k) zs1 = find (has_skey k) zs2 -> prev1 k = prev2 k ->
  spec_reload zs1 prev1 k = spec_reload zs2 prev2 k.
Proof. intros H1 H2. unfold spec_reload. rewrite H1, H2. reflexivity. Qed.

Lemma load_impl_independent m1 l1 m2 l2 zones prev1 prev2 k :
  prev_ok prev1 -> prev_ok prev2 -> NoDup (map zkey zones) ->
  (forall cfg, In cfg zones -> zkey cfg = k ->
     m1 (zc_path cfg) = m2 (zc_path cfg) /\ l1 cfg = l2 cfg) ->
  obs (pabs prev1 k) = obs (pabs prev2 k) ->
  exists c1 c2, load_impl m1 l1 zones prev1 = Ok c1 /\ load_impl m2 l2 zones prev2 = Ok c2 /\
                obs (abs c1 k) = obs (abs c2 k).
Proof.
  intros Hp1 Hp2 Hnd Hfs Hprev.
  destruct (load_impl_per_zone m1 l1 zones prev1 Hp1 Hnd) as [c1 [H1 [_ R1]]].
  destruct (load_impl_per_zone m2 l2 zones prev2 Hp2 Hnd) as [c2 [H2 [_ R2]]].
  exists c1, c2. split; [exact H1|]. split; [exact H2|]. rewrite R1, R2.
  apply spec_reload_local; [|exact Hprev].
  rewrite !find_to_szone. destruct (find (has_zkey k) zones) as [cfg|] eqn:Hf; [|reflexivity].
  apply find_has_zkey in Hf. destruct (Hfs cfg (proj1 Hf) (proj2 Hf)) as [Hm Hl].
  simpl. unfold to_szone. rewrite Hm, Hl. reflexivity.
Qed.

Definition spec_input (i : reload_input) : option (list s_zone) :=
  match ri_zones i with
  | None => None
  | Some zones => match find_duplicated_zone zones with
                  | Some _ => None
                  | None => Some (map (to_szone (ri_mtime i) (ri_load i)) zones)
                  end
  end.

(* The state before enters as [s0] with [forall k, obs (abs cur k) = s0 k], not as the function
   [fun k => obs (abs cur k)] itself: the next step's state is [spec_reload zs s0], which equals the
   observation of the new catalog pointwise only. *)
Lemma reload_step_spec cur i s0 : wf_cat cur -> (forall k, obs (abs cur k) = s0 k) ->
  exists c, reload_step cur i = Ok c /\ wf_cat c /\
    forall k, obs (abs c k) = match spec_input i with
                              | Some zs => spec_reload zs s0
                              | None => s0
                              end k.
Proof.
  intros Hwf Hs. unfold reload_step, reload_step_gen, spec_input.
  destruct (ri_zones i) as [zones|]; [|exists cur; auto].
  destruct (find_duplicated_zone zones) eqn:Hd; [exists cur; auto|].
  apply find_duplicated_zone_spec in Hd.
  destruct (load_impl_per_zone (ri_mtime i) (ri_load i) zones (Some cur) Hwf Hd) as [c [Hl [Hwf' Hres]]].
  exists c. split; [exact Hl|]. split; [exact Hwf'|]. intros k. rewrite Hres.
  apply spec_reload_local; [reflexivity|apply Hs].
Qed.

Lemma spec_history_cons s0 o h :
  spec_history s0 (o :: h) =
  let s1 := match o with Some zs => spec_reload zs s0 | None => s0 end in s1 :: spec_history s1 h.
Proof. destruct o; reflexivity. Qed.

Lemma daemon_run_spec : forall h cur s0, wf_cat cur -> (forall k, obs (abs cur k) = s0 k) ->
  exists cs, daemon_run_gen true cur h = Ok cs /\
    Forall2 (fun c s => wf_cat c /\ forall k, obs (abs c k) = s k) cs (spec_history s0 (map spec_input h)).
Proof.
  induction h as [|i h IH]; intros cur s0 Hwf Hs.
  - exists []. split; [reflexivity|constructor].
  - cbn [daemon_run_gen map]. rewrite spec_history_cons. cbv zeta.
    destruct (reload_step_spec cur i s0 Hwf Hs) as [c [Hstep [Hwf' Hres]]].
    unfold reload_step in Hstep. rewrite Hstep. cbn [bind].
    destruct (IH c _ Hwf' Hres) as [cs [-> Hall]].
    exists (c :: cs). split; [reflexivity|]. constructor; auto.
Qed.

(* regression witness: the pinned code (previous entry by longest match) *)

(* example. was served with data 1 (file time 100); now example.'s file is new (data 2, time 200)
   and the added child sub.example. has no file *)
Definition c31_example : cname := [[101; 120]%N].
Definition c31_sub : cname := [[115; 117; 98]%N; [101; 120]%N].
Definition c31_prev_zones := [mkCfg c31_example 1 7].
Definition c31_new_zones := [mkCfg c31_example 1 7; mkCfg c31_sub 1 8].
Definition c31_mtime1 (p : N) : mt_res := if (p =? 7)%N then MtOk 100 else MtErr.
Definition c31_load1 (cfg : zone_cfg) : ld_res := if (zc_path cfg =? 7)%N then LdOk 1 else LdErr.
Definition c31_mtime2 (p : N) : mt_res := if (p =? 7)%N then MtOk 200 else MtErr.
Definition c31_load2 (cfg : zone_cfg) : ld_res := if (zc_path cfg =? 7)%N then LdOk 2 else LdErr.

Lemma per_zone_refuted_prefix :
  exists prev c_old c_new,
    load_impl_gen c31_mtime1 c31_load1 false c31_prev_zones None = Ok prev /\
    load_impl_gen c31_mtime2 c31_load2 false c31_new_zones (Some prev) = Ok c_old /\
    load_impl_gen c31_mtime2 c31_load2 true c31_new_zones (Some prev) = Ok c_new /\
    (* pinned code: the parent is back on its stale data and the child is not there at all *)
    obs (abs c_old (1%N, c31_example)) = SLoaded 1 7 (Some 100%N) /\
    obs (abs c_old (1%N, c31_sub)) = SGone /\
    (* repaired code = the specification *)
    obs (abs c_new (1%N, c31_example)) = SLoaded 2 7 (Some 200%N) /\
    obs (abs c_new (1%N, c31_sub)) = SUnserved.
Proof.
  eexists. eexists. eexists.
  split; [vm_compute; reflexivity|]. split; [vm_compute; reflexivity|]. split; [vm_compute; reflexivity|].
  repeat split; vm_compute; reflexivity.
Qed.
