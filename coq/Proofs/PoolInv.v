(* The inductive invariant of the LTS of Model/Pool.v (repaired worker loop), and how a step
   is checked against it: wake-ups only relax it ([Inv_relax]); what remains of a step is one
   thread moving from one pc to another ([inv_move]), checked clause by clause. *)
From Coq Require Import Lia ZifyBool Permutation.
From QV Require Export Model.Pool Spec.PoolS Proofs.PoolLemmas.

Definition is_counted (p : pc) : bool := match p with WWait _ | WWoken _ _ => true | _ => false end.
Definition is_wwoken (p : pc) : bool := match p with WWoken _ _ => true | _ => false end.
Definition is_rwait (p : pc) : bool := match p with RWait => true | _ => false end.
Definition is_awwait (p : pc) : bool := match p with AwWait => true | _ => false end.
Definition is_ghold (p : pc) : bool := match p with GHold | QMid => true | _ => false end.   (* holds the group lock *)
Definition is_gh (p : pc) : bool := match p with GHold => true | _ => false end.     (* inside ThreadGroup::shut_down *)
Definition is_qmid (p : pc) : bool := match p with QMid => true | _ => false end.
Definition is_awret (p : pc) : bool := match p with AwRet => true | _ => false end.
Definition occ (l : list nat) (t : nat) : nat := count_occ Nat.eq_dec l t.
Definition occ_run (t : nat) (p : pc) : nat := occ (run_of p) t.
Arguments occ : simpl never.

(* i_live, i_cnt_le/i_cnt_eq, i_glock: the three counters count what they should. available_workers
     is only bounded once the pool shuts down: a worker that leaves on WExitSd is not subtracted.
   i_queue: every queued task has a worker that was woken for it and has not retaken the mutex yet;
     this is what the repaired loop keeps and the old one breaks (PoolWitness).
   i_tasks, i_started: each accepted task is queued, running or done, once; started = running + done.
   i_psd_w: the pool's shut_down leaves nobody on task_wakeup / available_wakeup, and nobody waits later.
   i_gsd_w: likewise for shutdown_wakeup, but only once the group's shut_down has done its notify_all:
     between LSdG and LSdP (a thread at GHold) the flag is set and the waiters are still there.
   i_reg, i_gsd_reg: who removed the pool from the group closes it before releasing the group lock;
     they give [inv_gsd_psd], i.e. group_shutdown_closes_pool and the no-deadlock argument.
   i_awret: await_shutdown returns only when its condition holds, and the condition is stable. *)
Record Inv (s : state) : Prop := mkInv {
  i_crash : crashed s = false;
  i_live : tcount s = cnt is_live (thr s);
  i_cnt_le : cnt is_counted (thr s) <= avail s;
  i_cnt_eq : psd s = false -> avail s = cnt is_counted (thr s);
  i_queue : length (queue s) <= cnt is_wwoken (thr s);
  i_tasks : forall t, occ (queue s) t + sumf (occ_run t) (thr s) + occ (done s) t = b2n (t <? next s);
  i_started : forall t, occ (started s) t = sumf (occ_run t) (thr s) + occ (done s) t;
  i_glock : cnt is_ghold (thr s) = b2n (glock s);
  i_psd_w : psd s = true -> cnt on_task (thr s) = 0 /\ cnt on_avail (thr s) = 0;
  i_gsd_w : gsd s = true -> cnt is_gh (thr s) = 0 ->
            cnt is_rwait (thr s) = 0 /\ (tcount s = 0 -> cnt is_awwait (thr s) = 0);
  i_reg : reg s = false -> psd s = true \/ glock s = true;
  i_gsd_reg : gsd s = true -> reg s = false;
  i_awret : 1 <= cnt is_awret (thr s) -> gsd s = true /\ tcount s = 0
}.

Lemma occ_app l1 l2 t : occ (l1 ++ l2) t = occ l1 t + occ l2 t.
Proof. apply count_occ_app. Qed.

Lemma occ_cons x l t : occ (x :: l) t = Nat.b2n (x =? t) + occ l t.
Proof.
  unfold occ; simpl. destruct (Nat.eq_dec x t) as [->|N].
  - rewrite Nat.eqb_refl; reflexivity.
  - apply Nat.eqb_neq in N; rewrite N; reflexivity.
Qed.

Lemma occ_nil t : occ [] t = 0.
Proof. reflexivity. Qed.

Lemma occ_run_run t k t0 : occ_run t (WRun k t0) = b2n (t0 =? t).
Proof. unfold occ_run; simpl run_of; rewrite occ_cons, occ_nil; apply Nat.add_0_r. Qed.

Lemma cnt_counted_split l : cnt is_counted l = cnt on_task l + cnt is_wwoken l.
Proof.
  rewrite <- sumf_plus. apply sumf_ext. intros []; reflexivity.
Qed.

Lemma inv_gsd_psd s : Inv s -> gsd s = true -> glock s = false -> psd s = true.
Proof.
  intros I Hg Hl. destruct (i_reg s I (i_gsd_reg s I Hg)) as [H|H]; [exact H | congruence].
Qed.


(* [Inv] reads the thread list only through the sums [sumf w (thr s)] *)
Lemma Inv_sums s l : (forall w, sumf w l = sumf w (thr s)) -> Inv s -> Inv (with_thr l s).
Proof.
  intros H []; constructor; simpl; intros; rewrite ?H in *; auto.
Qed.

(* One thread moves from pc [p] to [q] (and threads [ext] are spawned): it is enough to show
   that [Inv] passes from [p :: R] to [q :: ext ++ R] for an arbitrary list [R] of other threads.
   The sums over these lists compute: [sumf w (p :: R)] is the number [w p] plus [sumf w R].
   The callback's first hypothesis carries a fact about the sums of [thr s] (what a wake-up stage
   has left behind) over to [p :: R]. *)
Lemma inv_move s s' i p q ext : Inv s -> nth_error (thr s) i = Some p ->
  (forall w, sumf w (thr s') = sumf w ext + sumf w (upd i q (thr s))) ->
  (forall R, (forall w, sumf w (thr s) = sumf w (p :: R)) ->
     Inv (with_thr (p :: R) s) -> Inv (with_thr (q :: ext ++ R) s')) ->
  Inv s'.
Proof.
  intros I E Hs' H. destruct (sumf_others _ _ _ E) as (R & Hp & Hq).
  assert (I' : Inv (with_thr (q :: ext ++ R) s')).
  { apply H, Inv_sums; [exact Hp | | exact I]. intros w; symmetry; apply Hp. }
  apply (Inv_sums _ (thr s')) in I'.
  - destruct s'; exact I'.
  - intros w. rewrite Hs', Hq. simpl. rewrite sumf_app. lia.
Qed.

Lemma inv_set {s s' i p q} : Inv s -> nth_error (thr s) i = Some p -> thr s' = upd i q (thr s) ->
  (forall R, Inv (with_thr (p :: R) s) -> Inv (with_thr (q :: R) s')) -> Inv s'.
Proof.
  intros I E Hs' H. apply (inv_move s s' i p q [] I E); [|intros R _; apply H].
  intros w. rewrite Hs'. reflexivity.
Qed.

(* [Inv] of an explicit successor state, clause by clause: clause k from clause k of [I : Inv s]
   alone, plus whatever the context says about the step. By assumption when nothing the clause
   reads has changed (most clauses of most steps: the comment at each call names the others),
   else by linear arithmetic. [lia] knows [Nat.b2n] and the boolean tests through ZifyBool; on
   the whole invariant at once it is a hundred times slower, hence one clause each. *)
Ltac inv_clauses I :=
  constructor;
  [ pose proof (i_crash _ I) | pose proof (i_live _ I) | pose proof (i_cnt_le _ I)
  | pose proof (i_cnt_eq _ I) | pose proof (i_queue _ I)
  | intros u; rewrite b2n_nat; pose proof (i_tasks _ I u) as H; rewrite b2n_nat in H
  | intros u; pose proof (i_started _ I u)
  | rewrite b2n_nat; pose proof (i_glock _ I) as H; rewrite b2n_nat in H
  | pose proof (i_psd_w _ I) | pose proof (i_gsd_w _ I)
  | pose proof (i_reg _ I) | pose proof (i_gsd_reg _ I) | pose proof (i_awret _ I) ];
  clear I; unfold occ_run in *; simpl in *;
  first [ assumption
        | rewrite ?occ_app, ?occ_cons, ?occ_nil, ?app_length in *; simpl length in *; lia ].


(* [q] is [p] or [p] woken, as far as [Inv] can tell: what [Inv] pins down is the same, what it
   bounds from below ([is_wwoken]) does not decrease, what it wants to be zero does not increase *)
Definition relax (p q : pc) : Prop :=
  run_of q = run_of p /\ is_live q = is_live p /\ is_counted q = is_counted p /\
  is_ghold q = is_ghold p /\ is_gh q = is_gh p /\ is_awret q = is_awret p /\
  b2n (is_wwoken p) <= b2n (is_wwoken q) /\ b2n (on_task q) <= b2n (on_task p) /\
  b2n (on_avail q) <= b2n (on_avail p) /\ b2n (is_rwait q) <= b2n (is_rwait p) /\
  b2n (is_awwait q) <= b2n (is_awwait p).

Lemma relax_refl p : relax p p.
Proof. repeat split; lia. Qed.

Lemma relax_wake p : relax p (wake p).
Proof. destruct p; repeat split; simpl; lia. Qed.

Lemma relax_upd l : forall j p q, nth_error l j = Some p -> relax p q -> Forall2 relax l (upd j q l).
Proof.
  induction l as [|h t IH]; intros [|j] p q E Hr; simpl in *; try discriminate.
  - inversion E; subst. constructor; [exact Hr | clear; induction t; constructor; auto using relax_refl].
  - constructor; [apply relax_refl | eapply IH; eassumption].
Qed.

Lemma relax_notify_all g l : Forall2 relax l (notify_all g l).
Proof.
  induction l as [|p l IH]; simpl; constructor; [|exact IH].
  destruct (g p); [apply relax_wake | apply relax_refl].
Qed.

Lemma relax_sums l l' : Forall2 relax l l' ->
  (forall t, sumf (occ_run t) l' = sumf (occ_run t) l) /\ cnt is_live l' = cnt is_live l /\
  cnt is_counted l' = cnt is_counted l /\ cnt is_ghold l' = cnt is_ghold l /\
  cnt is_gh l' = cnt is_gh l /\ cnt is_awret l' = cnt is_awret l /\
  cnt is_wwoken l <= cnt is_wwoken l' /\ cnt on_task l' <= cnt on_task l /\
  cnt on_avail l' <= cnt on_avail l /\ cnt is_rwait l' <= cnt is_rwait l /\
  cnt is_awwait l' <= cnt is_awwait l.
Proof.
  induction 1 as [|p q l l' (Hr & Hl & Hc & Hg & Hh & Ha & ?) _ IH]; simpl.
  - repeat split; lia.
  - unfold occ_run at 1 3. rewrite Hr, Hl, Hc, Hg, Hh, Ha. clear Hr Hl Hc Hg Hh Ha.
    destruct IH as (IH & ?). repeat split; intros; rewrite ?IH; lia.
Qed.

Lemma Inv_relax s l' : Inv s -> Forall2 relax (thr s) l' -> Inv (with_thr l' s).
Proof.
  intros [Hcr Hlv Hcl Hce Hq HT HS Hgl Hpw Hgw Hrg Hgr Har] F.
  destruct (relax_sums _ _ F) as (Hr & Hl & Hc & Hg & Hh & Ha & Hw & Ht & Hv & Hrw & Haw).
  constructor; simpl; intros; rewrite ?Hr, ?Hl, ?Hc, ?Hg, ?Hh, ?Ha in *; auto.
  - clear - Hq Hw. lia.
  - destruct (Hpw H). clear - H0 H1 Ht Hv. lia.
  - destruct (Hgw H H0). clear - H1 H2 Hrw Haw. lia.
Qed.

Lemma inv_relax_pc s j p q : Inv s -> nth_error (thr s) j = Some p -> relax p q -> Inv (set_pc j q s).
Proof. intros I E Hr. apply Inv_relax; [exact I | eapply relax_upd; eassumption]. Qed.

Lemma inv_notify_all s g : Inv s -> Inv (with_thr (notify_all g (thr s)) s).
Proof. intros I. apply Inv_relax; [exact I | apply relax_notify_all]. Qed.

Lemma sd_wakes l : cnt is_rwait (notify_all on_sd l) = 0 /\ cnt is_awwait (notify_all on_sd l) = 0.
Proof. split; apply sumf_na_zero; intros []; simpl; congruence. Qed.

(* notify_one is a spurious wake-up of the chosen waiter, or nothing *)
Lemma inv_notify_one s g c l' : Inv s -> notify_one g c (thr s) = Some l' -> Inv (with_thr l' s).
Proof.
  intros I H. destruct (notify_one_cases _ _ _ _ H) as [[-> _] | (j & p & E & _ & ->)].
  - destruct s; exact I.
  - eapply inv_relax_pc; [exact I | exact E | apply relax_wake].
Qed.
