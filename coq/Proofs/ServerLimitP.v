(* C04, the server side: the value of the Writer's limit when the response is handed to query
   answering / sent.  TCP: 65535 (capped by the buffer).  UDP: 512, unless an OPT record of the
   request was processed, in which case it is the OPT's CLASS field (the requestor's payload size)
   clamped to [512, the server's configured size] (capped by the buffer).  Follows the limit through
   the whole pre-scan of Model/Server.v (every path that yields a response). *)
From QV Require Import Base.ListX Model.NameWire Model.Reader Model.RdataLite Model.Server Proofs.ServerP.
Local Open Scope nat_scope.

Definition L0 (cfg : config) : nat :=
  Nat.min (match c_transport cfg with Tcp => tcp_limit | Udp => udp_limit end) (c_buflen cfg).
Definition negotiated (cfg : config) (their : N) : nat :=
  Nat.min (N.to_nat (N.max 512 (N.min their (c_edns_size cfg)))) (c_buflen cfg).

(* [their] is the CLASS field of an OPT record the pre-scan met in the request [req] *)
Definition opt_class (req : bytes) (their : N) : Prop :=
  exists r p r2 rr, r_octets r = req /\ peek_rr r = Ok p /\ peek_type r p = Ok TYPE_OPT /\
                    peek_parse rd_lite r p = (r2, Ok rr) /\ rr_class rr = their.

Definition lim_ok (cfg : config) (req : bytes) (w : resp) : Prop :=
  w_buflen w = c_buflen cfg /\
  (w_limit w = L0 cfg \/
   (c_transport cfg = Udp /\ w_edns w <> None /\ exists their, opt_class req their /\ w_limit w = negotiated cfg their)).

(* the state of the additional-section scan: before an OPT was seen the limit is the initial one *)
Definition J (cfg : config) (req : bytes) (seen : bool) (w : resp) : Prop :=
  lim_ok cfg req w /\ (seen = false -> w_limit w = L0 cfg).

(* everything but [set_limit] leaves the limit and the buffer alone, and does not drop the OPT *)
Lemma J_frame cfg req seen w w' : w_limit w' = w_limit w -> w_buflen w' = w_buflen w ->
  (w_edns w <> None -> w_edns w' <> None) -> J cfg req seen w -> J cfg req seen w'.
Proof. unfold J, lim_ok. intros -> -> E. intuition. Qed.

Lemma lim_frame cfg req w w' : w_limit w' = w_limit w -> w_buflen w' = w_buflen w ->
  (w_edns w <> None -> w_edns w' <> None) -> lim_ok cfg req w -> lim_ok cfg req w'.
Proof. unfold lim_ok. intros -> -> E. intuition. Qed.

Lemma lim_set_rcode cfg req w rc : lim_ok cfg req w -> lim_ok cfg req (set_rcode w rc).
Proof. apply lim_frame; try reflexivity. rewrite (set_rcode_edns w rc). auto. Qed.
Lemma lim_set_tc cfg req w : lim_ok cfg req w -> lim_ok cfg req (set_tc w).
Proof. auto. Qed.

Lemma lim_tsig_or_truncate cfg req w t : lim_ok cfg req w -> lim_ok cfg req (fst (set_tsig_or_truncate w t)).
Proof. destruct (set_tsig_or_truncate_keeps w t) as (A & B & C). apply lim_frame; congruence. Qed.

Lemma L0_udp cfg : c_transport cfg = Udp -> L0 cfg <= 512.
Proof. intros T. unfold L0. rewrite T. change udp_limit with 512. apply Nat.le_min_l. Qed.

Lemma process_additional_lim verify cfg r w seen last r' s seen' :
  process_additional verify cfg r w seen last = Ok (r', s, seen') -> J cfg (r_octets r) seen w ->
  match s with
  | Continue w' => J cfg (r_octets r) seen' w'
  | Return w' => lim_ok cfg (r_octets r) w'
  | Silent => True
  end.
Proof.
  intros H HJ. pose proof HJ as (HL & Hfresh). pose proof HL as (Hbuf & _).
  assert (Ed : forall w1, set_edns w (c_edns_size cfg) = Ok w1 -> J cfg (r_octets r) seen w1 /\ w_edns w1 <> None).
  { intros w1 E. pose proof (set_edns_Ok _ _ _ E) as ->. split; [|discriminate].
    revert HJ. apply J_frame; try reflexivity. discriminate. }
  destruct (process_additional_inv _ _ _ _ _ _ _ _ _ H)
    as [e P|p P T S|p e P T S E|p w1 P T S E|p w1 raw r' rr w2 s P T S E PP Ng V|p r' P T Hr
       |p r' rr rc aw err P T PP _ _|p r' rr m a k P T PP _|p r' rr m a k P T L PP _|p ty P T _ _];
    try (apply lim_set_rcode; exact HL); try (apply lim_tsig_or_truncate, lim_set_rcode; exact HL).
  - apply lim_set_rcode, (Ed w1 E).
  - (* a well-formed OPT: over UDP the limit grows from the initial one to the negotiated one *)
    destruct (Ed w1 E) as ((HL1 & Hfresh1) & Ed1).
    assert (J2 : J cfg (r_octets r) true w2 /\ w_edns w2 <> None).
    { destruct (negotiate_Ok _ _ _ _ Ng) as [[_ ->]|[Tr SL]]; [split; [split; [exact HL1|discriminate]|exact Ed1]|].
      destruct (set_limit_Ok _ _ _ SL) as (nl & av & -> & [->|Hlt]).
      2:{ rewrite (Hfresh1 S) in Hlt. pose proof (L0_udp cfg Tr). lia. }
      split; [|exact Ed1]. split; [|discriminate]. split; [apply HL1|]. right. split; [exact Tr|]. split; [exact Ed1|].
      exists (rr_class rr). split; [exists r, p, r', rr; auto|]. cbn. rewrite (proj1 HL1). reflexivity. }
    destruct J2 as (J2 & Ed2). destruct (validate_opt _ _); [|subst s; exact J2].
    destruct V as (w3 & E3 & ->). destruct (set_extended_rcode_Ok _ _ _ E3) as (sz & up & _ & ->).
    apply (lim_frame cfg (r_octets r) w2); try reflexivity; [discriminate|apply J2].
  - subst wo. destruct (set_tsig_or_truncate_keeps (set_rcode w 0) (tsig_out_of rr (TResponse a (k_secret k) (tsig_mac (rr_rdata rr))) 0))
      as (A & B & C).
    destruct (snd _); [|apply lim_tsig_or_truncate, lim_set_rcode; exact HL].
    revert HJ. apply J_frame; [exact B|exact C|]. rewrite A, (set_rcode_edns w 0). auto.
  - exact HJ.
Qed.

Lemma an_ns_reader_octets n : forall r r', an_ns_reader n r = Some r' -> r_octets r' = r_octets r.
Proof.
  induction n as [|n IH]; intros r r' H; cbn [an_ns_reader] in H; [inv H; reflexivity|].
  destruct (peek_core r) as [p|e|]; try discriminate. destruct (be16_at _ _) as [ty|e|]; try discriminate.
  destruct (_ || _); [discriminate|]. apply (IH _ _ H).
Qed.

Lemma read_question_octets r r1 q : read_question r = (r1, Ok q) -> r_octets r1 = r_octets r.
Proof.
  unfold read_question. destruct (lift_name _ _) as [[qn ql]|e|]; [| intros H; inv H | intros H; inv H].
  destruct (read_u16_from _ _) as [qt|e|]; [| intros H; inv H | intros H; inv H].
  destruct (read_u16_from _ _) as [qc|e|]; intros H; inv H. reflexivity.
Qed.

Lemma prescan_lim verify cfg req p : prescan verify cfg req = Ok p ->
  match p with PEarly w | PClean _ w => lim_ok cfg req w | PNone => True end.
Proof.
  assert (J0 : forall w0, started cfg req w0 -> J cfg req false w0).
  { intros w0 (_ & _ & id & opc & rdf & _ & _ & _ & E0). rewrite (initial_resp_Ok _ _ _ _ _ E0).
    split; [split; [reflexivity|left; reflexivity]|reflexivity]. }
  intros H.
  refine (prescan_lift verify cfg req (fun r seen w => r_octets r = req /\ J cfg req seen w) (lim_ok cfg req) (lim_ok cfg req)
            _ _ _ _ _ _ _ p H).
  - intros r w seen last r' s seen' [Ho HJ] E. destruct (process_additional_same _ _ _ _ _ _ _ _ _ E) as [Ho' _].
    subst req. pose proof (process_additional_lim _ _ _ _ _ _ _ _ _ E HJ) as L.
    destruct s as [w'|w'|]; [|exact L..]. destruct last; [exact (proj1 L)|exact (conj Ho' L)].
  - intros r seen w [_ HJ]. exact (proj1 HJ).
  - intros r seen w rc [_ HJ]. apply lim_set_rcode, HJ.
  - intros w. apply lim_set_rcode.
  - intros r1 n r2 w [Ho HJ] A. split; [rewrite (an_ns_reader_octets _ _ _ A); exact Ho|exact HJ].
  - intros w0 St. split; [reflexivity|exact (J0 w0 St)].
  - intros w0 r1 q w1 St RQ EA. split; [exact (read_question_octets _ _ _ RQ)|].
    pose proof (add_question_Ok _ _ _ EA) as ->. exact (J0 w0 St).
Qed.

Lemma lim_apply_body cfg req w b : lim_ok cfg req w -> lim_ok cfg req (apply_body w b).
Proof.
  intros L. unfold apply_body. destruct (b_rcode b) as [rc|].
  - apply (lim_set_rcode cfg req w rc) in L. exact L.
  - exact L.
Qed.

Theorem handle_message_limit answer verify cfg req w :
  handle_message answer verify cfg req = Ok (Some w) -> lim_ok cfg req w.
Proof.
  unfold handle_message. destruct (prescan verify cfg req) as [p|e|] eqn:E; cbn [bind]; try discriminate.
  pose proof (prescan_lim _ _ _ _ E) as L. destruct p as [|w0|opc w0]; try discriminate.
  - intros H; inv H. exact L.
  - destruct (opc =? OPCODE_QUERY)%N; intros H; inv H; [|apply lim_set_rcode; exact L].
    destruct (handle_query_cases answer cfg w0) as [[rc ->]|(q & e & z & _ & _ & _ & ->)];
      [apply lim_set_rcode|apply lim_apply_body]; exact L.
Qed.
