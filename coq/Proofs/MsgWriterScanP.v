(* The compression scan of write_compressed_unhinted_name: the lock-step invariant of the scan and what
   the search returns (search_ok).  The name-writing functions themselves are in MsgWriterNameP.v. *)
From QV Require Import Base.ListX Model.MsgWriter Proofs.NameWireP Proofs.MsgWriterP.

Local Open Scope nat_scope.

Definition lab_eq (cp : bool) (a b : bytes) : Prop := labels_equal cp a b = true.
Definition name_eq (cp : bool) (a b : list bytes) : Prop := Forall2 (lab_eq cp) a b.

Lemma bytes_eqb_refl a : bytes_eqb a a = true.
Proof. apply (bytes_eqb_fix_eq bytes_eqb); [intros [|] [|]; reflexivity|reflexivity]. Qed.

Lemma bytes_eqb_eq a : forall b, bytes_eqb a b = true -> a = b.
Proof. intros b. apply bytes_eqb_fix_eq. intros [|] [|]; reflexivity. Qed.

Lemma lab_eq_refl cp a : lab_eq cp a a.
Proof. unfold lab_eq, labels_equal. destruct cp; apply bytes_eqb_refl. Qed.

Lemma name_eq_refl cp n : name_eq cp n n.
Proof. induction n; constructor; auto. apply lab_eq_refl. Qed.

Lemma lab_eq_weaken a b : lab_eq true a b -> lab_eq false a b.
Proof.
  unfold lab_eq, labels_equal. intros H. apply bytes_eqb_eq in H. subst. apply bytes_eqb_refl.
Qed.

Lemma name_eq_weaken cp a b : name_eq true a b -> name_eq cp a b.
Proof.
  destruct cp; auto. induction 1; constructor; auto. apply lab_eq_weaken; auto.
Qed.

Lemma name_eq_exact a b : name_eq true a b -> a = b.
Proof.
  induction 1 as [|x y a b H _ IH]; auto. f_equal; auto.
  unfold lab_eq, labels_equal in H. apply bytes_eqb_eq; auto.
Qed.

Lemma name_eq_length cp a b : name_eq cp a b -> length a = length b.
Proof. induction 1; simpl; auto. Qed.

Definition prior_ok (b : bytes) (c : nat) (pr : prior) : Prop :=
  0 < p_ptr pr /\ p_ptr pr <= pointer_max /\ real_at b (p_ptr pr) /\
  exists ls, name_at b c (p_ptr pr) ls /\ p_len pr = S (length ls).

Definition oprior_ok (b : bytes) (c : nat) (o : option prior) : Prop :=
  match o with Some pr => prior_ok b c pr | None => True end.

Lemma prior_ok_stable b c pr b' c' : prior_ok b c pr -> agree c b b' -> c <= c' -> prior_ok b' c' pr.
Proof.
  intros [H1 [H2 [H3 [ls [H4 H5]]]]] Ha Hle.
  destruct (name_at_lt _ _ _ _ H4) as [Hlt _].
  repeat split; auto.
  - eapply real_at_stable; eauto.
  - exists ls. split; auto. eapply name_at_stable; eauto.
Qed.

Lemma oprior_ok_stable b c o b' c' : oprior_ok b c o -> agree c b b' -> c <= c' -> oprior_ok b' c' o.
Proof. destruct o; simpl; auto. apply prior_ok_stable. Qed.

(* what a surviving match means at the end of the scan *)
Definition match_ok (b : bytes) (cur : nat) (cp : bool) (n : wname) (m : nat * nat) : Prop :=
  fst m <= length n /\ 0 < snd m /\ snd m <= pointer_max /\ real_at b (snd m) /\
  exists pre, name_at b cur (snd m) pre /\ name_eq cp (skipn (fst m) n) pre.

Lemma hp_new_some c p : hp_new c = Some p -> p = c /\ 0 < c /\ c <= pointer_max.
Proof.
  unfold hp_new. destruct (c <=? pointer_max) eqn:E1; simpl; [|discriminate].
  destruct (c =? 0) eqn:E2; simpl; [discriminate|].
  intros H; inversion H; subst. apply Nat.leb_le in E1. apply Nat.eqb_neq in E2. lia.
Qed.

Lemma skipn_snoc {A} (l : list A) x k : k <= length l -> skipn k (l ++ [x]) = skipn k l ++ [x].
Proof.
  intros H. rewrite skipn_app. replace (k - length l) with 0 by lia. reflexivity.
Qed.

(* The lock-step invariant of the scan, over a property Q of positions that is kept when the scan steps over
   a label and follows the pointers after it.  Q is trivial for search_ok; in MsgWriterScanSP it is membership
   in a closed set of label starts, so that the scan is seen to stand on, and report, only such members. *)
Section Scan.
Variables (b : bytes) (cur : nat) (cp : bool) (Q : nat -> Prop).
Hypothesis Hmove : forall p len p2, Q p -> nth_error b p = Some len -> (0 < len)%N ->
  move_to_next_real_label b (p + 1 + N.to_nat len) = Ok p2 -> Q p2.

Lemma skip_labels_ok : forall k p ls, name_at b cur p ls -> real_at b p -> Q p -> k <= length ls ->
  exists p', skip_labels k b p = Ok p' /\ name_at b cur p' (skipn k ls) /\ real_at b p' /\ Q p'.
Proof using Hmove.
  induction k as [|k IH]; intros p ls Hn Hr Hq Hk.
  - exists p. simpl. auto.
  - destruct ls as [|l rest]; [simpl in Hk; lia|].
    destruct (name_at_cons_real b cur p l rest Hn Hr) as [len [E [H0 [H63 [Hc [_ Hn']]]]]].
    simpl. rewrite E.
    replace (p + (N.to_nat len + 1)) with (p + 1 + N.to_nat len) by lia.
    destruct (move_ok b cur _ _ Hn') as [p2 [M1 [M2 [M3 _]]]]. rewrite M1. simpl.
    apply IH; eauto. simpl in Hk. lia.
Qed.

(* x has read [done] and has [labs] to go; a match recorded at column sc covers the labels from sc on.
   The two names are compared right-aligned: a shorter prior name begins at column c_start x of the
   new one, which is what [length rem + (c_start x - length done) = length labs] says. *)
Definition ctx_ok (done labs : list bytes) (x : pctx) : Prop :=
  real_at b (c_ptr x) /\ Q (c_ptr x) /\
  (length done < c_start x -> c_match x = None) /\
  exists rem, name_at b cur (c_ptr x) rem /\
              length rem + (c_start x - length done) = length labs /\
              forall sc pp, c_match x = Some (sc, pp) ->
                sc < length done /\ 0 < pp /\ pp <= pointer_max /\ real_at b pp /\ Q pp /\
                exists pre, name_at b cur pp (pre ++ rem) /\ name_eq cp (skipn sc done) pre.

Definition octx_ok done labs (o : option pctx) : Prop :=
  match o with Some x => ctx_ok done labs x | None => True end.

Lemma step_ctx_ok done lab rest x :
  ctx_ok done (lab :: rest) x ->
  exists x', step_ctx b cp (length done) lab x = Ok x' /\ ctx_ok (done ++ [lab]) rest x'.
Proof using Hmove.
  intros [Hr [Hq [Hnone [rem [Hn [Hlen Hm]]]]]].
  unfold step_ctx. destruct (length done <? c_start x) eqn:E.
  - apply Nat.ltb_lt in E. exists x. split; auto.
    split; [exact Hr|]. split; [exact Hq|]. split; [intros _; auto|].
    exists rem. split; [exact Hn|]. split.
    + rewrite app_length. simpl in *. lia.
    + intros sc pp Hs. rewrite (Hnone E) in Hs. discriminate.
  - apply Nat.ltb_ge in E.
    destruct rem as [|pl rem']; [simpl in Hlen; lia|].
    destruct (name_at_cons_real b cur _ pl rem' Hn Hr) as [len [E1 [H0 [H63 [Hc [Hpl Hn']]]]]].
    rewrite E1.
    destruct (name_at_lt _ _ _ _ Hn') as [_ Hlb].
    destruct (length b <? c_ptr x + 1 + N.to_nat len) eqn:E2; [apply Nat.ltb_lt in E2; lia|].
    destruct (move_ok b cur _ _ Hn') as [p2 [M1 [M2 [M3 _]]]]. rewrite M1. simpl.
    eexists. split; [reflexivity|].
    split; [exact M3|]. split; [exact (Hmove _ _ _ Hq E1 H0 M1)|].
    split; [simpl; rewrite app_length; simpl; intros; lia|].
    exists rem'. split; [exact M2|]. split; [simpl in *; rewrite app_length; simpl; lia|].
    simpl c_match. intros sc pp Hs.
    destruct (hp_new (c_ptr x)) as [pp0|] eqn:Eh; [|discriminate].
    destruct (labels_equal cp lab (slice b (c_ptr x + 1) (c_ptr x + 1 + N.to_nat len))) eqn:Eq; [|discriminate].
    apply hp_new_some in Eh as [-> [Hp0 Hpm]].
    destruct (c_match x) as [[sc0 pp1]|] eqn:Em.
    + inversion Hs; subst sc0 pp1.
      destruct (Hm sc pp eq_refl) as [A1 [A2 [A3 [A4 [A4' [pre [A5 A6]]]]]]].
      split; [rewrite app_length; simpl; lia|]. repeat split; auto.
      exists (pre ++ [pl]). split.
      * rewrite <- app_assoc. exact A5.
      * rewrite skipn_snoc by lia. apply Forall2_app; auto.
        constructor; [|constructor]. unfold lab_eq. rewrite Hpl. exact Eq.
    + inversion Hs; subst sc pp.
      split; [rewrite app_length; simpl; lia|]. repeat split; auto.
      exists [pl]. split; [exact Hn|].
      rewrite skipn_app, skipn_all, Nat.sub_diag. simpl.
      constructor; [|constructor]. unfold lab_eq. rewrite Hpl. exact Eq.
Qed.

Lemma opt_step_ok done lab rest o :
  octx_ok done (lab :: rest) o ->
  exists o', opt_step b cp (length done) lab o = Ok o' /\ octx_ok (done ++ [lab]) rest o'.
Proof using Hmove.
  destruct o as [x|]; simpl; intros H.
  - destruct (step_ctx_ok _ _ _ _ H) as [x' [E H']]. rewrite E. simpl. exists (Some x'). auto.
  - exists None. auto.
Qed.

Lemma dedupe_ok done labs cs :
  octx_ok done labs (fst cs) -> octx_ok done labs (snd cs) ->
  octx_ok done labs (fst (dedupe cs)) /\ octx_ok done labs (snd (dedupe cs)).
Proof.
  destruct cs as [[a|] [c|]]; simpl; intros H1 H2; auto.
  destruct (c_ptr a =? c_ptr c); simpl; auto.
  destruct (c_match a) as [[sa ?]|]; destruct (c_match c) as [[sb ?]|]; simpl; auto.
  destruct (sa <=? sb); simpl; auto.
Qed.

Lemma scan_ok : forall labs done cs,
  octx_ok done labs (fst cs) -> octx_ok done labs (snd cs) ->
  exists cs', scan b cp (length done) labs cs = Ok cs'
              /\ octx_ok (done ++ labs) [] (fst cs')
              /\ octx_ok (done ++ labs) [] (snd cs').
Proof using Hmove.
  induction labs as [|lab rest IH]; intros done cs H1 H2.
  - exists cs. simpl. rewrite app_nil_r. auto.
  - simpl. destruct (dedupe_ok _ _ cs H1 H2) as [D1 D2].
    destruct (dedupe cs) as [c0 c1]. simpl in D1, D2.
    destruct (opt_step_ok _ _ _ _ D1) as [c0' [E0 K0]]. rewrite E0. simpl.
    destruct (opt_step_ok _ _ _ _ D2) as [c1' [E1 K1]]. rewrite E1. simpl.
    specialize (IH (done ++ [lab]) (c0', c1') K0 K1).
    rewrite app_length in IH. simpl in IH. replace (length done + 1) with (S (length done)) in IH by lia.
    rewrite <- app_assoc in IH. exact IH.
Qed.

Definition match_good (n : wname) (m : nat * nat) : Prop :=
  match_ok b cur cp n m /\ Q (snd m) /\ fst m < length n.

Lemma ctx_final n o m : octx_ok n [] o -> ctx_match o = Some m -> match_good n m.
Proof.
  destruct o as [x|]; simpl; [|discriminate].
  intros [_ [_ [_ [rem [Hn [Hlen Hm]]]]]] E. destruct m as [sc pp].
  destruct rem; [|simpl in Hlen; lia].
  destruct (Hm sc pp E) as [A1 [A2 [A3 [A4 [A4' [pre [A5 A6]]]]]]].
  rewrite app_nil_r in A5. unfold match_good, match_ok. simpl. repeat split; auto; [lia|]. exists pre. auto.
Qed.

Lemma longest_ok n cs m :
  octx_ok n [] (fst cs) -> octx_ok n [] (snd cs) ->
  longest_match cs = Some m -> match_good n m.
Proof.
  intros H1 H2. unfold longest_match.
  destruct (ctx_match (fst cs)) as [a|] eqn:Ea; destruct (ctx_match (snd cs)) as [c|] eqn:Ec;
    try discriminate.
  - destruct (fst c <? fst a); intros E; inversion E; subst.
    + eapply ctx_final; eauto.
    + eapply (ctx_final _ (fst cs)); eauto.
  - intros E; inversion E; subst. eapply (ctx_final _ (fst cs)); eauto.
  - intros E; inversion E; subst. eapply ctx_final; eauto.
Qed.

Lemma build_ctx_ok n pr : prior_ok b cur pr -> Q (p_ptr pr) ->
  exists x, build_prior_ctx b (nm_len n) pr = Ok x /\ ctx_ok [] n x.
Proof using Hmove.
  intros [H1 [H2 [H3 [ls [H4 H5]]]]] Hq. unfold build_prior_ctx, nm_len. rewrite H5.
  destruct (S (length n) <? S (length ls)) eqn:E.
  - apply Nat.ltb_lt in E.
    destruct (skip_labels_ok (S (length ls) - S (length n)) _ _ H4 H3 Hq ltac:(lia)) as [p' [S1 [S2 [S3 S4]]]].
    rewrite S1. simpl. eexists. split; [reflexivity|].
    split; [exact S3|]. split; [exact S4|]. split; [simpl; intros; lia|].
    eexists. split; [exact S2|]. split.
    + simpl. rewrite skipn_length. lia.
    + simpl. intros sc pp Hs. discriminate.
  - apply Nat.ltb_ge in E. simpl. eexists. split; [reflexivity|].
    split; [exact H3|]. split; [exact Hq|]. split; [reflexivity|].
    exists ls. split; [exact H4|]. split; [simpl; lia|].
    simpl. intros sc pp Hs. discriminate.
Qed.

Lemma opt_build_ok n o : oprior_ok b cur o -> (forall pr, o = Some pr -> Q (p_ptr pr)) ->
  exists o', opt_build b (nm_len n) o = Ok o' /\ octx_ok [] n o'.
Proof using Hmove.
  destruct o as [pr|]; simpl; intros H Hq.
  - destruct (build_ctx_ok n pr H (Hq _ eq_refl)) as [x [E K]]. rewrite E. simpl. exists (Some x). auto.
  - exists None. auto.
Qed.

Lemma search_good n o1 o2 : oprior_ok b cur o1 -> oprior_ok b cur o2 ->
  (forall pr, o1 = Some pr -> Q (p_ptr pr)) -> (forall pr, o2 = Some pr -> Q (p_ptr pr)) ->
  exists cs, (let* c0 := opt_build b (nm_len n) o1 in
              let* c1 := opt_build b (nm_len n) o2 in
              scan b cp 0 n (c0, c1)) = Ok cs
             /\ forall m, longest_match cs = Some m -> match_good n m.
Proof using Hmove.
  intros H1 H2 Q1 Q2.
  destruct (opt_build_ok n o1 H1 Q1) as [c0 [E0 K0]]. rewrite E0. simpl.
  destruct (opt_build_ok n o2 H2 Q2) as [c1 [E1 K1]]. rewrite E1. simpl.
  destruct (scan_ok n [] (c0, c1) K0 K1) as [cs [E [F1 F2]]].
  simpl in E. exists cs. split; [exact E|].
  intros m Hm. eapply longest_ok; eauto.
Qed.
End Scan.

Lemma search_ok b cur cp n o1 o2 : oprior_ok b cur o1 -> oprior_ok b cur o2 ->
  exists cs, (let* c0 := opt_build b (nm_len n) o1 in
              let* c1 := opt_build b (nm_len n) o2 in
              scan b cp 0 n (c0, c1)) = Ok cs
             /\ forall m, longest_match cs = Some m -> match_ok b cur cp n m.
Proof.
  intros H1 H2.
  destruct (search_good b cur cp (fun _ => True) (fun _ _ _ _ _ _ _ => I) n o1 o2 H1 H2) as [cs [E H]]; auto.
  exists cs. split; [exact E|]. intros m Hm. apply (H m Hm).
Qed.
