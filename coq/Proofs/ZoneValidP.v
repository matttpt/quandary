(* C21: the validation model against the flat-record reference checker. *)
From QV Require Import Base.Res Base.Octets Base.ListX Gen.ZoneConsts Model.ZoneTree Model.ZoneValid
  Spec.ZoneLookupS Spec.ZoneValidS
  Proofs.ZoneBaseP Proofs.ZoneRrsetP Proofs.ZoneViewP Proofs.ZoneInvP Proofs.ZoneLookupP Proofs.ZoneTopP
  Proofs.ZoneIterP Proofs.ZoneStoreP.

(* a result of the model against one of the reference checker: [rel] the same issues in the same order
   (pieces over the same list), [srel] the same set (the iteration order of the nodes is not that of
   zone_names, so the whole validation can only be compared as a set) *)
Definition rel (r : res zone_err (list issue)) (o : option (list issue)) : Prop :=
  match r, o with
  | Ok a, Some b => map norm_issue a = b
  | Err InvalidRdata, None => True
  | _, _ => False
  end.

Definition srel (r : res zone_err (list issue)) (o : option (list issue)) : Prop :=
  match r, o with
  | Ok a, Some b => forall i, In i (map norm_issue a) <-> In i b
  | Err InvalidRdata, None => True
  | _, _ => False
  end.

(* a result read as an option: an issue list with lower-cased names, or None for Err InvalidRdata;
   [clean]: nothing else occurs *)
Definition clean (r : res zone_err (list issue)) : Prop :=
  match r with Ok _ | Err InvalidRdata => True | _ => False end.
Definition oks (r : res zone_err (list issue)) : option (list issue) :=
  match r with Ok a => Some (map norm_issue a) | _ => None end.

Lemma rel_oks r o : rel r o <-> clean r /\ oks r = o.
Proof. destruct r as [a|[]|], o as [b|]; simpl; intuition congruence. Qed.

(* [collect] is [ocollect] on results read as options *)
Lemma collect_oks {A} (f : A -> res zone_err (list issue)) l : (forall x, In x l -> clean (f x)) ->
  clean (collect f l) /\ oks (collect f l) = ocollect (fun x => oks (f x)) l.
Proof.
  induction l as [|x l IH]; intros H; simpl; [auto|].
  pose proof (H x (or_introl eq_refl)) as Hx. destruct IH as [C E]; [intros y Hy; apply H; right; exact Hy|].
  rewrite <- E. destruct (f x) as [a|[]|]; simpl in *; try contradiction; auto.
  destruct (collect f l) as [b|[]|]; simpl in *; try contradiction; auto. rewrite map_app. auto.
Qed.

Lemma ocollect_ext {A} (g1 g2 : A -> option (list issue)) l :
  (forall x, In x l -> g1 x = g2 x) -> ocollect g1 l = ocollect g2 l.
Proof.
  induction l as [|x l IH]; intros H; simpl; [reflexivity|].
  rewrite (H x (or_introl eq_refl)), IH; [reflexivity|]. intros y Hy. apply H. right. exact Hy.
Qed.

Lemma collect_rel {A} (f : A -> res zone_err (list issue)) (g : A -> option (list issue)) l :
  (forall x, In x l -> rel (f x) (g x)) -> rel (collect f l) (ocollect g l).
Proof.
  intros H. apply rel_oks. destruct (collect_oks f l) as [C E]; [intros x Hx; apply (rel_oks _ (g x)), H, Hx|].
  split; [exact C|]. rewrite E. apply ocollect_ext. intros x Hx. apply (rel_oks (f x)), H, Hx.
Qed.

Lemma ocollect_members {A} (g : A -> option (list issue)) l :
  match ocollect g l with
  | Some r => (forall y, In y l -> g y <> None) /\
              forall i, In i r <-> exists y b, In y l /\ g y = Some b /\ In i b
  | None => exists y, In y l /\ g y = None
  end.
Proof.
  induction l as [|x l IH]; simpl.
  - split; [intros y []|]. intros i. split; [intros []|intros (y & b & [] & _)].
  - destruct (g x) as [a|] eqn:Ha; [|exists x; auto].
    destruct (ocollect g l) as [r|]; [|destruct IH as (y & Hy & Hg); exists y; auto].
    destruct IH as [D M]. split; [intros y [<-|Hy]; [congruence|apply D, Hy]|].
    intros i. rewrite in_app_iff, M. split.
    + intros [Hi|(y & b & Hy & Hb & Hi)]; [exists x, a; auto|exists y, b; auto].
    + intros (y & b & [<-|Hy] & Hb & Hi); [left; congruence|right; eauto].
Qed.

Lemma ocollect_same {A B} (g1 : A -> option (list issue)) la (g2 : B -> option (list issue)) lb :
  (forall x, In x la -> exists y, In y lb /\ g1 x = g2 y) ->
  (forall y, In y lb -> exists x, In x la /\ g1 x = g2 y) ->
  match ocollect g1 la, ocollect g2 lb with
  | Some a, Some b => forall i, In i a <-> In i b
  | None, None => True
  | _, _ => False
  end.
Proof.
  intros H1 H2. pose proof (ocollect_members g1 la) as M1. pose proof (ocollect_members g2 lb) as M2.
  destruct (ocollect g1 la) as [a|], (ocollect g2 lb) as [b|]; auto.
  - intros i. rewrite (proj2 M1), (proj2 M2). split.
    + intros (x & c & Hx & Hc & Hi). destruct (H1 x Hx) as (y & Hy & E). exists y, c. rewrite <- E. auto.
    + intros (y & c & Hy & Hc & Hi). destruct (H2 y Hy) as (x & Hx & E). exists x, c. rewrite E. auto.
  - destruct M2 as (y & Hy & Hg). destruct (H2 y Hy) as (x & Hx & E). apply (proj1 M1 x Hx). congruence.
  - destruct M1 as (x & Hx & Hg). destruct (H1 x Hx) as (y & Hy & E). apply (proj1 M2 y Hy). congruence.
Qed.

Lemma collect_srel {A B} (f : A -> res zone_err (list issue)) (g : B -> option (list issue)) la lb :
  (forall x, In x la -> exists y, In y lb /\ rel (f x) (g y)) ->
  (forall y, In y lb -> exists x, In x la /\ rel (f x) (g y)) ->
  srel (collect f la) (ocollect g lb).
Proof.
  intros H1 H2.
  assert (P1 : forall x, In x la -> exists y, In y lb /\ oks (f x) = g y).
  { intros x Hx. destruct (H1 x Hx) as (y & Hy & Hr). apply rel_oks in Hr. exists y. tauto. }
  assert (P2 : forall y, In y lb -> exists x, In x la /\ oks (f x) = g y).
  { intros y Hy. destruct (H2 y Hy) as (x & Hx & Hr). apply rel_oks in Hr. exists x. tauto. }
  destruct (collect_oks f la) as [C E].
  { intros x Hx. destruct (H1 x Hx) as (y & _ & Hr). apply rel_oks in Hr. tauto. }
  pose proof (ocollect_same _ la g lb P1 P2) as S. rewrite <- E in S.
  unfold srel. destruct (collect f la) as [a|[]|]; simpl in C, S; try contradiction;
    destruct (ocollect g lb); auto.
Qed.

Lemma name_eq_lc a b : name_eq a b = name_eqb (lc a) (lc b).
Proof.
  unfold name_eq. destruct (length a =? length b) eqn:L; simpl.
  - apply Nat.eqb_eq in L.
    destruct (name_eqb (lc a) (lc b)) eqn:E.
    + apply name_eqb_eq in E. apply forallb_combine_lc; auto.
    + destruct (forallb _ _) eqn:F; auto. apply forallb_combine_lc in F; auto.
      apply name_eqb_eq in F. congruence.
  - symmetry. apply name_eqb_neq. intros E. apply (f_equal (@length _)) in E.
    rewrite !lc_length in E. apply Nat.eqb_neq in L. contradiction.
Qed.

Lemma octets_bytes_eqb a b : octets_eqb a b = bytes_eqb a b.
Proof. reflexivity. Qed.

Lemma is_wildcard_spec n : is_wildcard n = Ok (is_wild (lc n)).
Proof.
  unfold is_wildcard, name_index. destruct n as [|l n]; simpl; auto.
Qed.

Section Valid.
Variable req : N -> N -> bytes -> bytes -> bool.
Hypothesis req_trans : forall cls ty a b c,
  req cls ty a b = true -> req cls ty b c = true -> req cls ty a c = true.
Variable parse : bytes -> option name.
Variable apex : name.
Variable cls : N.
Variable wide : bool.
Variables (recs : list record) (z : zone).
Hypothesis B : zone_build req (zone_new apex cls wide) recs = Some z.
Let R := accepted apex cls recs.
Let HI : Inv req apex cls z R := build_inv req req_trans apex cls wide recs z B.

Lemma class_has_addrs_spec : class_has_addrs (z_class z) = addr_class cls.
Proof. rewrite (Inv_class _ _ _ _ _ HI). reflexivity. Qed.

Lemma addrs_found_spec a b : addrs_found (z_class z) a b = has_addr cls a b.
Proof.
  rewrite (Inv_class _ _ _ _ _ HI). unfold addrs_found, has_addr. change CLASS_IN with 1%N.
  destruct a, b, (cls =? 1)%N; reflexivity.
Qed.

Lemma lookup_addrs_ok n sbc :
  exists r, zone_lookup_addrs z n false sbc = Ok r /\
            addr_lookup req apex cls R n sbc = Some (norm_addrs r).
Proof. apply (zone_lookup_addrs_refines req apex cls z R n false sbc HI). discriminate. Qed.

Lemma check_simple_rel (mk : name -> issue) n :
  (forall m, norm_issue (mk m) = mk (lc m)) ->
  rel (let* r := zone_lookup_addrs z n false false in
       Ok match r with
          | AFound a b _ => if addrs_found (z_class z) a b then [] else [mk n]
          | ANxDomain => [mk n]
          | AReferral _ _ => []
          | AWrongZone => []
          end)
      (Some (missing_address req apex cls R mk n)).
Proof.
  intros Hmk. destruct (lookup_addrs_ok n false) as (r & Hr & Hs). rewrite Hr. cbn [bind].
  unfold missing_address. rewrite Hs. unfold rel.
  destruct r as [a b s|c ns| |]; simpl; auto.
  - rewrite addrs_found_spec. destruct (has_addr cls a b); simpl; auto. rewrite Hmk. reflexivity.
  - rewrite Hmk. reflexivity.
Qed.

Lemma check_apex_ns_rel n :
  rel (check_apex_ns_address z n) (Some (missing_address req apex cls R MissingNsAddress n)).
Proof. apply (check_simple_rel MissingNsAddress). reflexivity. Qed.

Lemma check_mx_rel n :
  rel (check_mx_address z n) (Some (missing_address req apex cls R MissingMxAddress n)).
Proof. apply (check_simple_rel MissingMxAddress). reflexivity. Qed.

Lemma check_glue_rel n : rel (check_glue z n) (Some (missing_glue req apex cls R n)).
Proof.
  unfold check_glue. destruct (lookup_addrs_ok n true) as (r & Hr & Hs). rewrite Hr. cbn [bind].
  unfold missing_glue. rewrite Hs. unfold rel.
  destruct r as [a b s|c ns| |]; simpl; auto.
  rewrite addrs_found_spec. destruct (has_addr cls a b); reflexivity.
Qed.

Lemma check_delegation_rel n owner :
  rel (check_delegation_ns_address z n owner) (Some (delegation_ns req apex cls wide R n (lc owner))).
Proof.
  unfold check_delegation_ns_address. destruct (lookup_addrs_ok n false) as (r & Hr & Hs).
  rewrite Hr. cbn [bind]. unfold delegation_ns. rewrite Hs.
  destruct r as [a b s|c ns| |]; simpl norm_addrs; cbv iota.
  - unfold rel. rewrite addrs_found_spec. destruct (has_addr cls a b); reflexivity.
  - rewrite (zone_build_wide req _ _ _ B), name_eq_lc. cbn [zone_new z_wide].
    pose proof (check_glue_rel n) as G.
    destruct wide; [exact G|]. destruct (name_eqb (lc c) (lc owner)); [exact G|reflexivity].
  - reflexivity.
  - reflexivity.
Qed.

Lemma scan_rrset_rel owner k rs : is_suffixb (lc apex) (lc owner) = true ->
  rel (scan_rrset parse z owner k rs) (rrset_issues req parse apex cls wide R (lc owner) k rs).
Proof.
  intros Hs. unfold scan_rrset, rrset_issues.
  change TYPE_CNAME with 5%N. change TYPE_MX with 15%N. change TYPE_NS with 2%N.
  destruct (rs_type rs =? 5)%N.
  { unfold rel. rewrite map_app. destruct (k =? 1), (length (rs_rdatas rs) =? 1); reflexivity. }
  destruct (rs_type rs =? 15)%N.
  { rewrite class_has_addrs_spec. destruct (addr_class cls); [|reflexivity].
    apply collect_rel. intros rd _. unfold mx_name.
    destruct (if 2 <=? length rd then parse (skipn 2 rd) else None) as [n|]; [apply check_mx_rel|exact I]. }
  destruct (rs_type rs =? 2)%N; [|reflexivity].
  rewrite is_wildcard_spec. cbn [bind]. rewrite class_has_addrs_spec.
  assert (Hapex : (name_len owner =? name_len (zone_name z)) = name_eqb (lc owner) (lc apex)).
  { rewrite (Inv_name _ _ _ _ _ HI). unfold name_len. cbn [Nat.eqb]. apply eq_true_iff_eq.
    rewrite Nat.eqb_eq, name_eqb_eq. split.
    - intros L. symmetry. apply (is_suffixb_same_length _ _ Hs). rewrite !lc_length. lia.
    - intros E. apply (f_equal (@length _)) in E. rewrite !lc_length in E. exact E. }
  rewrite Hapex.
  set (cm := collect _ (rs_rdatas rs)). set (co := ocollect _ (rs_rdatas rs)).
  assert (Hc : rel cm co).
  { apply collect_rel. intros rd _. unfold rdata_name.
    destruct (parse rd) as [n|]; [apply check_delegation_rel|exact I]. }
  destruct (negb (name_eqb (lc owner) (lc apex)) && addr_class cls).
  - unfold rel in *. destruct cm as [a|e|]; destruct co as [b|]; try contradiction; cbn [bind]; auto.
    rewrite map_app, Hc. destruct (is_wild (lc owner)); reflexivity.
  - cbn [bind]. unfold rel. rewrite app_nil_r. destruct (is_wild (lc owner)); reflexivity.
Qed.

Lemma scan_node_rel n d : In (n, d) (zone_iter_by_node z) ->
  rel (scan_node parse z n d) (name_issues req parse apex cls wide R (lc n)).
Proof.
  intros Hin. destruct (build_iter_nodes req req_trans apex cls wide recs z B) as (_ & Hmem & Hdata).
  fold R in Hmem, Hdata.
  pose proof (Hdata n d Hin) as Hd.
  assert (Hs : is_suffixb (lc apex) (lc n) = true).
  { assert (H : In (lc n) (map (fun nd => lc (fst nd)) (zone_iter_by_node z))).
    { apply in_map_iff. exists (n, d). auto. }
    apply Hmem in H. apply andb_true_iff in H. tauto. }
  unfold scan_node, name_issues. rewrite <- Hd. apply collect_rel. intros rs _.
  apply scan_rrset_rel. exact Hs.
Qed.

Lemma spec_nodes_of_iff r m : in_zone apex (r_owner r) = true ->
  (In m (spec_nodes_of apex r) <->
   is_suffixb (lc apex) m = true /\ is_suffixb m (lc (r_owner r)) = true).
Proof.
  unfold in_zone, spec_nodes_of. set (o := lc (r_owner r)). intros Z.
  pose proof (is_suffixb_skipn _ _ Z) as Ea. rewrite lc_length in Ea.
  rewrite in_map_iff. split.
  - intros (k & <- & Hk). apply in_seq in Hk. split; [|apply (skipn_suffix o 0 k); lia].
    rewrite <- Ea. apply skipn_suffix. lia.
  - intros [Ha Hm]. exists (length o - length m). split; [exact (is_suffixb_skipn _ _ Hm)|].
    apply in_seq. apply is_suffixb_length in Ha, Hm. rewrite lc_length in Ha. lia.
Qed.

Lemma zone_names_iff m : In m (zone_names apex R) <->
  is_suffixb (lc apex) m && exists_name apex R m = true.
Proof.
  unfold zone_names, exists_name. rewrite andb_true_iff, orb_true_iff, name_eqb_eq, existsb_exists.
  simpl In. rewrite in_flat_map. split.
  - intros [<-|(r & Hr & Hm)]; [split; [apply is_suffixb_refl|left; reflexivity]|].
    apply spec_nodes_of_iff in Hm; [|apply (accepted_In apex cls recs), Hr].
    split; [tauto|]. right. exists r. tauto.
  - intros [Hs [->|(r & Hr & Hsuf)]]; [left; reflexivity|]. right. exists r. split; [exact Hr|].
    apply spec_nodes_of_iff; [apply (accepted_In apex cls recs), Hr|tauto].
Qed.

Theorem build_validate :
  srel (zone_validate parse z) (spec_validate req parse apex cls wide R).
Proof.
  unfold zone_validate, spec_validate.
  destruct (build_soa_ns req req_trans apex cls wide recs z B) as (Hsoa & Hns & _). fold R in Hsoa, Hns.
  set (soa_m := match zone_soa z with Some _ => _ | None => _ end).
  set (ns_m := match zone_ns z with Some _ => _ | None => _ end).
  set (nodes_m := collect _ (zone_iter_by_node z)).
  assert (Hsoa' : map norm_issue soa_m = apex_soa_issues req apex cls R).
  { unfold soa_m. rewrite Hsoa. unfold apex_soa_issues, single_of.
    destruct (spec_rrset req cls R (lc apex) 6) as [rs|]; [|reflexivity].
    destruct (length (rs_rdatas rs) =? 1); reflexivity. }
  assert (Hnsrel : rel ns_m (apex_ns_issues req parse apex cls R)).
  { unfold ns_m. rewrite Hns. unfold apex_ns_issues, single_of.
    destruct (spec_rrset req cls R (lc apex) 2) as [rs|]; [|reflexivity].
    rewrite class_has_addrs_spec. destruct (addr_class cls); [|reflexivity].
    apply collect_rel. intros rd _. unfold rdata_name.
    destruct (parse rd) as [n|]; [apply check_apex_ns_rel|exact I]. }
  assert (Hnodes : srel nodes_m (ocollect (name_issues req parse apex cls wide R) (zone_names apex R))).
  { destruct (build_iter_nodes req req_trans apex cls wide recs z B) as (_ & Hmem & _). fold R in Hmem.
    apply collect_srel.
    - intros [n d] Hin. exists (lc n). split; [|apply scan_node_rel; exact Hin].
      apply zone_names_iff. apply Hmem. apply in_map_iff. exists (n, d). auto.
    - intros m Hm. apply zone_names_iff in Hm. apply Hmem in Hm. apply in_map_iff in Hm.
      destruct Hm as ([n d] & <- & Hin). exists (n, d). split; auto. apply scan_node_rel. exact Hin. }
  unfold rel in Hnsrel.
  destruct ns_m as [a|e|]; [|destruct e|]; destruct (apex_ns_issues req parse apex cls R) as [a'|];
    try contradiction; cbn [bind]; [|exact I].
  unfold srel in Hnodes.
  destruct nodes_m as [b|e|]; [|destruct e|];
    destruct (ocollect _ (zone_names apex R)) as [b'|]; try contradiction; cbn [bind]; [|exact I].
  unfold srel. intros i. rewrite !map_app, Hsoa', Hnsrel, !in_app_iff, Hnodes. reflexivity.
Qed.

Lemma build_validate_exact : forall l, zone_validate parse z = Ok l ->
  exists l', spec_validate req parse apex cls wide R = Some l' /\
             forall i, In i (map norm_issue l) <-> In i l'.
Proof.
  intros l Hl. pose proof build_validate as S. rewrite Hl in S. unfold srel in S.
  destruct (spec_validate req parse apex cls wide R) as [l'|]; [|contradiction].
  eauto.
Qed.

Lemma build_validate_err :
  (zone_validate parse z = Err InvalidRdata <->
   spec_validate req parse apex cls wide R = None) /\
  zone_validate parse z <> Panic /\
  (forall e, zone_validate parse z = Err e -> e = InvalidRdata).
Proof.
  pose proof build_validate as S. unfold srel in S.
  destruct (zone_validate parse z) as [l|e|]; [|destruct e|];
    destruct (spec_validate req parse apex cls wide R) as [l'|]; try contradiction.
  - split; [split; discriminate|]. split; [discriminate|]. intros e He. discriminate.
  - split; [tauto|]. split; [discriminate|]. intros e He. inversion He; auto.
Qed.

End Valid.

Lemma severity_spec i : issue_is_error i = negb (spec_is_warning i).
Proof. destruct i; reflexivity. Qed.

Lemma severity_norm i : issue_is_error (norm_issue i) = issue_is_error i.
Proof. destruct i; reflexivity. Qed.
