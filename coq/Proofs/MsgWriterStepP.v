(* AInv (numeric and anchor invariant with the ghost names of anchors and hint-vector slots) and LInv (the
   buffer below the cursor is the layout of the abstract message of the operations that succeeded): both
   are preserved by every operation under the hint contract, one proof per operation; finish; whole runs. *)
From QV Require Import Base.ListX Model.MsgWriter Spec.NameRepr Proofs.NameWireP Proofs.MsgWriterP
     Proofs.MsgWriterScanP Proofs.MsgWriterNameP Proofs.MsgWriterInvP Proofs.MsgWriterClosP
     Proofs.MsgWriterScanSP Proofs.MsgWriterNameSP Proofs.MsgWriterLayP Proofs.MsgWriterOpP.
From QV Require Import Spec.MsgWriterAbsS.

Local Open Scope nat_scope.

(* ghost: the names the three anchors and every hint-vector slot stand for (None = stale / none) *)
Record gn := mkGn { g_q : option wname; g_o : option wname; g_r : option wname;
                    g_regs : list (list (option wname)) }.

(* the label starts of the question section; AInv keeps a second closure over them (a_qc, a_qd, a_qa) so
   that the QNAME anchor survives clear_rrs, which cuts the buffer back to rr_start *)
Definition Lq (L : nat -> Prop) (rs : nat) : nat -> Prop := fun s => L s /\ s < rs.

Definition regs_ok (b : bytes) (c : nat) (L : nat -> Prop) (regs : list hvec)
           (gregs : list (list (option wname))) : Prop :=
  length regs = length gregs /\
  forall r v names i p m, nth_error regs r = Some v -> nth_error gregs r = Some names ->
    nth_error v i = Some (Some p) -> nth_error names i = Some (Some m) -> stands b c L m p.

Definition tsig_wf (t : tsigr) : Prop :=
  wf_name (t_key t) /\ wf_name (t_alg t) /\ length (t_time t) = 6 /\ length (t_server_time t) = 6 /\
  t_reserved t = tsig_unsigned_len (t_key t) (t_alg t) (t_error t) /\
  Forall wf_bytes (t_alg t) /\ wf_bytes (t_time t) /\ wf_bytes (t_server_time t) /\
  length (nm_wire (t_key t)) <= 255 /\ length (nm_wire (t_alg t)) <= 255.

Record AInv (d : dstate) (g : gn) (L : nat -> Prop) : Prop := mkAInv {
  a_n : Inv_n (d_w d);
  a_ni : NInv (d_w d) (length (w_buf (d_w d))) L;
  a_an : anch3 (d_w d) L (g_q g) (g_o g) (g_r g);
  a_qc : closed (w_buf (d_w d)) header_size (w_rr_start (d_w d)) (length (w_buf (d_w d)))
                (Lq L (w_rr_start (d_w d)));
  a_qd : decodable (w_buf (d_w d)) (w_rr_start (d_w d)) (Lq L (w_rr_start (d_w d)));
  a_qa : anch (w_buf (d_w d)) (w_rr_start (d_w d)) (Lq L (w_rr_start (d_w d))) (w_qname (d_w d)) (g_q g);
  a_regs : regs_ok (w_buf (d_w d)) (w_cursor (d_w d)) L (d_regs d) (g_regs g);
  a_ts : forall t, w_tsig (d_w d) = Some t -> tsig_wf t }.

Lemma inv_nb w : Inv_n w -> nb w.
Proof. intros []. unfold nb. split; lia. Qed.

Lemma regs_ok_transfer b lo c h L b' c0 regs gregs : closed b lo c h L -> ragree lo c h b b' ->
  regs_ok b c0 L regs gregs -> regs_ok b' c0 L regs gregs.
Proof.
  intros Hc R [Hl H]. split; auto. intros r v names i p m E1 E2 E3 E4.
  eapply stands_transfer; eauto.
Qed.

Lemma regs_ok_mono b c (L : nat -> Prop) b' c' (L' : nat -> Prop) regs gregs : regs_ok b c L regs gregs ->
  agree c b b' -> c <= c' -> (forall s, L s -> L' s) -> regs_ok b' c' L' regs gregs.
Proof.
  intros [Hl H] Ha Hc HLL. split; auto. intros r v names i p m E1 E2 E3 E4.
  eapply stands_mono; eauto.
Qed.

Lemma regs_ok_snoc b c L regs gregs v names : regs_ok b c L regs gregs ->
  (forall i p m, nth_error v i = Some (Some p) -> nth_error names i = Some (Some m) -> stands b c L m p) ->
  regs_ok b c L (regs ++ [v]) (gregs ++ [names]).
Proof.
  intros [Hl H] Hv. split; [rewrite !app_length; simpl; lia|].
  intros r v0 names0 i p m E1 E2 E3 E4.
  apply nth_error_snoc in E1. apply nth_error_snoc in E2.
  destruct E1 as [[R1 E1]|[R1 ->]]; destruct E2 as [[R2 E2]|[R2 ->]]; try lia; eauto.
Qed.

Record lay := mkLay { y_qs : list lq; y_rrs : list lrr }.

Definition q_desc (q : lq) (a : aq) : Prop :=
  (nc_name (lq_name q) = aq_name a /\ nc_cp (lq_name q) = aq_exact a /\ lq_ty q = aq_ty a /\ lq_cl q = aq_cl a) /\
  (aq_mode a = Disabled -> nc_sh (lq_name q) = None).
Definition rr_desc2 (r : lrr) (a : arr) : Prop :=
  rr_desc r (ar_owner a) (ar_exact a) (ar_ty a) (ar_cl a) (ar_ttl a)
          (component_types (ar_cl a) (ar_ty a)) (ar_rd a) /\
  (ar_mode a = Disabled -> rr_plain r).

(* physical part: questions tile [12, rr_start), records tile [rr_start, cursor); L is exactly the
   set of label starts of the name chunks of the layout *)
Record PLay (b : bytes) (L : nat -> Prop) (y : lay) (rs c : nat) : Prop := mkPLay {
  p_qs : qs_at b L (y_qs y) header_size rs;
  p_rrs : rrs_at b L (y_rrs y) rs c;
  p_tight : forall s, L s <-> In s (qs_starts (y_qs y) ++ rrs_starts (y_rrs y)) }.

Definition b2N (x : bool) : N := if x then 1%N else 0%N.
Definition osome {A} (o : option A) : bool := match o with Some _ => true | None => false end.

Record FLay (w : writer) (y : lay) (A : amsg) : Prop := mkFLay {
  f_qd : Forall2 q_desc (y_qs y) (am_qs A);
  f_rd : Forall2 rr_desc2 (y_rrs y) (am_an A ++ am_ns A ++ am_ar A);
  f_mode : am_mode A = w_mode w;
  f_cq : w_qd w = N.of_nat (length (am_qs A));
  f_ca : w_an w = N.of_nat (length (am_an A));
  f_cn : w_ns w = N.of_nat (length (am_ns A));
  f_cr : w_ar w = (N.of_nat (length (am_ar A)) + b2N (osome (w_edns w)) + b2N (osome (w_tsig w)))%N;
  f_bd : (w_qd w <= 65535 /\ w_an w <= 65535 /\ w_ns w <= 65535 /\ w_ar w <= 65535)%N;
  f_ed : forall e, w_edns w = Some e -> (e_udp e < 65536 /\ e_upper e < 256)%N;
  f_sec : match w_section w with
          | SecQuestion => am_an A = [] /\ am_ns A = [] /\ am_ar A = []
          | SecAnswer => am_ns A = [] /\ am_ar A = []
          | SecAuthority => am_ar A = []
          | SecAdditional => True
          end }.

Definition LInv (d : dstate) (y : lay) (A : amsg) (L : nat -> Prop) : Prop :=
  PLay (w_buf (d_w d)) L y (w_rr_start (d_w d)) (w_cursor (d_w d)) /\ FLay (d_w d) y A.

Lemma PLay_transfer b h L b' y rs c : closed b header_size c h L -> ragree header_size c h b b' ->
  c <= length b -> c <= h -> PLay b L y rs c -> PLay b' L y rs c.
Proof.
  intros Hc R Hlen Hh [P1 P2 P3]. pose proof (qs_le _ _ _ _ _ P1). pose proof (rrs_le _ _ _ _ _ P2).
  constructor; auto.
  - eapply qs_transfer; eauto; try (unfold okr; lia).
  - eapply rrs_transfer; eauto; try (unfold okr; lia).
Qed.

Lemma PLay_app b (L : nat -> Prop) y rs c b2 (L2 : nat -> Prop) c2 rsn : PLay b L y rs c ->
  agree c b b2 -> (forall s, L s -> L2 s) ->
  rrs_at b2 L2 rsn c c2 -> (forall s, L2 s <-> L s \/ In s (rrs_starts rsn)) ->
  PLay b2 L2 (mkLay (y_qs y) (y_rrs y ++ rsn)) rs c2.
Proof.
  intros [P1 P2 P3] Ag G R T. pose proof (rrs_le _ _ _ _ _ P2). constructor; simpl.
  - eapply qs_mono; [apply G|]. eapply qs_append; eauto.
  - eapply rrs_at_app; [|exact R]. eapply rrs_mono; [apply G|]. eapply rrs_append; eauto.
  - intros s. rewrite T, P3, rrs_starts_app, !in_app_iff. tauto.
Qed.

Lemma FLay_fields w w' y A : FLay w y A -> w_mode w' = w_mode w -> w_qd w' = w_qd w -> w_an w' = w_an w ->
  w_ns w' = w_ns w -> w_ar w' = w_ar w -> w_section w' = w_section w ->
  w_edns w' = w_edns w -> osome (w_tsig w') = osome (w_tsig w) -> FLay w' y A.
Proof. intros [] E1 E2 E3 E4 E5 E6 E7 E8. constructor; rewrite ?E1, ?E2, ?E3, ?E4, ?E5, ?E6, ?E7, ?E8; auto. Qed.

Lemma LInv_regs d y A L regs' : LInv d y A L -> LInv (mkD (d_w d) regs') y A L.
Proof. intros H. exact H. Qed.

(* [d'] has the invariants of [d] for the same label starts and, whatever they are, the same layout
   and abstract message *)
Definition keeps (d : dstate) (g : gn) (L : nat -> Prop) (d' : dstate) (g' : gn) : Prop :=
  AInv d' g' L /\ forall y A, LInv d y A L -> LInv d' y A L.

Lemma AInv_move d g L w' : AInv d g L -> Inv_n w' ->
  ragree header_size (w_cursor (d_w d)) (length (w_buf (d_w d))) (w_buf (d_w d)) (w_buf w') ->
  w_cursor w' = w_cursor (d_w d) -> w_rr_start w' = w_rr_start (d_w d) ->
  w_qname w' = w_qname (d_w d) -> w_mro w' = w_mro (d_w d) -> w_mrn w' = w_mrn (d_w d) ->
  (forall t, w_tsig w' = Some t -> tsig_wf t) ->
  AInv (mkD w' (d_regs d)) g L.
Proof.
  destruct d as [w regs]. simpl. intros [Hn Hi Ha Hqc Hqd Hqa Hr Ht] Hn' R Ec Ers Eq Eo Er Ht'. simpl in *.
  pose proof (inv_nb _ Hn') as [N1 N2].
  destruct Hi as [_ Hlo _ Hcl Hd [Pq [Po Pr]] HL Hsd].
  assert (Hrs : w_rr_start w <= w_cursor w) by apply Hn.
  assert (Rq : ragree header_size (w_rr_start w) (length (w_buf w)) (w_buf w) (w_buf w'))
    by (eapply ragree_le; eauto).
  assert (Tp : forall o, (forall pr, o = Some pr -> L (p_ptr pr)) -> oprior_ok (w_buf w) (w_cursor w) o ->
                         oprior_ok (w_buf w') (w_cursor w) o).
  { intros [pr|] HLp P; simpl; auto. eapply (prior_ok_transfer _ _ _ _ L); eauto. }
  constructor; simpl; auto.
  - constructor.
    + split; auto.
    + lia.
    + left. lia.
    + rewrite Ec. eapply closed_rehole; [eapply closed_transfer; eauto|lia].
    + rewrite Ec. eapply (decodable_transfer _ _ _ _ L); eauto.
    + unfold priors_ok. rewrite Ec, Eq, Eo, Er. repeat split; apply Tp; auto.
    + rewrite Eq, Eo, Er. exact HL.
    + rewrite Ec. eapply (sdec_transfer _ _ _ _ L); eauto. lia.
  - destruct Ha as [A1 [A2 A3]]. unfold anch3. rewrite Ec, Eq, Eo, Er.
    repeat split; eapply (anch_transfer _ _ _ _ L); eauto.
  - rewrite Ers. eapply closed_rehole; [eapply closed_transfer; eauto|]. rewrite <- Ers. destruct Hn'. lia.
  - rewrite Ers. eapply decodable_transfer; eauto.
  - rewrite Ers, Eq. eapply anch_transfer; eauto.
  - rewrite Ec. eapply (regs_ok_transfer _ _ _ _ L); eauto.
Qed.

Lemma keeps_move d g L w' : AInv d g L -> Inv_n w' ->
  ragree header_size (w_cursor (d_w d)) (length (w_buf (d_w d))) (w_buf (d_w d)) (w_buf w') ->
  w_cursor w' = w_cursor (d_w d) -> w_rr_start w' = w_rr_start (d_w d) ->
  w_qname w' = w_qname (d_w d) -> w_mro w' = w_mro (d_w d) -> w_mrn w' = w_mrn (d_w d) ->
  (forall t, w_tsig w' = Some t -> tsig_wf t) -> (forall y A, FLay (d_w d) y A -> FLay w' y A) ->
  keeps d g L (mkD w' (d_regs d)) g.
Proof.
  intros Hi Hn' R Ec Ers Eq Eo Er Ht' HF. split; [apply AInv_move; auto|].
  intros y A [HP HF0]. split; [|apply HF; exact HF0]. simpl. rewrite Ec, Ers.
  pose proof (a_n _ _ _ Hi) as []. pose proof (a_ni _ _ _ Hi) as Hni.
  eapply PLay_transfer; eauto; try lia. apply Hni.
Qed.

Lemma keeps_fields d g L w' : AInv d g L -> Inv_n w' -> w_buf w' = w_buf (d_w d) ->
  w_cursor w' = w_cursor (d_w d) -> w_rr_start w' = w_rr_start (d_w d) ->
  w_qname w' = w_qname (d_w d) -> w_mro w' = w_mro (d_w d) -> w_mrn w' = w_mrn (d_w d) ->
  (forall t, w_tsig w' = Some t -> tsig_wf t) -> (forall y A, FLay (d_w d) y A -> FLay w' y A) ->
  keeps d g L (mkD w' (d_regs d)) g.
Proof. intros Hi Hn Eb. intros. apply keeps_move; auto. rewrite Eb. apply ragree_refl. Qed.

Lemma keeps_refl d g L : AInv d g L -> keeps d g L d g.
Proof. split; auto. Qed.

Lemma keeps_eta d g L : AInv d g L -> keeps d g L (mkD (d_w d) (d_regs d)) g.
Proof. destruct d. apply keeps_refl. Qed.

Lemma keeps_obs d g L w' : AInv d g L -> obs_eq (d_w d) w' -> keeps d g L (mkD w' (d_regs d)) g.
Proof.
  intros Hi X. apply keeps_move; auto; try apply X.
  - eapply obs_eq_inv; eauto. apply Hi.
  - apply agree_ragree. apply X.
  - intros t E. apply (a_ts _ _ _ Hi). rewrite <- (o_tsig _ _ X). exact E.
  - intros y A HF. eapply FLay_fields; eauto; try apply X. rewrite (o_tsig _ _ X). reflexivity.
Qed.

Lemma AInv_ghost_eq d g g' L : AInv d g L -> g_q g' = g_q g -> g_o g' = g_o g -> g_r g' = g_r g ->
  g_regs g' = g_regs g -> AInv d g' L.
Proof. intros [] E1 E2 E3 E4. constructor; rewrite ?E1, ?E2, ?E3, ?E4; auto. Qed.

(* a failed record operation hands an empty (unusable) vector to the register file *)
Lemma keeps_err d g L w' (vec : bool) : AInv d g L -> obs_eq (d_w d) w' ->
  keeps d g L (mkD w' (d_regs d ++ if vec then [[]] else []))
        (mkGn (g_q g) (g_o g) (g_r g) (g_regs g ++ if vec then [[]] else [])).
Proof.
  intros Hi X. destruct (keeps_obs _ _ _ _ Hi X) as [[Hn Hni Ha Hqc Hqd Hqa Hr Ht] H2]. split; [|exact H2].
  destruct vec.
  - constructor; simpl; auto. apply regs_ok_snoc; auto. intros i p m E. destruct i; discriminate.
  - constructor; simpl; rewrite ?app_nil_r; auto.
Qed.

Lemma hdr_write_keeps d g L pos data : AInv d g L -> pos + length data <= header_size ->
  exists w', w_write (d_w d) pos data = Ok w' /\ keeps d g L (mkD w' (d_regs d)) g /\
             w_edns w' = w_edns (d_w d) /\ w_tsig w' = w_tsig (d_w d).
Proof.
  intros Hi Hp. pose proof (a_n _ _ _ Hi) as Hn.
  destruct (buf_write_some (w_buf (d_w d)) pos data) as [b' Hb]; [destruct Hn; lia|].
  unfold w_write. rewrite Hb. eexists. split; [reflexivity|].
  split; [|split; reflexivity].
  apply keeps_move; auto.
  - apply inv_set_buf; auto. eapply buf_write_length; eauto.
  - simpl. eapply buf_write_ragree; eauto.
  - simpl. apply (a_ts _ _ _ Hi).
  - intros y A HF. eapply FLay_fields; eauto.
Qed.

Lemma hdr_modify_keeps d g L i f : AInv d g L -> N.to_nat i < header_size ->
  exists w', w_modify (d_w d) i f = Ok w' /\ keeps d g L (mkD w' (d_regs d)) g /\
             w_edns w' = w_edns (d_w d) /\ w_tsig w' = w_tsig (d_w d).
Proof.
  intros Hi Hp. pose proof (a_n _ _ _ Hi) as Hn. unfold w_modify.
  destruct (nth_error (w_buf (d_w d)) (N.to_nat i)) as [x|] eqn:E.
  - apply hdr_write_keeps; auto. simpl. lia.
  - apply nth_error_None in E. destruct Hn. lia.
Qed.

Definition hs_contract (regs : list hvec) (g : gn) (h : hintsrc) (n : wname) : Prop :=
  match h with
  | HsQname => forall m, g_q g = Some m -> name_eq false n m
  | HsOwner => forall m, g_o g = Some m -> name_eq false n m
  | HsRdata => forall m, g_r g = Some m -> name_eq false n m
  | HsReg r i => forall v p, nth_error regs r = Some v -> nth_error v i = Some (Some p) ->
                 exists names m, nth_error (g_regs g) r = Some names /\
                                 nth_error names i = Some (Some m) /\ name_eq false n m
  | HsNone => True
  end.

(* hints are only looked at in standard compression mode *)
Definition op_contract (d : dstate) (g : gn) (o : wop) : Prop :=
  match o with
  | OAddRr _ h n _ _ _ _ _ => w_mode (d_w d) = Standard -> hs_contract (d_regs d) g h n
  | OAddRrset _ h n _ _ _ _ _ => w_mode (d_w d) = Standard -> hs_contract (d_regs d) g h n
  | _ => True
  end.

Lemma hinted_nonstd h n w : w_mode w <> Standard -> write_hinted_name h n w = write_hinted_name HNone n w.
Proof. intros Hm. unfold write_hinted_name. destruct (w_mode w); congruence. Qed.

Lemma add_rr_nonstd h owner ty cl ttl rd v w : w_mode w <> Standard ->
  add_rr h owner ty cl ttl rd v w = add_rr HNone owner ty cl ttl rd v w.
Proof. intros Hm. unfold add_rr. rewrite (hinted_nonstd h owner w Hm). reflexivity. Qed.

Lemma rrset_loop_nonstd h owner ty cl ttl rds v k w : w_mode w <> Standard ->
  add_rrset_loop h owner ty cl ttl rds v k w = add_rrset_loop HNone owner ty cl ttl rds v k w.
Proof. intros Hm. destruct rds as [|rd rest]; [reflexivity|]. simpl. rewrite (add_rr_nonstd h _ _ _ _ _ _ _ Hm). reflexivity. Qed.

Lemma change_section_mode s w u w1 : change_section s w = Ok (u, w1) -> w_mode w1 = w_mode w.
Proof. unfold change_section. destruct s; destruct (w_section w); intros H; inversion H; subst; reflexivity. Qed.

Lemma step_rr_rrset d s h n ty cl ttl rd vec :
  step d (OAddRr s h n ty cl ttl rd vec) = step d (OAddRrset s h n ty cl ttl [rd] vec).
Proof. cbn [step]. rewrite add_section_rr_rrset. reflexivity. Qed.

Lemma step_rrset_nonstd d s h n ty cl ttl rds vec : w_mode (d_w d) <> Standard ->
  step d (OAddRrset s h n ty cl ttl rds vec) = step d (OAddRrset s HsNone n ty cl ttl rds vec).
Proof.
  intros Hm. cbn [step]. f_equal. unfold add_section_rrset, with_rollback.
  destruct (change_section s (d_w d)) as [[[] w1]|[e w1]|] eqn:E; cbn [bind]; auto.
  rewrite (rrset_loop_nonstd (resolve_hint (d_regs d) h)); [reflexivity|].
  rewrite (change_section_mode _ _ _ _ E). exact Hm.
Qed.

Lemma step_rr_nonstd d s h n ty cl ttl rd vec : w_mode (d_w d) <> Standard ->
  step d (OAddRr s h n ty cl ttl rd vec) = step d (OAddRr s HsNone n ty cl ttl rd vec).
Proof. rewrite !step_rr_rrset. apply step_rrset_nonstd. Qed.

Definition op_wf (o : wop) : Prop :=
  match o with
  | OAddQuestion n _ _ => wf_name n
  | OAddRr _ _ n _ _ _ rd _ => wf_name n /\ wf_bytes rd
  | OAddRrset _ _ n _ _ _ rds _ => wf_name n /\ Forall wf_bytes rds
  | OSetTsig alg key time _ _ _ stime =>
    wf_name alg /\ wf_name key /\ length time = 6 /\ length stime = 6 /\
    Forall wf_bytes alg /\ wf_bytes time /\ wf_bytes stime /\
    length (nm_wire key) <= 255 /\ length (nm_wire alg) <= 255
  | OSetEdns udp => (udp < 65536)%N
  | OUpdateTime t => length t = 6 /\ wf_bytes t
  | _ => True
  end.

Definition gstep (d : dstate) (g : gn) (o : wop) (r : outcome) : gn :=
  match o, r with
  | OAddQuestion n _ _, RUnit =>
    if (w_qd (d_w d) =? 0)%N then mkGn (Some n) (g_o g) (g_r g) (g_regs g) else g
  | OAddRr _ _ n ty cl _ rd vec, RUnit =>
    let names := rd_names (component_types cl ty) rd in
    mkGn (g_q g) (Some n) (lastn names (g_r g)) (g_regs g ++ if vec then [map Some names] else [])
  | OAddRrset _ _ n ty cl _ rds vec, RUnit =>
    let names := rds_names (component_types cl ty) rds in
    mkGn (g_q g) (match rds with [] => g_o g | _ => Some n end) (lastn names (g_r g))
         (g_regs g ++ if vec then [map Some names] else [])
  | OAddRr _ _ _ _ _ _ _ vec, RErr _ | OAddRrset _ _ _ _ _ _ _ vec, RErr _ =>
    mkGn (g_q g) (g_o g) (g_r g) (g_regs g ++ if vec then [[]] else [])
  | OClearRrs, _ => mkGn (g_q g) None None (map (map (fun _ => None)) (g_regs g))
  | _, _ => g
  end.

Lemma contract_ok d g L h n : AInv d g L -> hs_contract (d_regs d) g h n -> wf_name n ->
  hint_contract (resolve_hint (d_regs d) h) n (d_w d) /\ hint_in (resolve_hint (d_regs d) h) (d_w d) L.
Proof.
  intros Hi Hc Hwf. pose proof (a_ni _ _ _ Hi) as Hni. destruct (a_an _ _ _ Hi) as [A1 [A2 A3]].
  assert (Han : forall o go, anch (w_buf (d_w d)) (w_cursor (d_w d)) L o go ->
                  (forall m, go = Some m -> name_eq false n m) -> forall pr, o = Some pr -> hinted n (d_w d) pr).
  { intros o go Ao Hg pr E. destruct (Ao pr E) as [m [Em [St Hl]]]. eapply stands_hinted; eauto. }
  destruct h as [| | |r i|]; simpl in *; eauto.
  destruct (nth_error (d_regs d) r) as [v|] eqn:Er; simpl; auto.
  destruct (nth_error v i) as [[p|]|] eqn:Ei; simpl; auto.
  destruct (Hc v p eq_refl Ei) as [names [m [En [Em Hnm]]]].
  destruct (a_regs _ _ _ Hi) as [_ Hr].
  pose proof (Hr r v names i p m Er En Ei Em) as St.
  split; [|intros _; apply St].
  intros _. eapply stands_hinted; eauto.
  unfold prior_new. cbn [p_len]. rewrite (nm_len_small n Hwf). unfold nm_len. rewrite (name_eq_length _ _ _ Hnm). reflexivity.
Qed.

Lemma Lq_grew w w' (L L' : nat -> Prop) rs : grew w w' L L' -> rs <= w_cursor w ->
  forall s, Lq L rs s <-> Lq L' rs s.
Proof.
  intros [G1 G2] Hrs s. unfold Lq. split; intros [A B]; split; auto.
  destruct (G2 s A); auto. lia.
Qed.

Lemma decodable_sub b c (S S' : nat -> Prop) : (forall s, S' s -> S s) -> decodable b c S -> decodable b c S'.
Proof. intros H D s Hs. apply D. auto. Qed.

Lemma anch_sub b c (L L' : nat -> Prop) o g : anch b c L o g ->
  (forall pr, o = Some pr -> L' (p_ptr pr)) -> anch b c L' o g.
Proof.
  intros H HL pr E. destruct (H pr E) as [m [G [[S1 S2] S3]]]. exists m. split; auto. split; auto.
  split; auto.
Qed.

Lemma AInv_rr d g L w' L' go' gr' regs' gregs' :
  AInv d g L -> ext (w_cursor (d_w d)) (d_w d) w' -> w_qname w' = w_qname (d_w d) ->
  grew (d_w d) w' L L' -> NInv w' (length (w_buf w')) L' -> anch3 w' L' (g_q g) go' gr' ->
  regs_ok (w_buf w') (w_cursor w') L' regs' gregs' ->
  AInv (mkD w' regs') (mkGn (g_q g) go' gr' gregs') L'.
Proof.
  destruct d as [w regs]. simpl. intros [Hn Hi Ha Hqc Hqd Hqa Hr Ht] X Eq G Hi' A' R'. simpl in *.
  pose proof (inv_ext _ _ _ Hn X) as Hn'.
  assert (Hrs : w_rr_start w <= w_cursor w) by apply Hn.
  pose proof (x_rs _ _ _ X) as Ers. pose proof (x_len _ _ _ X) as El.
  assert (Ag : agree (w_rr_start w) (w_buf w) (w_buf w')) by (eapply agree_le; [apply X|lia]).
  assert (Rq : ragree header_size (w_rr_start w) (length (w_buf w)) (w_buf w) (w_buf w'))
    by (apply agree_ragree; auto).
  pose proof (Lq_grew _ _ _ _ _ G Hrs) as Eqv.
  constructor; simpl; auto.
  - rewrite Ers, El. apply (closed_equiv _ _ _ _ (Lq L (w_rr_start w)) (Lq L' (w_rr_start w)) Eqv).
    eapply (closed_transfer _ _ _ _ (Lq L (w_rr_start w))); eauto.
  - rewrite Ers. apply (decodable_sub _ _ (Lq L (w_rr_start w))); [intros s Hs; apply Eqv; exact Hs|].
    eapply (decodable_transfer _ _ _ _ (Lq L (w_rr_start w))); eauto.
  - rewrite Ers, Eq. eapply anch_mono; eauto. intros s Hs. apply Eqv. exact Hs.
  - intros t E. apply Ht. rewrite <- (x_tsig _ _ _ X). exact E.
Qed.

Lemma inv_set_sec_count s w c : Inv_n w -> Inv_n (set_sec_count s w c).
Proof. intros []. destruct s; constructor; simpl; auto. Qed.

Lemma AInv_set_sec_count d g L s c : AInv d g L ->
  AInv (mkD (set_sec_count s (d_w d) c) (d_regs d)) g L.
Proof.
  intros Hi. apply AInv_move; auto; try (destruct s; reflexivity).
  - apply inv_set_sec_count. apply Hi.
  - replace (w_buf (set_sec_count s (d_w d) c)) with (w_buf (d_w d)) by (destruct s; reflexivity).
    apply ragree_refl.
  - intros t E. apply (a_ts _ _ _ Hi). destruct s; exact E.
Qed.

Lemma set_section_id w : w = set_section w (w_section w).
Proof. destruct w; reflexivity. Qed.

Lemma change_section_ok s w u w1 : change_section s w = Ok (u, w1) ->
  w1 = set_section w s /\
  match s with
  | SecQuestion => False
  | SecAnswer => w_section w = SecQuestion \/ w_section w = SecAnswer
  | SecAuthority => w_section w <> SecAdditional
  | SecAdditional => True
  end.
Proof.
  unfold change_section. destruct s; destruct (w_section w) eqn:E; intros H; inversion H; subst;
    split; auto; try discriminate; try (rewrite <- E; apply set_section_id).
Qed.

Lemma change_section_inv s w u w1 : change_section s w = Ok (u, w1) -> exists x, w1 = set_section w x.
Proof. intros H. apply change_section_ok in H as [-> _]. eauto. Qed.

Lemma change_section_err s w e w1 : change_section s w = Err (e, w1) -> w1 = w.
Proof. unfold change_section. destruct s; destruct (w_section w); intros H; inversion H; auto. Qed.

Lemma change_section_no_panic s w : change_section s w <> Panic.
Proof. unfold change_section. destruct s; destruct (w_section w); discriminate. Qed.

Lemma NInv_set_section w h L x : NInv w h L -> NInv (set_section w x) h L.
Proof. intros []. constructor; auto. Qed.

Lemma ext_unsection c0 w x w' : ext c0 (set_section w x) w' -> ext c0 w w'.
Proof. intros []. constructor; auto. Qed.

Lemma vec0_ok b c L (vec : bool) : vec_ok b c L (if vec then Some [] else None) [].
Proof. destruct vec; simpl; auto. split; [reflexivity|]. intros i p m E. destruct i; discriminate. Qed.

Lemma regs_after b c L regs gregs (vec : bool) v' names : regs_ok b c L regs gregs ->
  vec_ok b c L v' names -> vsome v' = vsome (if vec then Some [] else None) ->
  regs_ok b c L (regs ++ match v' with Some l => [l] | None => [] end)
          (gregs ++ if vec then [map Some names] else []).
Proof.
  intros R V Vs. destruct vec; destruct v' as [l|]; simpl in Vs; try discriminate.
  - apply regs_ok_snoc; auto. destruct V as [_ V]. intros i p m E1 E2.
    rewrite nth_error_map in E2. destruct (nth_error names i) as [m'|] eqn:E; simpl in E2; [|discriminate].
    inversion E2; subst m'. eauto.
  - rewrite !app_nil_r. exact R.
Qed.

Lemma ttl_from_rfc raw : ttl_from raw = ttl_rfc raw.
Proof.
  unfold ttl_from, ttl_rfc. change TTL_MAX with 2147483647%N.
  destruct (2147483647 <? raw)%N eqn:E1; destruct (raw <=? 2147483647)%N eqn:E2; auto.
  - apply N.ltb_lt in E1. apply N.leb_le in E2. lia.
  - apply N.ltb_ge in E1. apply N.leb_gt in E2. lia.
Qed.

Lemma exactf_of m : exactf m = exact_of m.
Proof. destruct m; reflexivity. Qed.

Lemma checked_add16_some a b c : checked_add16 a b = Some c -> c = (a + b)%N /\ (c <= 65535)%N.
Proof.
  unfold checked_add16. destruct (65535 <? a + b)%N eqn:E; intros H; inversion H; subst.
  apply N.ltb_ge in E. auto.
Qed.

Lemma FLay_add w y A s w2 c rsn asn : FLay w y A ->
  match s with
  | SecQuestion => False
  | SecAnswer => w_section w = SecQuestion \/ w_section w = SecAnswer
  | SecAuthority => w_section w <> SecAdditional
  | SecAdditional => True
  end ->
  w_section w2 = s -> w_mode w2 = w_mode w -> w_qd w2 = w_qd w -> w_an w2 = w_an w -> w_ns w2 = w_ns w ->
  w_ar w2 = w_ar w -> w_edns w2 = w_edns w -> w_tsig w2 = w_tsig w ->
  Forall2 rr_desc2 rsn asn -> checked_add16 (sec_count s w2) (N.of_nat (length asn)) = Some c ->
  FLay (set_sec_count s w2 c) (mkLay (y_qs y) (y_rrs y ++ rsn)) (add_rrs A s asn).
Proof.
  intros [Fq Fr Fm Cq Ca Cn Cr [Bq [Ba [Bn Br]]] Fe Fs] Hs Es Em Eq Ea En Er Ee Et Hd Hc.
  apply checked_add16_some in Hc as [Hc Hb].
  destruct s; [contradiction| | |].
  -
    assert (Hnil : am_ns A = [] /\ am_ar A = []).
    { destruct Hs as [K|K]; rewrite K in Fs; tauto. }
    destruct Hnil as [N1 N2]. rewrite N1, N2 in Fr. rewrite !app_nil_r in Fr.
    constructor; simpl; auto; try congruence.
    + rewrite N1, N2, !app_nil_r. apply Forall2_app; auto.
    + simpl in Hc. rewrite Hc, Ea, Ca, app_length. lia.
    + simpl in Hb. rewrite Eq, En, Er. auto.
    + intros e0 He0. apply Fe. congruence.
    + rewrite Es. auto.
  -
    assert (Hnil : am_ar A = []).
    { destruct (w_section w); try tauto. }
    rewrite Hnil in Fr. rewrite !app_nil_r in Fr.
    constructor; simpl; auto; try congruence.
    + rewrite Hnil, !app_nil_r. rewrite app_assoc. apply Forall2_app; auto.
    + simpl in Hc. rewrite Hc, En, Cn, app_length. lia.
    + simpl in Hb. rewrite Eq, Ea, Er. auto.
    + intros e0 He0. apply Fe. congruence.
    + rewrite Es. auto.
  -
    constructor; simpl; auto; try congruence.
    + rewrite !app_assoc. apply Forall2_app; auto. rewrite <- app_assoc. exact Fr.
    + simpl in Hc. rewrite Hc, Er, Cr, Ee, Et, app_length. lia.
    + simpl in Hb. rewrite Eq, Ea, En. auto.
    + intros e0 He0. apply Fe. congruence.
    + rewrite Es. auto.
Qed.

Definition step_ok (d : dstate) (g : gn) (o : wop) : Prop :=
  match step d o with
  | Ok (d', r) => exists L', AInv d' (gstep d g o r) L'
  | _ => False
  end.

(* the anchor invariant, and with it the layout invariant for whatever layout and abstract message the
   state had *)
Definition step_pres (d : dstate) (g : gn) (L : nat -> Prop) (o : wop) : Prop :=
  match step d o with
  | Ok (d', r) => exists L', AInv d' (gstep d g o r) L' /\
                    forall y A, LInv d y A L -> exists y', LInv d' y' (astep A o r) L'
  | _ => False
  end.

Lemma keeps_pres d g L d' g' : keeps d g L d' g' ->
  exists L', AInv d' g' L' /\ forall y A, LInv d y A L -> exists y', LInv d' y' A L'.
Proof. intros [H1 H2]. exists L. split; [exact H1|]. intros y A HL. exists y. auto. Qed.

(* a record section [rsn] appended by a record operation under [with_rollback] *)
Lemma rrs_added d g L s w2 L' go' gr' v' (vec : bool) names c rsn asn :
  AInv d g L -> change_section s (d_w d) = Ok (tt, set_section (d_w d) s) ->
  ext (w_cursor (d_w d)) (d_w d) w2 -> w_section w2 = s -> w_qname w2 = w_qname (d_w d) ->
  grew (d_w d) w2 L L' -> NInv w2 (length (w_buf w2)) L' -> anch3 w2 L' (g_q g) go' gr' ->
  vec_ok (w_buf w2) (w_cursor w2) L' v' names -> vsome v' = vsome (if vec then Some [] else None) ->
  rrs_at (w_buf w2) L' rsn (w_cursor (d_w d)) (w_cursor w2) ->
  (forall s0, L' s0 <-> L s0 \/ In s0 (rrs_starts rsn)) ->
  Forall2 rr_desc2 rsn asn -> checked_add16 (sec_count s w2) (N.of_nat (length asn)) = Some c ->
  let d' := mkD (set_sec_count s w2 c) (d_regs d ++ match v' with Some l => [l] | None => [] end) in
  AInv d' (mkGn (g_q g) go' gr' (g_regs g ++ if vec then [map Some names] else [])) L' /\
  forall y A, LInv d y A L -> LInv d' (mkLay (y_qs y) (y_rrs y ++ rsn)) (add_rrs A s asn) L'.
Proof.
  intros Hi Ecs F Es Eq G' Hi' A' V' Vs R Rt Hd Ec d'. split.
  - apply (AInv_set_sec_count (mkD w2 _) _ L' s c).
    apply (AInv_rr d g L w2 L'); auto.
    eapply regs_after; eauto.
    eapply regs_ok_mono; [apply (a_regs _ _ _ Hi)|apply F|apply F|apply G'].
  - intros y A [HP HF]. destruct (change_section_ok _ _ _ _ Ecs) as [_ Hsec].
    pose proof (a_n _ _ _ Hi) as []. split.
    + assert (PL : PLay (w_buf w2) L' (mkLay (y_qs y) (y_rrs y ++ rsn)) (w_rr_start (d_w d)) (w_cursor w2)).
      { eapply PLay_app; eauto; [apply F|apply G']. }
      destruct s; simpl; rewrite ?(x_rs _ _ _ F); exact PL.
    + apply (FLay_add (d_w d) y A s w2 c rsn asn); auto; apply F.
Qed.

Lemma Forall2_map_r {A B C} (P : A -> C -> Prop) (f : B -> C) l1 l2 :
  Forall2 (fun a b => P a (f b)) l1 l2 -> Forall2 P l1 (map f l2).
Proof. induction 1; simpl; constructor; auto. Qed.

Lemma step_rrset d g L s h n ty cl ttl rds vec : AInv d g L -> wf_name n -> Forall wf_bytes rds ->
  hs_contract (d_regs d) g h n -> step_pres d g L (OAddRrset s h n ty cl ttl rds vec).
Proof.
  intros Hi Hwf Hrd Hc. unfold step_pres.
  pose proof (step_good_all d (OAddRrset s h n ty cl ttl rds vec) (a_n _ _ _ Hi)) as G.
  destruct (contract_ok d g L h n Hi Hc Hwf) as [Hh HhL].
  cbn [step] in *. unfold add_section_rrset, with_rollback in *.
  destruct (change_section s (d_w d)) as [[[] w1]|[e w1]|] eqn:Ecs; cbn [bind] in *.
  3:{ eapply change_section_no_panic; eauto. }
  2:{ simpl in G. cbn [of_Mv gstep astep]; eapply keeps_pres, keeps_err; auto. }
  destruct (change_section_ok _ _ _ _ Ecs) as [-> _].
  pose proof (rrset_L n ty cl (ttl_from ttl) (g_q g) rds (resolve_hint (d_regs d) h) (if vec then Some [] else None) 0
                (set_section (d_w d) s) L [] (g_o g) (g_r g)
                (NInv_set_section _ _ _ s (a_ni _ _ _ Hi)) (a_an _ _ _ Hi) (vec0_ok _ _ _ vec) Hwf Hrd Hh HhL) as P.
  assert (Hpre : pre (w_cursor (d_w d)) (set_section (d_w d) s)).
  { split; simpl; [lia|]. apply (a_n _ _ _ Hi). }
  pose proof (frame_rrset_loop (w_cursor (d_w d)) rds (resolve_hint (d_regs d) h) n ty cl (ttl_from ttl)
                (if vec then Some [] else None) 0 _ Hpre) as F.
  destruct (add_rrset_loop (resolve_hint (d_regs d) h) n ty cl (ttl_from ttl) rds (if vec then Some [] else None) 0
                   (set_section (d_w d) s)) as [[[v' k] w2]|[e w2]|]; simpl in P, F; cbn [bind] in *; auto.
  2:{ simpl in G. cbn [of_Mv gstep astep]; eapply keeps_pres, keeps_err; auto. }
  destruct (65535 <? N.of_nat k)%N; simpl in G.
  { cbn [of_Mv gstep astep]; eapply keeps_pres, keeps_err; auto. }
  destruct (checked_add16 (sec_count s w2) (N.of_nat k)) as [c|] eqn:Ec; simpl in G.
  2:{ cbn [of_Mv gstep astep]; eapply keeps_pres, keeps_err; auto. }
  destruct P as [L' [rs [G' Hi' A' V' Vs Hk _ _ Hq' Sf R Rd Rt Rpl]]]. simpl in Hq', Sf, R, Rpl, Hk.
  apply ext_unsection in F.
  destruct (rrs_added d g L s w2 L' _ _ v' vec _ c rs (map (mkAR n (w_mode (d_w d)) ty cl (ttl_rfc ttl)) rds)
              Hi Ecs F Sf Hq' G' Hi' A' V' Vs R Rt) as [H1 H2].
  - apply Forall2_map_r. unfold rr_desc2, ar_exact. simpl. rewrite <- exactf_of, <- ttl_from_rfc. simpl in Rd.
    clear - Rd Rpl. induction Rd as [|r rd rs0 rds0 Hr _ IH]; constructor.
    + split; auto. intros Hd. specialize (Rpl Hd). inversion Rpl; auto.
    + apply IH. intros Hd. specialize (Rpl Hd). inversion Rpl; auto.
  - rewrite map_length. subst k. exact Ec.
  - exists L'. split; [exact H1|]. intros y A HL. eexists.
    cbn [astep]. rewrite (f_mode _ _ _ (proj2 HL)). apply H2. exact HL.
Qed.

Lemma step_rr d g L s h n ty cl ttl rd vec : AInv d g L -> wf_name n -> wf_bytes rd ->
  hs_contract (d_regs d) g h n -> step_pres d g L (OAddRr s h n ty cl ttl rd vec).
Proof.
  intros Hi Hwf Hrd Hc.
  pose proof (step_rrset d g L s h n ty cl ttl [rd] vec Hi Hwf (Forall_cons _ Hrd (Forall_nil _)) Hc) as H.
  unfold step_pres in *. rewrite step_rr_rrset.
  destruct (step d (OAddRrset s h n ty cl ttl [rd] vec)) as [[d' r]|e|]; auto.
  replace (gstep d g (OAddRr s h n ty cl ttl rd vec) r) with (gstep d g (OAddRrset s h n ty cl ttl [rd] vec) r);
    [exact H|].
  destruct r; cbn [gstep rds_names]; rewrite ?app_nil_r; reflexivity.
Qed.

Lemma closed_all_Lq b lo c h L : closed b lo c h L -> forall s, L s <-> Lq L c s.
Proof.
  intros H s. unfold Lq. split; [|tauto]. intros Hs. split; auto.
  destruct (closed_bound _ _ _ _ _ _ H Hs). lia.
Qed.

Lemma step_question d g L n qt qc : AInv d g L -> wf_name n -> step_pres d g L (OAddQuestion n qt qc).
Proof.
  intros Hi Hwf. unfold step_pres.
  pose proof (step_good_all d (OAddQuestion n qt qc) (a_n _ _ _ Hi)) as G.
  cbn [step] in *. unfold add_question in *.
  destruct (w_section (d_w d)) eqn:Esec;
    try (simpl in G; cbn [of_M gstep astep]; eapply keeps_pres, keeps_obs; auto; fail).
  destruct (checked_add16 (w_qd (d_w d)) 1) as [nq|] eqn:Enq;
    [|simpl in G; cbn [of_M gstep astep]; eapply keeps_pres, keeps_obs; auto].
  match goal with |- context [with_rollback ?f _] =>
    pose proof (rollback_spec f (d_w d) (a_n _ _ _ Hi)
                  (question_body_frame _ n qt qc (d_w d) (inv_pre _ (a_n _ _ _ Hi)))) as X03 end.
  unfold with_rollback in *.
  pose proof (write_unhinted_L _ n (d_w d) L (a_ni _ _ _ Hi) Hwf) as P1.
  destruct (write_unhinted_name n (d_w d)) as [[pr w1]|[e w1]|] eqn:Ewq; simpl in P1; cbn [bind] in *.
  3:{ exact P1. }
  2:{ simpl in G. cbn [of_M gstep astep]; eapply keeps_pres, keeps_obs; auto. }
  destruct P1 as [W [Hsz [_ [L1 [G1 [Hi1 [HpL [sh [Hsh Ht1]]]]]]]]].
  pose proof W as [X [Sd _]].
  pose proof (anch_new _ _ _ _ _ _ L1 W HpL) as Apr.
  rewrite <- (x_len _ _ _ X) in Hi1.
  destruct (anch3_ext _ _ _ L1 _ _ _ (a_an _ _ _ Hi) X Sd (proj1 G1)) as [B1 [B2 B3]].
  assert (Hlt1 : w_cursor (d_w d) < w_cursor w1).
  { destruct W as [_ [_ [Hem _]]]. pose proof (nm_wire_length n). destruct Hem; lia. }
  set (gq' := if (w_qd w1 =? 0)%N then Some n else g_q g).
  set (w1' := if (w_qd w1 =? 0)%N then set_qname w1 pr else w1) in *.
  assert (Hi1' : NInv w1' (length (w_buf w1)) L1).
  { unfold w1'. destruct (w_qd w1 =? 0)%N; auto. apply NInv_set_qname; auto. eapply anch_prior_ok; eauto. }
  assert (A1 : anch3 w1' L1 gq' (g_o g) (g_r g)).
  { unfold w1', gq'. destruct (w_qd w1 =? 0)%N; split; auto. }
  assert (E1 : w_cursor w1' = w_cursor w1 /\ w_buf w1' = w_buf w1 /\ w_section w1' = w_section w1)
    by (unfold w1'; destruct (w_qd w1 =? 0)%N; auto).
  destruct E1 as [Ec1 [Eb1 Es1]].
  clearbody w1'.
  unfold try_push_u16 in *.
  pose proof (push_cases (be16 qt) _ _ _ _ _ _ None [] Hi1' A1 I) as P2.
  destruct (try_push (be16 qt) w1') as [[u2 w2]|[e w2]|] eqn:E2; cbn [bind] in *;
    [|simpl in G; cbn [of_M gstep astep]; eapply keeps_pres, keeps_obs; auto|exact P2].
  destruct P2 as [Hi2 [A2 [_ [Hc2 [X2 Q2]]]]].
  pose proof (push_cases (be16 qc) _ _ _ _ _ _ None [] Hi2 A2 I) as P3.
  destruct (try_push (be16 qc) w2) as [[u3 w3]|[e w3]|] eqn:E3; cbn [bind] in *;
    [|simpl in G; cbn [of_M gstep astep]; eapply keeps_pres, keeps_obs; auto|exact P3].
  destruct P3 as [Hi3 [A3 [_ [Hc3 [X3 Q3]]]]].
  destruct (try_push_ext (w_cursor w1') _ _ _ _ E2 (le_n _)) as [_ [Sd2 [_ [Sl2 Ag2]]]].
  destruct (try_push_ext (w_cursor w2) _ _ _ _ E3 (le_n _)) as [_ [Sd3 [_ [Sl3 Ag3]]]].
  unfold be16 in Hc2, Hc3. simpl length in Hc2, Hc3.
  simpl in G, X03. pose proof (x_agree _ _ _ X03) as Ag. pose proof (x_cur _ _ _ X03) as Hcm.
  assert (Hl3 : length (w_buf w3) = length (w_buf w1)).
  { rewrite (x_len _ _ _ X3), (x_len _ _ _ X2), Eb1. reflexivity. }
  rewrite <- Hl3 in Hi3.
  pose proof (ni_closed _ _ _ Hi3) as Hcl3.
  pose proof (closed_all_Lq _ _ _ _ _ Hcl3) as Eqv.
  assert (Ag13 : agree (w_cursor w1) (w_buf w1) (w_buf w3)).
  { rewrite <- Eb1, <- Ec1. eapply agree_trans; [exact Ag2|]. eapply agree_le; [exact Ag3|lia]. }
  exists L1. split.
  - assert (Hfin : AInv (mkD (set_rr_start (set_counts w3 nq (w_an w3) (w_ns w3) (w_ar w3)) (w_cursor w3)) (d_regs d))
                        (mkGn gq' (g_o g) (g_r g) (g_regs g)) L1).
    { constructor; simpl; auto.
      - destruct Hi3. constructor; auto.
      - apply (closed_equiv _ _ _ _ L1 (Lq L1 (w_cursor w3)) Eqv). exact Hcl3.
      - apply (decodable_sub _ _ L1); [intros s Hs; apply Eqv; exact Hs|apply Hi3].
      - destruct A3 as [A31 _]. eapply anch_sub; [exact A31|].
        intros p Ep. apply Eqv. destruct (A31 p Ep) as [m [_ [[K _] _]]]. exact K.
      - eapply regs_ok_mono; [apply (a_regs _ _ _ Hi)|exact Ag|exact Hcm|apply G1].
      - intros t Et. apply (a_ts _ _ _ Hi). rewrite <- (x_tsig _ _ _ X03). exact Et. }
    unfold gq' in Hfin. rewrite (x_qd _ _ _ X) in Hfin. cbn [gstep].
    destruct (w_qd (d_w d) =? 0)%N; auto. eapply AInv_ghost_eq; eauto.
  - intros y A [[P1 P2 P3] HF]. pose proof HF as [Fq Fr Fm Cq Ca Cn Cr [Bq [Ba [Bn Br]]] Fe Fs].
    rewrite Esec in Fs. destruct Fs as [Fa [Fn Fra]]. rewrite Fa, Fn, Fra in Fr. simpl in Fr.
    inversion Fr as [Hnil|]; subst. rewrite <- Hnil in *. simpl in P2.
    set (q := mkLQ (mkNC (w_cursor (d_w d)) (w_cursor w1) n (exactf (w_mode (d_w d))) sh) qt qc).
    exists (mkLay (y_qs y ++ [q]) []). split; simpl.
    + pose proof (a_n _ _ _ Hi) as Hn0. destruct Hn0.
      constructor; simpl.
      * eapply qs_at_app.
        -- eapply qs_mono; [apply G1|]. eapply (qs_append _ _ _ _ Ag); [|exact P1]; lia.
        -- simpl. split; [lia|]. split.
           ++ split.
              ** apply (wrote_chunk _ _ _ _ _ _ _ _ _ Hsh Hlt1 Ag13). apply G1.
              ** unfold q; cbn [lq_name lq_ty lq_cl nc_end]. replace (w_cursor w1 + 4) with (w_cursor w1 + 2 + 2) by lia.
                 rewrite (slice_app _ (w_cursor w1) (w_cursor w1 + 2)) by lia. f_equal.
                 --- rewrite (agree_slice (w_cursor w2) (w_buf w2) (w_buf w3) _ _ Ag3) by lia.
                     rewrite <- Ec1. rewrite <- Hc2. exact Sl2.
                 --- rewrite <- Ec1, <- Hc2, <- Hc3. exact Sl3.
           ++ simpl. split; lia.
      * reflexivity.
      * intros s. rewrite Ht1, P3, qs_starts_app. simpl. rewrite !app_nil_r, in_app_iff.
        unfold chunk_starts. simpl. tauto.
    + apply checked_add16_some in Enq as [Enq Hbq].
      constructor; simpl; rewrite ?(x_mode _ _ _ X03), ?(x_an _ _ _ X03), ?(x_ns _ _ _ X03), ?(x_ar _ _ _ X03),
        ?(x_edns _ _ _ X03), ?(x_tsig _ _ _ X03); auto.
      * apply Forall2_app; auto. constructor; [|constructor].
        unfold q_desc, q, aq_exact. simpl. rewrite Fm, exactf_of. split; [auto|].
        intros Hd. destruct (disabled_plain_unhinted n (d_w d) pr w1 Hd Ewq) as [Hpl _].
        eapply shape_plain_unique; eauto.
      * rewrite Fa, Fn, Fra. constructor.
      * rewrite Enq, Cq, app_length. simpl. lia.
      * destruct Sd3 as [_ [_ [_ S3]]]. destruct Sd2 as [_ [_ [_ S2]]]. destruct Sd as [_ [_ [_ S1]]].
        rewrite S3, S2, Es1, S1, Esec. auto.
Qed.

Lemma set_limit_ok l w : Inv_n w -> exists nl av, set_limit l w = Ok (set_limit_avail w nl av).
Proof.
  intros []. unfold set_limit. unfold resv in *.
  destruct (w_limit w <=? l) eqn:E1.
  - apply Nat.leb_le in E1.
    destruct (Nat.min l (length (w_buf w)) <? w_limit w) eqn:E2; [apply Nat.ltb_lt in E2; lia|]. eauto.
  - apply Nat.leb_gt in E1.
    destruct (w_cursor w + w_limit w <? w_avail w) eqn:E2; [apply Nat.ltb_lt in E2; lia|].
    destruct (w_limit w <? Nat.max l (w_cursor w + w_limit w - w_avail w)) eqn:E3; [apply Nat.ltb_lt in E3; lia|].
    destruct (w_avail w <? w_limit w - Nat.max l (w_cursor w + w_limit w - w_avail w)) eqn:E4;
      [apply Nat.ltb_lt in E4; lia|]. eauto.
Qed.

Lemma retemplate_ok nb w : Inv_n w ->
  (exists lim av, retemplate nb w =
     Ok (set_limit_avail (set_buf w (firstn (w_cursor w) (w_buf w) ++ skipn (w_cursor w) nb)) lim av)) \/
  retemplate nb w = Err Truncation.
Proof.
  intros []. unfold retemplate. unfold resv in *.
  destruct (length (w_buf w) <? w_cursor w) eqn:E1; [apply Nat.ltb_lt in E1; lia|].
  destruct (w_limit w <? w_avail w) eqn:E2; [apply Nat.ltb_lt in E2; lia|].
  destruct (length nb <? w_cursor w + (w_limit w - w_avail w)) eqn:E3; [right; reflexivity|].
  apply Nat.ltb_ge in E3.
  destruct (Nat.min (w_limit w) (length nb) <? w_limit w - w_avail w) eqn:E4; [apply Nat.ltb_lt in E4; lia|].
  destruct (length nb <? w_cursor w) eqn:E5; [apply Nat.ltb_lt in E5; lia|].
  left. eauto.
Qed.

Lemma retemplate_agree (b nb : bytes) c : c <= length b -> agree c b (firstn c b ++ skipn c nb).
Proof.
  intros Hle. unfold agree. rewrite firstn_app, firstn_firstn, firstn_length.
  replace (Nat.min c c) with c by lia. replace (c - Nat.min c (length b)) with 0 by lia.
  simpl. apply app_nil_r.
Qed.

Lemma hdr_octet_ok w i : Inv_n w -> N.to_nat i < header_size -> exists x, hdr_octet w i = Ok x.
Proof.
  intros [] Hi. unfold hdr_octet. destruct (nth_error (w_buf w) (N.to_nat i)) eqn:E; eauto.
  apply nth_error_None in E. lia.
Qed.

Lemma getters_ok w : Inv_n w -> exists l, getters w = Ok l.
Proof.
  intros Hn. unfold getters.
  destruct (hdr_octet_ok w ID_START Hn ltac:(cbv; lia)) as [x0 ->]. cbn [bind].
  destruct (hdr_octet_ok w (ID_START + 1) Hn ltac:(cbv; lia)) as [x1 ->]. cbn [bind].
  destruct (hdr_octet_ok w QR_BYTE Hn ltac:(cbv; lia)) as [x2 ->]. cbn [bind].
  destruct (hdr_octet_ok w OPCODE_BYTE Hn ltac:(cbv; lia)) as [x3 ->]. cbn [bind].
  destruct (hdr_octet_ok w AA_BYTE Hn ltac:(cbv; lia)) as [x4 ->]. cbn [bind].
  destruct (hdr_octet_ok w TC_BYTE Hn ltac:(cbv; lia)) as [x5 ->]. cbn [bind].
  destruct (hdr_octet_ok w RD_BYTE Hn ltac:(cbv; lia)) as [x6 ->]. cbn [bind].
  destruct (hdr_octet_ok w RA_BYTE Hn ltac:(cbv; lia)) as [x7 ->]. cbn [bind].
  destruct (hdr_octet_ok w RCODE_BYTE Hn ltac:(cbv; lia)) as [x8 ->]. cbn [bind].
  eauto.
Qed.

Lemma sdec_narrow b c (L : nat -> Prop) c0 (L0 : nat -> Prop) : sdec b c L -> decodable b c0 L0 ->
  (forall s, L0 s -> L s) -> sdec b c0 L0.
Proof.
  intros D D0 Hs s H0. destruct (D0 s H0) as [ls0 Hn0]. destruct (D s (Hs s H0)) as [ls [e [Hn Hd]]].
  rewrite (name_at_fun _ _ _ _ Hn0 _ _ Hn) in Hn0. eauto.
Qed.

Lemma AInv_clear d g L : AInv d g L ->
  AInv (mkD (clear_rrs (d_w d)) (d_regs d))
       (mkGn (g_q g) None None (map (map (fun _ => None)) (g_regs g))) (Lq L (w_rr_start (d_w d))).
Proof.
  destruct d as [w regs]. simpl. intros [Hn Hi Ha Hqc Hqd Hqa Hr Ht]. simpl in *.
  assert (Hn' : Inv_n (clear_rrs w)).
  { destruct Hn. constructor; simpl; auto; lia. }
  assert (HqL : forall pr, w_qname w = Some pr -> Lq L (w_rr_start w) (p_ptr pr)).
  { intros pr E. destruct (Hqa pr E) as [m [_ [[K _] _]]]. exact K. }
  assert (Eqv : forall s, Lq L (w_rr_start w) s <-> Lq (Lq L (w_rr_start w)) (w_rr_start w) s)
    by (unfold Lq; intros s; tauto).
  constructor; simpl; auto.
  - constructor; simpl.
    + apply (inv_nb _ Hn').
    + apply Hn.
    + left. lia.
    + exact Hqc.
    + exact Hqd.
    + repeat split; simpl; auto.
      destruct (w_qname w) as [pr|] eqn:E; simpl; auto.
      destruct (Hqa pr eq_refl) as [m [_ [[S1 [S2 [S3 [n' [S4 S5]]]]] S6]]].
      split; auto. split; auto. split; [eapply closed_real; eauto|].
      exists n'. split; auto. rewrite S6. unfold nm_len. rewrite (name_eq_length _ _ _ S5). reflexivity.
    + intros pr [E|[E|E]]; try discriminate. auto.
    + eapply sdec_narrow; [apply Hi|exact Hqd|]. intros s [K _]. exact K.
  - split; [exact Hqa|]. split; intros pr E; discriminate.
  - apply (closed_equiv _ _ _ _ _ _ Eqv). exact Hqc.
  - apply (decodable_sub _ _ (Lq L (w_rr_start w))); [intros s Hs; apply Eqv; exact Hs|exact Hqd].
  - eapply anch_sub; [exact Hqa|]. intros pr E. apply Eqv. auto.
  - destruct Hr as [Hl _]. split; [rewrite map_length; exact Hl|].
    intros r v names i p m _ E2 _ E4. rewrite nth_error_map in E2.
    destruct (nth_error (g_regs g) r) as [nm|]; simpl in E2; [|discriminate]. inversion E2; subst names.
    rewrite nth_error_map in E4. destruct (nth_error nm i); simpl in E4; discriminate.
Qed.

Lemma LInv_clear d g y A L : AInv d g L -> LInv d y A L ->
  LInv (mkD (clear_rrs (d_w d)) (d_regs d)) (mkLay (y_qs y) [])
       (mkAM (am_mode A) (am_qs A) [] [] []) (Lq L (w_rr_start (d_w d))).
Proof.
  intros Hi [[P1 P2 P3] HF]. pose proof (a_n _ _ _ Hi) as Hn. destruct Hn.
  split; simpl.
  - constructor; simpl.
    + apply qs_restrict; auto.
    + reflexivity.
    + intros s. unfold Lq. rewrite P3, !in_app_iff. simpl. split.
      * intros [[K|K] Hlt]; auto.
        apply (rrs_starts_bound _ _ _ _ _ _ P2) in K; lia.
      * intros [K|[]]. split; auto.
        apply (qs_starts_bound _ _ _ _ _ _ P1) in K; lia.
  - destruct HF as [Fq Fr Fm Cq Ca Cn Cr [Bq _] Fe Fs]. constructor; simpl; auto.
    + destruct (w_edns (d_w d)); destruct (w_tsig (d_w d)); reflexivity.
    + split; auto. destruct (w_edns (d_w d)); destruct (w_tsig (d_w d)); simpl; lia.
Qed.

Lemma wf_name_lower n : wf_name n -> wf_name (nm_lower n).
Proof.
  intros [H1 H2]. unfold nm_lower. split; [|rewrite map_length; auto].
  rewrite Forall_forall in *. intros x Hx. apply in_map_iff in Hx as [y [<- Hy]].
  unfold wf_label. rewrite map_length. apply H1; auto.
Qed.

Lemma wire_lower_length n : length (nm_wire (nm_lower n)) = length (nm_wire n).
Proof.
  rewrite !nm_wire_length. f_equal. unfold nm_lower. induction n as [|l r IH]; [reflexivity|].
  cbn [map]. rewrite !nm_lwire_cons. cbn [length]. rewrite !app_length, map_length. rewrite IH. reflexivity.
Qed.

Lemma wf_bytes_lower n : Forall wf_bytes n -> Forall wf_bytes (nm_lower n).
Proof.
  intros H. unfold nm_lower. rewrite Forall_forall in *. intros x Hx. apply in_map_iff in Hx as [y [<- Hy]].
  specialize (H y Hy). unfold wf_bytes in *. rewrite Forall_forall in *. intros z Hz.
  apply in_map_iff in Hz as [u [<- Hu]]. apply lower_octet. auto.
Qed.

Lemma FLay_clear_upper w y A : FLay w y A -> FLay (clear_upper w) y A.
Proof.
  intros HF. unfold clear_upper. destruct (w_edns w) eqn:E; auto.
  destruct HF as [Fq Fr Fm Cq Ca Cn Cr Fb Fe Fs]. constructor; simpl; auto.
  - rewrite Cr, E. reflexivity.
  - intros e0 H0. inversion H0; subst e0. simpl. destruct (Fe _ E). split; auto. lia.
Qed.

Definition pres_same (d : dstate) (g : gn) (L : nat -> Prop) (r : res werr (dstate * outcome)) : Prop :=
  match r with Ok (d', _) => keeps d g L d' g | _ => False end.

Lemma pres_same_step d g L o : pres_same d g L (step d o) -> (forall r, gstep d g o r = g) ->
  (forall A r, astep A o r = A) -> step_pres d g L o.
Proof.
  unfold pres_same, step_pres. intros H Eg Ea. destruct (step d o) as [[d' r]|e|]; try contradiction.
  destruct (keeps_pres _ _ _ _ _ H) as [L' [H1 H2]]. exists L'. rewrite Eg. split; auto.
  intros y A HL. rewrite Ea. eauto.
Qed.

Lemma modify_same d g L i f : AInv d g L -> N.to_nat i < header_size ->
  pres_same d g L (of_R d (w_modify (d_w d) i f)).
Proof. intros Hi Hp. destruct (hdr_modify_keeps d g L i f Hi Hp) as [w' [-> [H _]]]. exact H. Qed.

Theorem step_pres_all d g L o : AInv d g L -> op_wf o -> op_contract d g o -> step_pres d g L o.
Proof.
  intros Hi Hwf Hc. pose proof (a_n _ _ _ Hi) as Hn.
  (* all but add_question, add_rr, add_rrset, set_mode and clear_rrs leave ghost names and abstract message alone *)
  destruct o; simpl in Hwf, Hc;
    try (apply pres_same_step; [cbn [step]|intros; reflexivity|intros; reflexivity]).
  - (* set_id *)
    destruct (hdr_write_keeps d g L (N.to_nat ID_START) (be16 v) Hi ltac:(cbv; lia)) as [w' [E [H _]]].
    unfold set_id. rewrite E. exact H.
  - exact (modify_same d g L QR_BYTE _ Hi ltac:(cbv; lia)).
  - exact (modify_same d g L OPCODE_BYTE _ Hi ltac:(cbv; lia)).
  - exact (modify_same d g L AA_BYTE _ Hi ltac:(cbv; lia)).
  - exact (modify_same d g L TC_BYTE _ Hi ltac:(cbv; lia)).
  - exact (modify_same d g L RD_BYTE _ Hi ltac:(cbv; lia)).
  - exact (modify_same d g L RA_BYTE _ Hi ltac:(cbv; lia)).
  - (* set_rcode *)
    destruct (hdr_modify_keeps d g L RCODE_BYTE (fun x => N.lor (N.land x (255 - RCODE_MASK)) v) Hi ltac:(cbv; lia))
      as [w' [E [[H H'] _]]].
    unfold set_rcode. rewrite E. simpl.
    destruct (keeps_fields (mkD w' (d_regs d)) g L (clear_upper w') H) as [K K'];
      try (unfold clear_upper; destruct (w_edns w'); reflexivity).
    + apply inv_clear_upper. apply H.
    + intros t Et. apply (a_ts _ _ _ H). simpl. unfold clear_upper in Et. destruct (w_edns w'); exact Et.
    + intros y A. apply FLay_clear_upper.
    + split; auto.
  - (* set_extended_rcode *)
    unfold set_extended_rcode. destruct (w_edns (d_w d)) as [e|] eqn:Ee; [|apply keeps_eta; auto].
    destruct (4095 <? v)%N; [apply keeps_eta; auto|].
    destruct (hdr_modify_keeps d g L RCODE_BYTE
                (fun x => N.lor (N.land x (255 - RCODE_MASK)) (N.land (v mod 256) RCODE_MASK)) Hi ltac:(cbv; lia))
      as [w' [E [[H H'] [He Ht]]]].
    rewrite E. simpl.
    destruct (keeps_fields (mkD w' (d_regs d)) g L (set_edns_f w' (Some (mkEdns (e_udp e) ((v / 16) mod 256)))) H)
      as [K K']; auto.
    + pose proof (a_n _ _ _ H) as []. simpl in *. constructor; simpl; auto.
      unfold resv in *. simpl in *. rewrite He, Ee in i_av. exact i_av.
    + intros t Et. apply (a_ts _ _ _ H). exact Et.
    + cbn [d_w]. intros y A [Fq Fr Fm Cq Ca Cn Cr Fb Fe Fs]. constructor; simpl; auto.
      * rewrite Cr, He, Ee. reflexivity.
      * intros e0 H0. inversion H0; subst e0. simpl. rewrite He in Fe. destruct (Fe _ Ee). split; auto.
        apply N.mod_lt. lia.
    + split; auto.
  - eapply step_question; eauto.
  - (* add_rr *)
    destruct Hwf as [W1 W2]. destruct (w_mode (d_w d)) eqn:Em; [eapply step_rr; eauto| |];
      unfold step_pres; rewrite step_rr_nonstd by congruence;
      exact (step_rr d g L _ HsNone _ _ _ _ _ _ Hi W1 W2 I).
  - (* add_rrset *)
    destruct Hwf as [W1 W2]. destruct (w_mode (d_w d)) eqn:Em; [eapply step_rrset; eauto| |];
      unfold step_pres; rewrite step_rrset_nonstd by congruence;
      exact (step_rrset d g L _ HsNone _ _ _ _ _ _ Hi W1 W2 I).
  - (* set_limit *)
    destruct (set_limit_ok l (d_w d) Hn) as [nl [av E]]. rewrite E. simpl.
    apply keeps_fields; auto.
    + eapply set_limit_inv; eauto.
    + apply (a_ts _ _ _ Hi).
    + intros y A HF. eapply FLay_fields; eauto.
  - (* set_mode *)
    unfold step_pres. cbn [step]. exists L. split.
    + apply (AInv_move d g L (set_mode (d_w d) m)); auto.
      * destruct Hn. constructor; auto.
      * apply ragree_refl.
      * apply (a_ts _ _ _ Hi).
    + intros y A [HP HF]. exists y. split; [exact HP|]. destruct HF. constructor; simpl; auto.
  - (* set_edns *)
    pose proof (step_good_all d (OSetEdns udp) Hn) as G. cbn [step] in G.
    destruct (set_edns udp (d_w d)) as [[[] w']|[e w']|] eqn:E; simpl in G |- *;
      [|apply keeps_obs; auto|];
      unfold set_edns in E; destruct (w_edns (d_w d)) eqn:Ee; try discriminate;
      destruct (w_avail (d_w d) <? w_cursor (d_w d) + opt_record_size); try discriminate;
      destruct (checked_add16 (w_ar (d_w d)) 1) as [ar|] eqn:Ea; try discriminate.
    inversion E; subst w'. apply checked_add16_some in Ea as [Ea Hba].
    apply keeps_fields; auto; [apply (a_ts _ _ _ Hi)|].
    intros y A [Fq Fr Fm Cq Ca Cn Cr [Bq [Ba [Bn Br]]] Fe Fs]. constructor; simpl; auto.
    + rewrite Ea, Cr, Ee. simpl. lia.
    + intros e0 H0. inversion H0; subst e0. simpl. split; [exact Hwf|lia].
  - (* set_tsig *)
    destruct Hwf as [Wa [Wk [Wt [Ws [Oa [Ot [Os [Lk La]]]]]]]].
    pose proof (step_good_all d (OSetTsig alg key time fudge origid error stime) Hn) as G. cbn [step] in G.
    destruct (set_tsig (nm_lower alg) (nm_lower key) time fudge origid error stime (d_w d)) as [[[] w']|[e w']|] eqn:E;
      simpl in G |- *; [|apply keeps_obs; auto|];
      unfold set_tsig in E; destruct (w_tsig (d_w d)) eqn:Ets; try discriminate;
      destruct (w_avail (d_w d) <? _); try discriminate;
      destruct (checked_add16 (w_ar (d_w d)) 1) as [ar|] eqn:Ea; try discriminate.
    inversion E; subst w'. apply checked_add16_some in Ea as [Ea Hba].
    apply keeps_fields; auto.
    + simpl. intros t Et. inversion Et; subst t.
      unfold tsig_wf; simpl. split; [apply wf_name_lower; auto|]. split; [apply wf_name_lower; auto|].
      split; auto. split; auto. split; auto. split; [apply wf_bytes_lower; auto|]. split; auto.
      split; auto. rewrite !wire_lower_length. auto.
    + intros y A [Fq Fr Fm Cq Ca Cn Cr [Bq [Ba [Bn Br]]] Fe Fs].
      constructor; simpl; auto. rewrite Ea, Cr, Ets. simpl. lia.
  - (* update_time_signed *)
    unfold update_time_signed. destruct (w_tsig (d_w d)) as [t|] eqn:Et; simpl; [|apply keeps_eta; auto].
    apply keeps_fields; auto.
    + destruct Hn. constructor; simpl; auto. unfold resv in *. simpl. rewrite Et in i_av. exact i_av.
    + simpl. intros t' E'. inversion E'; subst t'.
      destruct (a_ts _ _ _ Hi t Et) as [T1 [T2 [T3 [T4 [T5 [T6 [T7 [T8 [T9 T10]]]]]]]]].
      destruct Hwf as [W1 W2]. unfold tsig_wf; simpl. auto 12.
    + intros y A HF. eapply FLay_fields; eauto. simpl. rewrite Et. reflexivity.
  - (* clear_rrs *)
    unfold step_pres. cbn [step]. eexists. split; [apply AInv_clear; exact Hi|].
    intros y A HL. eexists. eapply LInv_clear; eauto.
  - (* template *)
    destruct (retemplate_ok newbuf (d_w d) Hn) as [[lim [av E]]|E]; rewrite E; simpl; [|apply keeps_refl; auto].
    apply keeps_move; auto.
    + eapply retemplate_inv; eauto.
    + simpl. apply agree_ragree, retemplate_agree. destruct Hn; lia.
    + apply (a_ts _ _ _ Hi).
    + intros y A HF. eapply FLay_fields; eauto.
  - (* template subsequent *) apply keeps_refl; auto.
  - (* get *) destruct (getters_ok (d_w d) Hn) as [l ->]. apply keeps_refl; auto.
Qed.

Theorem step_ok_all d g L o : AInv d g L -> op_wf o -> op_contract d g o -> step_ok d g o.
Proof.
  intros Hi Hwf Hc. pose proof (step_pres_all d g L o Hi Hwf Hc) as H. unfold step_pres, step_ok in *.
  destruct (step d o) as [[d' r]|e|]; auto. destruct H as [L' [H _]]. eauto.
Qed.

Lemma NInv_set_avail w h L a : NInv w h L -> w_cursor w <= a -> a <= length (w_buf w) ->
  NInv (set_avail w a) h L.
Proof. intros [[N1 N2] ? ? ? ? ? ? ?] H1 H2. constructor; auto. split; simpl; auto. Qed.

Lemma NInv_clear_tsig w h L : NInv w h L -> NInv (set_tsig_f w None) h L.
Proof. intros []. constructor; auto. Qed.

Lemma add_rr_fits2 h owner ty cl ttl rd v w L names gq go gr :
  NInv w (length (w_buf w)) L -> anch3 w L gq go gr -> vec_ok (w_buf w) (w_cursor w) L v names ->
  wf_name owner -> wf_bytes rd -> hint_contract h owner w -> hint_in h w L ->
  component_types cl ty = [] -> w_cursor w + length (nm_wire owner) + 10 + length rd <= w_avail w ->
  exists v' w', add_rr h owner ty cl ttl rd v w = Ok (v', w') /\
    exists L', grew w w' L L' /\ NInv w' (length (w_buf w')) L' /\ anch3 w' L' gq (Some owner) gr /\
               ext (w_cursor w) w w' /\
               exists r, rr_at (w_buf w') L' r /\ nc_pos (lr_owner r) = w_cursor w /\ lr_end r = w_cursor w' /\
                         rr_desc r owner (exactf (w_mode w)) ty cl ttl (component_types cl ty) rd /\
                         (forall s, L' s <-> L s \/ In s (rr_starts r)) /\
                         (w_mode w = Disabled -> rr_plain r).
Proof.
  intros Hi A V Hwf Hrd Hh HhL Hct Hfit.
  pose proof (add_rr_L h owner ty cl ttl rd v w L names gq go gr Hi A V Hwf Hrd Hh HhL) as P.
  assert (Hpre : pre (w_cursor w) w) by (split; [lia|apply Hi]).
  pose proof (frame_add_rr (w_cursor w) h owner ty cl ttl rd v w Hpre) as F.
  destruct (add_rr h owner ty cl ttl rd v w) as [[v' w']|[e w']|]; simpl in P, F.
  - exists v', w'. split; auto. destruct P as [L' [r [G' Hi' A' _ _ Hc' _ _ R1 R2 R3 R4 R5 R6]]].
    exists L'. rewrite Hct in A'. simpl in A'. split; auto. split; auto. split; auto. split; auto.
    exists r. auto 10.
  - rewrite Hct in P. destruct P as [[_ K]|[_ K]]; [lia|congruence].
  - contradiction.
Qed.

Lemma tsig_rdata_length t : tsig_wf t ->
  length (nm_wire (t_key t)) + 10 + length (tsig_unsigned_rdata t) = t_reserved t.
Proof.
  intros [_ [_ [T3 [T4 [T5 _]]]]]. rewrite T5. unfold tsig_unsigned_rdata, tsig_unsigned_len.
  rewrite !app_length. unfold be16. simpl length. rewrite T3.
  destruct (t_error t =? badtime)%N; simpl length; lia.
Qed.

Lemma wf_bytes_be16 v : wf_bytes (be16 v).
Proof.
  unfold be16, wf_bytes. repeat constructor; unfold is_octet; apply N.mod_lt; lia.
Qed.

Lemma wf_bytes_app (a c : bytes) : wf_bytes a -> wf_bytes c -> wf_bytes (a ++ c).
Proof. unfold wf_bytes. intros. apply Forall_app. auto. Qed.

Lemma wf_bytes_lwire n : wf_name n -> Forall wf_bytes n -> wf_bytes (nm_lwire n).
Proof.
  intros [H _] O. induction n as [|l r IH]; [constructor|].
  inversion H as [|? ? [_ L63] H']; subst. inversion O; subst.
  rewrite nm_lwire_cons. constructor; [unfold is_octet; lia|]. apply wf_bytes_app; auto.
Qed.

Lemma octets_rdata t : tsig_wf t -> wf_bytes (tsig_unsigned_rdata t).
Proof.
  intros [_ [T2 [_ [_ [_ [T6 [T7 [T8 _]]]]]]]]. unfold tsig_unsigned_rdata.
  assert (W : wf_bytes (nm_wire (t_alg t))).
  { unfold nm_wire. apply wf_bytes_app; [apply wf_bytes_lwire; auto|]. constructor; [unfold is_octet; lia|constructor]. }
  assert (O : wf_bytes (if (t_error t =? badtime)%N then t_server_time t else []))
    by (destruct (t_error t =? badtime)%N; [auto|constructor]).
  repeat (apply wf_bytes_app; [first [exact W|exact T7|apply wf_bytes_be16]|]). exact O.
Qed.

Lemma ragree_trans lo c h b1 b2 b3 : ragree lo c h b1 b2 -> ragree lo c h b2 b3 -> ragree lo c h b1 b3.
Proof. intros H1 H2 j J1 J2 J3. rewrite H2, H1; auto. Qed.

(* finish begins with the four count fields of the header; only octets 4..11 change *)
Lemma hdr_counts_ok w : header_size <= length (w_buf w) ->
  exists b4, (forall B (K : writer -> res werr B),
               (let* w1 := w_write w (N.to_nat QDCOUNT_START) (be16 (w_qd w)) in
                let* w2 := w_write w1 (N.to_nat ANCOUNT_START) (be16 (w_an w1)) in
                let* w3 := w_write w2 (N.to_nat NSCOUNT_START) (be16 (w_ns w2)) in
                let* w4 := w_write w3 (N.to_nat ARCOUNT_START) (be16 (w_ar w3)) in K w4) = K (set_buf w b4)) /\
    length b4 = length (w_buf w) /\
    slice b4 4 12 = be16 (w_qd w) ++ be16 (w_an w) ++ be16 (w_ns w) ++ be16 (w_ar w) /\
    agree 4 (w_buf w) b4 /\ forall c h, ragree header_size c h (w_buf w) b4.
Proof.
  intros Hl. pose proof wconsts as [K12 _]. rewrite K12 in *.
  change (N.to_nat QDCOUNT_START) with 4. change (N.to_nat ANCOUNT_START) with 6.
  change (N.to_nat NSCOUNT_START) with 8. change (N.to_nat ARCOUNT_START) with 10.
  destruct (buf_write_some (w_buf w) 4 (be16 (w_qd w))) as [b1 W1]; [simpl; lia|].
  pose proof (buf_write_length _ _ _ _ W1) as E1.
  destruct (buf_write_some b1 6 (be16 (w_an w))) as [b2 W2]; [simpl; lia|].
  pose proof (buf_write_length _ _ _ _ W2) as E2.
  destruct (buf_write_some b2 8 (be16 (w_ns w))) as [b3 W3]; [simpl; lia|].
  pose proof (buf_write_length _ _ _ _ W3) as E3.
  destruct (buf_write_some b3 10 (be16 (w_ar w))) as [b4 W4]; [simpl; lia|].
  pose proof (buf_write_length _ _ _ _ W4) as E4.
  exists b4. split; [|split; [lia|split; [|split]]].
  - intros B K. unfold w_write. rewrite W1. cbn [bind set_buf w_buf w_an]. rewrite W2.
    cbn [bind set_buf w_buf w_ns]. rewrite W3. cbn [bind set_buf w_buf w_ar]. rewrite W4. reflexivity.
  - rewrite (slice_app _ 4 6 12), (slice_app _ 6 8 12), (slice_app _ 8 10 12) by lia.
    f_equal; [|f_equal; [|f_equal]].
    + rewrite (agree_slice 6 b3 b4 4 6 (buf_write_agree _ _ _ _ 6 W4 ltac:(lia))) by lia.
      rewrite (agree_slice 6 b2 b3 4 6 (buf_write_agree _ _ _ _ 6 W3 ltac:(lia))) by lia.
      rewrite (agree_slice 6 b1 b2 4 6 (buf_write_agree _ _ _ _ 6 W2 ltac:(lia))) by lia.
      exact (buf_write_data _ _ _ _ W1).
    + rewrite (agree_slice 8 b3 b4 6 8 (buf_write_agree _ _ _ _ 8 W4 ltac:(lia))) by lia.
      rewrite (agree_slice 8 b2 b3 6 8 (buf_write_agree _ _ _ _ 8 W3 ltac:(lia))) by lia.
      exact (buf_write_data _ _ _ _ W2).
    + rewrite (agree_slice 10 b3 b4 8 10 (buf_write_agree _ _ _ _ 10 W4 ltac:(lia))) by lia.
      exact (buf_write_data _ _ _ _ W3).
    + exact (buf_write_data _ _ _ _ W4).
  - eapply agree_trans; [eapply buf_write_agree; [exact W1|lia]|].
    eapply agree_trans; [eapply buf_write_agree; [exact W2|lia]|].
    eapply agree_trans; eapply buf_write_agree; eauto; lia.
  - intros c h. eapply ragree_trans; [eapply buf_write_ragree; [exact W1|simpl; lia]|].
    eapply ragree_trans; [eapply buf_write_ragree; [exact W2|simpl; lia]|].
    eapply ragree_trans; eapply buf_write_ragree; eauto; simpl; lia.
Qed.

(* [wk], with label starts [Lk], continues the state [w] (label starts [L]) by the records [rsk]
   written from its cursor on *)
Record fin_ext (w : writer) (L : nat -> Prop) (gq gr : option wname)
       (wk : writer) (Lk : nat -> Prop) (rsk : list lrr) : Prop := mkFinExt {
  fe_ni : NInv wk (length (w_buf wk)) Lk;
  fe_sub : forall s, L s -> Lk s;
  fe_new : forall s, Lk s -> L s \/ w_cursor w <= s;
  fe_an : exists go, anch3 wk Lk gq go gr;
  fe_ag : agree (w_cursor w) (w_buf w) (w_buf wk);
  fe_cur : w_cursor w <= w_cursor wk;
  fe_lay : forall y rs, PLay (w_buf w) L y rs (w_cursor w) -> rs <= w_cursor w ->
             PLay (w_buf wk) Lk (mkLay (y_qs y) (y_rrs y ++ rsk)) rs (w_cursor wk) }.

Lemma fin_ext_refl w L gq go gr : NInv w (length (w_buf w)) L -> anch3 w L gq go gr ->
  fin_ext w L gq gr w L [].
Proof.
  intros Hi A. constructor; eauto; try lia; [apply agree_refl|].
  intros [yq yr] rs P _. simpl. rewrite app_nil_r. exact P.
Qed.

(* one more record, without hint and without names in its RDATA, that fits; [wk'] is [wk] with
   the reservation for the record released *)
Lemma fin_ext_append w L gq gr wk Lk rsk wk' owner ty cl ttl rd :
  fin_ext w L gq gr wk Lk rsk -> w_buf wk' = w_buf wk -> w_cursor wk' = w_cursor wk ->
  NInv wk' (length (w_buf wk')) Lk -> (forall go, anch3 wk Lk gq go gr -> anch3 wk' Lk gq go gr) ->
  wf_name owner -> wf_bytes rd -> component_types cl ty = [] ->
  w_cursor wk' + length (nm_wire owner) + 10 + length rd <= w_avail wk' ->
  exists v wn Ln r, add_rr HNone owner ty cl ttl rd None wk' = Ok (v, wn) /\
    fin_ext w L gq gr wn Ln (rsk ++ [r]) /\ rr_desc2 r (mkAR owner (w_mode wk') ty cl ttl rd) /\
    ext (w_cursor wk') wk' wn.
Proof.
  intros [Hi Hsub Hnew [go A] Ag Hcur Hlay] Eb Ec Hi' HA Hwf Hrd Hct Hfit.
  destruct (add_rr_fits2 HNone owner ty cl ttl rd None wk' Lk [] gq go gr Hi' (HA _ A) I Hwf Hrd I I Hct Hfit)
    as [v [wn [E [Ln [G [Hin [An [X [r [R [Rp [Re [Rd [Rt Rpl]]]]]]]]]]]]]].
  pose proof (x_agree _ _ _ X) as Agn. pose proof (x_cur _ _ _ X) as Cun. rewrite Eb, Ec in *.
  exists v, wn, Ln, r. split; [exact E|]. split; [|split; [|exact X]].
  - constructor; eauto; try lia.
    + intros s Hs. apply G. auto.
    + intros s Hs. destruct (proj2 G s Hs) as [K|K]; [auto|right; lia].
    + eapply agree_trans; [exact Ag|]. eapply agree_le; [exact Agn|lia].
    + intros y rs P Hrs. rewrite app_assoc.
      apply (PLay_app (w_buf wk) Lk (mkLay (y_qs y) (y_rrs y ++ rsk)) rs (w_cursor wk)); auto; try lia.
      * apply G.
      * simpl. split; auto. split; auto. split; [lia|auto].
      * intros s. rewrite Rt. unfold rrs_starts. simpl. rewrite app_nil_r. tauto.
  - unfold rr_desc2, ar_exact. simpl. rewrite <- exactf_of. split; [exact Rd|exact Rpl].
Qed.

(* the pseudo-records finish appends, read off the writer's EDNS / TSIG fields; [opt_ttl] is the identity
   for finish, ttl_from for finish_prefix (the code before the OPT TTL fix) *)
Definition pseudo_gen (opt_ttl : N -> N) (w : writer) : list arr :=
  (match w_edns w with
   | Some e => [mkAR [] (w_mode w) TYPE_OPT (e_udp e) (opt_ttl (e_upper e * 16777216)%N) []]
   | None => [] end) ++
  (match w_tsig w with
   | Some t => [mkAR (t_key t) (w_mode w) TYPE_TSIG qclass_any (ttl_from 0) (tsig_unsigned_rdata t)]
   | None => [] end).

(* what finish does after the header counts: the OPT and TSIG pseudo-records are appended, each in
   the space reserved for it *)
Lemma finish_tail f w4 L gq go gr : Inv_n w4 -> NInv w4 (length (w_buf w4)) L -> anch3 w4 L gq go gr ->
  (forall t, w_tsig w4 = Some t -> tsig_wf t) ->
  exists wF LF rsP,
    (let* w := match w_edns w4 with
               | Some e =>
                 let w := set_avail w4 (w_avail w4 + opt_record_size) in
                 unwrap_w (add_rr HNone [] TYPE_OPT (e_udp e) (f (e_upper e * 16777216)%N) [] None w)
               | None => Ok w4
               end in
     let* w := match w_tsig w with
               | Some t =>
                 let rdata := tsig_unsigned_rdata t in
                 let w := set_avail (set_tsig_f w None) (w_avail w + t_reserved t) in
                 unwrap_w (add_rr HNone (t_key t) TYPE_TSIG qclass_any (ttl_from 0) rdata None w)
               | None => Ok w
               end in
     Ok (w_cursor w, w_buf w)) = Ok (w_cursor wF, w_buf wF) /\
    fin_ext w4 L gq gr wF LF rsP /\ Forall2 rr_desc2 rsP (pseudo_gen f w4).
Proof.
  intros [h1 h2 h3 h4 h5] Hi4 A4 Hts. pose proof wconsts as [_ [K11 _]]. unfold resv in h4. rewrite K11 in *.
  pose proof (fin_ext_refl w4 L _ _ _ Hi4 A4) as F4. unfold pseudo_gen.
  assert (Hopt : exists w5 L5 rs5,
    match w_edns w4 with
    | Some e => unwrap_w (add_rr HNone [] TYPE_OPT (e_udp e) (f (e_upper e * 16777216)%N) [] None
                                 (set_avail w4 (w_avail w4 + 11)))
    | None => Ok w4 end = Ok w5 /\
    fin_ext w4 L gq gr w5 L5 rs5 /\ w_tsig w5 = w_tsig w4 /\ w_mode w5 = w_mode w4 /\
    w_avail w5 + match w_tsig w5 with Some t => t_reserved t | None => 0 end <= length (w_buf w5) /\
    Forall2 rr_desc2 rs5
      match w_edns w4 with
      | Some e => [mkAR [] (w_mode w4) TYPE_OPT (e_udp e) (f (e_upper e * 16777216)%N) []]
      | None => [] end).
  { destruct (w_edns w4) as [e|].
    - destruct (fin_ext_append w4 L _ _ w4 L [] (set_avail w4 (w_avail w4 + 11)) []
                  TYPE_OPT (e_udp e) (f (e_upper e * 16777216)%N) [] F4 eq_refl eq_refl)
        as [v [w5 [L5 [r5 [E5 [F5 [D5 X5]]]]]]]; auto.
      + apply NInv_set_avail; auto; simpl; destruct (w_tsig w4); lia.
      + split; [constructor|simpl; lia].
      + constructor.
      + simpl. lia.
      + rewrite E5. exists w5, L5, [r5]. split; [reflexivity|]. split; [exact F5|].
        split; [apply X5|]. split; [apply X5|]. split; [|constructor; [exact D5|constructor]].
        rewrite (x_tsig _ _ _ X5), (x_av _ _ _ X5), (x_len _ _ _ X5). simpl. destruct (w_tsig w4); lia.
    - exists w4, L, []. split; [reflexivity|]. split; [exact F4|]. split; [reflexivity|]. split; [reflexivity|].
      split; [destruct (w_tsig w4); lia|constructor]. }
  destruct Hopt as [w5 [L5 [rs5 [E5 [F5 [Ht5 [Hm5 [Hl5 D5]]]]]]]]. rewrite E5. cbn [bind].
  rewrite <- Ht5. rewrite <- Hm5 in D5 |- *. clear E5.
  destruct (w_tsig w5) as [t|] eqn:Et5.
  - assert (Twf : tsig_wf t) by (apply Hts; congruence).
    pose proof (tsig_rdata_length t Twf) as Tlen. pose proof (ni_nb _ _ _ (fe_ni _ _ _ _ _ _ _ F5)) as [K1 K2].
    destruct (fin_ext_append w4 L _ _ w5 L5 rs5 (set_avail (set_tsig_f w5 None) (w_avail w5 + t_reserved t))
                (t_key t) TYPE_TSIG qclass_any (ttl_from 0) (tsig_unsigned_rdata t) F5 eq_refl eq_refl)
      as [v [w6 [L6 [r6 [E6 [F6 [D6 X6]]]]]]]; auto.
    + apply NInv_set_avail; [apply NInv_clear_tsig, F5|simpl; lia|simpl; lia].
    + apply Twf.
    + apply octets_rdata, Twf.
    + simpl. lia.
    + cbn zeta. rewrite E6. exists w6, L6, (rs5 ++ [r6]). split; [reflexivity|]. split; [exact F6|].
      apply Forall2_app; [exact D5|]. constructor; [exact D6|constructor].
  - exists w5, L5, rs5. split; [reflexivity|]. split; [exact F5|]. rewrite app_nil_r. exact D5.
Qed.

(* finish: the header counts are written (buffer [b4]), then the pseudo-records *)
Theorem finish_pres f d g L : AInv d g L ->
  exists b4 wF LF rsP, finish_gen f (d_w d) = Ok (w_cursor wF, w_buf wF) /\
    keeps d g L (mkD (set_buf (d_w d) b4) (d_regs d)) g /\
    slice b4 4 12 = be16 (w_qd (d_w d)) ++ be16 (w_an (d_w d)) ++ be16 (w_ns (d_w d)) ++ be16 (w_ar (d_w d)) /\
    agree 4 (w_buf (d_w d)) b4 /\ (forall c h, ragree header_size c h (w_buf (d_w d)) b4) /\
    fin_ext (set_buf (d_w d) b4) L (g_q g) (g_r g) wF LF rsP /\
    Forall2 rr_desc2 rsP (pseudo_gen f (d_w d)).
Proof.
  intros Hi. pose proof (a_n _ _ _ Hi) as Hn.
  destruct (hdr_counts_ok (d_w d)) as [b4 [Eh [El4 [Hdr [Ag4 R4]]]]]; [destruct Hn; lia|].
  unfold finish_gen. rewrite Eh. clear Eh. exists b4.
  assert (H4 : keeps d g L (mkD (set_buf (d_w d) b4) (d_regs d)) g).
  { apply keeps_move; auto; [apply inv_set_buf; auto|apply (a_ts _ _ _ Hi)|].
    intros y A HF. eapply FLay_fields; eauto. }
  destruct (finish_tail f _ L _ _ _ (a_n _ _ _ (proj1 H4)) (a_ni _ _ _ (proj1 H4)) (a_an _ _ _ (proj1 H4))
              (a_ts _ _ _ (proj1 H4))) as [wF [LF [rsP [E [F D]]]]].
  exists wF, LF, rsP. auto 10.
Qed.

Theorem finish_ok f d g L : AInv d g L ->
  exists wF LF, finish_gen f (d_w d) = Ok (w_cursor wF, w_buf wF) /\
    NInv wF (length (w_buf wF)) LF /\ (forall s, L s -> LF s) /\
    (forall s, LF s -> L s \/ w_cursor (d_w d) <= s) /\
    ragree header_size (w_cursor (d_w d)) (length (w_buf (d_w d))) (w_buf (d_w d)) (w_buf wF) /\
    w_cursor (d_w d) <= w_cursor wF.
Proof.
  intros Hi. destruct (finish_pres f d g L Hi) as [b4 [wF [LF [rsP [E [_ [_ [_ [R4 [[F1 F2 F3 _ F5 F6 _] _]]]]]]]]]].
  exists wF, LF. split; [exact E|]. split; [exact F1|]. split; [exact F2|]. split; [exact F3|].
  split; [|exact F6]. eapply ragree_trans; [apply R4|]. apply agree_ragree. exact F5.
Qed.

(* the hint contract of a whole operation sequence, threaded through the run *)
Fixpoint run_contract (d : dstate) (g : gn) (ops : list wop) : Prop :=
  match ops with
  | [] => True
  | o :: rest =>
    op_wf o /\ op_contract d g o /\
    match step d o with
    | Ok (d1, r) => if stops o r then True else run_contract d1 (gstep d g o r) rest
    | _ => True
    end
  end.

Definition g0 : gn := mkGn None None None [].
Definition L0 : nat -> Prop := fun _ => False.

Lemma AInv_new buf limit w0 : writer_new buf limit = Ok w0 -> AInv (mkD w0 []) g0 L0.
Proof.
  intros H. pose proof (writer_new_inv _ _ _ H) as Hn.
  unfold writer_new in H.
  destruct (Nat.min limit (length buf) <? header_size); [discriminate|].
  destruct (length buf <? header_size); [discriminate|].
  inversion H; subst w0. clear H.
  constructor; simpl.
  - exact Hn.
  - constructor; simpl.
    + apply (inv_nb _ Hn).
    + lia.
    + left. lia.
    + intros s [].
    + intros s [].
    + repeat split; exact I.
    + intros pr [E|[E|E]]; discriminate.
    + intros s [].
  - repeat split; intros pr E; discriminate.
  - intros s [[] _].
  - intros s [[] _].
  - intros pr E; discriminate.
  - split; [reflexivity|]. intros r v names i p m E. destruct r; discriminate.
  - intros t E. discriminate.
Qed.

Theorem run_pres : forall ops d g L, AInv d g L -> run_contract d g ops ->
  exists d' outs alive g' L', run d ops = Ok (d', outs, alive) /\ AInv d' g' L' /\
    forall y A, LInv d y A L -> exists y', LInv d' y' (areplay A ops outs) L'.
Proof.
  induction ops as [|o rest IH]; intros d g L Hi Hc.
  - simpl. exists d, [], true, g, L. split; auto. split; auto. intros y A HL. exists y. exact HL.
  - destruct Hc as [Hwf [Hoc Hrest]]. pose proof (step_pres_all d g L o Hi Hwf Hoc) as S.
    unfold step_pres in S. cbn [run].
    destruct (step d o) as [[d1 r]|e|] eqn:E; try contradiction. cbn [bind].
    destruct S as [L1 [H1 HL1]].
    destruct (stops o r).
    + exists d1, [r], false, (gstep d g o r), L1. split; auto. split; auto.
      intros y A HL. simpl. destruct rest; exact (HL1 y A HL).
    + destruct (IH d1 (gstep d g o r) L1 H1 Hrest) as [d2 [outs [alive [g2 [L2 [E2 [H2 HL2]]]]]]].
      rewrite E2. cbn [bind]. exists d2, (r :: outs), alive, g2, L2. split; auto. split; auto.
      intros y A HL. destruct (HL1 y A HL) as [y1 HL1']. exact (HL2 y1 _ HL1').
Qed.

Lemma of_Mv_trunc d vec (r : M (option hvec)) d' : of_Mv d vec r = Ok (d', RErr Truncation) ->
  exists w', r = Err (Truncation, w').
Proof. destruct r as [[v w]|[e w]|]; simpl; intros H; inversion H; subst. eauto. Qed.

Theorem rrset_no_spurious d g L s h n ty cl ttl rds vec d' : AInv d g L -> wf_name n ->
  Forall wf_bytes rds -> hs_contract (d_regs d) g h n ->
  step d (OAddRrset s h n ty cl ttl rds vec) = Ok (d', RErr Truncation) ->
  w_avail (d_w d) < w_cursor (d_w d) + rds_size n rds.
Proof.
  intros Hi Hwf Hrd Hc E. destruct (contract_ok d g L h n Hi Hc Hwf) as [Hh HhL].
  cbn [step] in E. apply of_Mv_trunc in E as [w' E].
  unfold add_section_rrset, with_rollback in E.
  destruct (change_section s (d_w d)) as [[[] w1]|[e w1]|] eqn:Ecs; cbn [bind] in E.
  3:{ discriminate. }
  2:{ unfold change_section in Ecs. destruct s; destruct (w_section (d_w d)); inversion Ecs; subst; discriminate. }
  destruct (change_section_inv _ _ _ _ Ecs) as [x ->].
  pose proof (rrset_L n ty cl (ttl_from ttl) (g_q g) rds (resolve_hint (d_regs d) h) (if vec then Some [] else None) 0
                (set_section (d_w d) x) L [] (g_o g) (g_r g)
                (NInv_set_section _ _ _ x (a_ni _ _ _ Hi)) (a_an _ _ _ Hi) (vec0_ok _ _ _ vec) Hwf Hrd Hh HhL) as P.
  destruct (add_rrset_loop (resolve_hint (d_regs d) h) n ty cl (ttl_from ttl) rds (if vec then Some [] else None) 0
                   (set_section (d_w d) x)) as [[[v' k] w2]|[e w2]|]; simpl in P; cbn [bind] in E.
  - destruct (65535 <? N.of_nat k)%N; [discriminate|].
    destruct (checked_add16 (sec_count s w2) (N.of_nat k)); discriminate.
  - inversion E; subst e. destruct P as [[_ K]|[K _]]; [exact K|discriminate].
  - discriminate.
Qed.

Theorem rr_no_spurious d g L s h n ty cl ttl rd vec d' : AInv d g L -> wf_name n -> wf_bytes rd ->
  hs_contract (d_regs d) g h n ->
  step d (OAddRr s h n ty cl ttl rd vec) = Ok (d', RErr Truncation) ->
  w_avail (d_w d) < w_cursor (d_w d) + length (nm_wire n) + 10 + length rd.
Proof.
  intros Hi Hwf Hrd Hc E. rewrite step_rr_rrset in E.
  pose proof (rrset_no_spurious d g L s h n ty cl ttl [rd] vec d' Hi Hwf (Forall_cons _ Hrd (Forall_nil _)) Hc E) as K.
  simpl in K. lia.
Qed.

Theorem question_no_spurious d g L n qt qc d' : AInv d g L -> wf_name n ->
  step d (OAddQuestion n qt qc) = Ok (d', RErr Truncation) ->
  w_avail (d_w d) < w_cursor (d_w d) + length (nm_wire n) + 4.
Proof.
  intros Hi Hwf E. cbn [step] in E. unfold add_question in E.
  destruct (w_section (d_w d)); try (simpl in E; discriminate).
  destruct (checked_add16 (w_qd (d_w d)) 1) as [nq|]; [|simpl in E; discriminate].
  unfold with_rollback in E.
  pose proof (write_unhinted_L _ n (d_w d) L (a_ni _ _ _ Hi) Hwf) as P1.
  destruct (write_unhinted_name n (d_w d)) as [[pr w1]|[e w1]|]; simpl in P1; cbn [bind] in E.
  3:{ contradiction. }
  2:{ destruct P1 as [_ [_ [_ K]]]. lia. }
  destruct P1 as [W [Hsz [_ [L1 [G1 [Hi1 [HpL HT1]]]]]]]. pose proof W as [X _].
  set (w1' := if (w_qd w1 =? 0)%N then set_qname w1 pr else w1) in *.
  assert (E1 : w_cursor w1' = w_cursor w1 /\ w_avail w1' = w_avail w1)
    by (unfold w1'; destruct (w_qd w1 =? 0)%N; auto).
  destruct E1 as [Ec1 Ea1].
  pose proof (ni_nb _ _ _ Hi1) as [K1 _]. pose proof (x_av _ _ _ X) as Av.
  assert (Hnb1 : w_cursor w1' <= w_avail w1') by lia.
  clearbody w1'.
  destruct (try_push_u16 qt w1') as [[u2 w2]|[e w2]|] eqn:E2; cbn [bind] in E.
  3:{ discriminate. }
  2:{ pose proof (try_push_err_size _ _ _ _ Hnb1 E2) as K. unfold be16 in K. simpl length in K. lia. }
  destruct (try_push_ext (w_cursor w1') _ _ _ _ E2 (le_n _)) as [X2 [_ [Hc2 _]]].
  unfold be16 in Hc2. simpl length in Hc2.
  destruct (try_push_u16 qc w2) as [[u3 w3]|[e w3]|] eqn:E3; cbn [bind] in E.
  3:{ discriminate. }
  2:{ pose proof (try_push_err_size _ _ _ _ (x_cav _ _ _ X2) E3) as K. unfold be16 in K. simpl length in K.
      rewrite (x_av _ _ _ X2) in K. lia. }
  simpl in E. discriminate.
Qed.

(* per name write, with the pointer target known to be a label start of an earlier name *)
Theorem hinted_into_label_starts hl h n w L : NInv w hl L -> wf_name n -> hint_contract h n w ->
  hint_in h w L ->
  match write_hinted_name h n w with
  | Ok (pr, w') => emittedL n (w_buf w') (w_cursor w) (w_cursor w') L /\
                   exists L', grew w w' L L' /\ NInv w' hl L' /\ (forall p, pr = Some p -> L' (p_ptr p)) /\
                              emittedT (exactf (w_mode w)) n (w_buf w') (w_cursor w) (w_cursor w') L L'
  | Err (e, _) => e = Truncation
  | Panic => False
  end.
Proof.
  intros Hi Hwf Hh HhL. pose proof (write_hinted_L hl h n w L Hi Hwf Hh HhL) as P.
  destruct (write_hinted_name h n w) as [[pr w']|[e w']|]; simpl in P; auto; [|apply P].
  destruct P as [_ [_ [E R]]]. auto.
Qed.

Theorem unhinted_into_label_starts hl n w L : NInv w hl L -> wf_name n ->
  match write_unhinted_name n w with
  | Ok (pr, w') => emittedL n (w_buf w') (w_cursor w) (w_cursor w') L /\
                   exists L', grew w w' L L' /\ NInv w' hl L' /\ (forall p, pr = Some p -> L' (p_ptr p)) /\
                              emittedT (exactf (w_mode w)) n (w_buf w') (w_cursor w) (w_cursor w') L L'
  | Err (e, _) => e = Truncation
  | Panic => False
  end.
Proof.
  intros Hi Hwf. pose proof (write_unhinted_L hl n w L Hi Hwf) as P.
  destruct (write_unhinted_name n w) as [[pr w']|[e w']|]; simpl in P; auto; [|apply P].
  destruct P as [_ [_ [E R]]]. auto.
Qed.
