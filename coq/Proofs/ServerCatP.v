(* C07 o C22: the server's dispatch over the REAL catalog structure.
   Model/Server.v looks the zone up in a flat list ([Server.cat_lookup], longest suffix
   within the class); C22 proves the hash-map tree refines a flat reference map.  Here the
   two are joined: on the flat view [flat_of_tree c] of a well-formed tree [c] (every tree
   reachable by insert/remove histories is well-formed) [Server.cat_lookup] returns exactly
   the entry [CatTree.cat_lookup] returns — same class, same name modulo case, same kind. *)
From QV Require Import Base.ListX Model.NameWire Model.Reader Model.RdataLite Spec.NameWireS Spec.NameRepr
  Spec.ReaderS Model.CatTree Spec.CatTreeS Proofs.CatTreeP Proofs.CatTreeInvP Proofs.CatTreeSP Proofs.CatTreeCatP Proofs.CatTreeSingleP
  Proofs.NameWireP Proofs.ReaderP Model.Server Proofs.ServerP Model.ServerCat.
Local Open Scope nat_scope.

Lemma srv_is_suffix_spec s l : Server.is_suffix s l = true <-> CatTreeS.is_suffix s l.
Proof.
  unfold Server.is_suffix, CatTreeS.is_suffix. split.
  - intros H. apply andb_true_iff in H. destruct H as [H1 H2]. apply labels_eqb_spec in H2.
    exists (firstn (length l - length s) l). set (k := length l - length s) in *.
    rewrite H2. symmetry. apply firstn_skipn.
  - intros [pre ->]. unfold bytes in *. rewrite app_length. apply andb_true_iff. split; [apply Nat.leb_le; lia|].
    apply labels_eqb_spec. replace (length pre + length s - length s) with (length pre) by lia.
    rewrite skipn_app, skipn_all, Nat.sub_diag. reflexivity.
Qed.

(* For ANY catalog implementation that refines the flat reference map of C22 — a map [m] storing every
   entry at its own key, a listing [l] of exactly its entries — the server model's lookup on the flat
   view of the listing returns the entry the specification's longest-suffix lookup prescribes. *)
Lemma flat_lookup_refmap (m : refmap tentry) (l : list tentry) cls q r :
  rm_consistent CatTree.e_name CatTree.e_class m -> rm_is_iter CatTree.e_name CatTree.e_class m l ->
  rm_is_lookup m cls q r ->
  Server.cat_lookup (map srv_entry l) q cls None = option_map srv_entry r.
Proof.
  intros Cons [_ It] L.
  pose proof (cat_lookup_spec (map srv_entry l) q cls None _ eq_refl) as S.
  assert (F3 : forall e p, m (cls, p) = Some e -> CatTree.e_class e = cls /\ lower_name (CatTree.e_name e) = p).
  { intros e p H. apply Cons in H. unfold CatTreeS.key_of in H. inversion H. split; reflexivity. }
  assert (F4 : forall e, In e l -> m (CatTree.e_class e, lower_name (CatTree.e_name e)) = Some e).
  { intros e H. apply It in H. destruct H as [k H]. pose proof (Cons _ _ H) as K. unfold CatTreeS.key_of in K.
    rewrite <- K in H. exact H. }
  assert (F1 : forall e p, m (cls, p) = Some e ->
               In (srv_entry e) (map srv_entry l) /\ (Server.e_class (srv_entry e) =? cls)%N = true /\
               Server.e_name (srv_entry e) = p).
  { intros e p H. destruct (F3 e p H) as [A B]. split; [|split].
    - apply in_map. apply It. eauto.
    - simpl. apply N.eqb_eq. exact A.
    - simpl. exact B. }
  destruct (Server.cat_lookup (map srv_entry l) q cls None) as [s|].
  - destruct S as ([S0|(Sin & Scl & Ssuf)] & _ & Smax); [discriminate|].
    apply in_map_iff in Sin. destruct Sin as (e' & <- & Hin').
    simpl in Scl. apply N.eqb_eq in Scl. simpl in Ssuf. apply srv_is_suffix_spec in Ssuf.
    pose proof (F4 e' Hin') as A'. rewrite Scl in A'.
    destruct r as [e|]; simpl.
    + destruct L as (p & Ap & Psuf & Pmax).
      destruct (F1 e p Ap) as (I1 & C1 & N1).
      assert (Ssuf1 : Server.is_suffix (Server.e_name (srv_entry e)) q = true)
        by (apply srv_is_suffix_spec; rewrite N1; exact Psuf).
      pose proof (Smax (srv_entry e) I1 C1 Ssuf1) as Le1. rewrite N1 in Le1. simpl in Le1.
      pose proof (Pmax _ _ A' Ssuf) as Le2.
      assert (Peq : p = lower_name (CatTree.e_name e')) by (apply (is_suffix_same_length _ _ _ Psuf Ssuf); apply Nat.le_antisymm; assumption).
      rewrite Peq in Ap. assert (X : Some e = Some e') by (rewrite <- Ap; exact A'). inversion X. reflexivity.
    + exfalso. exact (L _ _ A' Ssuf).
  - destruct S as [_ S]. destruct r as [e|]; [exfalso|reflexivity].
    destruct L as (p & Ap & Psuf & _). destruct (F1 e p Ap) as (I1 & C1 & N1).
    apply (S _ I1). split; [exact C1|]. apply srv_is_suffix_spec. rewrite N1. exact Psuf.
Qed.

Lemma tree_lookup_flat (c : tcatalog) nm cls : wf_cat c ->
  exists r, CatTree.cat_lookup c nm cls = Ok r /\
            Server.cat_lookup (flat_of_tree c) (lower_name nm) cls None = option_map srv_entry r.
Proof.
  intros Hwf. destruct (cat_lookup_refine entry_kind c nm cls) as (r & E & L). exists r. split; [exact E|].
  change (canon nm) with (lower_name nm) in L.
  exact (flat_lookup_refmap (abs c) (cat_iter c) cls (lower_name nm) r (abs_consistent entry_kind c Hwf)
           (cat_iter_refine entry_kind c Hwf) L).
Qed.

(* SingleZoneCatalog (src/db/single_zone_catalog.rs): the catalog holding exactly one entry *)
Lemma single_lookup_flat (e : tentry) nm cls :
  Server.cat_lookup [srv_entry e] (lower_name nm) cls None = option_map srv_entry (single_lookup e nm cls).
Proof.
  apply (flat_lookup_refmap (rm_insert CatTree.e_name CatTree.e_class rm_empty e) [e] cls (lower_name nm)).
  - intros k x H. unfold rm_insert in H. destruct (skey_eq_dec k _) as [->|]; [inversion H; reflexivity|discriminate].
  - split; [repeat constructor; intros []|]. intros x. split.
    + intros [<-|[]]. exists (key_of CatTree.e_name CatTree.e_class e). unfold rm_insert.
      destruct (skey_eq_dec _ _); [reflexivity|congruence].
    + intros [k H]. unfold rm_insert in H. destruct (skey_eq_dec k _); [inversion H; left; reflexivity|discriminate].
  - exact (CatTreeSingleP.single_lookup_refine entry_kind e nm cls).
Qed.

(* every catalog built by a history of inserts/removes (lookups, gets, iterations interleaved) *)
Theorem tree_link_history (h : list (cat_op entry_kind)) c xs : cat_run cat_new h = Ok (c, xs) ->
  forall nm cls, exists r, CatTree.cat_lookup c nm cls = Ok r /\
    Server.cat_lookup (flat_of_tree c) (lower_name nm) cls None = option_map srv_entry r.
Proof.
  intros H nm cls. destruct (cat_run_wf entry_kind h) as (c' & xs' & H' & Hwf). rewrite H in H'. inversion H'; subst.
  apply tree_lookup_flat. exact Hwf.
Qed.

Lemma srv_entry_fields e :
  Server.e_class (srv_entry e) = CatTree.e_class e /\ Server.e_name (srv_entry e) = lower_name (CatTree.e_name e) /\
  Server.e_kind (srv_entry e) = CatTree.e_val e.
Proof. repeat split. Qed.

Lemma tree_inserts_run : forall es (c c' : tcatalog), tree_inserts c es = Ok c' ->
  exists xs, cat_run c (map OpInsert es) = Ok (c', xs).
Proof.
  induction es as [|e es IH]; intros c c' H; cbn [tree_inserts] in H.
  - inversion H; subst. exists []. reflexivity.
  - destruct (cat_insert c e) as [[c1 old]|x|] eqn:E; cbn [bind] in H; try discriminate.
    destruct (IH _ _ H) as [xs R]. exists (OutEntry old :: xs).
    cbn [map]. unfold cat_run in *. cbn [cat_run_gen cat_step_gen]. rewrite E. cbn [bind]. rewrite R. reflexivity.
Qed.

Lemma tree_inserts_wf : forall es (c : tcatalog), wf_cat c -> exists c', tree_inserts c es = Ok c' /\ wf_cat c'.
Proof.
  induction es as [|e es IH]; intros c Hwf; cbn [tree_inserts].
  - eauto.
  - destruct (cat_insert_refine entry_kind c e Hwf) as (c1 & E & _ & Hwf1). rewrite E. cbn [bind]. apply IH. exact Hwf1.
Qed.

Theorem tree_of_entries_ok es : exists c, tree_of_entries es = Ok c /\ wf_cat c.
Proof. apply tree_inserts_wf. exact I. Qed.

Lemma decodes_labels_nonempty b cs i ls e : decodes b cs i ls e -> Forall (fun l : bytes => l <> []) ls.
Proof.
  induction 1 as [| cs i len rest e Hn Hpos H63 Hb _ IH | ]; [constructor| |assumption].
  constructor; [|exact IH]. intros X. apply (f_equal (@length _)) in X. rewrite slice_length in X by lia.
  simpl in X. lia.
Qed.

Lemma wire_labels_aux_wire_of ls : Forall (fun l : bytes => l <> []) ls ->
  forall fuel, length (wire_of ls) <= fuel -> wire_labels_aux fuel (wire_of ls) = ls.
Proof.
  induction 1 as [|l r Hl _ IH]; intros fuel Hf.
  - destruct fuel; [simpl in Hf; lia|reflexivity].
  - rewrite wire_of_cons in *. destruct fuel; [simpl in Hf; lia|]. cbn [wire_labels_aux].
    destruct (N.of_nat (length l) =? 0)%N eqn:Z.
    { apply N.eqb_eq in Z. destruct l; [congruence|simpl in Z; lia]. }
    rewrite Nat2N.id, firstn_app, Nat.sub_diag, firstn_all. cbn [firstn]. rewrite app_nil_r.
    rewrite skipn_app, Nat.sub_diag, skipn_all. cbn [skipn app]. f_equal. apply IH.
    simpl in Hf. rewrite app_length in Hf. lia.
Qed.

Lemma name_key_name_of ls : Forall (fun l : bytes => l <> []) ls -> name_key (name_of ls) = lower_name ls.
Proof.
  intros H. unfold name_key, name_of, wire_labels. cbn [n_wire]. rewrite wire_labels_aux_wire_of by (auto; lia).
  reflexivity.
Qed.

(* the question read from a request: its name is the spec-level decoding, and its catalog key is
   the lower-cased label list *)
Lemma question_key req r1 q : wf_bytes req -> 12 <= length req -> read_question (r0_of req) = (r1, Ok q) ->
  exists ls, decodes_question req 12 ls (q_type q) (q_class q) (r_cursor r1) /\ q_name q = name_of ls /\
             name_key (q_name q) = lower_name ls.
Proof.
  intros Hw H12 E. pose proof (read_question_facts (r0_of req) (r0_inv req Hw H12)) as (_ & _ & _ & F).
  rewrite E in F. cbn [fst snd] in F. destruct (F q eq_refl) as (ls & D & Nm & _). exists ls.
  split; [exact D|]. split; [exact Nm|]. rewrite Nm. apply name_key_name_of.
  inversion D as [ls' l qt qc DN _ _]; subst. destruct DN as (e & De & _). eapply decodes_labels_nonempty; eauto.
Qed.

Theorem handle_query_tree answer cfg (c : tcatalog) w q ls : wf_cat c -> c_catalog cfg = flat_of_tree c ->
  w_question w = Some q -> name_key (q_name q) = lower_name ls ->
  exists r, CatTree.cat_lookup c ls (q_class q) = Ok r /\
    handle_query answer cfg w =
      if existsb (N.eqb (q_type q)) [QTYPE_IXFR; QTYPE_AXFR; QTYPE_MAILB; QTYPE_MAILA] || (q_class q =? QCLASS_ANY)%N
      then set_rcode w RC_NOTIMP
      else match r with
           | None => set_rcode w RC_REFUSED
           | Some e =>
             match CatTree.e_val e with
             | ELoaded z => apply_body w (answer z q (c_transport cfg) (w_avail w - w_cursor w))
             | _ => set_rcode w RC_SERVFAIL
             end
           end.
Proof.
  intros Hwf Hc Hq Hk. destruct (tree_lookup_flat c ls (q_class q) Hwf) as (r & E & L). exists r. split; [exact E|].
  unfold handle_query. rewrite Hq, Hc, Hk, L.
  destruct (existsb _ _); cbn [orb]; [reflexivity|]. destruct (q_class q =? QCLASS_ANY)%N; [reflexivity|].
  destruct r as [e|]; [|reflexivity]. cbn [option_map]. destruct (CatTree.e_val e) eqn:K; simpl; rewrite K; reflexivity.
Qed.

Theorem clean_query_tree answer verify cfg (c : tcatalog) req w0 : wf_cfg cfg -> wf_bytes req -> wf_cat c ->
  c_catalog cfg = flat_of_tree c ->
  prescan verify cfg req = Ok (PClean OPCODE_QUERY w0) ->
  match w_question w0 with
  | None => handle_message answer verify cfg req = Ok (Some (set_rcode w0 RC_FORMERR))
  | Some q =>
    exists ls r1 r, decodes_question req 12 ls (q_type q) (q_class q) (r_cursor r1) /\ q_name q = name_of ls /\
      CatTree.cat_lookup c ls (q_class q) = Ok r /\
      handle_message answer verify cfg req = Ok (Some (
        if existsb (N.eqb (q_type q)) [QTYPE_IXFR; QTYPE_AXFR; QTYPE_MAILB; QTYPE_MAILA] || (q_class q =? QCLASS_ANY)%N
        then set_rcode w0 RC_NOTIMP
        else match r with
             | None => set_rcode w0 RC_REFUSED
             | Some e =>
               match CatTree.e_val e with
               | ELoaded z => apply_body w0 (answer z q (c_transport cfg) (w_avail w0 - w_cursor w0))
               | _ => set_rcode w0 RC_SERVFAIL
               end
             end))
  end.
Proof.
  intros Hcfg Hwf Hc Hcat E.
  destruct (clean_dispatch answer verify cfg req _ w0 Hcfg Hwf E) as (_ & ND & HM).
  change (OPCODE_QUERY =? OPCODE_QUERY)%N with true in HM. cbv iota in HM.
  destruct (prescan_facts verify cfg req Hcfg Hwf) as (p & E' & F). rewrite E in E'. inversion E'; subst p. clear E'.
  destruct F as ((H12 & _ & _ & QE & _) & _).
  destruct (w_question w0) as [q|] eqn:Q.
  - unfold question_echo in QE. rewrite Q in QE.
    destruct QE as [QE|(_ & r1 & q' & RQ & QE)]; [discriminate|]. inversion QE; subst q'.
    destruct (question_key req r1 q Hwf H12 RQ) as (ls & D & Nm & K).
    destruct (handle_query_tree answer cfg c w0 q ls Hc Hcat Q K) as (r & L & T).
    exists ls, r1, r. split; [exact D|]. split; [exact Nm|]. split; [exact L|]. rewrite HM, T. reflexivity.
  - rewrite HM. unfold handle_query. rewrite Q. reflexivity.
Qed.
