(* Rdata::components (model: comp_collect over the regenerated ComponentType arrays):
   the components partition the RDATA, embedded names are classified
   compressible/uncompressible exactly as RFC 3597 §4 prescribes (Spec/RdataCompS.v),
   the iterator never panics, and on VALID RDATA it never reports an error. *)
From QV Require Import Base.ListX Model.NameWire Spec.NameWireS Spec.NameRepr Proofs.NameWireP
  Proofs.NameWireSP Model.RdataM Spec.RdataFormatS Spec.RdataCompS Proofs.RdNameP
  Proofs.RdataFormatSP Proofs.RdataVP Proofs.RdataRP.
Local Open Scope nat_scope.

Definition ck_of (ty : comp_type) : ckind :=
  match ty with
  | CompressibleName => KName true
  | UncompressibleName => KName false
  | FixedLen n => KFixed n
  end.

Definition kind_of (x : component) : ckind :=
  match x with CName cb _ => KName cb | COther b => KFixed (length b) end.

(* a name component is the parsed form of a valid name *)
Definition comp_ok (x : component) : Prop :=
  match x with
  | CName _ nm => exists ls, valid_name ls /\ nm = name_of ls
  | COther _ => True
  end.

(* what may follow the declared layout: nothing, or one non-empty remainder *)
Definition is_tail (tl : list ckind) : Prop := tl = [] \/ exists k, 0 < k /\ tl = [KFixed k].

Definition name_step (cb : bool) (rest : list comp_type) (r : bytes) : res rd_err (list component) :=
  let* (nm, len) := uname r in
  let* remaining := slice_from r len in
  let* tl := comp_collect rest remaining in
  Ok (CName cb nm :: tl).

Lemma comp_collect_name ty cb rest r :
  ck_of ty = KName cb -> comp_collect (ty :: rest) r = name_step cb rest r.
Proof. destruct ty; intros [= <-]; reflexivity. Qed.

Lemma ck_of_fixed ty n : ck_of ty = KFixed n -> ty = FixedLen n.
Proof. destruct ty; intros [= <-]; reflexivity. Qed.

Lemma comp_collect_fixed n rest r :
  comp_collect (FixedLen n :: rest) r =
  if length r <? n then Err RUnexpectedEom
  else let* tl := comp_collect rest (skipn n r) in Ok (COther (firstn n r) :: tl).
Proof.
  cbn [comp_collect]. unfold get_range. change (n <? 0) with false. cbn [orb].
  destruct (Nat.ltb_spec (length r) n); [reflexivity|].
  rewrite slice_from_ok by lia. rewrite slice_0. reflexivity.
Qed.

Lemma comp_collect_nil r : comp_collect [] r = Ok (match r with [] => [] | _ => [COther r] end).
Proof. destruct r; reflexivity. Qed.

Lemma name_step_inv cb rest r comps : name_step cb rest r = Ok comps ->
  exists ls tl, spec_decode_name r 0 = Some (ls, wire_len ls) /\
    comp_collect rest (skipn (wire_len ls) r) = Ok tl /\ comps = CName cb (name_of ls) :: tl.
Proof.
  intros H. unfold name_step in H. pose proof (uname_spec r) as U.
  destruct (uname r) as [[nm len]|e|]; cbn [bind] in H; try discriminate.
  destruct U as (ls & D & ->). destruct (decode0_facts _ _ _ D) as (_ & -> & _ & _ & L).
  rewrite slice_from_ok in H by exact L. cbn [bind] in H.
  destruct (comp_collect rest _) as [tl|e|] eqn:C; cbn [bind] in H; try discriminate.
  injection H as <-. eauto.
Qed.

Lemma comp_collect_fixed_inv n rest r comps : comp_collect (FixedLen n :: rest) r = Ok comps ->
  n <= length r /\ exists tl, comp_collect rest (skipn n r) = Ok tl /\ comps = COther (firstn n r) :: tl.
Proof.
  rewrite comp_collect_fixed. destruct (Nat.ltb_spec (length r) n); [discriminate|].
  destruct (comp_collect rest _) as [tl|e|]; cbn [bind]; try discriminate. intros [= <-]. eauto.
Qed.

Theorem comp_collect_partition : forall types r comps,
  comp_collect types r = Ok comps ->
  concat (map component_octets comps) = r /\
  (exists tl, map kind_of comps = map ck_of types ++ tl /\ is_tail tl) /\
  Forall comp_ok comps.
Proof.
  induction types as [|ty rest IH]; intros r comps H.
  - rewrite comp_collect_nil in H. injection H as <-. destruct r as [|x r'].
    + split; [reflexivity|]. split; [exists []; split; [reflexivity|left; reflexivity]|constructor].
    + cbn [map concat component_octets kind_of]. split; [apply app_nil_r|]. split; [|repeat constructor].
      eexists. split; [reflexivity|]. right. eexists. split; [|reflexivity]. simpl. lia.
  - cbn [map]. destruct (ck_of ty) as [cb|n] eqn:K.
    + rewrite (comp_collect_name ty cb) in H by exact K.
      destruct (name_step_inv _ _ _ _ H) as (ls & tl & D & C & ->).
      destruct (decode0_facts _ _ _ D) as (Hv & _ & Hr & _).
      destruct (IH _ _ C) as (P & (t & Kt & T) & O).
      split; [|split].
      * cbn [map concat component_octets name_of n_wire]. rewrite P. symmetry. exact Hr.
      * exists t. split; [|exact T]. cbn [map kind_of]. rewrite Kt. reflexivity.
      * constructor; [exists ls; auto|exact O].
    + apply ck_of_fixed in K. subst ty.
      destruct (comp_collect_fixed_inv _ _ _ _ H) as (B & tl & C & ->).
      destruct (IH _ _ C) as (P & (t & Kt & T) & O).
      split; [|split].
      * cbn [map concat component_octets]. rewrite P. apply firstn_skipn.
      * exists t. split; [|exact T]. cbn [map kind_of]. rewrite Kt, firstn_length_le by exact B. reflexivity.
      * constructor; [exact I|exact O].
Qed.

Definition piece_of (x : component) : piece :=
  match x with CName cb nm => PName cb (n_wire nm) | COther b => POctets b end.

Definition cspec (x : res rd_err (list component)) (o : option (list piece)) : Prop :=
  match x with
  | Ok comps => o = Some (map piece_of comps)
  | Err e => o = None /\ e <> ROutOfFuel /\ e <> InvalidName OutOfFuel
  | Panic => False
  end.

Lemma cspec_cons x o c : cspec x o ->
  cspec (let* tl := x in Ok (c :: tl))
        (match o with Some ps => Some (piece_of c :: ps) | None => None end).
Proof. destruct x as [tl|e|]; cbn [cspec bind]; [intros ->; reflexivity|intros [-> H]; auto|auto]. Qed.

Theorem comp_collect_spec : forall types r,
  cspec (comp_collect types r) (split_by (map ck_of types) r).
Proof.
  induction types as [|ty rest IH]; intros r.
  - rewrite comp_collect_nil. destruct r; reflexivity.
  - cbn [map]. destruct (ck_of ty) as [cb|n] eqn:K; cbn [split_by].
    + rewrite (comp_collect_name ty cb) by exact K. unfold name_step.
      pose proof (uname_spec r) as U. destruct (uname r) as [[nm len]|e|]; cbn [bind]; [| |exact U].
      * destruct U as (ls & D & ->). rewrite D. destruct (decode0_facts _ _ _ D) as (_ & _ & _ & _ & L).
        rewrite slice_from_ok by exact L. cbn [bind].
        apply (cspec_cons _ _ (CName cb (name_of ls))), IH.
      * destruct U as (-> & U). split; [reflexivity|exact U].
    + apply ck_of_fixed in K. subst ty. rewrite comp_collect_fixed.
      destruct (Nat.ltb_spec (length r) n), (Nat.leb_spec0 n (length r)); try lia; [repeat split; discriminate|].
      apply (cspec_cons _ _ (COther (firstn n r))), IH.
Qed.

Lemma split_by_fixed n ks r : n <= length r -> split_by ks (skipn n r) <> None ->
  split_by (KFixed n :: ks) r <> None.
Proof.
  intros K H. cbn [split_by]. rewrite (proj2 (Nat.leb_le _ _) K).
  destruct (split_by ks (skipn n r)); [discriminate|exact H].
Qed.

(* adjacent fixed fields are one component *)
Lemma split_by_merge n m ks r : n <= length r -> split_by (KFixed m :: ks) (skipn n r) <> None ->
  split_by (KFixed (n + m) :: ks) r <> None.
Proof.
  intros K H. cbn [split_by] in H. rewrite skipn_length, skipn_plus in H.
  destruct (Nat.leb_spec0 m (length r - n)); [|contradiction].
  apply split_by_fixed; [lia|]. destruct (split_by ks _); [discriminate|exact H].
Qed.

Lemma split_by_layout cb : forall g r, smatch g r = true -> split_by (layout_of cb g) r <> None.
Proof.
  induction g as [|f g IH]; intros r M; cbn [layout_of]; [discriminate|].
  destruct (existsb is_FName (f :: g)); [|discriminate]. destruct f; try discriminate.
  - rewrite smatch_name in M. unfold sname in M. cbn [split_by].
    destruct (spec_decode_name r 0) as [[ls l]|]; [|discriminate]. specialize (IH _ M).
    destruct (split_by _ _); [discriminate|exact IH].
  - rewrite smatch_bytes in M. apply andb_true_iff in M. destruct M as [K M]. apply Nat.leb_le in K.
    specialize (IH _ M).
    destruct (layout_of cb g) as [|[cb'|m] ks]; [apply split_by_fixed|apply split_by_fixed|apply split_by_merge];
      assumption.
Qed.

(* [comps'] is [comps] with the octets [x] taken off its first component *)
Definition peel (x : bytes) (comps comps' : list component) : Prop :=
  comps = COther x :: comps' \/
  exists b tl, comps' = COther b :: tl /\ comps = COther (x ++ b) :: tl.

Lemma map_ck_fixed types k ks : map ck_of types = KFixed k :: ks ->
  exists types', types = FixedLen k :: types' /\ map ck_of types' = ks.
Proof.
  destruct types as [|ty types']; [discriminate|]. cbn [map]. intros [= K <-].
  apply ck_of_fixed in K. subst ty. eauto.
Qed.

(* a fixed field in front of a name: the components of what follows it, for the layout of what follows it *)
Lemma fixed_step cb n g types r comps : existsb is_FName g = true ->
  map ck_of types = layout_of cb (FBytes n :: g) -> comp_collect types r = Ok comps ->
  exists types' comps', map ck_of types' = layout_of cb g /\
    comp_collect types' (skipn n r) = Ok comps' /\ peel (firstn n r) comps comps'.
Proof.
  intros X L C. cbn [layout_of existsb is_FName orb] in L. rewrite X in L.
  destruct (layout_of cb g) as [|[cb'|m] ks]; apply map_ck_fixed in L; destruct L as (types' & -> & L);
    destruct (comp_collect_fixed_inv _ _ _ _ C) as (B & tl & C' & ->).
  1, 2: exists types', tl; split; [exact L|]; split; [exact C'|left; reflexivity].
  exists (FixedLen m :: types'), (COther (firstn m (skipn n r)) :: tl).
  split; [cbn [map ck_of]; rewrite L; reflexivity|]. split.
  - rewrite comp_collect_fixed, skipn_length, skipn_plus, C'.
    destruct (Nat.ltb_spec (length r - n) m); [lia|reflexivity].
  - right. exists (firstn m (skipn n r)), tl. split; [reflexivity|]. rewrite firstn_plus. reflexivity.
Qed.

Theorem dispatch_components c t :
  map ck_of (lookup components_arms components_default c t) = spec_layout c t.
Proof.
  unfold spec_layout, decompressed, compressible_type, grammar, one_of, components_arms, components_default.
  unfold_types. cbn [lookup]. unfold arm_matches. cbn [existsb fst snd]. case_types c t.
Qed.

Theorem components_agrees c t r : wf_bytes r ->
  match components c t r with
  | Ok comps => spec_components c t r = Some (map piece_of comps)
  | Err _ => spec_components c t r = None
  | Panic => False
  end.
Proof.
  intros Hwf. unfold components, spec_components. rewrite <- dispatch_components.
  pose proof (comp_collect_spec (lookup components_arms components_default c t) r) as S.
  destruct (comp_collect _ r); [exact S|apply S|exact S].
Qed.

Theorem components_partition c t r comps : wf_bytes r -> components c t r = Ok comps ->
  concat (map component_octets comps) = r /\
  (exists tl, map kind_of comps = spec_layout c t ++ tl /\ is_tail tl) /\
  Forall comp_ok comps.
Proof.
  intros Hwf H. unfold components in H. rewrite <- dispatch_components.
  apply comp_collect_partition; assumption.
Qed.

Theorem components_safe c t r : wf_bytes r ->
  components c t r <> Panic /\ components c t r <> Err ROutOfFuel /\
  components c t r <> Err (InvalidName OutOfFuel).
Proof.
  intros _. apply not_fuel. unfold components.
  pose proof (comp_collect_spec (lookup components_arms components_default c t) r) as S.
  destruct (comp_collect _ r); [exact I|apply S|exact S].
Qed.

Theorem components_valid_total c t r : wf_bytes r -> matches (grammar c t) r ->
  exists comps, components c t r = Ok comps.
Proof.
  intros Hwf M. apply (smatch_iff _ _ Hwf) in M. unfold components.
  pose proof (comp_collect_spec (lookup components_arms components_default c t) r) as S.
  rewrite dispatch_components in S.
  destruct (comp_collect _ r) as [comps|e|]; [eauto| |contradiction]. exfalso.
  destruct S as [S _]. revert S. unfold spec_layout.
  destruct (decompressed c t); [apply split_by_layout; exact M|discriminate].
Qed.

Theorem components_opaque c t r : decompressed c t = false ->
  components c t r = Ok (match r with [] => [] | _ => [COther r] end).
Proof.
  intros D. unfold components. pose proof (dispatch_components c t) as H. unfold spec_layout in H.
  rewrite D in H. destruct (lookup components_arms components_default c t); [|discriminate].
  apply comp_collect_nil.
Qed.
