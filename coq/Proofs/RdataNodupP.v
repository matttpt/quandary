(* What the specification function nodup_by (Spec/RdataEqS.v) means, for any equivalence:
   the result is a subsequence of the input (insertion order, nothing else), its members are
   pairwise unequal, every input has an equal member in it, and each member is the FIRST
   input of its class. *)
From QV Require Import Base.ListX Spec.RdataEqS.
Local Open Scope nat_scope.

Inductive subseq {A} : list A -> list A -> Prop :=
| ss_nil : subseq [] []
| ss_skip x k l : subseq k l -> subseq k (x :: l)
| ss_keep x k l : subseq k l -> subseq (x :: k) (x :: l).

(* later members differ from earlier ones (for a symmetric eq: pairwise unequal) *)
Inductive pairwise_ne (eq : bytes -> bytes -> bool) : list bytes -> Prop :=
| pn_nil : pairwise_ne eq []
| pn_cons x k : (forall y, In y k -> eq y x = false) -> pairwise_ne eq k -> pairwise_ne eq (x :: k).

Section Nodup.
  Variable eq : bytes -> bytes -> bool.
  Hypothesis eq_refl : forall a, eq a a = true.
  Hypothesis eq_trans : forall a b d, eq a b = true -> eq b d = true -> eq a d = true.

  Lemma existsb_false_all (x : bytes) seen :
    existsb (fun y => eq x y) seen = false -> forall s, In s seen -> eq x s = false.
  Proof.
    intros H s Hs. destruct (eq x s) eqn:E; [|reflexivity].
    assert (X : existsb (fun y => eq x y) seen = true) by (apply existsb_exists; eauto). congruence.
  Qed.

  Lemma nodup_subseq : forall l seen, subseq (nodup_by eq seen l) l.
  Proof.
    induction l as [|x r IH]; intros seen; cbn [nodup_by]; [constructor|].
    destruct (existsb (fun y => eq x y) seen); [apply ss_skip|apply ss_keep]; apply IH.
  Qed.

  Lemma nodup_not_seen : forall l seen y, In y (nodup_by eq seen l) ->
    forall s, In s seen -> eq y s = false.
  Proof.
    induction l as [|x r IH]; intros seen y Hy s Hs; cbn [nodup_by] in Hy; [contradiction|].
    destruct (existsb (fun z => eq x z) seen) eqn:E.
    - eapply IH; eauto.
    - destruct Hy as [<-|Hy]; [eapply existsb_false_all; eauto|].
      eapply IH; [exact Hy|]. apply in_or_app. left. exact Hs.
  Qed.

  Lemma nodup_pairwise : forall l seen, pairwise_ne eq (nodup_by eq seen l).
  Proof.
    induction l as [|x r IH]; intros seen; cbn [nodup_by]; [constructor|].
    destruct (existsb (fun z => eq x z) seen); [apply IH|].
    constructor; [|apply IH].
    intros y Hy. eapply nodup_not_seen; [exact Hy|]. apply in_or_app. right. left. reflexivity.
  Qed.

  Lemma nodup_cover : forall l seen x, In x l ->
    exists y, In y (seen ++ nodup_by eq seen l) /\ eq x y = true.
  Proof.
    induction l as [|a r IH]; intros seen x Hx; [contradiction|]. cbn [nodup_by].
    destruct (existsb (fun z => eq a z) seen) eqn:E.
    - destruct Hx as [<-|Hx]; [|apply IH; exact Hx].
      apply existsb_exists in E. destruct E as (y & Hy & Ey). exists y. split; [|exact Ey].
      apply in_or_app. left. exact Hy.
    - destruct Hx as [<-|Hx].
      + exists a. split; [|apply eq_refl]. apply in_or_app. right. left. reflexivity.
      + destruct (IH (seen ++ [a]) x Hx) as (y & Hy & Ey). exists y. split; [|exact Ey].
        rewrite <- app_assoc in Hy. exact Hy.
  Qed.

  Lemma nodup_first : forall l seen y, In y (nodup_by eq seen l) ->
    exists pre post, l = pre ++ y :: post /\ forall z, In z (seen ++ pre) -> eq y z = false.
  Proof.
    induction l as [|a r IH]; intros seen y Hy; cbn [nodup_by] in Hy; [contradiction|].
    destruct (existsb (fun z => eq a z) seen) eqn:E.
    - destruct (IH seen y Hy) as (pre & post & -> & F). exists (a :: pre), post. split; [reflexivity|].
      intros z Hz. apply in_app_or in Hz. destruct Hz as [Hz|[<-|Hz]].
      + apply F. apply in_or_app. left. exact Hz.
      + (* a equals a seen member s; y differs from s, hence from a *)
        apply existsb_exists in E. destruct E as (s & Hs & Es).
        destruct (eq y a) eqn:Y; [|reflexivity].
        assert (X : eq y s = true) by (eapply eq_trans; eauto).
        rewrite (F s) in X by (apply in_or_app; left; exact Hs). discriminate.
      + apply F. apply in_or_app. right. exact Hz.
    - destruct Hy as [<-|Hy].
      + exists [], r. split; [reflexivity|]. rewrite app_nil_r. apply existsb_false_all. exact E.
      + destruct (IH (seen ++ [a]) y Hy) as (pre & post & -> & F). exists (a :: pre), post.
        split; [reflexivity|]. intros z Hz. apply F. rewrite <- app_assoc. exact Hz.
  Qed.

  Theorem nodup_by_meaning l :
    let k := nodup_by eq [] l in
    subseq k l /\ pairwise_ne eq k /\
    (forall x, In x l -> exists y, In y k /\ eq x y = true) /\
    (forall y, In y k -> exists pre post, l = pre ++ y :: post /\ forall z, In z pre -> eq y z = false).
  Proof.
    cbv zeta. split; [apply nodup_subseq|]. split; [apply nodup_pairwise|]. split.
    - intros x Hx. apply (nodup_cover l [] x Hx).
    - intros y Hy. apply (nodup_first l [] y Hy).
  Qed.
End Nodup.
