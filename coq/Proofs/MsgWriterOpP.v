(* Whole record operations preserve the anchor invariant: RDATA components, add_rr (with the
   RDLENGTH back-patch), add_rrset.  Ghost information: which name every anchor / hint-vector
   slot stands for. *)
From QV Require Import Base.ListX Model.MsgWriter Spec.NameRepr Proofs.NameWireP Proofs.MsgWriterP
     Proofs.MsgWriterScanP Proofs.MsgWriterNameP Proofs.MsgWriterInvP Proofs.MsgWriterClosP
     Proofs.MsgWriterScanSP Proofs.MsgWriterNameSP Proofs.MsgWriterLayP.

Local Open Scope nat_scope.

Lemma decodes_unc_labels b : forall cs i ls e, decodes b cs i ls e -> cs = 0 -> Forall wf_label ls.
Proof.
  induction 1 as [cs i H | cs i len rest e H Hp Hl Hb Hd IH | cs i hi lo rest e' H Hh Hlo Ht Hd IH];
    intros Hcs.
  - constructor.
  - constructor; auto. unfold wf_label. rewrite slice_length by lia. lia.
  - lia.
Qed.

Lemma lwire_len_ge ls : Forall wf_label ls -> 2 * length ls <= length (nm_lwire ls).
Proof.
  induction 1 as [|l r [H1 _] _ IH]; simpl; [lia|]. rewrite app_length. lia.
Qed.

Lemma wire_labels_ok : forall ls fuel, Forall wf_label ls -> length ls < fuel ->
  wire_labels fuel (nm_wire ls) = ls.
Proof.
  induction ls as [|l r IH]; intros fuel Hwf Hf.
  - destruct fuel; [lia|]. reflexivity.
  - destruct fuel; [simpl in Hf; lia|]. inversion Hwf as [|? ? [H1 H63] Hwf']; subst.
    unfold nm_wire. rewrite nm_lwire_cons. simpl app. cbn [wire_labels].
    destruct (N.of_nat (length l) =? 0)%N eqn:E; [apply N.eqb_eq in E; lia|].
    rewrite Nat2N.id. rewrite <- app_assoc.
    rewrite firstn_app, Nat.sub_diag, firstn_all. simpl. rewrite app_nil_r.
    rewrite skipn_app, Nat.sub_diag, skipn_all. simpl. f_equal.
    apply IH; auto. simpl in Hf. lia.
Qed.

Lemma parse_unc_name rd nm len : wf_bytes rd -> parse_uncompressed_name rd false = Ok (nm, len) ->
  wf_name (labels_of_name nm) /\ length (nm_wire (labels_of_name nm)) = len /\ len <= length rd.
Proof.
  intros Hwf H. apply (parse_uncompressed_iff rd false nm len Hwf) in H as [ls [[D Hw] [-> _]]].
  destruct (decodes_nc_end _ _ _ _ _ D eq_refl) as [He Hs].
  pose proof (decodes_end_le _ _ _ _ _ D) as [_ Hle].
  pose proof (decodes_unc_labels _ _ _ _ _ D eq_refl) as Hl.
  pose proof (lwire_len_ge ls Hl) as Hge.
  unfold labels_of_name, name_of. cbn [n_wire]. change (wire_of ls) with (nm_wire ls).
  assert (Hwl : length (nm_wire ls) = wire_len ls) by reflexivity.
  rewrite nm_wire_length in Hwl.
  rewrite wire_labels_ok; auto; [|rewrite nm_wire_length; lia].
  split; [split; auto; lia|]. split; [rewrite nm_wire_length; lia|lia].
Qed.

Lemma lab_eq_false_iff a b : lab_eq false a b <-> map lower a = map lower b.
Proof.
  unfold lab_eq, labels_equal. split; [apply bytes_eqb_eq|intros ->; apply bytes_eqb_refl].
Qed.

Lemma name_eq_sym a b : name_eq false a b -> name_eq false b a.
Proof.
  induction 1; constructor; auto. apply lab_eq_false_iff. symmetry. apply lab_eq_false_iff. auto.
Qed.

Lemma name_eq_trans a b c : name_eq false a b -> name_eq false b c -> name_eq false a c.
Proof.
  intros H. revert c. induction H as [|x y a b Hxy _ IH]; intros c Hc; inversion Hc; subst; constructor.
  - apply lab_eq_false_iff. apply lab_eq_false_iff in Hxy. rewrite Hxy. apply lab_eq_false_iff. auto.
  - apply IH; auto.
Qed.

Lemma named_false cp n b c i : named cp n b c i -> named false n b c i.
Proof. intros [m [H1 H2]]. exists m. split; auto. destruct cp; auto. apply name_eq_weaken; auto. Qed.

Definition stands (b : bytes) (c : nat) (L : nat -> Prop) (m : wname) (p : nat) : Prop :=
  L p /\ 0 < p /\ p <= pointer_max /\ named false m b c p.

Definition anch (b : bytes) (c : nat) (L : nat -> Prop) (o : option prior) (g : option wname) : Prop :=
  forall pr, o = Some pr -> exists m, g = Some m /\ stands b c L m (p_ptr pr) /\ p_len pr = nm_len m.

Lemma stands_hinted w h L m pr n : NInv w h L -> stands (w_buf w) (w_cursor w) L m (p_ptr pr) ->
  p_len pr = nm_len m -> name_eq false n m -> hinted n w pr.
Proof.
  intros Hi [HL [H0 [Hm [n' [Hn He]]]]] Hlen Hnm.
  pose proof (name_eq_length _ _ _ Hnm). pose proof (name_eq_length _ _ _ He).
  split; [|split].
  - split; [exact H0|]. split; [exact Hm|]. split; [eapply closed_real; [apply Hi|exact HL]|].
    exists n'. split; auto. rewrite Hlen. unfold nm_len. lia.
  - rewrite Hlen. unfold nm_len. lia.
  - exists n'. split; auto. eapply name_eq_trans; eauto.
Qed.

Lemma stands_mono b c (L : nat -> Prop) m p b' c' (L' : nat -> Prop) : stands b c L m p ->
  agree c b b' -> c <= c' -> (forall s, L s -> L' s) -> stands b' c' L' m p.
Proof.
  intros [HL [H0 [Hm [n' [Hn He]]]]] Ha Hc HLL. repeat split; auto.
  exists n'. split; auto. eapply name_at_stable; eauto.
Qed.

Lemma stands_transfer b lo c h L b' c0 m p : closed b lo c h L -> ragree lo c h b b' ->
  stands b c0 L m p -> stands b' c0 L m p.
Proof.
  intros Hc R [HL [H0 [Hm [n' [Hn He]]]]]. repeat split; auto.
  exists n'. split; auto. eapply name_at_transfer; eauto. left; auto.
Qed.

Lemma anch_mono b c (L : nat -> Prop) o g b' c' (L' : nat -> Prop) : anch b c L o g ->
  agree c b b' -> c <= c' -> (forall s, L s -> L' s) -> anch b' c' L' o g.
Proof.
  intros H Ha Hc HLL pr E. destruct (H pr E) as [m [G [S1 S2]]]. exists m. split; [auto|]. split; [|auto].
  eapply stands_mono; eauto.
Qed.

Lemma anch_transfer b lo c h L b' c0 o g : closed b lo c h L -> ragree lo c h b b' ->
  anch b c0 L o g -> anch b' c0 L o g.
Proof.
  intros Hc R H pr E. destruct (H pr E) as [m [G [S1 S2]]]. exists m. split; [auto|]. split; [|auto].
  eapply stands_transfer; eauto.
Qed.

Lemma anch_new cp c0 n w w' pr (L' : nat -> Prop) : wrote cp c0 n w w' pr ->
  (forall p, pr = Some p -> L' (p_ptr p)) -> anch (w_buf w') (w_cursor w') L' pr (Some n).
Proof.
  intros [_ [_ [_ W]]] HL p E. destruct (W p E) as [[P0 [Pm _]] [Plen Pn]].
  exists n. split; auto. split; auto. split; [apply HL; auto|]. split; auto. split; auto.
  eapply named_false; eauto.
Qed.

Lemma anch_prior_ok w h L o g : NInv w h L -> anch (w_buf w) (w_cursor w) L o g ->
  oprior_ok (w_buf w) (w_cursor w) o.
Proof.
  intros Hi H. destruct o as [pr|]; simpl; auto.
  destruct (H pr eq_refl) as [m [_ [S1 S2]]].
  apply (stands_hinted w h L m pr m Hi S1 S2 (name_eq_refl _ _)).
Qed.

Definition vecl_ok (b : bytes) (c : nat) (L : nat -> Prop) (l : hvec) (names : list wname) : Prop :=
  length l = Nat.min hint_vec_size (length names) /\
  forall i p m, nth_error l i = Some (Some p) -> nth_error names i = Some m -> stands b c L m p.
Definition vec_ok (b : bytes) (c : nat) (L : nat -> Prop) (v : option hvec) (names : list wname) : Prop :=
  match v with Some l => vecl_ok b c L l names | None => True end.
Definition vsome (v : option hvec) : bool := match v with Some _ => true | None => false end.

Lemma vec_mono b c (L : nat -> Prop) v names b' c' (L' : nat -> Prop) : vec_ok b c L v names ->
  agree c b b' -> c <= c' -> (forall s, L s -> L' s) -> vec_ok b' c' L' v names.
Proof.
  destruct v as [l|]; simpl; auto. intros [H1 H2] Ha Hc HLL. split; auto.
  intros i p m E1 E2. eapply stands_mono; eauto.
Qed.

Lemma vec_transfer b lo c h L b' c0 v names : closed b lo c h L -> ragree lo c h b b' ->
  vec_ok b c0 L v names -> vec_ok b' c0 L v names.
Proof.
  destruct v as [l|]; simpl; auto. intros Hc R [H1 H2]. split; auto.
  intros i p m E1 E2. eapply stands_transfer; eauto.
Qed.

Lemma vsome_push v x : vsome (hv_push v x) = vsome v.
Proof. destruct v as [l|]; simpl; auto. destruct (length l <? hint_vec_size); auto. Qed.

Lemma vec_push b c L v names pr m : vec_ok b c L v names ->
  (forall p, pr = Some p -> stands b c L m (p_ptr p)) ->
  vec_ok b c L (hv_push v pr) (names ++ [m]).
Proof.
  destruct v as [l|]; simpl; auto. intros [H1 H2] Hp.
  destruct (length l <? hint_vec_size) eqn:E.
  - apply Nat.ltb_lt in E. assert (Hl : length l = length names) by lia.
    split; [unfold vecl_ok; rewrite !app_length; cbn [length]; lia|].
    intros i p m' E1 E2. destruct (Nat.lt_ge_cases i (length l)) as [Hi|Hi].
    + rewrite nth_error_app1 in E1 by lia. rewrite nth_error_app1 in E2 by lia. eauto.
    + destruct (Nat.eq_dec i (length l)) as [->|Hne].
      * rewrite nth_error_app2, Nat.sub_diag in E1 by lia. simpl in E1.
        rewrite Hl in E2. rewrite nth_error_app2, Nat.sub_diag in E2 by lia. simpl in E2.
        inversion E2; subst m'. destruct pr as [q|]; simpl in E1; [|discriminate].
        inversion E1; subst p. apply Hp; auto.
      * assert (K : nth_error (l ++ [option_map p_ptr pr]) i = None).
        { apply nth_error_None. rewrite app_length. simpl. lia. }
        rewrite K in E1. discriminate.
  - apply Nat.ltb_ge in E. split; [rewrite app_length; cbn [length]; lia|].
    intros i p m' E1 E2. assert (Hi : i < length l) by (apply nth_error_Some; congruence).
    rewrite nth_error_app1 in E2 by lia. eauto.
Qed.

Fixpoint rd_names (cts : list ctype) (rd : bytes) : list wname :=
  match cts with
  | [] => []
  | CtFixed k :: r => if length rd <? k then [] else rd_names r (skipn k rd)
  | _ :: r => match parse_uncompressed_name rd false with
              | Ok (nm, len) => labels_of_name nm :: rd_names r (skipn len rd)
              | _ => []
              end
  end.

Definition lastn (names : list wname) (d : option wname) : option wname :=
  fold_left (fun _ m => Some m) names d.

Definition comps_post (h : nat) (cts : list ctype) (rd : bytes) (names : list wname)
           (gr : option wname) (v : option hvec) (w : writer) (L : nat -> Prop)
           (r : M (option hvec)) : Prop :=
  match r with
  | Ok (v', w') =>
    exists L', grew w w' L L' /\ NInv w' h L' /\ w_qname w' = w_qname w /\ w_mro w' = w_mro w /\
      w_section w' = w_section w /\
      anch (w_buf w') (w_cursor w') L' (w_mrn w') (lastn (rd_names cts rd) gr) /\
      vec_ok (w_buf w') (w_cursor w') L' v' (names ++ rd_names cts rd) /\ vsome v' = vsome v /\
      w_cursor w' <= w_cursor w + length rd /\ ext (w_cursor w) w w' /\
      exists parts, parts_at (w_buf w') L' parts (w_cursor w) (w_cursor w') /\
        map part_abs parts = rd_parts cts rd /\ Forall (part_cp (exactf (w_mode w))) parts /\
        (forall s, L' s <-> L s \/ In s (parts_starts parts)) /\ parts_shape cts parts /\
        (w_mode w = Disabled -> Forall part_plain parts)
  | Err (e, w') => (e = Truncation /\ w_avail w < w_cursor w + length rd) \/ (e = InvalidRdata /\ cts <> [])
  | Panic => False
  end.

(* a chunk that is the plain wire form cannot also be read as labels + pointer *)
Lemma shape_plain_unique cp n b L pos e sh : wf_name n -> shape_at cp n b L pos e sh ->
  slice b pos e = nm_wire n -> sh = None.
Proof.
  destruct sh as [[k pp]|]; auto. intros [Hwf _] [Hk [Hs [_ [_ [_ [Hpm _]]]]]] Hp. exfalso. rewrite Hp in Hs.
  destruct (ptr_word_bytes pp Hpm) as [hi [lo [Eb [Ehi _]]]]. rewrite Eb in Hs.
  unfold nm_wire in Hs. rewrite <- (firstn_skipn k n) in Hs at 1. rewrite nm_lwire_app, <- app_assoc in Hs.
  apply app_inv_head in Hs.
  destruct (skipn k n) as [|l r] eqn:E.
  - assert (length (skipn k n) = 0) by (rewrite E; reflexivity). rewrite skipn_length in H. lia.
  - assert (Hin : In l n) by (apply (In_skipn k); rewrite E; left; reflexivity).
    rewrite Forall_forall in Hwf. destruct (Hwf l Hin) as [_ H63].
    rewrite nm_lwire_cons in Hs. simpl in Hs. inversion Hs; subst hi.
    rewrite small_not_pointer in Ehi by lia. discriminate.
Qed.

(* the chunk of a name just written, seen in a later buffer with more label starts *)
Lemma wrote_chunk cp n b1 c1 (L : nat -> Prop) pos sh b2 (L2 : nat -> Prop) :
  shape_at cp n b1 L pos c1 sh -> pos < c1 -> agree c1 b1 b2 -> (forall s, L s -> L2 s) ->
  chunk_ok b2 L2 (mkNC pos c1 n cp sh).
Proof.
  intros Hsh Hlt Ag HL. eapply (chunk_append b1 c1); [exact Ag|simpl; lia|].
  split; [simpl; lia|]. simpl. eapply shape_mono; eauto.
Qed.

Lemma push_refused data w h L : NInv w h L ->
  match try_push data w with
  | Ok _ => True
  | Err (e, _) => e = Truncation /\ w_avail w < w_cursor w + length data
  | Panic => False
  end.
Proof.
  intros Hi. destruct (try_push data w) as [[u w']|[e w']|] eqn:E; [exact I| |].
  - split; [apply (try_push_err _ _ _ _ E)|]. eapply try_push_err_size; eauto. apply Hi.
  - destruct Hi as [[N1 N2] _ _ _ _ _ _ _]. eapply try_push_no_panic; eauto.
Qed.

Lemma comps_L h : forall cts rd names gr v w L, NInv w h L -> wf_bytes rd ->
  anch (w_buf w) (w_cursor w) L (w_mrn w) gr -> vec_ok (w_buf w) (w_cursor w) L v names ->
  comps_post h cts rd names gr v w L (write_components cts rd v w).
Proof.
  induction cts as [|ct rest IH]; intros rd names gr v w L Hi Hwf Ha Hv.
  - simpl. destruct (length rd =? 0) eqn:E0.
    + simpl. exists L. rewrite app_nil_r. split; [apply grew_refl|]. split; [exact Hi|].
      split; [reflexivity|]. split; [reflexivity|]. split; [reflexivity|]. split; [exact Ha|]. split; [exact Hv|].
      split; [reflexivity|]. split; [lia|]. split; [apply ext_refl; apply Hi|].
      exists []. simpl. rewrite E0. split; [reflexivity|]. split; [reflexivity|]. split; [constructor|].
      split; [intros s; tauto|]. split; [exact I|intros _; constructor].
    + pose proof (push_refused rd w h L Hi) as PR.
      destruct (try_push rd w) as [[u w1]|[e w1]|] eqn:E; simpl; [|left; exact PR|exact PR].
      destruct (try_push_ext (w_cursor w) _ _ _ _ E (le_n _)) as [X [[S1 [S2 [S3 S4]]] [Hcur [Hsl Hag]]]].
        exists L. rewrite app_nil_r. split; [apply grew_refl|]. split; [eapply NInv_try_push; eauto|].
        split; auto. split; auto. split; auto. split; [rewrite S3; eapply anch_mono; eauto; lia|].
        split; [eapply vec_mono; eauto; lia|]. split; auto. split; [lia|]. split; [exact X|].
        exists [LPRaw (w_cursor w) rd]. simpl. rewrite E0.
        split; [split; auto; split; auto; split; [rewrite <- Hcur; exact Hsl|split; lia]|].
        split; [reflexivity|]. split; [repeat constructor|]. split; [intros s; tauto|].
        split; [destruct rd; [simpl in E0; discriminate E0|discriminate]|intros _; repeat constructor].
  - assert (Hstep : forall (wr : wname -> writer -> M (option prior)),
               (forall n, wf_name n -> name_postL (exactf (w_mode w)) h n w L (wr n w)) ->
               match ct with CtFixed _ => False | _ => True end ->
               ((is_comp ct = false \/ w_mode w = Disabled) -> forall n pr w1, wr n w = Ok (pr, w1) ->
                  slice (w_buf w1) (w_cursor w) (w_cursor w1) = nm_wire n) ->
               rd_parts (ct :: rest) rd =
                 match parse_uncompressed_name rd false with
                 | Ok (nm, len) => APName (labels_of_name nm) (is_comp ct) :: rd_parts rest (skipn len rd)
                 | _ => []
                 end ->
               rd_names (ct :: rest) rd =
                 match parse_uncompressed_name rd false with
                 | Ok (nm, len) => labels_of_name nm :: rd_names rest (skipn len rd)
                 | _ => []
                 end ->
               comps_post h (ct :: rest) rd names gr v w L
                 match parse_uncompressed_name rd false with
                 | Ok (nm, len) =>
                   let n := labels_of_name nm in
                   let* (pr, w1) := wr n w in
                   let w2 := set_mrn w1 pr in
                   write_components rest (skipn len rd) (hv_push v pr) w2
                 | Err _ => Err (InvalidRdata, w)
                 | Panic => Panic
                 end).
    { intros wr Hwr Hnf Hplain Hrp Hrn. unfold comps_post at 1. rewrite Hrn, Hrp.
      destruct (parse_uncompressed_name rd false) as [[nm len]|e|] eqn:Ep.
      - destruct (parse_unc_name rd nm len Hwf Ep) as [Hwn [Hlen Hle]].
        pose proof (Hwr _ Hwn) as Hpost. cbn zeta.
        destruct (wr (labels_of_name nm) w) as [[pr w1]|[e w1]|] eqn:Ew; simpl.
        + destruct Hpost as [W [Hsz [_ [L1 [G1 [Hi1 [HpL HT1]]]]]]].
          pose proof W as [X [[S1 [S2 [S3 S4]]] _]].
          pose proof (anch_new _ _ _ _ _ _ L1 W HpL) as Apr.
          assert (Hi2 : NInv (set_mrn w1 pr) h L1).
          { apply NInv_set_mrn; auto. eapply anch_prior_ok; eauto. }
          assert (A2 : anch (w_buf (set_mrn w1 pr)) (w_cursor (set_mrn w1 pr)) L1 (w_mrn (set_mrn w1 pr))
                            (Some (labels_of_name nm))) by exact Apr.
          assert (V2 : vec_ok (w_buf (set_mrn w1 pr)) (w_cursor (set_mrn w1 pr)) L1 (hv_push v pr)
                              (names ++ [labels_of_name nm])).
          { apply vec_push.
            - eapply vec_mono; eauto; [apply X|apply X|apply G1].
            - intros p E. destruct (Apr p E) as [m [Em [St _]]]. inversion Em; subst m. exact St. }
          specialize (IH (skipn len rd) (names ++ [labels_of_name nm]) (Some (labels_of_name nm))
                         (hv_push v pr) (set_mrn w1 pr) L1 Hi2 (wf_skipn _ _ Hwf) A2 V2).
          unfold comps_post in IH.
          destruct (write_components rest (skipn len rd) (hv_push v pr) (set_mrn w1 pr)) as [[v' w3]|[e w3]|];
            auto.
          * destruct IH as [L3 [G3 [Hi3 [Q3 [O3 [Sc3 [A3 [V3 [Vs [Hc3 [X3 [parts3 [P3 [Pa3 [Pc3 [Pt3 [Ps3 Pp3]]]]]]]]]]]]]]]]].
            simpl in Q3, O3, Sc3, Hc3, X3, G3, P3, Pc3.
            rewrite skipn_length in Hc3.
            exists L3. split.
            { eapply (grew_trans w w1 w3); eauto; [apply X|]. destruct X3; simpl in *; lia. }
            split; auto. split; [congruence|]. split; [congruence|]. split; [congruence|].
            split; [exact A3|]. split; [rewrite <- app_assoc in V3; exact V3|].
            split; [rewrite Vs; apply vsome_push|]. split; [lia|].
            split.
            { eapply ext_trans; [exact X|].
              destruct X3. constructor; simpl in *; auto. eapply agree_le; eauto. apply X. }
            destruct HT1 as [sh [Hsh Ht1]].
            assert (Hlt : w_cursor w < w_cursor w1).
            { destruct W as [_ [_ [Hem _]]]. pose proof (nm_wire_length (labels_of_name nm)). destruct Hem; lia. }
            pose proof (x_agree _ _ _ X3) as Ag3. simpl in Ag3.
            pose proof (x_cur _ _ _ X3) as Cu3. simpl in Cu3.
            assert (Hsh'' : is_comp ct = false \/ w_mode w = Disabled -> sh = None).
            { intros Hc. eapply shape_plain_unique; eauto. }
            assert (Hsh' : is_comp ct = false -> sh = None) by (intros; apply Hsh''; auto).
            exists (LPName (mkNC (w_cursor w) (w_cursor w1) (labels_of_name nm) (exactf (w_mode w)) sh) (is_comp ct)
                    :: parts3).
            split.
            { simpl. split; [reflexivity|]. split; [|split; [exact Hsh'|split; [lia|exact P3]]].
              apply (wrote_chunk _ _ _ _ _ _ _ _ _ Hsh Hlt Ag3). intros s Hs. apply G3, G1, Hs. }
            split; [simpl; rewrite Pa3; reflexivity|].
            split; [constructor; [reflexivity|rewrite (x_mode _ _ _ X) in Pc3; exact Pc3]|].
            split; [intros s; rewrite Pt3, Ht1; simpl; unfold chunk_starts; simpl; rewrite in_app_iff; tauto|].
            split; [destruct ct; simpl; auto; contradiction|].
            intros Hd. constructor; [simpl; apply Hsh''; auto|]. apply Pp3. simpl. rewrite (x_mode _ _ _ X). exact Hd.
          * destruct IH as [[-> Hs]|[-> Hs]]; [left|right; split; auto; discriminate].
            split; auto. simpl in Hs. rewrite skipn_length in Hs. rewrite (x_av _ _ _ X) in Hs. lia.
        + destruct Hpost as [-> [X [Sd Hs]]]. left. split; auto. lia.
        + exact Hpost.
      - right. split; auto. discriminate.
      - destruct (parse_uncompressed_total rd false) as [Hp _]. congruence. }
    destruct ct as [| |k].
    + apply (Hstep write_unhinted_name); [|exact I| |reflexivity|reflexivity].
      * intros n Hwn. apply write_unhinted_L; auto.
      * intros [Hc|Hd] n pr w1 E; [discriminate|]. eapply disabled_plain_unhinted; eauto.
    + apply (Hstep write_uncompressed_name); [|exact I| |reflexivity|reflexivity].
      * intros n Hwn. apply name_postL_weaken. apply write_uncompressed_L; auto.
      * intros _ n pr w1 E. eapply uncompressed_plain; eauto.
    + simpl. destruct (length rd <? k) eqn:Ek; [right; split; auto; discriminate|].
      assert (Hrn : rd_names (CtFixed k :: rest) rd = rd_names rest (skipn k rd)) by (simpl; rewrite Ek; reflexivity).
      assert (Hrp : rd_parts (CtFixed k :: rest) rd = APRaw (firstn k rd) :: rd_parts rest (skipn k rd))
        by (simpl; rewrite Ek; reflexivity).
      unfold comps_post. rewrite Hrn, Hrp.
      apply Nat.ltb_ge in Ek.
      pose proof (push_refused (firstn k rd) w h L Hi) as PR. rewrite firstn_length in PR.
      destruct (try_push (firstn k rd) w) as [[u w1]|[e w1]|] eqn:E; simpl;
        [|left; split; [apply PR|destruct PR; lia]|exact PR].
      destruct (try_push_ext (w_cursor w) _ _ _ _ E (le_n _)) as [X [[S1 [S2 [S3 S4]]] [Hcur [Hsl Hag]]]].
        rewrite firstn_length in Hcur.
        assert (Hi1 : NInv w1 h L) by (eapply NInv_try_push; eauto).
        assert (A1 : anch (w_buf w1) (w_cursor w1) L (w_mrn w1) gr)
          by (rewrite S3; eapply anch_mono; eauto; lia).
        assert (V1 : vec_ok (w_buf w1) (w_cursor w1) L v names) by (eapply vec_mono; eauto; lia).
        specialize (IH (skipn k rd) names gr v w1 L Hi1 (wf_skipn _ _ Hwf) A1 V1).
        unfold comps_post in IH.
        destruct (write_components rest (skipn k rd) v w1) as [[v' w3]|[e w3]|]; auto.
        -- destruct IH as [L3 [G3 [Hi3 [Q3 [O3 [Sc3 [A3 [V3 [Vs [Hc3 [X3 [parts3 [P3 [Pa3 [Pc3 [Pt3 [Ps3 Pp3]]]]]]]]]]]]]]]]].
           rewrite skipn_length in Hc3.
           exists L3. split.
           { apply (grew_trans w w1 w3 L L L3); [apply X|apply X3|apply grew_refl|exact G3]. }
           split; [exact Hi3|]. split; [congruence|]. split; [congruence|]. split; [congruence|].
           split; [exact A3|]. split; [exact V3|]. split; [exact Vs|]. split; [lia|].
           split.
           { eapply ext_trans; [exact X|].
             destruct X3. constructor; auto. eapply agree_le; eauto. apply X. }
           exists (LPRaw (w_cursor w) (firstn k rd) :: parts3).
           split.
           { simpl. rewrite firstn_length. split; auto. split; auto. split.
             - rewrite (agree_slice (w_cursor w1) (w_buf w1) (w_buf w3) _ _ (x_agree _ _ _ X3)) by lia.
               rewrite <- Hcur. exact Hsl.
             - pose proof (x_cur _ _ _ X3). split; [lia|]. rewrite <- Hcur. exact P3. }
           split; [simpl; rewrite Pa3; reflexivity|].
           split; [constructor; [exact I|rewrite (x_mode _ _ _ X) in Pc3; exact Pc3]|].
           split; [intros s; rewrite Pt3; simpl; tauto|].
           split; [simpl; split; auto; rewrite firstn_length; lia|].
           intros Hd. constructor; [exact I|]. apply Pp3. rewrite (x_mode _ _ _ X). exact Hd.
        -- destruct IH as [[-> Hs]|[-> Hs]]; [left|right; split; auto; discriminate].
           split; auto. rewrite skipn_length in Hs. rewrite (x_av _ _ _ X) in Hs. lia.
Qed.

Lemma prior_ok_transfer b lo c h L b' c0 pr : closed b lo c h L -> ragree lo c h b b' ->
  L (p_ptr pr) -> prior_ok b c0 pr -> prior_ok b' c0 pr.
Proof.
  intros Hc R HL [H1 [H2 [H3 [ls [H4 H5]]]]]. split; auto. split; auto.
  split; [eapply real_transfer; eauto|]. exists ls. split; auto.
  eapply name_at_transfer; eauto. left; auto.
Qed.

Lemma NInv_patch w h L pos data b' : NInv w h L -> buf_write (w_buf w) pos data = Some b' ->
  (pos + length data <= header_size \/ (h <= pos /\ pos + length data <= h + 2)) ->
  NInv (set_buf w b') (length b') L /\ ragree header_size (w_cursor w) h (w_buf w) b'.
Proof.
  intros [[N1 N2] Hlo Hh Hcl Hd [Pq [Po Pr]] HL Hsd] W Hpos.
  assert (R : ragree header_size (w_cursor w) h (w_buf w) b').
  { eapply buf_write_ragree; eauto. tauto. }
  pose proof (buf_write_length _ _ _ _ W) as Hlen.
  split; auto. constructor; simpl.
  - split; simpl; lia.
  - exact Hlo.
  - left. lia.
  - eapply closed_rehole; [eapply closed_transfer; eauto|lia].
  - eapply decodable_transfer; eauto.
  - repeat split; simpl.
    + destruct (w_qname w) as [pr|] eqn:E; simpl; auto. eapply prior_ok_transfer; eauto.
    + destruct (w_mro w) as [pr|] eqn:E; simpl; auto. eapply prior_ok_transfer; eauto.
    + destruct (w_mrn w) as [pr|] eqn:E; simpl; auto. eapply prior_ok_transfer; eauto.
  - exact HL.
  - eapply sdec_transfer; eauto. lia.
Qed.

Definition anch3 (w : writer) (L : nat -> Prop) (gq go gr : option wname) : Prop :=
  anch (w_buf w) (w_cursor w) L (w_qname w) gq /\
  anch (w_buf w) (w_cursor w) L (w_mro w) go /\
  anch (w_buf w) (w_cursor w) L (w_mrn w) gr.

Lemma anch3_ext w w' (L L' : nat -> Prop) gq go gr : anch3 w L gq go gr -> ext (w_cursor w) w w' ->
  side_eq w w' -> (forall s, L s -> L' s) -> anch3 w' L' gq go gr.
Proof.
  intros [A1 [A2 A3]] X [S1 [S2 [S3 _]]] HLL. unfold anch3. rewrite S1, S2, S3.
  repeat split; eapply anch_mono; eauto; apply X.
Qed.

Lemma push_cases data w h L gq go gr v names :
  NInv w h L -> anch3 w L gq go gr -> vec_ok (w_buf w) (w_cursor w) L v names ->
  match try_push data w with
  | Ok (_, w') =>
    NInv w' h L /\ anch3 w' L gq go gr /\ vec_ok (w_buf w') (w_cursor w') L v names /\
    w_cursor w' = w_cursor w + length data /\ ext (w_cursor w) w w' /\ w_qname w' = w_qname w /\
    w_section w' = w_section w
  | Err (e, _) => e = Truncation /\ w_avail w < w_cursor w + length data
  | Panic => False
  end.
Proof.
  intros Hi A V. pose proof (push_refused data w h L Hi) as PR.
  destruct (try_push data w) as [[u w']|[e w']|] eqn:E; auto.
  destruct (try_push_ext (w_cursor w) _ _ _ _ E (le_n _)) as [X [Sd [Hcur [Hsl Hag]]]].
  split; [eapply NInv_try_push; eauto|]. split; [eapply anch3_ext; eauto|].
  split; [eapply vec_mono; eauto; lia|]. split; auto. split; auto. split; apply Sd.
Qed.

Definition rr_desc (r : lrr) (owner : wname) (cp : bool) (ty cl ttl : N) (cts : list ctype) (rd : bytes) : Prop :=
  nc_name (lr_owner r) = owner /\ nc_cp (lr_owner r) = cp /\ lr_ty r = ty /\ lr_cl r = cl /\ lr_ttl r = ttl /\
  map part_abs (lr_parts r) = rd_parts cts rd /\ Forall (part_cp cp) (lr_parts r) /\
  parts_shape cts (lr_parts r) /\ lr_end r <= nc_end (lr_owner r) + 10 + length rd.

Lemma push3 a1 a2 a3 w u2 w2 u3 w3 u4 w4 : try_push a1 w = Ok (u2, w2) -> try_push a2 w2 = Ok (u3, w3) ->
  try_push a3 w3 = Ok (u4, w4) ->
  slice (w_buf w4) (w_cursor w) (w_cursor w4) = a1 ++ a2 ++ a3 /\
  w_cursor w4 = w_cursor w + length a1 + length a2 + length a3.
Proof.
  intros E2 E3 E4.
  destruct (try_push_ext (w_cursor w) _ _ _ _ E2 (le_n _)) as [X2 [_ [C2 [S2 A2]]]].
  destruct (try_push_ext (w_cursor w2) _ _ _ _ E3 (le_n _)) as [X3 [_ [C3 [S3 A3]]]].
  destruct (try_push_ext (w_cursor w3) _ _ _ _ E4 (le_n _)) as [X4 [_ [C4 [S4 A4]]]].
  split; [|lia].
  rewrite (slice_app _ (w_cursor w) (w_cursor w2)) by lia.
  rewrite (slice_app _ (w_cursor w2) (w_cursor w3)) by lia.
  rewrite S4. f_equal; [|f_equal].
  - rewrite (agree_slice (w_cursor w3) (w_buf w3) (w_buf w4) _ _ A4) by lia.
    rewrite (agree_slice (w_cursor w2) (w_buf w2) (w_buf w3) _ _ A3) by lia. exact S2.
  - rewrite (agree_slice (w_cursor w3) (w_buf w3) (w_buf w4) _ _ A4) by lia. exact S3.
Qed.

Record rr_ok (owner : wname) (ty cl ttl : N) (cts : list ctype) (rd : bytes) (names : list wname)
       (gq gr : option wname) (v : option hvec) (w : writer) (L : nat -> Prop)
       (v' : option hvec) (w' : writer) (L' : nat -> Prop) (r : lrr) : Prop := mkRrOk {
  r_grew : grew w w' L L';
  r_ni : NInv w' (length (w_buf w')) L';
  r_an : anch3 w' L' gq (Some owner) (lastn (rd_names cts rd) gr);
  r_vec : vec_ok (w_buf w') (w_cursor w') L' v' (names ++ rd_names cts rd);
  r_vs : vsome v' = vsome v;
  r_size : w_cursor w' <= w_cursor w + length (nm_wire owner) + 10 + length rd;
  r_qn : w_qname w' = w_qname w;
  r_sec : w_section w' = w_section w;
  r_at : rr_at (w_buf w') L' r;
  r_pos : nc_pos (lr_owner r) = w_cursor w;
  r_end : lr_end r = w_cursor w';
  r_desc : rr_desc r owner (exactf (w_mode w)) ty cl ttl cts rd;
  r_starts : forall s, L' s <-> L s \/ In s (rr_starts r);
  r_plain : w_mode w = Disabled -> rr_plain r }.

Definition rr_post (owner : wname) (ty cl ttl : N) (cts : list ctype) (rd : bytes) (names : list wname)
           (gq gr : option wname) (v : option hvec) (w : writer) (L : nat -> Prop)
           (r : M (option hvec)) : Prop :=
  match r with
  | Ok (v', w') => exists L' r, rr_ok owner ty cl ttl cts rd names gq gr v w L v' w' L' r
  | Err (e, w') =>
    (e = Truncation /\ w_avail w < w_cursor w + length (nm_wire owner) + 10 + length rd) \/
    (e = InvalidRdata /\ cts <> [])
  | Panic => False
  end.

Lemma be32_length v : length (be32 v) = 4.
Proof. reflexivity. Qed.

Lemma add_rr_L h owner ty cl ttl rd v w L names gq go gr :
  NInv w (length (w_buf w)) L -> anch3 w L gq go gr -> vec_ok (w_buf w) (w_cursor w) L v names ->
  wf_name owner -> wf_bytes rd -> hint_contract h owner w -> hint_in h w L ->
  rr_post owner ty cl ttl (component_types cl ty) rd names gq gr v w L (add_rr h owner ty cl ttl rd v w).
Proof.
  intros Hi A V Hwf Hrd Hh HhL. unfold add_rr.
  pose proof (write_hinted_L _ h owner w L Hi Hwf Hh HhL) as P1.
  destruct (write_hinted_name h owner w) as [[pr w1]|[e w1]|] eqn:Ewh; simpl in P1; cbn [bind]; auto.
  2:{ destruct P1 as [-> [_ [_ Hs]]]. left. split; auto. lia. }
  destruct P1 as [W [Hsz [_ [L1 [G1 [Hi1 [HpL HT1]]]]]]].
  pose proof W as [X [Sd _]].
  pose proof (anch_new _ _ _ _ _ _ L1 W HpL) as Apr.
  assert (Hlen1 : length (w_buf w1) = length (w_buf w)) by apply X.
  rewrite <- Hlen1 in Hi1.
  assert (Hi1' : NInv (set_mro w1 pr) (length (w_buf w1)) L1).
  { apply NInv_set_mro; auto. eapply anch_prior_ok; eauto. }
  assert (A1 : anch3 (set_mro w1 pr) L1 gq (Some owner) gr).
  { destruct (anch3_ext _ _ _ L1 _ _ _ A X Sd (proj1 G1)) as [B1 [B2 B3]]. split; [exact B1|]. split; [exact Apr|exact B3]. }
  assert (V1 : vec_ok (w_buf (set_mro w1 pr)) (w_cursor (set_mro w1 pr)) L1 v names).
  { eapply vec_mono; eauto; [apply X|apply X|apply G1]. }
  destruct HT1 as [sh [Hsh Ht1]].
  assert (Hlt1 : w_cursor w < w_cursor w1).
  { destruct W as [_ [_ [Hem _]]]. pose proof (nm_wire_length owner). destruct Hem; lia. }
  assert (Hm1 : w_mode (set_mro w1 pr) = w_mode w) by (simpl; apply X).
  assert (Hc1 : w_cursor (set_mro w1 pr) = w_cursor w1) by reflexivity.
  assert (Hav1 : w_avail (set_mro w1 pr) = w_avail w1) by reflexivity.
  assert (Hl1 : w_buf (set_mro w1 pr) = w_buf w1) by reflexivity.
  assert (Hq1 : w_qname (set_mro w1 pr) = w_qname w) by (simpl; apply Sd).
  assert (Hs1 : w_section (set_mro w1 pr) = w_section w) by (simpl; apply Sd).
  generalize dependent (set_mro w1 pr). intros w1' Hi1' A1 V1 Hm1 Hc1 Hav1 Hl1 Hq1 Hs1.
  pose proof (x_av _ _ _ X) as Hav0. pose proof (x_cur _ _ _ X) as Hcur0.
  unfold try_push_u16, try_push_u32.
  pose proof (push_cases (be16 ty) _ _ _ _ _ _ _ _ Hi1' A1 V1) as P2.
  destruct (try_push (be16 ty) w1') as [[u2 w2]|[e w2]|] eqn:E2; cbn [bind]; [|left; simpl in P2; split; [apply P2|lia]|exact P2].
  destruct P2 as [Hi2 [A2 [V2 [Hc2 [X2 [Q2 S2]]]]]]. simpl length in Hc2.
  pose proof (push_cases (be16 cl) _ _ _ _ _ _ _ _ Hi2 A2 V2) as P3. rewrite (x_av _ _ _ X2) in P3.
  destruct (try_push (be16 cl) w2) as [[u3 w3]|[e w3]|] eqn:E3; cbn [bind]; [|left; simpl in P3; split; [apply P3|lia]|exact P3].
  destruct P3 as [Hi3 [A3 [V3 [Hc3 [X3 [Q3 S3]]]]]]. simpl length in Hc3.
  pose proof (push_cases (be32 ttl) _ _ _ _ _ _ _ _ Hi3 A3 V3) as P4. rewrite (x_av _ _ _ X3), (x_av _ _ _ X2) in P4.
  destruct (try_push (be32 ttl) w3) as [[u4 w4]|[e w4]|] eqn:E4; cbn [bind]; [|left; simpl in P4; split; [apply P4|lia]|exact P4].
  destruct P4 as [Hi4 [A4 [V4 [Hc4 [X4 [Q4 S4]]]]]]. simpl length in Hc4.
  destruct (push3 _ _ _ _ _ _ _ _ _ _ E2 E3 E4) as [Hfix _].
  assert (Hav4 : w_avail w4 = w_avail w1').
  { rewrite (x_av _ _ _ X4), (x_av _ _ _ X3), (x_av _ _ _ X2). reflexivity. }
  assert (Hl4 : length (w_buf w4) = length (w_buf w1')).
  { rewrite (x_len _ _ _ X4), (x_len _ _ _ X3), (x_len _ _ _ X2). reflexivity. }
  pose proof (ni_nb _ _ _ Hi4) as [N41 N42].
  destruct (w_avail w4 <? w_cursor w4) eqn:Ea; [apply Nat.ltb_lt in Ea; lia|].
  destruct (w_avail w4 - w_cursor w4 <? 2) eqn:Eb.
  { apply Nat.ltb_lt in Eb. left. split; auto. lia. }
  apply Nat.ltb_ge in Eb. cbn zeta.
  (* two octets are skipped for RDLENGTH: while the RDATA is written the hole of NInv is at c4, not at the end
     of the buffer; NInv_patch fills it and moves the hole back *)
  set (c4 := w_cursor w4) in *.
  set (w5 := set_cursor w4 (c4 + 2)).
  assert (Hi5 : NInv w5 c4 L1).
  { destruct Hi4 as [_ Hlo4 _ Hcl4 Hd4 [Pq [Po Pr]] HL4 Hsd4]. constructor; simpl.
    - split; simpl; lia.
    - fold c4 in Hlo4. lia.
    - right. lia.
    - eapply closed_mono_c; [eapply closed_rehole; eauto|lia]; try (fold c4; lia).
    - eapply decodable_mono; eauto; try (fold c4; lia).
    - repeat split; simpl; eapply oprior_ok_stable; eauto; try apply agree_refl; fold c4; lia.
    - exact HL4.
    - eapply sdec_mono; eauto; try (fold c4; lia). }
  assert (A5 : anch3 w5 L1 gq (Some owner) gr).
  { destruct A4 as [B1 [B2 B3]]. unfold anch3, w5; simpl.
    repeat split; eapply anch_mono; eauto; try apply agree_refl; fold c4; lia. }
  assert (V5 : vec_ok (w_buf w5) (w_cursor w5) L1 v names).
  { unfold w5; simpl. eapply vec_mono; eauto; try apply agree_refl. fold c4; lia. }
  pose proof (comps_L c4 (component_types cl ty) rd names gr v w5 L1 Hi5 Hrd (proj2 (proj2 A5)) V5) as P6.
  unfold comps_post in P6.
  destruct (write_components (component_types cl ty) rd v w5) as [[v' w6]|[e w6]|]; cbn [bind]; auto.
  2:{ destruct P6 as [[-> Hs]|[-> Hs]]; [left|right; auto]. split; auto.
      unfold w5 in Hs; simpl in Hs. lia. }
  destruct P6 as [L6 [G6 [Hi6 [Q6 [O6 [Sc6 [A6 [V6 [Vs [Hc6 [X6 [parts [P6 [Pa6 [Pc6 [Pt6 [Ps6 Pp6]]]]]]]]]]]]]]]]].
  unfold w5 in Q6, O6, Sc6, Hc6, X6, P6, Pc6; simpl in Q6, O6, Sc6, Hc6, X6, P6, Pc6. fold w5 in X6.
  pose proof (x_cur _ _ _ X6) as Hcur6. unfold w5 in Hcur6; simpl in Hcur6.
  destruct (w_cursor w6 <? c4 + 2) eqn:Ec; [apply Nat.ltb_lt in Ec; lia|].
  pose proof (ni_nb _ _ _ Hi6) as [N61 N62].
  destruct (buf_write_some (w_buf w6) c4 (be16 (N.of_nat (w_cursor w6 - c4 - 2) mod 65536)))
    as [b7 Hb7]; [unfold be16; simpl length; lia|].
  unfold lift, w_write. rewrite Hb7. cbn [bind].
  destruct (NInv_patch w6 c4 L6 c4 _ b7 Hi6 Hb7) as [Hi7 R7]; [right; unfold be16; simpl length; lia|].
  assert (Hcl6 := ni_closed _ _ _ Hi6).
  pose proof (x_agree _ _ _ X6) as Ag6. unfold w5 in Ag6; simpl in Ag6.
  assert (Ag14 : agree (w_cursor w1) (w_buf w1) (w_buf w4)).
  { rewrite <- Hl1. rewrite <- Hc1.
    eapply agree_trans; [apply X2|]. eapply agree_trans; [eapply agree_le; [apply X3|lia]|].
    eapply agree_le; [apply X4|lia]. }
  assert (Ag16 : agree (w_cursor w1) (w_buf w1) (w_buf w6)).
  { eapply agree_trans; [exact Ag14|]. eapply agree_le; [exact Ag6|lia]. }
  assert (Hc41 : c4 = w_cursor w1 + 8) by lia.
  set (och := mkNC (w_cursor w) (w_cursor w1) owner (exactf (w_mode w)) sh).
  assert (Och6 : chunk_ok (w_buf w6) L6 och).
  { apply (wrote_chunk _ _ _ _ _ _ _ _ _ Hsh Hlt1 Ag16). intros s Hs. apply G6, G1, Hs. }
  assert (Hle6 : w_cursor w6 <= length (w_buf w6)) by lia.
  exists L6, (mkLR och ty cl ttl parts (w_cursor w6)). constructor; auto; try (simpl; congruence).
  - apply (grew_trans w w1 (set_buf w6 b7) L L1 L6); [lia|simpl; lia|exact G1|].
    destruct G6 as [G61 G62]. split; auto. intros s Hs. destruct (G62 s Hs) as [K|K]; auto.
    right. unfold w5 in K; simpl in K |- *. lia.
  - unfold anch3; simpl. rewrite Q6, O6.
    destruct A5 as [B1 [B2 B3]]. unfold w5 in B1, B2; simpl in B1, B2.
    repeat split; eapply anch_transfer; eauto.
    + eapply anch_mono; eauto. apply G6.
    + eapply anch_mono; eauto. apply G6.
  - simpl. eapply vec_transfer; eauto.
  - simpl. lia.
  - (* the layout of the record *)
    unfold rr_at; simpl.
    split.
    { eapply (chunk_transfer (w_buf w6) header_size (w_cursor w6) c4 L6); eauto.
      - simpl. unfold okr. pose proof (ni_lo _ _ _ Hi). lia.
      - simpl. lia. }
    split.
    { unfold rr_fixed. cbn [lr_ty lr_cl lr_ttl lr_end lr_owner nc_end och].
      replace (w_cursor w1 + 10) with (w_cursor w1 + 8 + 2) by lia.
      rewrite (slice_app _ (w_cursor w1) (w_cursor w1 + 8)) by lia.
      match goal with |- _ = ?a ++ ?b ++ ?c ++ ?d =>
        replace (a ++ b ++ c ++ d) with ((a ++ b ++ c) ++ d) by (rewrite <- !app_assoc; reflexivity) end.
      f_equal.
      - rewrite (ragree_slice header_size (w_cursor w6) c4 (w_buf w6) b7 _ _ R7); try lia.
        + rewrite (agree_slice (c4 + 2) (w_buf w4) (w_buf w6) _ _ Ag6) by lia.
          rewrite <- Hc41. rewrite <- Hc1. exact Hfix.
        + unfold okr. pose proof (ni_lo _ _ _ Hi). lia.
      - rewrite <- Hc41.
        pose proof (buf_write_data _ _ _ _ Hb7) as Hd7. unfold be16 in Hd7 at 1. simpl length in Hd7.
        rewrite Hd7. f_equal. f_equal. f_equal. lia. }
    split; [lia|].
    replace (w_cursor w1 + 10) with (c4 + 2) by lia.
    eapply (parts_transfer (w_buf w6) header_size (w_cursor w6) c4 L6); eauto.
    unfold okr. pose proof (ni_lo _ _ _ Hi). lia.
  - unfold rr_desc; simpl. repeat split; auto; try lia. rewrite <- Hm1.
    rewrite <- (x_mode _ _ _ X2), <- (x_mode _ _ _ X3), <- (x_mode _ _ _ X4). exact Pc6.
  - intros s. rewrite Pt6, Ht1. unfold rr_starts, chunk_starts. simpl. rewrite in_app_iff. tauto.
  - intros Hd. split; simpl.
    + destruct (disabled_plain_hinted h owner w pr w1 Hd Ewh) as [Hpl _].
      eapply shape_plain_unique; eauto.
    + apply Pp6. unfold w5. simpl. rewrite (x_mode _ _ _ X4), (x_mode _ _ _ X3), (x_mode _ _ _ X2), Hm1. exact Hd.
Qed.

Fixpoint rds_names (cts : list ctype) (rds : list bytes) : list wname :=
  match rds with [] => [] | rd :: r => rd_names cts rd ++ rds_names cts r end.
Definition rds_size (owner : wname) (rds : list bytes) : nat :=
  fold_right (fun rd acc => length (nm_wire owner) + 10 + length rd + acc) 0 rds.

Lemma lastn_app a c d : lastn (a ++ c) d = lastn c (lastn a d).
Proof. unfold lastn. apply fold_left_app. Qed.

Lemma owner_hint_ok w h L gq gr owner : NInv w h L -> anch3 w L gq (Some owner) gr ->
  hint_contract HOwner owner w.
Proof.
  intros Hi [_ [A _]] pr E. destruct (A pr E) as [m [Em [St Hl]]]. inversion Em; subst m.
  eapply stands_hinted; eauto. apply name_eq_refl.
Qed.

Record rrset_ok (owner : wname) (ty cl ttl : N) (cts : list ctype) (rds : list bytes) (names : list wname)
       (gq go gr : option wname) (v : option hvec) (k : nat) (w : writer) (L : nat -> Prop)
       (v' : option hvec) (k' : nat) (w' : writer) (L' : nat -> Prop) (rs : list lrr) : Prop := mkRrsetOk {
  rs_grew : grew w w' L L';
  rs_ni : NInv w' (length (w_buf w')) L';
  rs_an : anch3 w' L' gq (match rds with [] => go | _ => Some owner end) (lastn (rds_names cts rds) gr);
  rs_vec : vec_ok (w_buf w') (w_cursor w') L' v' (names ++ rds_names cts rds);
  rs_vs : vsome v' = vsome v;
  rs_k : k' = k + length rds;
  rs_size : w_cursor w' <= w_cursor w + rds_size owner rds;
  rs_cur : w_cursor w <= w_cursor w';
  rs_qn : w_qname w' = w_qname w;
  rs_sec : w_section w' = w_section w;
  rs_at : rrs_at (w_buf w') L' rs (w_cursor w) (w_cursor w');
  rs_desc : Forall2 (fun r rd => rr_desc r owner (exactf (w_mode w)) ty cl ttl cts rd) rs rds;
  rs_starts : forall s, L' s <-> L s \/ In s (rrs_starts rs);
  rs_plain : w_mode w = Disabled -> Forall rr_plain rs }.

Definition rrset_post (owner : wname) (ty cl ttl : N) (cts : list ctype) (rds : list bytes) (names : list wname)
           (gq go gr : option wname) (v : option hvec) (k : nat) (w : writer) (L : nat -> Prop)
           (r : M (option hvec * nat)) : Prop :=
  match r with
  | Ok ((v', k'), w') => exists L' rs, rrset_ok owner ty cl ttl cts rds names gq go gr v k w L v' k' w' L' rs
  | Err (e, w') =>
    (e = Truncation /\ w_avail w < w_cursor w + rds_size owner rds) \/ (e = InvalidRdata /\ cts <> [])
  | Panic => False
  end.

Lemma rrset_L owner ty cl ttl gq : forall rds h v k w L names go gr,
  NInv w (length (w_buf w)) L -> anch3 w L gq go gr -> vec_ok (w_buf w) (w_cursor w) L v names ->
  wf_name owner -> Forall wf_bytes rds -> hint_contract h owner w -> hint_in h w L ->
  rrset_post owner ty cl ttl (component_types cl ty) rds names gq go gr v k w L
             (add_rrset_loop h owner ty cl ttl rds v k w).
Proof.
  induction rds as [|rd rest IH]; intros h v k w L names go gr Hi A V Hwf Hrds Hh HhL.
  - simpl. exists L, []. constructor; simpl; rewrite ?app_nil_r; auto; try lia.
    + apply grew_refl.
    + intros s. tauto.
  - inversion Hrds as [|? ? Hrd Hrest]; subst. cbn [add_rrset_loop].
    pose proof (add_rr_L h owner ty cl ttl rd v w L names gq go gr Hi A V Hwf Hrd Hh HhL) as P.
    assert (Hpre : pre (w_cursor w) w) by (split; [lia|apply Hi]).
    pose proof (frame_add_rr (w_cursor w) h owner ty cl ttl rd v w Hpre) as F.
    destruct (add_rr h owner ty cl ttl rd v w) as [[v1 w1]|[e w1]|]; simpl in P, F; cbn [bind]; auto.
    2:{ simpl. destruct P as [[-> Hs]|[-> Hs]]; [left|right; auto]. split; auto. lia. }
    destruct P as [L1 [r1 [G1 Hi1 A1 V1 Vs1 Hc1 Hq1 Hs1 R1 Rp1 Re1 Rd1 Rt1 Rpl1]]].
    assert (Hpre1 : pre (w_cursor w1) w1) by (split; [lia|apply Hi1]).
    pose proof (frame_rrset_loop (w_cursor w1) rest HOwner owner ty cl ttl v1 (S k) w1 Hpre1) as F2.
    specialize (IH HOwner v1 (S k) w1 L1 (names ++ rd_names (component_types cl ty) rd) (Some owner)
                   (lastn (rd_names (component_types cl ty) rd) gr) Hi1 A1 V1 Hwf Hrest
                   (owner_hint_ok _ _ _ _ _ _ Hi1 A1) I).
    unfold rrset_post in IH |- *.
    destruct (add_rrset_loop HOwner owner ty cl ttl rest v1 (S k) w1) as [[[v2 k2] w2]|[e w2]|]; auto.
    + destruct IH as [L2 [rs2 [G2 Hi2 A2 V2 Vs2 Hk Hc2 Hm2 Hq2 Hs2 R2 Rd2 Rt2 Rpl2]]].
      simpl in F2.
      pose proof (x_cur _ _ _ F) as Hm1.
      exists L2, (r1 :: rs2). constructor; try congruence; try (simpl; lia).
      * apply (grew_trans w w1 w2 L L1 L2); auto.
      * cbn [rds_names]. rewrite lastn_app. destruct rest; exact A2.
      * cbn [rds_names]. rewrite app_assoc. exact V2.
      * simpl. split; auto. split.
        -- eapply rr_mono; [apply G2|]. eapply (rr_append (w_buf w1) (w_cursor w1)); [apply F2|lia|exact R1].
        -- rewrite Re1. split; [lia|exact R2].
      * constructor; auto. rewrite <- (x_mode _ _ _ F). exact Rd2.
      * intros s. rewrite Rt2, Rt1. unfold rrs_starts. simpl. rewrite in_app_iff. tauto.
      * intros Hd. constructor; auto. apply Rpl2. rewrite (x_mode _ _ _ F). exact Hd.
    + destruct IH as [[-> Hs]|[-> Hs]]; [left|right; auto]. split; auto.
      rewrite (x_av _ _ _ F) in Hs. simpl. lia.
Qed.
