(* Composition: contract-obeying traces of the Writer's operation language.  [Reach] is the inductive form of
   [run] + [run_contract], which C12's theorems are stated with; [Traced ops outs d g]: (d, g) is reached from a
   fixed start by the trace (ops, outs) and satisfies AInv; [St] forgets the trace, [StA] keeps the abstract
   message it replays to.  Each operation of [w_iface] (Model/QueryW.v) is one more [step] of a traced state. *)
From QV Require Import Base.ListX Model.MsgWriter Model.ZoneTree Model.Query Model.QueryW Spec.MsgWriterAbsS
  Proofs.MsgWriterP Proofs.MsgWriterScanP Proofs.MsgWriterNameP Proofs.MsgWriterInvP Proofs.MsgWriterOpP
  Proofs.MsgWriterStepP Proofs.MsgWriterHdrP Proofs.MsgWriterRtP.
Local Open Scope nat_scope.

Definition good_name (n : wname) : Prop := wf_name n /\ length (nm_wire n) <= 255.
Definition good_rd (rd : bytes) : Prop := wf_bytes rd /\ (N.of_nat (length rd) < 65536)%N.

Lemma good_rds_split rds : Forall good_rd rds ->
  Forall wf_bytes rds /\ Forall (fun rd => (N.of_nat (length rd) < 65536)%N) rds.
Proof. intros H. split; eapply Forall_impl; try exact H; intros a [A B]; auto. Qed.

Section WithPop.
(* an extra predicate every operation of a trace satisfies: what may be written (C02's Pop2), which header
   settings may be touched (C04's Pop_q, Pop_t, Pop_r) *)
Variable Pop : wop -> Prop.

Definition op_ok (o : wop) : Prop := op_wf o /\ op_wf2 o /\ op_wf3 o /\ Pop o.

Inductive Reach : dstate -> gn -> list wop -> list outcome -> dstate -> gn -> Prop :=
| R_nil d g : Reach d g [] [] d g
| R_cons d g o d1 r ops outs d' g' : op_ok o -> op_contract d g o -> step d o = Ok (d1, r) ->
    stops o r = false -> Reach d1 (gstep d g o r) ops outs d' g' ->
    Reach d g (o :: ops) (r :: outs) d' g'.

Lemma Reach_trans d g a oa d1 g1 b ob d2 g2 : Reach d g a oa d1 g1 -> Reach d1 g1 b ob d2 g2 ->
  Reach d g (a ++ b) (oa ++ ob) d2 g2.
Proof.
  intros H1 H2. induction H1; simpl; auto. econstructor; eauto.
Qed.

Lemma Reach_one d g o d1 r : op_ok o -> op_contract d g o -> step d o = Ok (d1, r) -> stops o r = false ->
  Reach d g [o] [r] d1 (gstep d g o r).
Proof. intros. econstructor; eauto. constructor. Qed.

Lemma Reach_run d g ops outs d' g' : Reach d g ops outs d' g' ->
  run d ops = Ok (d', outs, true) /\ run_contract d g ops /\
  Forall op_wf ops /\ Forall op_wf2 ops /\ Forall op_wf3 ops /\ Forall Pop ops /\ length outs = length ops.
Proof.
  induction 1 as [d g|d g o d1 r ops outs d' g' [W1 [W2 [W3 W4]]] Hc Hs Hst _ IH].
  - simpl. repeat split; auto.
  - destruct IH as (Hr & Hrc & F1 & F2 & F3 & F4 & Hl). cbn [run run_contract]. rewrite Hs. cbn [bind]. rewrite Hst, Hr. cbn [bind].
    repeat split; auto. simpl. lia.
Qed.

(* Conversely, a run that succeeds is a trace if no operation takes a hint (no record is written);
   [grun] is the ghost along the run. *)
Definition nohint (o : wop) : Prop :=
  match o with OAddRr _ _ _ _ _ _ _ _ | OAddRrset _ _ _ _ _ _ _ _ => False | _ => True end.

Fixpoint grun (d : dstate) (g : gn) (ops : list wop) : gn :=
  match ops with
  | [] => g
  | o :: rest => match step d o with Ok (d1, r) => grun d1 (gstep d g o r) rest | _ => g end
  end.

Lemma run_Reach : forall ops d g d' outs, run d ops = Ok (d', outs, true) -> Forall op_ok ops -> Forall nohint ops ->
  Reach d g ops outs d' (grun d g ops).
Proof.
  induction ops as [|o ops IH]; intros d g d' outs H Hok Hs; cbn [run grun] in *.
  - inversion H. constructor.
  - inversion Hok; inversion Hs; subst.
    destruct (step d o) as [[d1 r]|e|] eqn:E; cbn [bind] in H; try discriminate.
    destruct (stops o r) eqn:Est; [discriminate|].
    destruct (run d1 ops) as [[[d2 rs] alive]|e|] eqn:Er; cbn [bind] in H; inversion H; subst.
    apply (R_cons d g o d1 r); auto. destruct o; try contradiction; exact I.
Qed.

Section From.
Variable d0 : dstate.
Variable g0 : gn.

Definition Traced (ops : list wop) (outs : list outcome) (d : dstate) (g : gn) : Prop :=
  exists L, Reach d0 g0 ops outs d g /\ AInv d g L.

Definition St (d : dstate) (g : gn) : Prop :=
  exists ops outs L, Reach d0 g0 ops outs d g /\ AInv d g L.

Lemma Traced_nil L : AInv d0 g0 L -> Traced [] [] d0 g0.
Proof. intros Hi. exists L. split; [constructor|exact Hi]. Qed.

Lemma Traced_St ops outs d g : Traced ops outs d g -> St d g.
Proof. intros (L & H). exists ops, outs, L. exact H. Qed.

Lemma St_Traced d g : St d g -> exists ops outs, Traced ops outs d g.
Proof. intros (ops & outs & L & H). exists ops, outs, L. exact H. Qed.

Lemma Traced_len ops outs d g : Traced ops outs d g -> length ops = length outs.
Proof. intros (L & HR & _). symmetry. apply (Reach_run _ _ _ _ _ _ HR). Qed.

Lemma Traced_Forall ops outs d g : Traced ops outs d g -> Forall Pop ops.
Proof. intros (L & HR & _). apply (Reach_run _ _ _ _ _ _ HR). Qed.

(* one more operation: the invariant carries it (step_ok_all), the trace grows by it (no operation of w_iface
   ever stops a run: only a failed OTemplate does) *)
Lemma Traced_step ops outs d g o : Traced ops outs d g -> op_ok o -> op_contract d g o ->
  (forall r, stops o r = false) ->
  exists d' r, step d o = Ok (d', r) /\ Traced (ops ++ [o]) (outs ++ [r]) d' (gstep d g o r).
Proof.
  intros (L & HR & Hi) Hok Hc Hst.
  pose proof (step_ok_all d g L o Hi (proj1 Hok) Hc) as S. unfold step_ok in S.
  destruct (step d o) as [[d' r]|e|] eqn:E; try contradiction. destruct S as [L' Hi'].
  exists d', r. split; [reflexivity|]. exists L'. split; [|exact Hi'].
  eapply Reach_trans; [exact HR|]. apply Reach_one; auto.
Qed.

Lemma St_regs_len d g : St d g -> length (d_regs d) = length (g_regs g).
Proof. intros (ops & outs & L & _ & Hi). exact (proj1 (a_regs _ _ _ Hi)). Qed.

End From.

(* a hint of the query model and a hint source of the operation language denote the same Writer hint *)
Definition hint_agrees (regs : list hvec) (h : qhint) (hs : hintsrc) : Prop :=
  resolve_hint regs hs = hint_of h.

Definition ghost_rr_ok (g g' : gn) (owner : wname) (names : list wname) (nonempty : bool) : Prop :=
  g_q g' = g_q g /\ g_o g' = (if nonempty then Some owner else g_o g) /\ g_r g' = lastn names (g_r g).

Section Ops.
Variable d0 : dstate.
Variable g0 : gn.

(* the vector an RRset operation hands back when the RDATA has no name component is the one it was given *)
Lemma wc_nil_v rd v w v' w' : write_components [] rd v w = Ok (v', w') -> v' = v.
Proof.
  cbn [write_components]. destruct (length rd =? 0); [intros H; inversion H; reflexivity|].
  destruct (try_push rd w) as [[u w1]|[e w1]|]; cbn [bind]; intros H; inversion H; reflexivity.
Qed.

Lemma add_rr_nil_v h owner ty cl ttl rd v w v' w' : component_types cl ty = [] ->
  add_rr h owner ty cl ttl rd v w = Ok (v', w') -> v' = v.
Proof.
  intros Hc. unfold add_rr. rewrite Hc.
  destruct (write_hinted_name h owner w) as [[pr w1]|[e w1]|]; cbn [bind]; try discriminate.
  destruct (try_push_u16 ty _) as [[u2 w2]|[e w2]|]; cbn [bind]; try discriminate.
  destruct (try_push_u16 cl _) as [[u3 w3]|[e w3]|]; cbn [bind]; try discriminate.
  destruct (try_push_u32 ttl _) as [[u4 w4]|[e w4]|]; cbn [bind]; try discriminate.
  destruct (w_avail w4 <? w_cursor w4); try discriminate.
  destruct (w_avail w4 - w_cursor w4 <? 2); try discriminate.
  destruct (write_components [] rd v _) as [[v1 w6]|[e w6]|] eqn:E; cbn [bind]; try discriminate.
  apply wc_nil_v in E. subst v1.
  destruct (w_cursor w6 <? _); try discriminate.
  destruct (lift _ w6) as [[w7 u7]|[e w7]|]; cbn [bind]; try discriminate.
  intros H. inversion H. reflexivity.
Qed.

Lemma rrset_loop_nil_v owner ty cl ttl : component_types cl ty = [] -> forall rds h v k w v' k' w',
  add_rrset_loop h owner ty cl ttl rds v k w = Ok ((v', k'), w') -> v' = v.
Proof.
  intros Hc. induction rds as [|rd rds IH]; intros h v k w v' k' w'; cbn [add_rrset_loop].
  - intros H. inversion H. reflexivity.
  - destruct (add_rr h owner ty cl ttl rd v w) as [[v1 w1]|[e w1]|] eqn:E; cbn [bind]; try discriminate.
    apply (add_rr_nil_v _ _ _ _ _ _ _ _ _ _ Hc) in E. subst v1. apply IH.
Qed.

Lemma section_rrset_nil_v s h owner ty cl ttl rds v w v' w' : component_types cl ty = [] ->
  add_section_rrset s h owner ty cl ttl rds v w = Ok (v', w') -> v' = v.
Proof.
  intros Hc. unfold add_section_rrset, with_rollback.
  destruct (change_section s w) as [[u w1]|[e w1]|]; cbn [bind]; try discriminate.
  destruct (add_rrset_loop h owner ty cl ttl rds v 0 w1) as [[[v1 k] w2]|[e w2]|] eqn:E; cbn [bind]; try discriminate.
  apply (rrset_loop_nil_v _ _ _ _ Hc) in E. subst v1.
  destruct (65535 <? N.of_nat k)%N; try discriminate.
  destruct (checked_add16 _ _); intros H; inversion H. reflexivity.
Qed.

(* The ghost [gn] is the abstract side of what a hint can refer to: the names the QNAME, most-recent-owner and
   most-recent-RDATA-name anchors stand for, and per issued vector the names its slots stand for.  [vec_issued]:
   register r holds the vector v handed back for the RRset rds, and the ghost knows the names of its slots. *)
Definition vec_issued (d' : dstate) (g' : gn) (r : nat) (v : hvec) (cts : list ctype) (rds : list bytes) : Prop :=
  nth_error (d_regs d') r = Some v /\ nth_error (g_regs g') r = Some (map Some (rds_names cts rds)) /\
  (cts = [] -> v = []).

(* An RR operation of the interface is one step of the operation language.  The registers of the state
   and of the ghost have the same length before and after it (St_regs_len): that is how the proofs see
   that a vector comes back exactly when one was passed. *)
Lemma Traced_add_rr ops outs d g s h hs owner ty cls ttl rd :
  let o := OAddRr (sec_of s) hs owner ty cls ttl rd false in
  Traced d0 g0 ops outs d g -> hint_agrees (d_regs d) h hs ->
  good_name owner -> good_rd rd -> (ty < 65536)%N -> (cls < 65536)%N -> Pop o ->
  hs_contract (d_regs d) g hs owner ->
  match wi_add_rr w_iface s h owner ty cls ttl rd (d_w d) with
  | Ok w' => Traced d0 g0 (ops ++ [o]) (outs ++ [RUnit]) (mkD w' (d_regs d)) (gstep d g o RUnit)
  | Err (_, w') => exists e, Traced d0 g0 (ops ++ [o]) (outs ++ [RErr e]) (mkD w' (d_regs d)) (gstep d g o (RErr e))
  | Panic => False
  end.
Proof.
  intros o HT Hh [Hn1 Hn2] [Hr1 Hr2] Hty Hcl Hpop Hc.
  destruct (Traced_step d0 g0 _ _ d g o HT) as (d' & r & E & HT');
    [split; [split; auto|split; [repeat split; auto|split; [exact I|exact Hpop]]]|intros _; exact Hc|reflexivity|].
  pose proof (St_regs_len _ _ _ _ (Traced_St _ _ _ _ _ _ HT)) as L0. pose proof (St_regs_len _ _ _ _ (Traced_St _ _ _ _ _ _ HT')) as L1.
  cbn [o step] in E. rewrite Hh in E. cbn [wi_add_rr w_iface].
  destruct (add_section_rr (sec_of s) (hint_of h) owner ty cls (ttl_from ttl) rd None (d_w d)) as [[v w']|[e w']|];
    cbn [of_Mv] in E; inversion E; subst d' r; clear E.
  - cbn [o gstep g_regs d_regs] in L1. rewrite !app_length, L0 in L1.
    destruct v; cbn [length] in L1; [lia|]. rewrite app_nil_r in HT'. exact HT'.
  - exists e. rewrite app_nil_r in HT'. exact HT'.
Qed.

Lemma Traced_add_rrset ops outs d g s h hs owner ty cls ttl rds vec :
  let o := OAddRrset (sec_of s) hs owner ty cls ttl rds vec in
  Traced d0 g0 ops outs d g -> hint_agrees (d_regs d) h hs ->
  good_name owner -> Forall good_rd rds -> (ty < 65536)%N -> (cls < 65536)%N -> Pop o ->
  hs_contract (d_regs d) g hs owner ->
  match wi_add_rrset w_iface s h owner ty cls ttl rds vec (d_w d) with
  | Ok (v, w') => Traced d0 g0 (ops ++ [o]) (outs ++ [RUnit]) (mkD w' (d_regs d ++ if vec then [v] else [])) (gstep d g o RUnit) /\
                  (component_types cls ty = [] -> v = [])
  | Err (_, w') => exists e, Traced d0 g0 (ops ++ [o]) (outs ++ [RErr e]) (mkD w' (d_regs d ++ if vec then [[]] else []))
                               (gstep d g o (RErr e))
  | Panic => False
  end.
Proof.
  intros o HT Hh [Hn1 Hn2] Hr Hty Hcl Hpop Hc. destruct (good_rds_split _ Hr) as [Hr1 Hr2].
  destruct (Traced_step d0 g0 _ _ d g o HT) as (d' & r & E & HT');
    [split; [split; auto|split; [repeat split; auto|split; [exact I|exact Hpop]]]|intros _; exact Hc|reflexivity|].
  pose proof (St_regs_len _ _ _ _ (Traced_St _ _ _ _ _ _ HT)) as L0. pose proof (St_regs_len _ _ _ _ (Traced_St _ _ _ _ _ _ HT')) as L1.
  cbn [o step] in E. rewrite Hh in E. cbn [wi_add_rrset w_iface].
  destruct (add_section_rrset (sec_of s) (hint_of h) owner ty cls (ttl_from ttl) rds (if vec then Some [] else None) (d_w d))
    as [[v w']|[e w']|] eqn:EA; cbn [of_Mv] in E; inversion E; subst d' r; clear E.
  - cbn [o gstep g_regs d_regs] in L1. rewrite !app_length, L0 in L1.
    destruct vec, v as [l|]; cbn [length] in L1; try lia; (split; [exact HT'|]).
    + intros Hcts. apply (section_rrset_nil_v _ _ _ _ _ _ _ _ _ _ _ Hcts) in EA. inversion EA. reflexivity.
    + reflexivity.
  - exists e. exact HT'.
Qed.

Lemma St_add_rr d g s h hs owner ty cls ttl rd :
  let o := OAddRr (sec_of s) hs owner ty cls ttl rd false in
  St d0 g0 d g -> hint_agrees (d_regs d) h hs ->
  good_name owner -> good_rd rd -> (ty < 65536)%N -> (cls < 65536)%N -> Pop o ->
  hs_contract (d_regs d) g hs owner ->
  match wi_add_rr w_iface s h owner ty cls ttl rd (d_w d) with
  | Ok w' => St d0 g0 (mkD w' (d_regs d)) (gstep d g o RUnit)
  | Err (_, w') => exists e, St d0 g0 (mkD w' (d_regs d)) (gstep d g o (RErr e))
  | Panic => False
  end.
Proof.
  intros o HS Hh Gn Grd Hty Hcl Hpop Hc. destruct (St_Traced _ _ _ _ HS) as (ops & outs & HT).
  pose proof (Traced_add_rr ops outs d g s h hs owner ty cls ttl rd HT Hh Gn Grd Hty Hcl Hpop Hc) as X.
  destruct (wi_add_rr w_iface s h owner ty cls ttl rd (d_w d)) as [w'|[e w']|]; [|destruct X as [e' X]; exists e'|exact X];
    exact (Traced_St _ _ _ _ _ _ X).
Qed.

Lemma St_add_rrset d g s h hs owner ty cls ttl rds vec :
  let o := OAddRrset (sec_of s) hs owner ty cls ttl rds vec in
  St d0 g0 d g -> hint_agrees (d_regs d) h hs ->
  good_name owner -> Forall good_rd rds -> (ty < 65536)%N -> (cls < 65536)%N -> Pop o ->
  hs_contract (d_regs d) g hs owner ->
  match wi_add_rrset w_iface s h owner ty cls ttl rds vec (d_w d) with
  | Ok (v, w') => St d0 g0 (mkD w' (d_regs d ++ if vec then [v] else [])) (gstep d g o RUnit) /\
                  (component_types cls ty = [] -> v = [])
  | Err (_, w') => exists e, St d0 g0 (mkD w' (d_regs d ++ if vec then [[]] else [])) (gstep d g o (RErr e))
  | Panic => False
  end.
Proof.
  intros o HS Hh Gn Grd Hty Hcl Hpop Hc. destruct (St_Traced _ _ _ _ HS) as (ops & outs & HT).
  pose proof (Traced_add_rrset ops outs d g s h hs owner ty cls ttl rds vec HT Hh Gn Grd Hty Hcl Hpop Hc) as X.
  destruct (wi_add_rrset w_iface s h owner ty cls ttl rds vec (d_w d)) as [[v w']|[e w']|].
  - destruct X as [X Hv]. split; [exact (Traced_St _ _ _ _ _ _ X)|exact Hv].
  - destruct X as [e' X]. exists e'. exact (Traced_St _ _ _ _ _ _ X).
  - exact X.
Qed.

Lemma w_modify_no_err w i f e : w_modify w i f <> Err e.
Proof. unfold w_modify, w_write. destruct (nth_error _ _); [|discriminate]. destruct (buf_write _ _ _); discriminate. Qed.

(* a setter of the header: [step] is [of_R] of a function that never reports an error *)
Lemma Traced_set ops outs d g o (f : writer -> res werr writer) : Traced d0 g0 ops outs d g ->
  op_ok o -> op_contract d g o -> (forall r, stops o r = false) ->
  step d o = of_R d (f (d_w d)) -> (forall e, f (d_w d) <> Err e) ->
  exists w', f (d_w d) = Ok w' /\ Traced d0 g0 (ops ++ [o]) (outs ++ [RUnit]) (mkD w' (d_regs d)) (gstep d g o RUnit).
Proof.
  intros HT Hok Hc Hst Es NE. destruct (Traced_step d0 g0 _ _ _ _ o HT Hok Hc Hst) as (d' & r & E & HT').
  rewrite Es in E. destruct (f (d_w d)) as [w'|e|]; cbn [of_R] in E; [|destruct (NE e eq_refl)|discriminate].
  inversion E; subst d' r. exists w'. split; [reflexivity|exact HT'].
Qed.

Lemma set_rcode_no_err rc w e : set_rcode rc w <> Err e.
Proof.
  unfold set_rcode. pose proof (w_modify_no_err w RCODE_BYTE (fun x => N.lor (N.land x (255 - RCODE_MASK)) rc) e).
  destruct (w_modify _ _ _); cbn [bind]; congruence.
Qed.

Lemma Traced_set_aa ops outs d g b : Traced d0 g0 ops outs d g -> Pop (OSetAa b) ->
  exists w', wi_set_aa w_iface b (d_w d) = Some w' /\ Traced d0 g0 (ops ++ [OSetAa b]) (outs ++ [RUnit]) (mkD w' (d_regs d)) g.
Proof.
  intros HT HP. destruct (Traced_set _ _ _ _ (OSetAa b) (set_aa b) HT) as (w' & E & HT');
    [repeat split; auto|exact I|reflexivity|reflexivity|intros e; apply w_modify_no_err|].
  exists w'. cbn [wi_set_aa w_iface]. rewrite E. split; [reflexivity|exact HT'].
Qed.
Lemma Traced_set_tc ops outs d g b : Traced d0 g0 ops outs d g -> Pop (OSetTc b) ->
  exists w', wi_set_tc w_iface b (d_w d) = Some w' /\ Traced d0 g0 (ops ++ [OSetTc b]) (outs ++ [RUnit]) (mkD w' (d_regs d)) g.
Proof.
  intros HT HP. destruct (Traced_set _ _ _ _ (OSetTc b) (set_tc b) HT) as (w' & E & HT');
    [repeat split; auto|exact I|reflexivity|reflexivity|intros e; apply w_modify_no_err|].
  exists w'. cbn [wi_set_tc w_iface]. rewrite E. split; [reflexivity|exact HT'].
Qed.
Lemma Traced_set_rcode ops outs d g v : Traced d0 g0 ops outs d g -> (v < 16)%N -> Pop (OSetRcode v) ->
  exists w', wi_set_rcode w_iface v (d_w d) = Some w' /\ Traced d0 g0 (ops ++ [OSetRcode v]) (outs ++ [RUnit]) (mkD w' (d_regs d)) g.
Proof.
  intros HT Hv HP. destruct (Traced_set _ _ _ _ (OSetRcode v) (set_rcode v) HT) as (w' & E & HT');
    [repeat split; auto|exact I|reflexivity|reflexivity|intros e; apply set_rcode_no_err|].
  exists w'. cbn [wi_set_rcode w_iface]. rewrite E. split; [reflexivity|exact HT'].
Qed.
Lemma Traced_clear ops outs d g : Traced d0 g0 ops outs d g -> Pop OClearRrs ->
  Traced d0 g0 (ops ++ [OClearRrs]) (outs ++ [RUnit]) (mkD (wi_clear_rrs w_iface (d_w d)) (d_regs d)) (gstep d g OClearRrs RUnit).
Proof.
  intros HT HP. destruct (Traced_step d0 g0 _ _ _ _ OClearRrs HT) as (d' & r & E & HT'); [repeat split; auto|exact I|reflexivity|].
  inversion E; subst d' r. exact HT'.
Qed.

Lemma St_set_aa d g b : St d0 g0 d g -> Pop (OSetAa b) ->
  exists w', wi_set_aa w_iface b (d_w d) = Some w' /\ St d0 g0 (mkD w' (d_regs d)) g.
Proof.
  intros HS HP. destruct (St_Traced _ _ _ _ HS) as (ops & outs & HT).
  destruct (Traced_set_aa _ _ _ _ b HT HP) as (w' & E & HT'). exists w'. split; [exact E|exact (Traced_St _ _ _ _ _ _ HT')].
Qed.
Lemma St_set_tc d g b : St d0 g0 d g -> Pop (OSetTc b) ->
  exists w', wi_set_tc w_iface b (d_w d) = Some w' /\ St d0 g0 (mkD w' (d_regs d)) g.
Proof.
  intros HS HP. destruct (St_Traced _ _ _ _ HS) as (ops & outs & HT).
  destruct (Traced_set_tc _ _ _ _ b HT HP) as (w' & E & HT'). exists w'. split; [exact E|exact (Traced_St _ _ _ _ _ _ HT')].
Qed.
Lemma St_set_rcode d g rc : St d0 g0 d g -> (rc < 16)%N -> Pop (OSetRcode rc) ->
  exists w', wi_set_rcode w_iface rc (d_w d) = Some w' /\ St d0 g0 (mkD w' (d_regs d)) g.
Proof.
  intros HS Hrc HP. destruct (St_Traced _ _ _ _ HS) as (ops & outs & HT).
  destruct (Traced_set_rcode _ _ _ _ rc HT Hrc HP) as (w' & E & HT'). exists w'. split; [exact E|exact (Traced_St _ _ _ _ _ _ HT')].
Qed.
Lemma St_clear d g : St d0 g0 d g -> Pop OClearRrs ->
  St d0 g0 (mkD (wi_clear_rrs w_iface (d_w d)) (d_regs d)) (gstep d g OClearRrs RUnit).
Proof.
  intros HS HP. destruct (St_Traced _ _ _ _ HS) as (ops & outs & HT). exact (Traced_St _ _ _ _ _ _ (Traced_clear _ _ _ _ HT HP)).
Qed.

End Ops.

End WithPop.

Lemma Reach_weaken (P Q : wop -> Prop) : (forall o, P o -> Q o) ->
  forall d g ops outs d' g', Reach P d g ops outs d' g' -> Reach Q d g ops outs d' g'.
Proof.
  intros HPQ. induction 1 as [d g|d g o d1 r ops outs d' g' (W1 & W2 & W3 & W4) Hc Hs Hst _ IH]; [constructor|].
  econstructor; eauto. repeat split; auto.
Qed.

Lemma Traced_weaken (P Q : wop -> Prop) d0 g0 ops outs d g : (forall o, P o -> Q o) ->
  Traced P d0 g0 ops outs d g -> Traced Q d0 g0 ops outs d g.
Proof. intros HPQ (L & HR & Hi). exists L. split; [exact (Reach_weaken P Q HPQ _ _ _ _ _ _ HR)|exact Hi]. Qed.

Lemma Traced_trans Pop d0 g0 a oa d1 g1 b ob d2 g2 : Traced Pop d0 g0 a oa d1 g1 -> Traced Pop d1 g1 b ob d2 g2 ->
  Traced Pop d0 g0 (a ++ b) (oa ++ ob) d2 g2.
Proof. intros (_ & R1 & _) (L & R2 & Hi). exists L. split; [exact (Reach_trans Pop _ _ _ _ _ _ _ _ _ _ R1 R2)|exact Hi]. Qed.

Lemma areplay_app : forall a oa b ob A, length a = length oa -> areplay A (a ++ b) (oa ++ ob) = areplay (areplay A a oa) b ob.
Proof.
  induction a as [|x a IH]; intros [|y oa] b ob A Hl; simpl in Hl; try discriminate; [reflexivity|].
  cbn [app areplay]. apply IH. lia.
Qed.
Lemma hreplay_app : forall a oa b ob H, length a = length oa -> hreplay H (a ++ b) (oa ++ ob) = hreplay (hreplay H a oa) b ob.
Proof.
  induction a as [|x a IH]; intros [|y oa] b ob H Hl; simpl in Hl; try discriminate; [reflexivity|].
  cbn [app hreplay]. apply IH. lia.
Qed.

(* a reachable state together with the abstract message of its trace *)
Section Abstract.
Variable Pop : wop -> Prop.
Variable d0 : dstate.
Variable g0 : gn.
Variable A0 : amsg.

Definition StA (d : dstate) (g : gn) (A : amsg) : Prop :=
  exists ops outs, Traced Pop d0 g0 ops outs d g /\ A = areplay A0 ops outs.

Lemma StA_nil L : AInv d0 g0 L -> StA d0 g0 A0.
Proof. intros Hi. exists [], []. split; [exact (Traced_nil Pop d0 g0 L Hi)|reflexivity]. Qed.

Lemma StA_St d g A : StA d g A -> St Pop d0 g0 d g.
Proof. intros (ops & outs & HT & _). exact (Traced_St _ _ _ _ _ _ _ HT). Qed.

Lemma StA_regs_len d g A : StA d g A -> length (d_regs d) = length (g_regs g).
Proof. intros H. exact (St_regs_len Pop d0 g0 d g (StA_St _ _ _ H)). Qed.

Lemma StA_snoc ops outs d g o r : Traced Pop d0 g0 ops outs d g -> forall d' g', Traced Pop d0 g0 (ops ++ [o]) (outs ++ [r]) d' g' ->
  StA d' g' (astep (areplay A0 ops outs) o r).
Proof.
  intros HT d' g' HT'. eexists _, _. split; [exact HT'|]. rewrite areplay_app by exact (Traced_len _ _ _ _ _ _ _ HT). reflexivity.
Qed.

Lemma StA_set_aa d g A b : StA d g A -> Pop (OSetAa b) ->
  exists w', wi_set_aa w_iface b (d_w d) = Some w' /\ StA (mkD w' (d_regs d)) g A.
Proof.
  intros (ops & outs & HT & ->) HP. destruct (Traced_set_aa _ _ _ _ _ _ _ b HT HP) as (w' & E & HT').
  exists w'. split; [exact E|exact (StA_snoc _ _ _ _ _ _ HT _ _ HT')].
Qed.
Lemma StA_set_rcode d g A v : StA d g A -> (v < 16)%N -> Pop (OSetRcode v) ->
  exists w', wi_set_rcode w_iface v (d_w d) = Some w' /\ StA (mkD w' (d_regs d)) g A.
Proof.
  intros (ops & outs & HT & ->) Hv HP. destruct (Traced_set_rcode _ _ _ _ _ _ _ v HT Hv HP) as (w' & E & HT').
  exists w'. split; [exact E|exact (StA_snoc _ _ _ _ _ _ HT _ _ HT')].
Qed.

End Abstract.
