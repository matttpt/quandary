(* Name writes preserve the anchor invariant [NInv]: the set L of label starts stays closed under
   decoding (never reading the header, the RDLENGTH hole, or octets at/above the cursor), every
   member decodes, the three compression anchors are members; the new name's own label starts join
   L, its pointer (if any) leads into the old L; a name never takes more room than its
   uncompressed form and fails (Truncation) only if that form does not fit. *)
From QV Require Import Base.ListX Model.MsgWriter Spec.NameWireS Proofs.NameWireP Proofs.MsgWriterP
     Proofs.MsgWriterScanP Proofs.MsgWriterNameP Proofs.MsgWriterClosP Proofs.MsgWriterScanSP.

Local Open Scope nat_scope.

Record NInv (w : writer) (h : nat) (L : nat -> Prop) : Prop := mkNInv {
  ni_nb : nb w;
  ni_lo : header_size <= w_cursor w;
  ni_hole : length (w_buf w) <= h \/ h + 2 <= w_cursor w;
  ni_closed : closed (w_buf w) header_size (w_cursor w) h L;
  ni_dec : decodable (w_buf w) (w_cursor w) L;
  ni_pr : priors_ok w;
  ni_prL : forall pr, w_qname w = Some pr \/ w_mro w = Some pr \/ w_mrn w = Some pr -> L (p_ptr pr);
  ni_sdec : sdec (w_buf w) (w_cursor w) L }.

Definition grew (w w' : writer) (L L' : nat -> Prop) : Prop :=
  (forall s, L s -> L' s) /\ (forall s, L' s -> L s \/ (w_cursor w <= s /\ s < w_cursor w')).

Lemma grew_refl w w' L : grew w w' L L.
Proof. split; auto. Qed.

Lemma grew_trans w1 w2 w3 L1 L2 L3 : w_cursor w1 <= w_cursor w2 -> w_cursor w2 <= w_cursor w3 ->
  grew w1 w2 L1 L2 -> grew w2 w3 L2 L3 -> grew w1 w3 L1 L3.
Proof.
  intros C1 C2 [A1 A2] [B1 B2]. split; auto.
  intros s Hs. destruct (B2 s Hs) as [H|H]; [|right; lia].
  destruct (A2 s H) as [K|K]; [left; auto|right; lia].
Qed.

Lemma NInv_ext w w' h L : NInv w h L -> ext (w_cursor w) w w' -> side_eq w w' -> NInv w' h L.
Proof.
  intros [Hnb Hlo Hh Hcl Hd [Pq [Po Pr]] HL Hsd] X [S1 [S2 [S3 S4]]].
  pose proof (x_len _ _ _ X) as XL. pose proof (x_cur _ _ _ X) as XC. pose proof (x_agree _ _ _ X) as XA.
  pose proof (ext_nb _ _ _ X Hnb) as [Nb1 Nb2].
  assert (R : ragree header_size (w_cursor w) h (w_buf w) (w_buf w')) by (apply agree_ragree; auto).
  constructor.
  - eapply ext_nb; eauto.
  - lia.
  - rewrite XL. lia.
  - eapply closed_mono_c; [eapply closed_transfer; eauto|lia].
  - eapply decodable_mono; [eapply decodable_transfer; eauto|lia].
  - unfold priors_ok. rewrite S1, S2, S3.
    repeat split; eapply oprior_ok_stable; eauto.
  - rewrite S1, S2, S3. exact HL.
  - eapply sdec_mono; [eapply sdec_transfer; eauto; lia|lia].
Qed.

Lemma NInv_grow w h (L L' : nat -> Prop) : NInv w h L -> (forall s, L s -> L' s) ->
  closed (w_buf w) header_size (w_cursor w) h L' -> sdec (w_buf w) (w_cursor w) L' -> NInv w h L'.
Proof. intros [] HL C D. constructor; auto. apply sdec_decodable; auto. Qed.

Lemma NInv_try_push data w u w' h L : NInv w h L -> try_push data w = Ok (u, w') -> NInv w' h L.
Proof.
  intros Hi E. destruct (try_push_ext (w_cursor w) _ _ _ _ E (le_n _)) as [X [Sd _]].
  eapply NInv_ext; eauto.
Qed.

Lemma NInv_set_mro w h L pr : NInv w h L -> oprior_ok (w_buf w) (w_cursor w) pr ->
  (forall p, pr = Some p -> L (p_ptr p)) -> NInv (set_mro w pr) h L.
Proof.
  intros [Hnb Hlo Hh Hcl Hd [Pq [Po Pr]] HL Hsd] Hp HpL. constructor; auto.
  - repeat split; auto.
  - simpl. intros p [H|[H|H]]; auto.
Qed.

Lemma NInv_set_mrn w h L pr : NInv w h L -> oprior_ok (w_buf w) (w_cursor w) pr ->
  (forall p, pr = Some p -> L (p_ptr p)) -> NInv (set_mrn w pr) h L.
Proof.
  intros [Hnb Hlo Hh Hcl Hd [Pq [Po Pr]] HL Hsd] Hp HpL. constructor; auto.
  - repeat split; auto.
  - simpl. intros p [H|[H|H]]; auto.
Qed.

Lemma NInv_set_qname w h L pr : NInv w h L -> oprior_ok (w_buf w) (w_cursor w) pr ->
  (forall p, pr = Some p -> L (p_ptr p)) -> NInv (set_qname w pr) h L.
Proof.
  intros [Hnb Hlo Hh Hcl Hd [Pq [Po Pr]] HL Hsd] Hp HpL. constructor; auto.
  - repeat split; auto.
  - simpl. intros p [H|[H|H]]; auto.
Qed.

Lemma lwire_tail (b : bytes) i l r :
  slice b i (i + S (length l + length (nm_lwire r))) = N.of_nat (length l) :: l ++ nm_lwire r ->
  i + S (length l + length (nm_lwire r)) <= length b ->
  nth_error b i = Some (N.of_nat (length l)) /\
  slice b (i + 1) (i + 1 + length l) = l /\
  slice b (i + 1 + length l) (i + 1 + length l + length (nm_lwire r)) = nm_lwire r.
Proof.
  intros Hs Hlen. apply slice_head in Hs as [Hnth [Hs _]]. split; auto.
  rewrite (slice_app b (S i) (S i + length l)) in Hs by lia.
  apply app_eq_len in Hs as [Hs1 Hs2]; [|rewrite slice_length; lia].
  replace (i + 1) with (S i) by lia. split; auto.
  replace (i + S (length l + length (nm_lwire r))) with (S i + length l + length (nm_lwire r)) in Hs2 by lia.
  exact Hs2.
Qed.

Lemma lstarts_local b lo c h (L' : nat -> Prop) : forall ls i, Forall wf_label ls ->
  slice b i (i + length (nm_lwire ls)) = nm_lwire ls -> i + length (nm_lwire ls) <= length b ->
  okr lo c h i (i + length (nm_lwire ls)) ->
  (forall s, In s (lstarts i ls) -> L' s) -> nextok b lo c h L' (i + length (nm_lwire ls)) ->
  forall s, In s (lstarts i ls) -> local_ok b lo c h L' s.
Proof.
  induction ls as [|l r IH]; intros i Hwf Hs Hlen Ho HL Hk s Hin; [destruct Hin|].
  inversion Hwf as [|? ? [Hl1 Hl63] Hwf']; subst.
  rewrite nm_lwire_cons in *. simpl length in *. rewrite app_length in *.
  destruct (lwire_tail b i l r Hs Hlen) as [Hnth [Hsl Hsr]].
  assert (Hto : N.to_nat (N.of_nat (length l)) = length l) by apply Nat2N.id.
  simpl in Hin. destruct Hin as [<-|Hin].
  - exists (N.of_nat (length l)). split; [exact Hnth|]. split; [lia|]. rewrite Hto. split.
    + unfold okr in *. lia.
    + intros _. destruct r as [|l2 r2].
      * simpl in Hk. replace (i + S (length l + 0)) with (i + 1 + length l) in Hk by lia. exact Hk.
      * left. apply HL. simpl. right. left. reflexivity.
  - apply (IH (i + 1 + length l)); auto.
    + lia.
    + unfold okr in *. lia.
    + intros s' Hs'. apply HL. simpl. right. exact Hs'.
    + replace (i + 1 + length l + length (nm_lwire r)) with (i + S (length l + length (nm_lwire r))) by lia.
      exact Hk.
Qed.

Lemma lstarts_suffix b : forall ls i s, Forall wf_label ls ->
  slice b i (i + length (nm_lwire ls)) = nm_lwire ls -> i + length (nm_lwire ls) <= length b ->
  In s (lstarts i ls) ->
  exists ls', Forall wf_label ls' /\ slice b s (s + length (nm_lwire ls')) = nm_lwire ls' /\
              s + length (nm_lwire ls') = i + length (nm_lwire ls) /\ i <= s.
Proof.
  induction ls as [|l r IH]; intros i s Hwf Hs Hlen Hin; [destruct Hin|].
  simpl in Hin. destruct Hin as [<-|Hin]; [exists (l :: r); auto|].
  inversion Hwf as [|? ? [Hl1 Hl63] Hwf']; subst.
  rewrite nm_lwire_cons in *. simpl length in *. rewrite app_length in *.
  destruct (lwire_tail b i l r Hs Hlen) as [Hnth [Hsl Hsr]].
  destruct (IH (i + 1 + length l) s Hwf' Hsr ltac:(lia) Hin) as (ls' & W & S' & E' & Hle).
  exists ls'. repeat split; auto; lia.
Qed.

Lemma lstarts_dec b c : forall ls i rest, Forall wf_label ls ->
  slice b i (i + length (nm_lwire ls)) = nm_lwire ls -> i + length (nm_lwire ls) <= length b ->
  i + length (nm_lwire ls) <= c -> name_at b c (i + length (nm_lwire ls)) rest ->
  forall s, In s (lstarts i ls) -> exists ls', name_at b c s ls'.
Proof.
  intros ls i rest Hwf Hs Hlen Hc Hn s Hin.
  destruct (lstarts_suffix b ls i s Hwf Hs Hlen Hin) as (ls' & W & S' & E' & _).
  exists (ls' ++ rest). apply name_at_labels; auto; rewrite E'; auto.
Qed.

Lemma decodes_labels b cs : forall ls i rest e, Forall wf_label ls ->
  slice b i (i + length (nm_lwire ls)) = nm_lwire ls -> i + length (nm_lwire ls) <= length b ->
  decodes b cs (i + length (nm_lwire ls)) rest e -> decodes b cs i (ls ++ rest) e.
Proof.
  induction ls as [|l r IH]; intros i rest e Hwf Hs Hlen Hd.
  - simpl in *. rewrite Nat.add_0_r in Hd. exact Hd.
  - inversion Hwf as [|? ? [Hl1 Hl63] Hwf']; subst.
    rewrite nm_lwire_cons in *. simpl length in *. rewrite app_length in *.
    destruct (lwire_tail b i l r Hs Hlen) as [Hnth [Hsl Hsr]].
    assert (Hto : N.to_nat (N.of_nat (length l)) = length l) by apply Nat2N.id.
    simpl app.
    pose proof (dec_label b cs i (N.of_nat (length l)) (r ++ rest) e Hnth ltac:(lia) ltac:(lia)) as K.
    rewrite Hto in K. rewrite Hsl in K. apply K; [lia|]. apply IH; auto; try lia.
    replace (i + 1 + length l + length (nm_lwire r)) with (i + S (length l + length (nm_lwire r))) by lia.
    exact Hd.
Qed.

Lemma lstarts_sdec b c : forall ls i rest e, Forall wf_label ls ->
  slice b i (i + length (nm_lwire ls)) = nm_lwire ls -> i + length (nm_lwire ls) <= length b ->
  i + length (nm_lwire ls) <= c -> name_at b c (i + length (nm_lwire ls)) rest ->
  (forall cs, i <= cs -> decodes b cs (i + length (nm_lwire ls)) rest e) ->
  forall s, In s (lstarts i ls) -> exists ls' e', name_at b c s ls' /\ decodes b s s ls' e'.
Proof.
  intros ls i rest e Hwf Hs Hlen Hc Hn Hd s Hin.
  destruct (lstarts_suffix b ls i s Hwf Hs Hlen Hin) as (ls' & W & S' & E' & Hle).
  exists (ls' ++ rest), e. split.
  - apply name_at_labels; auto; rewrite E'; auto.
  - apply decodes_labels; auto; rewrite E'; auto.
Qed.

Lemma lstarts_head i ls : ls <> [] -> In i (lstarts i ls).
Proof. destruct ls; [congruence|]. intros _. simpl. auto. Qed.

Lemma lwire_firstn_lt n k : wf_name n -> k < length n ->
  length (nm_lwire (firstn k n)) + 2 <= length (nm_lwire n).
Proof.
  intros [Hwf _] Hk. rewrite <- (firstn_skipn k n) at 2. rewrite nm_lwire_app, app_length.
  destruct (skipn k n) as [|l r] eqn:E.
  - assert (length (skipn k n) = 0) by (rewrite E; reflexivity). rewrite skipn_length in H. lia.
  - assert (Hin : In l n) by (apply (In_skipn k); rewrite E; left; reflexivity).
    rewrite Forall_forall in Hwf. destruct (Hwf l Hin) as [H1 _].
    rewrite nm_lwire_cons. simpl length. rewrite app_length. lia.
Qed.

Definition Lroot (L : nat -> Prop) (c : nat) (n : wname) : nat -> Prop :=
  fun s => L s \/ In s (lstarts c n) \/ s = c + length (nm_lwire n).
Definition Lptr (L : nat -> Prop) (c : nat) (ls : list bytes) : nat -> Prop :=
  fun s => L s \/ In s (lstarts c ls).

Lemma block_root w' h L c n : NInv w' h L -> wf_name n -> header_size <= c ->
  (length (w_buf w') <= h \/ h + 2 <= c) ->
  slice (w_buf w') c (w_cursor w') = nm_wire n -> w_cursor w' = c + length (nm_wire n) ->
  closed (w_buf w') header_size (w_cursor w') h (Lroot L c n) /\
  sdec (w_buf w') (w_cursor w') (Lroot L c n).
Proof.
  intros Hi Hwf Hlo Hh Hs Hc'. destruct Hi as [[Hn1 Hn2] _ _ Hcl _ _ _ Hd].
  rewrite nm_wire_length in Hc'. unfold nm_wire in Hs.
  destruct (slice_app_l (w_buf w') c (c + length (nm_lwire n)) (w_cursor w') _ _ Hs eq_refl ltac:(lia) ltac:(lia))
    as [S1 S2].
  apply slice_head in S2 as [Hz _].
  assert (Hroot : name_at (w_buf w') (w_cursor w') (c + length (nm_lwire n)) []) by (apply na_root; [lia|exact Hz]).
  split.
  - intros s [Hs' | [Hs' | ->]].
    + apply (local_mono _ _ _ _ L _ s _ _ (fun s H => or_introl H) (fun a e O => O)), Hcl, Hs'.
    + apply (lstarts_local _ _ _ _ _ n c); auto; try lia.
      * apply Hwf.
      * unfold okr. lia.
      * intros s' K. right. left. exact K.
      * left. right. right. reflexivity.
    + exists 0%N. split; [exact Hz|]. split; [lia|]. split; [unfold okr; simpl; lia|]. intros K; congruence.
  - intros s [Hs' | [Hs' | ->]].
    + apply Hd; auto.
    + apply (lstarts_sdec _ _ n c [] (c + length (nm_lwire n) + 1)); auto; try lia; [apply Hwf|].
      intros cs _. constructor. exact Hz.
    + exists [], (c + length (nm_lwire n) + 1). split; [exact Hroot|]. constructor. exact Hz.
Qed.

Lemma block_ptr w' h L c ls pp : NInv w' h L -> Forall wf_label ls -> header_size <= c ->
  (length (w_buf w') <= h \/ h + 2 <= c) ->
  slice (w_buf w') c (w_cursor w') = nm_lwire ls ++ be16 (ptr_word pp) ->
  w_cursor w' = c + length (nm_lwire ls) + 2 -> L pp -> pp < c -> pp <= pointer_max ->
  closed (w_buf w') header_size (w_cursor w') h (Lptr L c ls) /\
  sdec (w_buf w') (w_cursor w') (Lptr L c ls).
Proof.
  intros Hi Hwf Hlo Hh Hs Hc' HL Hpc Hpm. destruct Hi as [[Hn1 Hn2] _ _ Hcl _ _ _ Hd].
  destruct (slice_app_l (w_buf w') c (c + length (nm_lwire ls)) (w_cursor w') _ _ Hs eq_refl ltac:(lia) ltac:(lia))
    as [S1 S2].
  destruct (ptr_word_bytes pp Hpm) as [hi [lo [Eb [Ehi Et]]]].
  assert (Hhi : (hi < 256)%N) by (unfold be16 in Eb; inversion Eb; apply N.mod_lt; lia).
  rewrite Eb in S2. apply slice_head in S2 as [Z1 [S3 _]]. apply slice_head in S3 as [Z2 _].
  replace (S (c + length (nm_lwire ls))) with (c + length (nm_lwire ls) + 1) in Z2 by lia.
  destruct (Hd pp HL) as [rest [erest [Hrest Hdrest]]].
  destruct (spec_target hi lo Ehi Hhi) as [H192 Etspec].
  assert (Hpn : name_at (w_buf w') (w_cursor w') (c + length (nm_lwire ls)) rest).
  { eapply na_ptr; eauto; try lia; rewrite Et; try lia; [eapply closed_real; eauto|exact Hrest]. }
  assert (Hps : ptr_step (w_buf w') header_size (w_cursor w') h (Lptr L c ls) (c + length (nm_lwire ls))).
  { exists hi, lo. split; [exact Z1|]. split; [exact Ehi|]. split; [exact Z2|].
    split; [unfold okr; lia|]. rewrite Et. split; [lia|]. split; [left; exact HL|exact Hhi]. }
  split.
  - intros s [Hs' | Hs'].
    + apply (local_mono _ _ _ _ L _ s _ _ (fun s H => or_introl H) (fun a e O => O)), Hcl, Hs'.
    + apply (lstarts_local _ _ _ _ _ ls c); auto; try lia.
      * unfold okr. lia.
      * intros s' K. right. exact K.
      * right. exact Hps.
  - intros s [Hs' | Hs'].
    + apply Hd; auto.
    + apply (lstarts_sdec _ _ ls c rest (c + length (nm_lwire ls) + 2)); auto; try lia.
      intros cs Hcs. eapply dec_ptr; eauto.
      * rewrite Etspec, Et. lia.
      * rewrite Etspec, Et. exact Hdrest.
Qed.

(* what was emitted, with the pointer target known to be a member of the OLD set of label starts *)
Definition emittedL (n : wname) (b' : bytes) (c c' : nat) (L : nat -> Prop) : Prop :=
  slice b' c c' = nm_wire n \/
  exists k pp, k < length n /\ slice b' c c' = nm_lwire (firstn k n) ++ be16 (ptr_word pp) /\
               L pp /\ pp < c /\ 0 < pp /\ pp <= pointer_max.

(* the shape of a name chunk: plain (None) or k labels and a pointer to pp (Some (k, pp)) *)
Definition shape := option (nat * nat).

Definition shape_at (cp : bool) (n : wname) (b : bytes) (L : nat -> Prop) (pos e : nat) (sh : shape) : Prop :=
  match sh with
  | None => slice b pos e = nm_wire n
  | Some (k, pp) => k < length n /\ slice b pos e = nm_lwire (firstn k n) ++ be16 (ptr_word pp) /\
                    L pp /\ pp < pos /\ 0 < pp /\ pp <= pointer_max /\ named cp (skipn k n) b pos pp
  end.

(* the label starts (root included) of the chunk itself *)
Definition own_starts (pos : nat) (n : wname) (sh : shape) : list nat :=
  match sh with
  | None => lstarts pos n ++ [pos + length (nm_lwire n)]
  | Some (k, _) => lstarts pos (firstn k n)
  end.

(* what was emitted, and the new set of label starts given exactly: the old one plus this name's own *)
Definition emittedT (cp : bool) (n : wname) (b' : bytes) (c c' : nat) (L L' : nat -> Prop) : Prop :=
  exists sh, shape_at cp n b' L c c' sh /\ forall s, L' s <-> L s \/ In s (own_starts c n sh).

Lemma Lroot_own L c n s : Lroot L c n s <-> L s \/ In s (own_starts c n None).
Proof.
  unfold Lroot, own_starts. rewrite in_app_iff. simpl. split.
  - intros [H|[H|H]]; auto.
  - intros [H|[H|[H|[]]]]; auto.
Qed.

Definition wroteL (cp : bool) (h : nat) (n : wname) (w : writer) (L : nat -> Prop)
           (pr : option prior) (w' : writer) : Prop :=
  wrote cp (w_cursor w) n w w' pr /\
  w_cursor w' <= w_cursor w + length (nm_wire n) /\
  emittedL n (w_buf w') (w_cursor w) (w_cursor w') L /\
  exists L', grew w w' L L' /\ NInv w' h L' /\ (forall p, pr = Some p -> L' (p_ptr p)) /\
             emittedT cp n (w_buf w') (w_cursor w) (w_cursor w') L L'.

Definition name_postL (cp : bool) (h : nat) (n : wname) (w : writer) (L : nat -> Prop)
           (r : M (option prior)) : Prop :=
  match r with
  | Ok (pr, w') => wroteL cp h n w L pr w'
  | Err (e, w') => e = Truncation /\ ext (w_cursor w) w w' /\ side_eq w w' /\
                   w_avail w < w_cursor w + length (nm_wire n)
  | Panic => False
  end.

Lemma shape_weaken cp n b L pos e sh : shape_at true n b L pos e sh -> shape_at cp n b L pos e sh.
Proof.
  destruct sh as [[k pp]|]; simpl; auto. intros [H1 [H2 [H3 [H4 [H5 [H6 H7]]]]]].
  repeat split; auto. apply named_weaken; auto.
Qed.

Lemma name_postL_weaken cp h n w L r : name_postL true h n w L r -> name_postL cp h n w L r.
Proof.
  destruct r as [[pr w']|[e w']|]; simpl; auto.
  intros [W [Hs [He [L' [G [Hi [Hp [sh [Hsh Ht]]]]]]]]]. split.
  - exact (name_post_weaken cp (w_cursor w) n w (Ok (pr, w')) W).
  - split; auto. split; auto. exists L'. split; auto. split; auto. split; auto.
    exists sh. split; auto. apply shape_weaken; auto.
Qed.

Lemma hole_ext w w' h : ext (w_cursor w) w w' -> (length (w_buf w) <= h \/ h + 2 <= w_cursor w) ->
  length (w_buf w') <= h \/ h + 2 <= w_cursor w.
Proof. intros X. rewrite (x_len _ _ _ X). auto. Qed.

(* emitting a form whose pointer (if any) leads into L and leaves at least one label to it: the name's own
   label starts join L, and the form is no longer than the plain one *)
Lemma emit_L cp h n w L m : NInv w h L -> wf_name n ->
  (forall x, m = Some x -> match_ok (w_buf w) (w_cursor w) cp n x /\ L (snd x) /\ fst x < length n) ->
  name_postL cp h n w L (emit n w m).
Proof.
  intros Hi Hwf Hm. pose proof (ni_nb _ _ _ Hi) as Hnb.
  pose proof (emit_spec cp n w m Hnb Hwf (fun x E => proj1 (Hm x E))) as OLD.
  pose proof (emit_ops n w m Hnb (fun k pp E => proj1 (proj1 (Hm _ E)))) as O.
  assert (Hsz : length (form_octets n m) <= length (nm_wire n)).
  { destruct m as [[k pp]|]; [|apply le_n]. destruct (Hm _ eq_refl) as (_ & _ & Hk).
    cbn [form_octets]. rewrite app_length, be16_length, nm_wire_length.
    pose proof (lwire_firstn_lt n k Hwf Hk). lia. }
  destruct (emit n w m) as [[pr w']|[e w']|]; cbn [name_postL]; [|destruct O as (-> & X & Sd & O)|exact O].
  2:{ do 3 (split; [auto|]). lia. }
  destruct O as (X & Sd & Ag & Hc & Hs & Hpr).
  pose proof (NInv_ext _ _ _ _ Hi X Sd) as Hi1.
  pose proof (hole_ext _ _ _ X (ni_hole _ _ _ Hi)) as Hh.
  split; [exact OLD|]. split; [lia|].
  destruct m as [[k pp]|]; cbn [form_octets] in *.
  - destruct (Hm _ eq_refl) as ((_ & M2 & M3 & _ & pre & M5 & M6) & Lpp & Hk). cbn [fst snd] in *.
    destruct (name_at_lt _ _ _ _ M5) as [Mlt _]. rewrite app_length, be16_length in Hc.
    split; [right; exists k, pp; auto 7|].
    destruct (block_ptr w' h L (w_cursor w) (firstn k n) pp Hi1 (wf_name_firstn n k Hwf)
                (ni_lo _ _ _ Hi) Hh Hs ltac:(lia) Lpp Mlt M3) as [C D].
    exists (Lptr L (w_cursor w) (firstn k n)). split; [|split; [|split]].
    + split; [intros; left; auto|]. intros s [K|K]; auto. right. apply lstarts_bound in K. lia.
    + eapply NInv_grow; eauto. intros; left; auto.
    + intros p Hp. subst pr. destruct k as [|k]; [injection Hp as <-; left; exact Lpp|].
      destruct (hp_new (w_cursor w)) as [q|] eqn:Eh; [|discriminate]. injection Hp as <-.
      apply hp_new_some in Eh as [-> _]. right. apply lstarts_head. destruct n; [simpl in Hk; lia|discriminate].
    + exists (Some (k, pp)). split; [|intros s; unfold Lptr; simpl; tauto].
      simpl. do 6 (split; [auto|]). exists pre. split; [|exact M6].
      eapply name_at_stable; [exact M5|exact Ag|lia].
  - rewrite nm_wire_length in Hc. split; [left; exact Hs|].
    destruct (block_root w' h L (w_cursor w) n Hi1 Hwf (ni_lo _ _ _ Hi) Hh Hs
                ltac:(rewrite nm_wire_length; exact Hc)) as [C D].
    exists (Lroot L (w_cursor w) n). split; [|split; [|split]].
    + split; [intros; left; auto|]. intros s [K | [K | ->]]; auto; right; [apply lstarts_bound in K|]; lia.
    + eapply NInv_grow; eauto. intros; left; auto.
    + intros p Hp. subst pr. destruct (hp_new (w_cursor w)) as [q|] eqn:Eh; [|discriminate]. injection Hp as <-.
      apply hp_new_some in Eh as [-> _]. simpl.
      destruct n as [|l r]; [right; right; simpl; lia|right; left; apply lstarts_head; discriminate].
    + exists None. split; [exact Hs|intros s; apply Lroot_own].
Qed.

Lemma write_uncompressed_L h n w L : NInv w h L -> wf_name n ->
  name_postL true h n w L (write_uncompressed_name n w).
Proof. intros Hi Hwf. apply (emit_L true h n w L None Hi Hwf). discriminate. Qed.

(* the hint contract extended with membership in L *)
Lemma push_prior_ptr_L h n w L pr : NInv w h L -> wf_name n -> hinted n w pr -> L (p_ptr pr) ->
  2 < length (nm_wire n) -> name_postL false h n w L (push_prior_ptr pr w).
Proof.
  intros Hi Hwf Hh HL H2. destruct (hinted_emit n w pr Hwf Hh) as [-> Hm].
  apply emit_L; auto. intros x [= <-]. split; [exact Hm|]. split; [exact HL|].
  destruct n; [simpl in H2; lia|simpl; lia].
Qed.

Lemma or_else_L (L : nat -> Prop) (a o : option prior) :
  (forall pr, a = Some pr -> L (p_ptr pr)) -> (forall pr, o = Some pr -> L (p_ptr pr)) ->
  forall pr, or_else a o = Some pr -> L (p_ptr pr).
Proof. destruct a; simpl; auto. Qed.

Lemma write_compressed_L h n w L : NInv w h L -> wf_name n ->
  name_postL (cpflag (w_mode w)) h n w L (write_compressed_unhinted_name n w).
Proof.
  intros Hi Hwf. pose proof (ni_pr _ _ _ Hi) as [Pq [Po Pr]]. pose proof (ni_prL _ _ _ Hi) as HL.
  apply compressed_cases; [apply name_postL_weaken, write_uncompressed_L; auto|].
  pose proof (or_else_ok _ _ _ _ Po Pq) as Hoq.
  assert (HoL : forall pr, or_else (w_mro w) (w_qname w) = Some pr -> L (p_ptr pr))
    by (apply or_else_L; intros; apply HL; auto).
  assert (HrL : forall pr, w_mrn w = Some pr -> L (p_ptr pr)) by (intros; apply HL; auto).
  destruct (search_L (w_buf w) header_size (w_cursor w) h L (ni_closed _ _ _ Hi) (w_cursor w)
              (cpflag (w_mode w)) n _ _ Hoq Pr HoL HrL) as [cs [Es Hm]].
  rewrite Es. apply emit_L; auto.
Qed.

Lemma write_unhinted_L h n w L : NInv w h L -> wf_name n ->
  name_postL (exactf (w_mode w)) h n w L (write_unhinted_name n w).
Proof.
  intros Hi Hwf. apply (unhinted_cases (fun cp => name_postL cp h n w L)).
  - intros r. apply name_postL_weaken.
  - apply write_uncompressed_L; auto.
  - apply write_compressed_L; auto.
Qed.

Definition hint_in (h : hint) (w : writer) (L : nat -> Prop) : Prop :=
  match h with HExplicit p => p < w_cursor w -> L p | _ => True end.

Lemma write_hinted_L hl h n w L : NInv w hl L -> wf_name n -> hint_contract h n w -> hint_in h w L ->
  name_postL (exactf (w_mode w)) hl n w L (write_hinted_name h n w).
Proof.
  intros Hi Hwf Hh HhL. apply (hinted_cases (fun cp => name_postL cp hl n w L)).
  - intros r. apply name_postL_weaken.
  - apply write_uncompressed_L; auto.
  - apply write_compressed_L; auto.
  - intros pr E H2. apply push_prior_ptr_L; auto; [eapply hint_contract_prior; eauto|].
    pose proof (ni_prL _ _ _ Hi) as HL. destruct h; cbn [hint_prior hint_in] in *; auto; [|discriminate].
    destruct (p <? w_cursor w) eqn:El; [|discriminate]. injection E as <-. apply HhL, Nat.ltb_lt, El.
Qed.
