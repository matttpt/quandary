(* Node::iter (pre-order walk over the nested tree) against the path view of the tree.
   Induction over the nested inductive [node] goes through [node_ind'], here and in ZoneIterSmP.v. *)
From QV Require Import Base.Res Base.Octets Base.ListX Model.ZoneTree Spec.ZoneLookupS
  Proofs.ZoneBaseP Proofs.ZoneRrsetP Proofs.ZoneViewP.

Definition node_ind' (P : node -> Prop)
  (H : forall nm ch d, Forall (fun kc => P (snd kc)) ch -> P (Node nm ch d)) : forall t, P t :=
  fix go (t : node) : P t :=
    match t with
    | Node nm ch d =>
      H nm ch d ((fix gol (ch : list (label * node)) : Forall (fun kc => P (snd kc)) ch :=
                    match ch with
                    | [] => Forall_nil _
                    | kc :: ch' => Forall_cons kc (go (snd kc)) (gol ch')
                    end) ch)
    end.

Definition iter_children (ch : list (label * node)) : list (name * rrset_list) :=
  flat_map (fun kc => node_iter (snd kc)) ch.

Lemma node_iter_unfold nm ch d : node_iter (Node nm ch d) = (nm, d) :: iter_children ch.
Proof.
  simpl. f_equal. unfold iter_children.
  induction ch as [|[k c] ch IH]; simpl; auto. rewrite IH. reflexivity.
Qed.

Lemma node_iter_hd t : hd_error (node_iter t) = Some (node_name t, node_data t).
Proof. destruct t. rewrite node_iter_unfold. reflexivity. Qed.

(* the same walk, remembering the key path to every node *)
Definition pathed := (list label * (name * rrset_list))%type.

Fixpoint all_paths (t : node) : list pathed :=
  match t with
  | Node nm ch d =>
    ([], (nm, d)) :: (fix go (ch : list (label * node)) : list pathed :=
                        match ch with
                        | [] => []
                        | (k, c) :: ch' => map (fun px => (k :: fst px, snd px)) (all_paths c) ++ go ch'
                        end) ch
  end.

Definition child_paths (kc : label * node) : list pathed :=
  map (fun px => (fst kc :: fst px, snd px)) (all_paths (snd kc)).
Definition paths_children (ch : list (label * node)) : list pathed := flat_map child_paths ch.

Lemma all_paths_unfold nm ch d : all_paths (Node nm ch d) = ([], (nm, d)) :: paths_children ch.
Proof.
  simpl. f_equal. unfold paths_children.
  induction ch as [|[k c] ch IH]; simpl; auto. rewrite IH. reflexivity.
Qed.

Lemma all_paths_iter t : map snd (all_paths t) = node_iter t.
Proof.
  induction t as [nm ch d IH] using node_ind'.
  rewrite all_paths_unfold, node_iter_unfold. simpl. f_equal.
  unfold paths_children, iter_children.
  induction ch as [|[k c] ch IHc]; simpl; auto.
  inversion IH as [|? ? Hc Hch]; subst. rewrite map_app. f_equal; [|apply IHc; exact Hch].
  unfold child_paths. simpl. rewrite map_map. simpl. exact Hc.
Qed.

(* well-formedness: no two keys of a children map are equal (HashMap), recursively *)
Fixpoint keys_nodup (ch : list (label * node)) : Prop :=
  match ch with
  | [] => True
  | (k, _) :: ch' => find_child k ch' = None /\ keys_nodup ch'
  end.

Fixpoint wf (t : node) : Prop :=
  match t with
  | Node _ ch _ =>
    keys_nodup ch /\ (fix all (ch : list (label * node)) : Prop :=
                        match ch with
                        | [] => True
                        | (_, c) :: ch' => wf c /\ all ch'
                        end) ch
  end.

Definition all_wf (ch : list (label * node)) : Prop := Forall (fun kc => wf (snd kc)) ch.

Lemma wf_unfold nm ch d : wf (Node nm ch d) <-> keys_nodup ch /\ all_wf ch.
Proof.
  simpl. unfold all_wf. split; intros [H1 H2]; split; auto.
  - induction ch as [|[k c] ch IH]; constructor; simpl in *; tauto.
  - induction ch as [|[k c] ch IH]; simpl; auto. inversion H2; subst. simpl in *. tauto.
Qed.

Lemma find_child_none_in l ch k c : find_child l ch = None -> In (k, c) ch -> label_eqb k l = false.
Proof.
  induction ch as [|[k0 c0] ch IH]; simpl; [tauto|].
  destruct (label_eqb k0 l) eqn:E; [discriminate|]. intros H [Hin|Hin]; auto. inversion Hin; subst. exact E.
Qed.

Lemma find_child_some_in l ch c : find_child l ch = Some c -> exists k, In (k, c) ch /\ label_eqb k l = true.
Proof.
  induction ch as [|[k0 c0] ch IH]; simpl; [discriminate|].
  destruct (label_eqb k0 l) eqn:E.
  - intros H; inversion H; subst. exists k0. auto.
  - intros H. destruct (IH H) as (k & Hin & Hk). exists k. auto.
Qed.

Lemma find_child_in k c ch : keys_nodup ch -> In (k, c) ch -> find_child k ch = Some c.
Proof.
  induction ch as [|[k0 c0] ch IH]; simpl; [tauto|]. intros [Hn Hk] [Hin|Hin].
  - inversion Hin; subst. rewrite label_eqb_refl. reflexivity.
  - pose proof (find_child_none_in _ _ _ _ Hn Hin) as E. rewrite label_eqb_sym in E. rewrite E. auto.
Qed.

Lemma in_paths_children ch p x : In (p, x) (paths_children ch) <->
  exists k c p', In (k, c) ch /\ p = k :: p' /\ In (p', x) (all_paths c).
Proof.
  unfold paths_children. rewrite in_flat_map. split.
  - intros ([k c] & Hin & Hp). unfold child_paths in Hp. apply in_map_iff in Hp.
    destruct Hp as ([p' x'] & E & Hp). simpl in E. inversion E; subst. eauto 8.
  - intros (k & c & p' & Hin & -> & Hp). exists (k, c). split; auto.
    unfold child_paths. apply in_map_iff. exists (p', x). auto.
Qed.

Lemma paths_sound t : wf t -> forall p x, In (p, x) (all_paths t) -> view p t = Some x.
Proof.
  induction t as [nm ch d IH] using node_ind'. intros W p x Hin.
  apply wf_unfold in W. destruct W as [Wk Wc].
  rewrite all_paths_unfold in Hin. destruct Hin as [Hin|Hin].
  - inversion Hin; subst. reflexivity.
  - apply in_paths_children in Hin. destruct Hin as (k & c & p' & Hkc & -> & Hp).
    cbn [view node_children]. rewrite (find_child_in k c ch Wk Hkc).
    rewrite Forall_forall in IH. apply (IH (k, c) Hkc); auto.
    unfold all_wf in Wc. rewrite Forall_forall in Wc. apply (Wc (k, c) Hkc).
Qed.

Lemma paths_complete p : forall t x, view p t = Some x ->
  exists p', lc p' = lc p /\ In (p', x) (all_paths t).
Proof.
  induction p as [|l p IH]; intros [nm ch d] x V.
  - simpl in V. inversion V; subst. exists []. split; auto. rewrite all_paths_unfold. left. reflexivity.
  - cbn [view node_children] in V. destruct (find_child l ch) as [c|] eqn:F; [|discriminate].
    destruct (find_child_some_in _ _ _ F) as (k & Hin & Hk).
    destruct (IH c x V) as (p' & Hp' & Hin').
    exists (k :: p'). split.
    + rewrite !lc_cons. apply label_eqb_iff in Hk. congruence.
    + rewrite all_paths_unfold. right. apply in_paths_children. eauto 8.
Qed.

Lemma NoDup_app_disjoint {A} (l1 l2 : list A) : NoDup l1 -> NoDup l2 ->
  (forall x, In x l1 -> In x l2 -> False) -> NoDup (l1 ++ l2).
Proof.
  induction l1 as [|x l1 IH]; simpl; auto. intros H1 H2 D. inversion H1; subst.
  constructor.
  - rewrite in_app_iff. intros [H|H]; auto. apply (D x); auto.
  - apply IH; auto. intros y Hy1 Hy2. apply (D y); auto.
Qed.

Lemma NoDup_map_inj {A B} (f : A -> B) l : (forall x y, In x l -> In y l -> f x = f y -> x = y) ->
  NoDup l -> NoDup (map f l).
Proof.
  induction l as [|x l IH]; simpl; intros Hinj H; [constructor|]. inversion H; subst. constructor.
  - intros Hin. apply in_map_iff in Hin. destruct Hin as (y & E & Hy).
    assert (y = x) by (apply Hinj; auto). subst. contradiction.
  - apply IH; auto.
Qed.

Definition lcpath (px : pathed) : name := lc (fst px).

Lemma paths_nodup t : wf t -> NoDup (map lcpath (all_paths t)).
Proof.
  induction t as [nm ch d IH] using node_ind'. intros W.
  apply wf_unfold in W. destruct W as [Wk Wc].
  rewrite all_paths_unfold. simpl. constructor.
  - intros Hin. apply in_map_iff in Hin. destruct Hin as ([p x] & E & Hin).
    apply in_paths_children in Hin. destruct Hin as (k & c & p' & _ & -> & _).
    unfold lcpath in E. simpl in E. rewrite lc_cons in E. discriminate.
  - unfold paths_children.
    induction ch as [|[k c] ch IHc]; simpl; [constructor|].
    inversion IH as [|? ? Hc Hch]; subst. inversion Wc as [|? ? Wc1 Wc2]; subst.
    simpl in Wk. destruct Wk as [Wk1 Wk2].
    rewrite map_app. apply NoDup_app_disjoint.
    + unfold child_paths. simpl. rewrite map_map.
      assert (E : map (fun x => lcpath (k :: fst x, snd x)) (all_paths c) =
                  map (fun n => map lower k :: n) (map lcpath (all_paths c))).
      { rewrite map_map. apply map_ext. intros [p x]. unfold lcpath. simpl. rewrite lc_cons. reflexivity. }
      rewrite E. apply NoDup_map_inj; [intros a b _ _ Hab; inversion Hab; auto|]. apply Hc. exact Wc1.
    + apply IHc; auto.
    + intros n H1 H2. apply in_map_iff in H1. destruct H1 as ([p1 x1] & E1 & H1).
      apply in_map_iff in H2. destruct H2 as ([p2 x2] & E2 & H2).
      unfold child_paths in H1. apply in_map_iff in H1. destruct H1 as ([p1' x1'] & E1' & _).
      simpl in E1'. inversion E1'; subst.
      fold (paths_children ch) in H2. apply in_paths_children in H2.
      destruct H2 as (k2 & c2 & p2' & Hin2 & -> & _).
      unfold lcpath in E2. simpl in E2. rewrite !lc_cons in E2. injection E2 as Ek _.
      pose proof (find_child_none_in _ _ _ _ Wk1 Hin2) as Hne.
      assert (label_eqb k2 k = true) by (apply label_eqb_iff; exact Ek). congruence.
Qed.

Lemma find_child_set_keys l lab c' ch : find_child l (set_child lab c' ch) = None <-> find_child l ch = None.
Proof.
  induction ch as [|[k c] ch IH]; simpl; [tauto|].
  destruct (label_eqb k lab); simpl; destruct (label_eqb k l); try tauto; split; discriminate.
Qed.

Lemma keys_nodup_set lab c' ch : keys_nodup ch -> keys_nodup (set_child lab c' ch).
Proof.
  induction ch as [|[k c] ch IH]; simpl; auto. intros [H1 H2].
  destruct (label_eqb k lab); simpl; auto. split; auto. apply find_child_set_keys. exact H1.
Qed.

Lemma all_wf_set lab c' ch : all_wf ch -> wf c' -> all_wf (set_child lab c' ch).
Proof.
  unfold all_wf. induction ch as [|[k c] ch IH]; simpl; auto. intros H W. inversion H; subst.
  destruct (label_eqb k lab); constructor; auto.
Qed.

Lemma keys_nodup_app lab c' ch : keys_nodup ch -> find_child lab ch = None -> keys_nodup (ch ++ [(lab, c')]).
Proof.
  induction ch as [|[k c] ch IH]; simpl; auto. intros [H1 H2] F.
  destruct (label_eqb k lab) eqn:E; [discriminate|]. split; auto.
  rewrite (find_child_app_none _ _ _ _ H1). rewrite label_eqb_sym, E. reflexivity.
Qed.

Lemma wf_child l ch c : all_wf ch -> find_child l ch = Some c -> wf c.
Proof.
  intros W F. destruct (find_child_some_in _ _ _ F) as (k & Hin & _).
  unfold all_wf in W. rewrite Forall_forall in W. apply (W (k, c) Hin).
Qed.

Lemma node_update_wf f level : forall nm t t' e, node_update level nm f t = Ok (t', e) -> wf t -> wf t'.
Proof.
  induction level as [|l IH]; intros nm [n0 ch d] t' e H W.
  - simpl in H. destruct (f d); inversion H; subst; auto.
  - cbn [node_update node_children node_name node_data] in H.
    destruct (name_index nm l) as [lab| |]; cbn [bind] in H; try discriminate.
    apply wf_unfold in W. destruct W as [Wk Wc].
    destruct (find_child lab ch) as [c|] eqn:F.
    + destruct (node_update l nm f c) as [[c' e']| |] eqn:U; cbn [bind] in H; try discriminate.
      inversion H; subst. apply wf_unfold. split.
      * apply keys_nodup_set. exact Wk.
      * apply all_wf_set; auto. eapply IH; eauto. eapply wf_child; eauto.
    + destruct (superdomain nm l) as [sup|]; [|discriminate].
      destruct (node_update l nm f (node_new sup)) as [[c' e']| |] eqn:U; cbn [bind] in H; try discriminate.
      inversion H; subst. apply wf_unfold. split.
      * apply keys_nodup_app; auto.
      * unfold all_wf. apply Forall_app. split; auto. constructor; auto. simpl.
        eapply IH; eauto. simpl. auto.
Qed.
