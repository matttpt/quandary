(* The extended composed server model (Model/ServerWT.v: handle_message_wt) WITHOUT the [unverified] hypothesis of
   Proofs/ComposeTsigTopP.v: for every verifier, and every hmac whose output is an octet string of the algorithm's
   output size, the responses signed in TsigMode::Response (BADTIME; a verified request answered NOTIMP / REFUSED /
   SERVFAIL / FORMERR) are produced in octets, never a Panic, within the limit.  A verified request answered out of
   a Loaded zone stays abstract (RAbs), as in Model/ServerWT.v. *)
From QV Require Import Base.ListX Gen.Consts Model.NameWire Spec.NameWireS Spec.NameRepr Spec.ReaderS Model.Reader Model.RdataLite
  Model.Server Model.ServerW Model.ServerWT Proofs.ReaderP Proofs.ServerP Proofs.ServerLimitP Proofs.ServerTsigP
  Model.MsgWriter Model.ZoneTree Model.Query Model.QueryW
  Spec.MsgWriterS Spec.RdataFormatS Spec.RespS Spec.TsigRespS
  Proofs.MsgWriterNameP Proofs.RdNameP Proofs.QueryNameP Proofs.ComposeTraceP Proofs.ComposeTopP Proofs.ComposeSerP Proofs.ComposeSrvP
  Proofs.ComposeTsigP Proofs.ComposeTsigWfP Proofs.ComposeTsigTopP Proofs.SignFinishP Proofs.SignSerP Proofs.SignDecP
  Spec.TsigSignS.
From QV Require Model.TsigMsg.
Local Open Scope nat_scope.

Lemma tsig_mac_len rd : wf_bytes rd -> (N.of_nat (length (tsig_mac rd)) <= 65535)%N.
Proof.
  intros Hwf. unfold tsig_mac. destruct (RdataLite.get16 rd (tsig_alg_len rd + 8)) as [n|] eqn:G; [|simpl; lia].
  pose proof (get16_lt _ _ _ Hwf G) as Hn. unfold slice. rewrite firstn_length. lia.
Qed.

Lemma alg_wire_labels a : nm_wire (nm_lower (Server.wire_labels (alg_name_wire a))) = TsigMsg.alg_name (tsig_alg_of a).
Proof. destruct a; vm_compute; reflexivity. Qed.

Lemma fields_of_inv now t f : tsig_fields_of now t = Some f ->
  tf_alg f = Server.wire_labels (mode_alg_wire (t_mode t)) /\ tf_error f = Server.t_error t.
Proof.
  unfold tsig_fields_of. destruct (TsigMsg.time_signed_of_unix now); [|discriminate]. destruct (req_origid _); [|discriminate].
  destruct (if (Server.t_error t =? XRC_BADTIME)%N then _ else _); [|discriminate]. intros H; inversion H. auto.
Qed.

(* the TSIG record of a response signed in TsigMode::Response: the RFC 8945 fields, a MAC of the algorithm's output
   size, and that MAC is the one PreparedTsigRr::sign_response returns for a prefix [firstn c5] of the response (c5 <= len is
   all the statement says of c5) *)
Definition signed_record (hmac : TsigMsg.alg -> bytes -> bytes -> bytes) (f : tsig_fields) (a : Server.tsig_alg)
           (sec rmac : bytes) (edns : bool) (len : nat) (b : bytes) : Prop :=
  exists c5 mac rd,
    signed_tsig_response (firstn len b) edns (tf_key f) (nm_lower (tf_alg f)) (tf_time f) TSIG_FUDGE mac (tf_origid f) (tf_error f)
      (if (tf_error f =? 18)%N then tf_stime f else []) /\
    length mac = alg_output_size a /\ c5 <= len /\
    TsigMsg.sign hmac (TsigMsg.mkPrepared (nm_wire (nm_lower (tf_key f))) (tf_time f) TSIG_FUDGE (tf_origid f) (tf_error f) (tf_stime f))
                 (firstn c5 (firstn len b)) (TsigMsg.SResponse rmac) (tsig_alg_of a) sec = Ok (rd, mac).

Definition tsig_record_ok (hmac : TsigMsg.alg -> bytes -> bytes -> bytes) (t : tsig_out) (f : tsig_fields)
           (edns : bool) (len : nat) (b : bytes) : Prop :=
  match t_mode t with
  | TUnsigned _ => unsigned_tsig_response (firstn len b) edns (tf_key f) (nm_lower (tf_alg f)) (tf_time f) TSIG_FUDGE
                     (tf_origid f) (tf_error f) []
  | TResponse a sec rmac => signed_record hmac f a sec rmac edns len b
  end.

Section TopS.
Variable hmac : TsigMsg.alg -> bytes -> bytes -> bytes.
Hypothesis hmac_len : forall a k d, length (hmac a k d) = TsigMsg.output_size a.
Hypothesis hmac_wf : forall a k d, wf_bytes (hmac a k d).
Variable verify : tsig_verifier.
Variable cfg : config.
Variable buf : bytes.
Hypothesis Hcfg : wf_cfg cfg.
Hypothesis Hbuf : length buf = c_buflen cfg.
Hypothesis Hnow : (c_now cfg < 281474976710656)%N.

(* the response [w'] (the pre-scan's [w], possibly with another RCODE) carries SIGNING TSIG settings *)
Theorem abs_wt_signed req w w' t a sec mac : wf_bytes req -> early_or_clean cfg req w ->
  Server.w_question w' = Server.w_question w -> tsig_post verify w' -> lim_ok cfg req w' ->
  Server.w_tsig w' = Some t -> t_mode t = TResponse a sec mac ->
  exists len b f,
    abs_wt hmac cfg buf w' = Ok (ROctets len b) /\ len <= Server.w_limit w' /\
    tsig_fields_of (c_now cfg) t = Some f /\
    wf_response (firstn len b) = true /\ signed_record hmac f a sec mac (edns_flag w') len b.
Proof.
  intros Hwf Hec Eq (Pc & Pt) (Lb & Ll) Et Em. rewrite Et in Pt. destruct Pt as (Pfit & Psrc & _).
  pose proof (buf_512 cfg buf Hcfg Hbuf) as Hb512.
  pose proof (abs_question cfg buf Hcfg Hbuf req w w' Hwf Hec Eq) as Hq.
  destruct (tsig_fields_total verify (c_now cfg) t Hnow Psrc) as (f & Ef & Hf).
  set (tcp := is_tcp (c_transport cfg)).
  destruct (writer_numbers cfg buf Hcfg Hbuf req w w' Hwf Hec Eq Pc (conj Lb Ll)) as (Hlim & Hwl & Hcur & Hres).
  fold tcp in Hlim, Hwl.
  pose proof Psrc as (Wrd & _ & _ & M). rewrite Em in M. destruct M as (_ & Emac & Mres).
  assert (Hrm : (N.of_nat (length mac) <= 65535)%N) by (rewrite Emac; apply tsig_mac_len; exact Wrd).
  assert (Hal : length (nm_wire (tf_alg f)) = length (alg_name_wire a)).
  { rewrite (fo_alen _ _ Hf), Em. reflexivity. }
  assert (Hfit : wcur w' + (length (nm_wire (tf_key f)) + length (nm_wire (tf_alg f)) + 26 +
                            (if (tf_error f =? 18)%N then 6 else 0) + alg_output_size a) + wres w' <= wlim buf w' tcp).
  { rewrite (fo_klen _ _ Hf), Hal, (fo_err _ _ Hf), Hcur, Hres, Hwl. unfold badtime_extra in Mres.
    change XRC_BADTIME with 18%N in Mres. lia. }
  assert (Halg : nm_wire (nm_lower (tf_alg f)) = TsigMsg.alg_name (tsig_alg_of a)).
  { destruct (fields_of_inv _ _ _ Ef) as [Ea _]. rewrite Ea, Em. apply alg_wire_labels. }
  destruct (ser_signed_wf hmac hmac_len hmac_wf buf Hb512 w' Hq tcp t f Hf a sec mac Hrm Halg Hlim Hfit)
    as (w1 & w2 & len & b & c5 & mc & rd & E1 & E2 & EF & Hlen & Hwfr & Hsr & Hml & Hc5 & Hsg).
  exists len, b, f. split.
  - unfold abs_wt. rewrite Et. unfold ser_tsig. fold tcp. rewrite E1, Ef, Em, E2, EF. reflexivity.
  - split; [lia|]. split; [exact Ef|]. split; [exact Hwfr|]. exists c5, mc, rd. unfold other_of in Hsr. auto.
Qed.

End TopS.

Section SrvS.
Variable hmac : TsigMsg.alg -> bytes -> bytes -> bytes.
Hypothesis hmac_len : forall a k d, length (hmac a k d) = TsigMsg.output_size a.
Hypothesis hmac_wf : forall a k d, wf_bytes (hmac a k d).
Variable zones : nat -> option zone.
Variable negttl : N -> N -> N.
Variable answer : answer_fn.
Variable verify : tsig_verifier.
Variable cfg : config.
Variable buf : bytes.
Hypothesis Hcfg : wf_cfg cfg.
Hypothesis Hbuf : length buf = c_buflen cfg.
Hypothesis Hnow : (c_now cfg < 281474976710656)%N.

Lemma abs_wt_cases_all req w w' : wf_bytes req -> early_or_clean cfg req w -> Server.w_question w' = Server.w_question w ->
  tsig_post verify w' -> lim_ok cfg req w' ->
  match Server.w_tsig w' with
  | None => abs_wt hmac cfg buf w' = abs_w cfg buf w'
  | Some t =>
    exists len b f,
      abs_wt hmac cfg buf w' = Ok (ROctets len b) /\ len <= Server.w_limit w' /\
      tsig_fields_of (c_now cfg) t = Some f /\
      wf_response (firstn len b) = true /\ tsig_record_ok hmac t f (edns_flag w') len b
  end.
Proof.
  intros Hwf Hec Eq P L. destruct (Server.w_tsig w') as [t|] eqn:Et.
  - unfold tsig_record_ok. destruct (t_mode t) as [aw|a sec mac] eqn:Em.
    + destruct (abs_wt_unsigned hmac verify cfg buf Hcfg Hbuf Hnow req w w' t aw Hwf Hec Eq P L Et Em)
        as (len & b & f & E & Hl & Hw & Ef & Hu). exists len, b, f. auto.
    + exact (abs_wt_signed hmac hmac_len hmac_wf verify cfg buf Hcfg Hbuf Hnow req w w' t a sec mac Hwf Hec Eq P L Et Em).
  - unfold abs_wt. rewrite Et. reflexivity.
Qed.

Lemma abs_wt_ok req w w' : wf_bytes req -> early_or_clean cfg req w -> Server.w_question w' = Server.w_question w ->
  tsig_post verify w' -> lim_ok cfg req w' -> exists x, (let* r := abs_wt hmac cfg buf w' in Ok (Some r)) = Ok x.
Proof.
  intros Hwf Hec Eq P L. pose proof (abs_wt_cases_all req w w' Hwf Hec Eq P L) as C.
  destruct (Server.w_tsig w') as [t|].
  - destruct C as (len & b & f & -> & _). eexists; reflexivity.
  - rewrite C. destruct (abs_total cfg buf Hcfg Hbuf req w w' Hwf Hec Eq) as (x & ->). eexists; reflexivity.
Qed.

Lemma handle_query_tsig w : Server.w_tsig (handle_query answer cfg w) = Server.w_tsig w.
Proof.
  unfold handle_query. destruct (Server.w_question w) as [q|]; [|reflexivity].
  destruct (existsb _ _); [reflexivity|]. destruct (Reader.q_class q =? QCLASS_ANY)%N; [reflexivity|].
  destruct (cat_lookup _ _ _ _) as [e|]; [|reflexivity]. destruct (e_kind e); try reflexivity.
  unfold apply_body. destruct (b_rcode _); reflexivity.
Qed.

(* every way through handle_message_wt, beside Server.handle_message: nothing is sent; the abstract response is
   serialized by abs_wt; a verified query is answered out of a Loaded zone and stays abstract; a query without TSIG
   settings is handled as in handle_message_w *)
Lemma handle_message_wt_cases req : wf_bytes req ->
  let r := handle_message_wt hmac zones negttl answer verify cfg buf req in
  let s := Server.handle_message answer verify cfg req in
  (r = Ok None /\ s = Ok None) \/
  (exists w w', early_or_clean cfg req w /\ Server.w_question w' = Server.w_question w /\ tsig_post verify w' /\
     lim_ok cfg req w' /\ s = Ok (Some w') /\ r = (let* x := abs_wt hmac cfg buf w' in Ok (Some x))) \/
  (exists wa, s = Ok (Some wa) /\ r = Ok (Some (RAbs wa))) \/
  (r = handle_message_w zones negttl answer verify cfg buf req /\ forall wa, s = Ok (Some wa) -> Server.w_tsig wa = None).
Proof.
  intros Hwf. destruct (prescan_facts verify cfg req Hcfg Hwf) as (p & Ep & Post).
  pose proof (prescan_tsig verify cfg req p Hcfg Hwf Ep) as PT. pose proof (prescan_lim verify cfg req p Ep) as PL.
  unfold handle_message_wt, Server.handle_message, handle_message_w. rewrite Ep. cbn [bind].
  destruct p as [|w|opc w]; [left; split; reflexivity|right; left; exists w, w; auto 8|].
  destruct Post as [Hec _]. destruct PT as [PT _].
  (* the second disjunct for [set_rcode w rc], in the shape the goal has once handle_query_t is unfolded *)
  assert (HR : forall rc, exists w0 w', early_or_clean cfg req w0 /\ Server.w_question w' = Server.w_question w0 /\
            tsig_post verify w' /\ lim_ok cfg req w' /\ @Ok reader_err _ (Some (Server.set_rcode w rc)) = Ok (Some w') /\
            (let* x := abs_wt hmac cfg buf (Server.set_rcode w rc) in Ok (Some x)) = (let* x := abs_wt hmac cfg buf w' in Ok (Some x))).
  { intros rc. exists w, (Server.set_rcode w rc). split; [exact Hec|]. split; [reflexivity|].
    split; [apply post_set_rcode; exact PT|]. split; [apply lim_set_rcode; exact PL|]. split; reflexivity. }
  destruct (opc =? OPCODE_QUERY)%N; [|right; left; apply HR].
  unfold handle_query_wt. destruct (Server.w_tsig w) as [t0|] eqn:Etw.
  - unfold handle_query_t, handle_query. destruct (Server.w_question w) as [q|]; [|right; left; apply HR].
    destruct (existsb _ _); [right; left; apply HR|]. destruct (Reader.q_class q =? QCLASS_ANY)%N; [right; left; apply HR|].
    destruct (cat_lookup _ _ _ _) as [e|]; [|right; left; apply HR].
    destruct (e_kind e); [right; right; left; eexists; split; reflexivity|right; left; apply HR..].
  - right; right; right. split; [reflexivity|]. intros wa E. inversion E. rewrite handle_query_tsig. exact Etw.
Qed.

(* C01: no request, whatever the verifier says, makes the extended composed model panic *)
Theorem handle_message_wt_total_all Q req : catalog_okQ Q cfg zones -> wf_bytes req ->
  exists x, handle_message_wt hmac zones negttl answer verify cfg buf req = Ok x.
Proof.
  intros Hcat Hwf.
  destruct (handle_message_wt_cases req Hwf) as [[-> _]|[(w & w' & Hec & Eq & P & L & _ & ->)|[(wa & _ & ->)|[-> _]]]].
  - eexists; reflexivity.
  - exact (abs_wt_ok req w w' Hwf Hec Eq P L).
  - eexists; reflexivity.
  - exact (handle_message_w_total zones negttl answer verify cfg buf Hcfg Hbuf Q Hcat req Hwf).
Qed.

(* C04: a response that carries TSIG settings is produced in octets within its limit - or stays abstract (a verified
   request answered out of a Loaded zone: handle_query_t) *)
Theorem tsig_response_limit_all req wa t : wf_bytes req ->
  Server.handle_message answer verify cfg req = Ok (Some wa) -> Server.w_tsig wa = Some t ->
  handle_message_wt hmac zones negttl answer verify cfg buf req = Ok (Some (RAbs wa)) \/
  exists len b f,
    handle_message_wt hmac zones negttl answer verify cfg buf req = Ok (Some (ROctets len b)) /\
    len <= Server.w_limit wa /\ lim_ok cfg req wa /\ tsig_fields_of (c_now cfg) t = Some f /\
    wf_response (firstn len b) = true /\ tsig_record_ok hmac t f (edns_flag wa) len b.
Proof.
  intros Hwf HA Et. pose proof (handle_message_limit answer verify cfg req wa HA) as PLa.
  destruct (handle_message_wt_cases req Hwf) as [[_ E]|[(w & w' & Hec & Eq & P & L & E & ->)|[(wa' & E & ->)|[_ E]]]];
    rewrite HA in E.
  - discriminate E.
  - inversion E; subst w'. right. pose proof (abs_wt_cases_all req w wa Hwf Hec Eq P L) as C. rewrite Et in C.
    destruct C as (len & b & f & -> & Hl & Ef & Hw & Hr). exists len, b, f. cbn [bind]. auto 8.
  - inversion E; subst wa'. left; reflexivity.
  - rewrite (E wa eq_refl) in Et. discriminate Et.
Qed.

(* C02: every octet response of the extended composed model is well formed, whatever the verifier says *)
Theorem handle_message_wt_wf_all req len b : catalog_valid cfg zones -> wf_bytes req ->
  handle_message_wt hmac zones negttl answer verify cfg buf req = Ok (Some (ROctets len b)) ->
  wf_response (firstn len b) = true.
Proof.
  intros Hcat Hwf.
  destruct (handle_message_wt_cases req Hwf) as [[-> _]|[(w & w' & Hec & Eq & P & L & _ & ->)|[(wa & _ & ->)|[-> _]]]];
    try discriminate.
  - pose proof (abs_wt_cases_all req w w' Hwf Hec Eq P L) as C. destruct (Server.w_tsig w') as [t|].
    + destruct C as (len' & b' & f & -> & _ & _ & Hw & _). cbn [bind]. intros H; inversion H; subst. exact Hw.
    + rewrite C. destruct (abs_w cfg buf w') as [x|e|] eqn:Ea; cbn [bind]; try discriminate.
      intros H; inversion H; subst x. exact (abs_wf cfg buf Hcfg Hbuf req w w' len b Hwf Hec Eq Ea).
  - exact (handle_message_w_wf zones negttl answer verify cfg buf req len b Hcfg Hbuf Hcat Hwf).
Qed.

End SrvS.
