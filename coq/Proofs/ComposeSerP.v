(* Composition: the octets of an abstract response (Model/ServerW.v: serialize_resp) —
   the responses the pre-scan decides, NOTIMP for other opcodes, FORMERR for a QUERY without question;
   all without TSIG.  With a buffer of at least 512 octets ser_prepare never fails (ser_total) and is a
   contract-obeying run (ser_Reach; no record is written, so there is no hint to obey); finish then
   succeeds and the octets are a well-formed response (ser_wf). *)
From QV Require Import Base.ListX Gen.Consts Model.NameWire Model.Reader Model.RdataLite Model.Server Model.ServerW
  Model.MsgWriter Model.ZoneTree Model.Query Model.QueryW
  Spec.NameWireS Spec.MsgWriterS Spec.MsgWriterAbsS Spec.RdataFormatS Spec.RespS
  Proofs.MsgWriterP Proofs.MsgWriterScanP Proofs.MsgWriterNameP Proofs.MsgWriterInvP Proofs.MsgWriterOpP
  Proofs.MsgWriterStepP Proofs.MsgWriterDecP Proofs.MsgWriterHdrP Proofs.MsgWriterRtP
  Proofs.ComposeTraceP Proofs.ComposeTopP Proofs.ComposeRespP.
Local Open Scope nat_scope.

Lemma set_rcode_hq b c lim qd pr rc : 12 <= length b ->
  exists b', MsgWriter.set_rcode rc (hq_state b c lim qd pr) = Ok (hq_state b' c lim qd pr) /\ length b' = length b.
Proof.
  intros H. unfold MsgWriter.set_rcode.
  match goal with |- context [w_modify _ RCODE_BYTE ?f] => destruct (hq_modify b c lim qd pr RCODE_BYTE f) as (b' & E & L); [simpl; lia|lia|] end.
  rewrite E. cbn [bind]. exists b'. split; [unfold clear_upper; reflexivity|exact L].
Qed.

Lemma xrcode_he b c lim av qd pr e raw : (raw <= 4095)%N -> 12 <= length b ->
  exists b', MsgWriter.set_extended_rcode raw (he_state b c lim av qd pr e) =
             Ok (tt, he_state b' c lim av qd pr (mkEdns (e_udp e) ((raw / 16) mod 256))) /\ length b' = length b.
Proof.
  intros Hr Hb. unfold MsgWriter.set_extended_rcode. cbn [MsgWriter.w_edns he_state].
  destruct (4095 <? raw)%N eqn:E; [apply N.ltb_lt in E; lia|].
  unfold w_modify, w_write, buf_write. cbn [w_buf he_state].
  destruct (nth_error b (N.to_nat RCODE_BYTE)) as [x|] eqn:En; [|apply nth_error_None in En; change (N.to_nat RCODE_BYTE) with 3 in En; lia].
  cbn [length]. destruct (N.to_nat RCODE_BYTE + 1 <=? length b) eqn:E2; [|apply Nat.leb_gt in E2; change (N.to_nat RCODE_BYTE) with 3 in E2; lia].
  cbn [lift bind]. eexists. split; [reflexivity|]. cbn [w_buf set_buf]. rewrite !app_length, firstn_length, skipn_length. cbn [length].
  change (N.to_nat RCODE_BYTE) with 3 in *. apply Nat.leb_le in E2. lia.
Qed.

Section Ser.
Variable buf : bytes.
Hypothesis Hb : 512 <= length buf.
Variable w : resp.
(* the echoed question, if any, is a valid Name with 16-bit type and class (what the Reader guarantees) *)
Hypothesis Hq : forall q, Server.w_question w = Some q ->
  good_name (labels_of (Reader.q_name q)) /\ (Reader.q_type q < 65536)%N /\ (Reader.q_class q < 65536)%N.

Lemma mod_lt a m : (0 < m)%N -> (a mod m < m)%N.
Proof. intros H. apply N.mod_lt. lia. Qed.

Lemma raw_le up rc : ((up mod 256) * 16 + rc mod 16 <= 4095)%N.
Proof. pose proof (mod_lt up 256 eq_refl). pose proof (mod_lt rc 16 eq_refl). lia. Qed.

(* what ser_prepare does after the question: the RCODE, or the EDNS settings with the extended RCODE *)
Definition ser_tail (tcp : bool) (w7 : writer) : option writer :=
  match Server.w_edns w with
  | None => match MsgWriter.set_rcode (Server.w_rcode w mod 16) w7 with Ok w8 => Some w8 | _ => None end
  | Some (size, upper) =>
    match MsgWriter.set_edns (size mod 65536) w7 with
    | Ok (_, w8) =>
      match (if tcp then Ok w8 else MsgWriter.set_limit (Server.w_limit w) w8) with
      | Ok w9 =>
        match MsgWriter.set_extended_rcode ((upper mod 256) * 16 + Server.w_rcode w mod 16) w9 with
        | Ok (_, w10) => Some w10
        | _ => None
        end
      | _ => None
      end
    | _ => None
    end
  end.

Lemma ser_prepare_head tcp : exists b c qd pr,
  c = match Server.w_question w with
      | Some q => 12 + length (nm_wire (labels_of (Reader.q_name q))) + 2 + 2
      | None => 12
      end /\ 12 <= c <= 275 /\ length b = length buf /\
  ser_prepare buf tcp w = ser_tail tcp (hq_state b c (first_limit tcp buf) qd pr).
Proof.
  pose proof (first_limit_ge tcp buf Hb) as HL. unfold ser_prepare.
  destruct (writer_new_hdr buf (if tcp then tcp_limit_w else udp_limit_w)) as (b0 & E0 & L0); [fold (first_limit tcp buf); lia|].
  fold (first_limit tcp buf) in E0. rewrite E0.
  assert (HLb : first_limit tcp buf <= length buf) by (unfold first_limit; lia).
  set (lim := first_limit tcp buf) in *. change (hdr_state b0 lim) with (hq_state b0 12 lim 0 None).
  unfold set_id. destruct (hq_write b0 12 lim 0 None (N.to_nat ID_START) (MsgWriter.be16 (Server.w_id w mod 65536))) as (b1 & E1 & L1); [simpl; lia|lia|].
  rewrite E1. cbn [bind]. unfold set_qr, w_set_flag.
  destruct (hq_modify b1 12 lim 0 None QR_BYTE (set_bit QR_MASK true)) as (b2 & E2 & L2); [simpl; lia|lia|]. rewrite E2. cbn [bind].
  unfold set_opcode.
  match goal with |- context [w_modify _ OPCODE_BYTE ?f] =>
    destruct (hq_modify b2 12 lim 0 None OPCODE_BYTE f) as (b3 & E3 & L3); [simpl; lia|lia|] end.
  rewrite E3. cbn [bind]. unfold set_rd, w_set_flag.
  destruct (hq_modify b3 12 lim 0 None RD_BYTE (set_bit RD_MASK (Server.w_rd w))) as (b4 & E4 & L4); [simpl; lia|lia|]. rewrite E4. cbn [bind].
  unfold set_aa, w_set_flag.
  destruct (hq_modify b4 12 lim 0 None AA_BYTE (set_bit AA_MASK (Server.w_aa w))) as (b5 & E5 & L5); [simpl; lia|lia|]. rewrite E5. cbn [bind].
  unfold set_tc, w_set_flag.
  destruct (hq_modify b5 12 lim 0 None TC_BYTE (set_bit TC_MASK (Server.w_tc w))) as (b6 & E6 & L6); [simpl; lia|lia|]. rewrite E6.
  destruct (Server.w_question w) as [q|] eqn:Eq.
  - destruct (Hq q eq_refl) as ([_ Gl] & _).
    destruct (question_hq b6 lim (labels_of (Reader.q_name q)) (Reader.q_type q) (Reader.q_class q)) as (b7 & pr & E7 & L7); [lia|lia|].
    rewrite E7. eexists b7, _, 1%N, pr. split; [reflexivity|]. split; [lia|]. split; [lia|reflexivity].
  - exists b6, 12, 0%N, None. split; [reflexivity|]. split; [lia|]. split; [lia|reflexivity].
Qed.

Theorem ser_total tcp : exists w', ser_prepare buf tcp w = Some w'.
Proof.
  pose proof (first_limit_ge tcp buf Hb) as HL.
  destruct (ser_prepare_head tcp) as (b7 & c & qd & pr & _ & Hc & L7 & ->). unfold ser_tail. set (lim := first_limit tcp buf) in *.
  destruct (Server.w_edns w) as [[size upper]|].
  - rewrite set_edns_hq by lia.
    assert (Hx : forall b' lim' av', 12 <= length b' ->
              exists w', MsgWriter.set_extended_rcode (upper mod 256 * 16 + Server.w_rcode w mod 16) (he_state b' c lim' av' qd pr (mkEdns (size mod 65536) 0)) = Ok (tt, w')).
    { intros b' lim' av' Hb'. destruct (xrcode_he b' c lim' av' qd pr (mkEdns (size mod 65536) 0) _ (raw_le upper (Server.w_rcode w)) Hb') as (b'' & E & _). eauto. }
    destruct tcp.
    + destruct (Hx b7 lim (lim - 11)) as (w' & ->); [lia|]. eexists; reflexivity.
    + match goal with |- context [MsgWriter.set_limit ?l ?ww] => assert (Hi : Inv_n ww) end.
      { constructor; cbn; try (change header_size with 12); try lia. }
      match goal with |- context [MsgWriter.set_limit ?l ?ww] => destruct (set_limit_ok l ww Hi) as (nl & av & ->) end.
      change (set_limit_avail (he_state b7 c lim (lim - 11) qd pr (mkEdns (size mod 65536) 0)) nl av)
        with (he_state b7 c nl av qd pr (mkEdns (size mod 65536) 0)).
      destruct (Hx b7 nl av) as (w' & ->); [lia|]. eexists; reflexivity.
  - destruct (set_rcode_hq b7 c lim qd pr (Server.w_rcode w mod 16)) as (b8 & -> & _); [lia|]. eexists; reflexivity.
Qed.


Definition ser_ops (tcp : bool) : list wop :=
  [OSetId (Server.w_id w mod 65536); OSetQr true; OSetOpcode (Server.w_opcode w mod 16); OSetRd (Server.w_rd w);
   OSetAa (Server.w_aa w); OSetTc (Server.w_tc w)] ++
  (match Server.w_question w with
   | Some q => [OAddQuestion (labels_of (Reader.q_name q)) (Reader.q_type q) (Reader.q_class q)]
   | None => [] end) ++
  (match Server.w_edns w with
   | Some (size, upper) =>
     [OSetEdns (size mod 65536)] ++ (if tcp then [] else [OSetLimit (Server.w_limit w)]) ++
     [OSetXrcode (upper mod 256 * 16 + Server.w_rcode w mod 16)]
   | None => [OSetRcode (Server.w_rcode w mod 16)]
   end).

Theorem ser_Reach cls tcp w' : ser_prepare buf tcp w = Some w' ->
  exists w0 g, writer_new buf (if tcp then tcp_limit_w else udp_limit_w) = Ok w0 /\
    Reach (Pop2 cls) (mkD w0 []) g0 (ser_ops tcp) (map (fun _ => RUnit) (ser_ops tcp)) (mkD w' []) g.
Proof.
  intros H. unfold ser_prepare in H.
  destruct (writer_new buf (if tcp then tcp_limit_w else udp_limit_w)) as [w0| |] eqn:E0; try discriminate.
  exists w0. eexists. split; [reflexivity|]. apply run_Reach.
  - (* the run, step by step with ser_prepare *)
    unfold ser_ops. cbn [app map run step d_w].
    destruct (set_id (Server.w_id w mod 65536) w0) as [w1|e|]; cbn [bind of_R stops run step d_w d_regs] in *; try discriminate.
    destruct (set_qr true w1) as [w2|e|]; cbn [bind of_R stops run step d_w d_regs] in *; try discriminate.
    destruct (set_opcode (Server.w_opcode w mod 16) w2) as [w3|e|]; cbn [bind of_R stops run step d_w d_regs] in *; try discriminate.
    destruct (set_rd (Server.w_rd w) w3) as [w4|e|]; cbn [bind of_R stops run step d_w d_regs] in *; try discriminate.
    destruct (set_aa (Server.w_aa w) w4) as [w5|e|]; cbn [bind of_R stops run step d_w d_regs] in *; try discriminate.
    destruct (set_tc (Server.w_tc w) w5) as [w6|e|]; cbn [bind of_R stops run step d_w d_regs] in *; try discriminate.
    assert (Tail : forall w7, match Server.w_edns w with
              | None => match MsgWriter.set_rcode (Server.w_rcode w mod 16) w7 with Ok w8 => Some w8 | _ => None end
              | Some (size, upper) =>
                match MsgWriter.set_edns (size mod 65536) w7 with
                | Ok (_, w8) =>
                  match (if tcp then Ok w8 else MsgWriter.set_limit (Server.w_limit w) w8) with
                  | Ok w9 => match MsgWriter.set_extended_rcode ((upper mod 256) * 16 + Server.w_rcode w mod 16) w9 with
                             | Ok (_, w10) => Some w10 | _ => None end
                  | _ => None end
                | _ => None end
              end = Some w' ->
              let t := match Server.w_edns w with
                       | Some (size, upper) => OSetEdns (size mod 65536) :: (if tcp then [] else [OSetLimit (Server.w_limit w)]) ++
                                               [OSetXrcode (upper mod 256 * 16 + Server.w_rcode w mod 16)]
                       | None => [OSetRcode (Server.w_rcode w mod 16)] end in
              run (mkD w7 []) t = Ok (mkD w' [], map (fun _ => RUnit) t, true)).
    { intros w7 HT. destruct (Server.w_edns w) as [[size upper]|]; cbn [app map run step d_w].
      - destruct (MsgWriter.set_edns (size mod 65536) w7) as [[u8 w8]|e|]; cbn [bind of_M stops d_w d_regs] in *; try discriminate.
        destruct tcp; cbn [app map run step d_w].
        + destruct (MsgWriter.set_extended_rcode _ w8) as [[u10 w10]|e|]; try discriminate. inversion HT. reflexivity.
        + destruct (MsgWriter.set_limit (Server.w_limit w) w8) as [w9|e|]; cbn [bind of_R stops run step d_w d_regs] in *; try discriminate.
          destruct (MsgWriter.set_extended_rcode _ w9) as [[u10 w10]|e|]; try discriminate. inversion HT. reflexivity.
      - destruct (MsgWriter.set_rcode (Server.w_rcode w mod 16) w7) as [w8|e|]; try discriminate. inversion HT. reflexivity. }
    destruct (Server.w_question w) as [q|]; cbn [app map run step d_w]; [|rewrite (Tail w6 H); reflexivity].
    destruct (add_question _ _ _ w6) as [[u7 w7]|e|]; cbn [bind of_M stops d_w d_regs] in *; try discriminate.
    rewrite (Tail w7 H). reflexivity.
  - unfold ser_ops. apply Forall_app. split; [|apply Forall_app; split].
    + repeat (apply Forall_cons; [repeat split; try exact I; apply mod_lt; reflexivity|]). apply Forall_nil.
    + destruct (Server.w_question w) as [q|] eqn:Eq; [|constructor].
      destruct (Hq q eq_refl) as ([Gn1 Gn2] & Hqt & Hqc). constructor; [|constructor].
      split; [exact Gn1|]. split; [repeat split; assumption|]. split; exact I.
    + destruct (Server.w_edns w) as [[size upper]|]; [destruct tcp|];
        repeat (apply Forall_cons; [repeat split; try exact I; apply mod_lt; reflexivity|]); apply Forall_nil.
  - unfold ser_ops. destruct (Server.w_question w); destruct (Server.w_edns w) as [[size upper]|]; try destruct tcp; repeat constructor.
Qed.

Theorem ser_wf tcp : exists len b, serialize_resp buf tcp w = Some (len, b) /\ wf_response (firstn len b) = true.
Proof.
  destruct (ser_total tcp) as (w' & Ew).
  destruct (ser_Reach 0%N tcp w' Ew) as (w0 & g & E0 & Rall).
  destruct (Reach_AInv _ _ _ _ _ _ _ Rall L0 (AInv_new _ _ _ E0)) as (L & Hi).
  assert (G : Good 0%N (areplay am0 (ser_ops tcp) (map (fun _ => RUnit) (ser_ops tcp)))
                       (hreplay ah0 (ser_ops tcp) (map (fun _ => RUnit) (ser_ops tcp)))).
  { unfold ser_ops. destruct (Server.w_question w) as [q|]; destruct (Server.w_edns w) as [[size upper]|]; try destruct tcp;
      cbn; unfold Good; cbn; repeat split; auto. }
  destruct (run_wf 0%N buf _ w0 _ _ _ _ L E0 Rall Hi G) as (len & b & Ef & Hwf). cbn [d_w] in Ef.
  exists len, b. split; [|exact Hwf]. unfold serialize_resp. rewrite Ew, Ef. reflexivity.
Qed.

End Ser.
