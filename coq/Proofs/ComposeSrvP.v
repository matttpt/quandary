(* Composition: the composed server model (Model/ServerW.v) never panics, and under C02's hypothesis on zone contents
   ([zone_rdata_valid]) its octets are a well-formed response.  The hypotheses of respond_w_run / respond_w_wf are
   discharged from what the pre-scan guarantees about a clean request and from the dispatch. *)
From QV Require Import Base.ListX Model.NameWire Spec.NameWireS Spec.NameRepr Spec.ReaderS Model.Reader Model.RdataLite
  Model.Server Proofs.ReaderP Proofs.ServerP Model.MsgWriter Model.ZoneTree Spec.ZoneLookupS Proofs.ZoneBaseP
  Proofs.ZoneInvP Proofs.ZoneTopP Model.Query Model.QueryW Model.ServerW
  Proofs.MsgWriterP Proofs.MsgWriterScanP Proofs.MsgWriterNameP Proofs.MsgWriterInvP Proofs.MsgWriterNameSP Proofs.MsgWriterOpP
  Proofs.MsgWriterStepP Proofs.MsgWriterHdrP Proofs.MsgWriterRtP Proofs.QueryNameP Proofs.QueryDispatchP Proofs.QueryTopP
  Proofs.ComposeTraceP Proofs.ComposeWfP Proofs.ComposeNameP Proofs.ComposeKeyP Proofs.ComposeTopP Proofs.ComposeRdataP Proofs.ComposeRespP Proofs.ComposeSerP.
From QV Require Import Spec.RdataFormatS Spec.RespS.
From QV Require Proofs.RdNameP Proofs.ServerEchoP.
Local Open Scope nat_scope.

Lemma be16_at_lt {E} b a v : wf_bytes b -> @be16_at E b a = Ok v -> (v < 65536)%N.
Proof.
  intros Hwf H. apply (ServerEchoP.sbe16_lt b a v Hwf). unfold be16_at in H. unfold sbe16.
  destruct (length b <? a + 2); [discriminate|]. destruct (nth_error b a); [|discriminate].
  destruct (nth_error b (a + 1)); [|discriminate]. inversion H. reflexivity.
Qed.

Lemma question_good r r1 q : rinv r -> read_question r = (r1, Ok q) ->
  good_name (labels_of (Reader.q_name q)) /\ (Reader.q_type q < 65536)%N /\ (Reader.q_class q < 65536)%N.
Proof.
  intros Hinv E. pose proof Hinv as (Hwf & _). pose proof (read_question_facts r Hinv) as (_ & _ & _ & F).
  rewrite E in F. cbn [fst snd] in F. destruct (F q eq_refl) as (ls & D & Hn & _).
  inversion D as [ls' l qt qc DN Hqt Hqc]; subst. destruct DN as (e & Dd & _ & Hw).
  pose proof (RdNameP.decodes_labels_valid _ _ _ _ _ Dd : Forall wf_label ls) as Hl.
  assert (Hlab : labels_of (Reader.q_name q) = ls).
  { rewrite Hn. apply labels_of_name_of. eapply Forall_impl; [|exact Hl]. intros a Ha. exact Ha. }
  rewrite Hlab. split; [|split; eapply ServerEchoP.sbe16_lt; eauto].
  split.
  - split; [exact Hl|]. pose proof (lwire_len_ge ls Hl) as Hge.
    assert (Hwl : length (nm_wire ls) = wire_len ls) by reflexivity. rewrite nm_wire_length in Hwl. lia.
  - exact Hw.
Qed.

Definition rec_ok (r : record) : Prop := good_rd (r_rdata r) /\ (r_type r < 65536)%N.

(* every Loaded entry stands for a zone built by adds (Zone::new + Zone::add per record) under the
   entry's name and class; the records are what the Rust types guarantee (RDATA of at most 65535
   octets < 256, 16-bit type); the apex is a valid Name.  [Q] is what else is assumed of the records of a zone:
   nothing for C01 ([catalog_ok]), valid RDATA for C02 ([catalog_valid]); one proof serves both. *)
Definition catalog_okQ (Q : N -> list record -> Prop) (cfg : config) (zones : nat -> option zone) : Prop :=
  forall e zid, In e (c_catalog cfg) -> e_kind e = ELoaded zid ->
    exists z reqf apex wide recs,
      zones zid = Some z /\
      (forall c t a b d, reqf c t a b = true -> reqf c t b d = true -> reqf c t a d = true) /\
      zone_build reqf (zone_new apex (e_class e) wide) recs = Some z /\
      e_name e = lower_labels apex /\ good_name apex /\ Forall rec_ok recs /\ Q (e_class e) recs.
Definition catalog_ok := catalog_okQ (fun _ _ => True).

(* THE HYPOTHESIS OF C02 ON ZONE CONTENTS.  Zone::add stores whatever RDATA it is given; zone files
   validate (Rdata::validate).  A zone holding, say, CNAME RDATA `name ++ junk` serves it as is, and
   no decoder accepts that record.  So: every record's RDATA is generated by the RFC grammar of its
   (class, type), and no record is an OPT or TSIG pseudo-record. *)
Definition zone_rdata_valid (cls : N) (recs : list record) : Prop :=
  Forall (fun r => no_pseudo (r_type r) /\ spec_valid cls (r_type r) (r_rdata r) = true) recs.
Definition catalog_valid := catalog_okQ zone_rdata_valid.

Lemma handle_query_w_same zones negttl answer cfg buf w w' :
  handle_query_w zones negttl answer cfg buf w = Ok (RAbs w') -> w' = handle_query answer cfg w.
Proof.
  assert (Hp : forall q rc, plain_w cfg buf w q rc = Ok (RAbs w') -> w' = Server.set_rcode w rc).
  { intros q rc. unfold plain_w. destruct (Server.w_tsig w); [intros H; inversion H; reflexivity|].
    destruct (respond_plain _ _ _ _ _ _ _ _ _ _) as [[len b]|]; discriminate. }
  unfold handle_query_w, handle_query. destruct (Server.w_question w) as [q|].
  2:{ unfold abs_w. destruct (Server.w_tsig _); [intros H; inversion H; reflexivity|].
      destruct (serialize_resp _ _ _) as [[len b]|]; discriminate. }
  destruct (existsb _ _); [apply Hp|].
  destruct (_ =? _)%N; [apply Hp|].
  destruct (cat_lookup _ _ _ _) as [e|]; [|apply Hp].
  destruct (e_kind e); try apply Hp.
  destruct (Server.w_tsig w); [intros H; inversion H; reflexivity|].
  destruct (zones zone_id); [|discriminate]. destruct (respond_w _ _ _ _ _ _ _ _ _ _ _) as [[len b]|]; discriminate.
Qed.

Section Srv.
Variable zones : nat -> option zone.
Variable negttl : N -> N -> N.
Variable answer : answer_fn.
Variable verify : tsig_verifier.
Variable cfg : config.
Variable buf : bytes.
Hypothesis Hcfg : wf_cfg cfg.
Hypothesis Hbuf : length buf = c_buflen cfg.
Variable Q : N -> list record -> Prop.
Hypothesis Hcat : catalog_okQ Q cfg zones.

Lemma buf_512 : 512 <= length buf.
Proof.
  destruct Hcfg as (H512 & H64 & Hb). rewrite Hbuf. destruct (c_transport cfg).
  - unfold tcp_limit in Hb. lia.
  - lia.
Qed.

Lemma clean_question_facts req w q : wf_bytes req -> early_or_clean cfg req w -> Server.w_question w = Some q ->
  good_name (labels_of (Reader.q_name q)) /\
  (Server.w_id w < 65536)%N /\ (Reader.q_type q < 65536)%N /\ (Reader.q_class q < 65536)%N /\
  (forall s, option_map fst (Server.w_edns w) = Some s -> (s < 65536)%N).
Proof.
  intros Hwf (H12 & _ & (Hid & _) & Hq & _ & _ & Hed & _) Ew.
  destruct Hq as [Hq|(_ & r1 & q' & Erq & Ew')]; [congruence|]. rewrite Ew in Ew'. inversion Ew'; subst q'.
  destruct (question_good _ _ _ (r0_inv req Hwf H12) Erq) as (Gq & Hqt & Hqc).
  split; [exact Gq|]. split; [unfold rd_id in Hid; eapply be16_at_lt; [|exact Hid]; exact Hwf|].
  split; [exact Hqt|]. split; [exact Hqc|].
  intros s Hs. unfold edns_ok in Hed. destruct (Server.w_edns w) as [[sz up]|]; [|discriminate].
  inversion Hs; subst. cbn [fst]. destruct Hcfg as (_ & H64 & _). lia.
Qed.

Lemma plain_ok req w q rc : wf_bytes req -> early_or_clean cfg req w -> Server.w_question w = Some q -> (rc < 16)%N ->
  exists x, (let* r := plain_w cfg buf w q rc in Ok (Some r)) = Ok x /\
    (forall len b, x = Some (ROctets len b) -> wf_response (firstn len b) = true).
Proof.
  intros Hwf Hec Ew Hrc. unfold plain_w. destruct (Server.w_tsig w); [eexists; split; [reflexivity|discriminate]|].
  destruct (clean_question_facts req w q Hwf Hec Ew) as (Gq & Hid & Hqt & Hqc & Hed).
  destruct (respond_plain_wf buf (is_tcp (c_transport cfg)) (Server.w_id w) (Server.w_rd w) (labels_of (Reader.q_name q))
              (Reader.q_type q) (Reader.q_class q) (option_map fst (Server.w_edns w)) (Server.w_limit w) rc
              buf_512 Gq Hid Hqt Hqc Hed Hrc) as (len & b & Er & Hw).
  rewrite Er. eexists. split; [reflexivity|]. intros len' b' [= <- <-]. exact Hw.
Qed.

Lemma abs_question req w w' : wf_bytes req -> early_or_clean cfg req w -> Server.w_question w' = Server.w_question w ->
  forall q, Server.w_question w' = Some q ->
    good_name (labels_of (Reader.q_name q)) /\ (Reader.q_type q < 65536)%N /\ (Reader.q_class q < 65536)%N.
Proof.
  intros Hwf Hec Eq q Hq. rewrite Eq in Hq. destruct (clean_question_facts req w q Hwf Hec Hq) as (A & _ & B & C & _). auto.
Qed.

Lemma abs_total req w w' : wf_bytes req -> early_or_clean cfg req w -> Server.w_question w' = Server.w_question w ->
  exists x, abs_w cfg buf w' = Ok x.
Proof.
  intros Hwf Hec Eq. unfold abs_w. destruct (Server.w_tsig w'); [eexists; reflexivity|].
  destruct (ser_wf buf buf_512 w' (abs_question req w w' Hwf Hec Eq) (is_tcp (c_transport cfg))) as (len & b & -> & _).
  eexists; reflexivity.
Qed.

Lemma abs_wf req w w' len b : wf_bytes req -> early_or_clean cfg req w -> Server.w_question w' = Server.w_question w ->
  abs_w cfg buf w' = Ok (ROctets len b) -> wf_response (firstn len b) = true.
Proof.
  intros Hwf Hec Eq. unfold abs_w. destruct (Server.w_tsig w'); [discriminate|].
  destruct (ser_wf buf buf_512 w' (abs_question req w w' Hwf Hec Eq) (is_tcp (c_transport cfg))) as (len' & b' & -> & Hw).
  intros H. inversion H; subst. exact Hw.
Qed.

Lemma abs_ok req w w' : wf_bytes req -> early_or_clean cfg req w -> Server.w_question w' = Server.w_question w ->
  exists x, (let* r := abs_w cfg buf w' in Ok (Some r)) = Ok x /\
    (forall len b, x = Some (ROctets len b) -> wf_response (firstn len b) = true).
Proof.
  intros Hwf Hec Eq. destruct (abs_total req w w' Hwf Hec Eq) as (x & Ea). rewrite Ea. eexists. split; [reflexivity|].
  intros len b [= ->]. exact (abs_wf req w w' len b Hwf Hec Eq Ea).
Qed.

Lemma loaded_respond req w q e zid :
  wf_bytes req -> early_or_clean cfg req w -> Server.w_question w = Some q ->
  cat_lookup (c_catalog cfg) (name_key (Reader.q_name q)) (Reader.q_class q) None = Some e ->
  e_kind e = ELoaded zid ->
  exists z reqf apex wide recs,
    zones zid = Some z /\
    (forall c t a b d, reqf c t a b = true -> reqf c t b d = true -> reqf c t a d = true) /\
    zone_build reqf (zone_new apex (Reader.q_class q) wide) recs = Some z /\ good_name apex /\ Forall rec_ok recs /\
    Q (Reader.q_class q) recs /\ In e (c_catalog cfg) /\
    good_name (labels_of (Reader.q_name q)) /\ in_zone apex (labels_of (Reader.q_name q)) = true /\
    (Server.w_id w < 65536)%N /\ (Reader.q_type q < 65536)%N /\ (Reader.q_class q < 65536)%N /\
    (forall s, option_map fst (Server.w_edns w) = Some s -> (s < 65536)%N).
Proof.
  intros Hwf Hec Ew El Ek.
  pose proof (cat_lookup_spec _ _ _ _ _ El) as S. cbn in S. destruct S as ([S|(Sin & Scl & _)] & _); [discriminate|].
  apply N.eqb_eq in Scl.
  destruct (Hcat e zid Sin Ek) as (z & reqf & apex & wide & recs & Hz & Ht & Hb & Hn & Ga & Hrecs & HQ).
  exists z, reqf, apex, wide, recs. rewrite Scl in Hb, HQ.
  destruct (clean_question_facts req w q Hwf Hec Ew) as (Gq & Hid & Hqt & Hqc & Hed).
  repeat (split; [assumption|]). split; [exact (dispatch_in_zone _ _ _ _ _ El Hn)|]. auto.
Qed.

(* the composed model always answers; if moreover every loaded zone holds valid RDATA, whatever it returns in
   octets is a well-formed response *)
Theorem handle_message_w_ok req : wf_bytes req ->
  exists x, handle_message_w zones negttl answer verify cfg buf req = Ok x /\
    ((forall c recs, Q c recs -> zone_rdata_valid c recs) ->
     forall len b, x = Some (ROctets len b) -> wf_response (firstn len b) = true).
Proof.
  intros Hwf. destruct (prescan_facts verify cfg req Hcfg Hwf) as (p & Ep & Post).
  unfold handle_message_w. rewrite Ep. cbn [bind].
  destruct p as [|w|opc w].
  { eexists. split; [reflexivity|discriminate]. }
  { destruct (abs_ok req w w Hwf Post eq_refl) as (x & E & W). eauto. }
  destruct Post as [Hec _].
  destruct (opc =? OPCODE_QUERY)%N.
  2:{ destruct (abs_ok req w (Server.set_rcode w RC_NOTIMP) Hwf Hec eq_refl) as (x & E & W). eauto. }
  unfold handle_query_w.
  destruct (Server.w_question w) as [q|] eqn:Ew.
  2:{ destruct (abs_ok req w (Server.set_rcode w RC_FORMERR) Hwf Hec eq_refl) as (x & E & W). eauto. }
  assert (Hpl : forall rc, (rc < 16)%N -> exists x, (let* r := plain_w cfg buf w q rc in Ok (Some r)) = Ok x /\
            ((forall c recs, Q c recs -> zone_rdata_valid c recs) ->
             forall len b, x = Some (ROctets len b) -> wf_response (firstn len b) = true)).
  { intros rc Hrc. destruct (plain_ok req w q rc Hwf Hec Ew Hrc) as (x & E & W). eauto. }
  destruct (existsb _ _); [apply Hpl; reflexivity|].
  destruct (_ =? _)%N; [apply Hpl; reflexivity|].
  destruct (cat_lookup _ _ _ _) as [e|] eqn:El; [|apply Hpl; reflexivity].
  destruct (e_kind e) as [zid| |] eqn:Ek; try (apply Hpl; reflexivity).
  destruct (Server.w_tsig w); [eexists; split; [reflexivity|discriminate]|].
  destruct (loaded_respond req w q e zid Hwf Hec Ew El Ek)
    as (z & reqf & apex & wide & recs & Hz & Ht & Hb & Ga & Hrecs & HQ & _ & Gq & Hin & Hid & Hqt & Hqc & Hed).
  rewrite Hz. pose proof (build_inv reqf Ht apex _ wide recs z Hb) as Hinv.
  assert (HR : Forall (fun r => Pz (fun _ _ => True) (r_type r) (r_rdata r)) (accepted apex (Reader.q_class q) recs)).
  { apply Forall_forall. intros r Hr. apply accepted_In in Hr. rewrite Forall_forall in Hrecs.
    destruct (Hrecs r Hr) as [A B]. split; [exact A|split; [exact B|exact I]]. }
  destruct (respond_w_run reqf apex (Reader.q_class q) _ z Hinv
              (fun _ _ => True) (fun _ => True) HR Ga Hqc
              (fun _ _ _ _ _ _ _ _ => I) (fun _ _ _ _ _ _ _ _ => I)
              (fun o => match o with OSetQr false => I | _ => I end) negttl
              buf (is_tcp (c_transport cfg)) (Server.w_id w) (Server.w_rd w) (labels_of (Reader.q_name q))
              (Reader.q_type q) (Reader.q_class q) (option_map fst (Server.w_edns w)) (Server.w_limit w)
              buf_512 Gq Hin Hid Hqt Hqc Hed)
    as (len & b & ops & w0 & rr & Er & _).
  rewrite Er. eexists. split; [reflexivity|]. intros HQv len' b' [= <- <-].
  assert (HRv : Forall (fun r => Pz (PRv (Reader.q_class q)) (r_type r) (r_rdata r)) (accepted apex (Reader.q_class q) recs)).
  { apply Forall_forall. intros r Hr. apply accepted_In in Hr. rewrite Forall_forall in Hrecs. pose proof (HQv _ _ HQ) as HQ'.
    unfold zone_rdata_valid in HQ'. rewrite Forall_forall in HQ'. destruct (Hrecs r Hr) as [A B]. destruct (HQ' r Hr) as [C D].
    split; [exact A|split; [exact B|]]. split; [exact C|split; [apply A|exact D]]. }
  destruct (respond_w_wf reqf apex (Reader.q_class q) _ z Hinv Ga Hqc HRv negttl
              buf (is_tcp (c_transport cfg)) (Server.w_id w) (Server.w_rd w) (labels_of (Reader.q_name q))
              (Reader.q_type q) (Reader.q_class q) (option_map fst (Server.w_edns w)) (Server.w_limit w)
              buf_512 Gq Hin Hid Hqt Hqc Hed)
    as (len' & b' & Er' & Hwfr).
  rewrite Er in Er'. inversion Er'; subst. exact Hwfr.
Qed.

Theorem handle_message_w_total req : wf_bytes req ->
  exists x, handle_message_w zones negttl answer verify cfg buf req = Ok x.
Proof. intros Hwf. destruct (handle_message_w_ok req Hwf) as (x & E & _). exists x. exact E. Qed.

End Srv.

Theorem handle_message_w_wf zones negttl answer verify cfg buf req len b :
  wf_cfg cfg -> length buf = c_buflen cfg -> catalog_valid cfg zones -> wf_bytes req ->
  handle_message_w zones negttl answer verify cfg buf req = Ok (Some (ROctets len b)) ->
  wf_response (firstn len b) = true.
Proof.
  intros Hcfg Hbuf Hcat Hwf H.
  destruct (handle_message_w_ok zones negttl answer verify cfg buf Hcfg Hbuf zone_rdata_valid Hcat req Hwf) as (x & E & W).
  rewrite E in H. inversion H; subst x. exact (W (fun _ _ HQ => HQ) len b eq_refl).
Qed.
