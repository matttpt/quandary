(* The executable twins of Spec/RdataFormatS.v are the relations:
   smatch = matches, s_cmatch = cmatches, spec_read = read_spec. *)
From QV Require Import Base.ListX Spec.NameWireS Proofs.NameWireP Proofs.NameWireSP
  Model.RdataM Spec.RdataFormatS Proofs.RdNameP.
Local Open Scope nat_scope.

Lemma sname_gen r l :
  sname r = Some l <-> exists ls, valid_name ls /\ l = wire_len ls /\ r = wire_of ls ++ skipn l r.
Proof.
  rewrite sname_Some. split; intros [ls H]; exists ls; apply decodes_unc_gen; exact H.
Qed.

Lemma sname_of_wire ls rest : valid_name ls -> sname (wire_of ls ++ rest) = Some (wire_len ls).
Proof.
  intros Hv. unfold sname. rewrite decode0_of_wire by exact Hv. reflexivity.
Qed.

Lemma be16_dec l1 l2 : (l1 < 256)%N -> (l2 < 256)%N -> be16 (l1 * 256 + l2) = [l1; l2].
Proof.
  intros H1 H2. unfold be16. f_equal; [|f_equal].
  - rewrite N.div_add_l by lia. rewrite N.div_small by lia. lia.
  - rewrite N.add_comm, N.mod_add by lia. apply N.mod_small. lia.
Qed.

Lemma be16_parts L : (L < 65536)%N ->
  (L / 256 < 256)%N /\ (L mod 256 < 256)%N /\ (L / 256 * 256 + L mod 256 = L)%N.
Proof.
  intros H. split; [apply N.div_lt_upper_bound; lia|]. split; [apply N.mod_lt; lia|].
  rewrite (N.div_mod' L 256) at 3. lia.
Qed.

Lemma s_charstrs_iff : forall fuel r, length r < fuel -> wf_bytes r ->
  (s_charstrs fuel r = true <-> exists ss, Forall valid_charstr ss /\ r = flat_map charstr ss).
Proof.
  induction fuel as [|f IH]; intros r Hf Hwf; [lia|]. cbn [s_charstrs].
  destruct r as [|len tl].
  - split; [intros _; exists []; split; [constructor|reflexivity]|reflexivity].
  - apply wf_cons in Hwf. destruct Hwf as [Hlen Htl]. unfold is_octet in Hlen.
    destruct (N.to_nat len <=? length tl) eqn:E.
    + apply Nat.leb_le in E. simpl in Hf.
      rewrite IH by (try apply wf_skipn; auto; rewrite skipn_length; lia).
      split.
      * intros (ss & Hv & Hr). exists (firstn (N.to_nat len) tl :: ss). split.
        -- constructor; auto. unfold valid_charstr. rewrite firstn_length_le by lia. lia.
        -- cbn [flat_map]. unfold charstr at 1. rewrite firstn_length_le by lia.
           rewrite N2Nat.id. simpl. f_equal. rewrite <- Hr. symmetry. apply firstn_skipn.
      * intros (ss & Hv & Hr). destruct ss as [|s ss]; [discriminate|].
        cbn [flat_map] in Hr. unfold charstr at 1 in Hr. simpl in Hr. inversion Hr; subst.
        inversion Hv; subst. exists ss. split; auto.
        rewrite Nat2N.id. rewrite skipn_app_exact by reflexivity. reflexivity.
    + apply Nat.leb_gt in E. split; [discriminate|].
      intros (ss & Hv & Hr). destruct ss as [|s ss]; [discriminate|].
      cbn [flat_map] in Hr. unfold charstr at 1 in Hr. simpl in Hr. inversion Hr; subst.
      rewrite Nat2N.id, app_length in E. lia.
Qed.

(* the first option of a non-empty encoded list, from its octets *)
Lemma options_head os c r : Forall valid_option os -> c :: r = flat_map option_enc os ->
  exists c2 l1 l2 data os', r = c2 :: l1 :: l2 :: data ++ flat_map option_enc os' /\
    N.to_nat (l1 * 256 + l2) = length data /\ Forall valid_option os'.
Proof.
  intros Hv Hr. destruct os as [|[code data] os]; [discriminate|].
  inversion Hv as [|? ? [Hc Hd] Hv']; subst. cbn [fst snd] in *.
  cbn [flat_map] in Hr. unfold option_enc at 1, blob16, be16 in Hr. cbn [fst snd] in Hr.
  destruct code as [|x1 [|x2 [|? ?]]]; try discriminate. simpl in Hr. injection Hr as -> ->.
  destruct (be16_parts _ Hd) as (_ & _ & P3).
  do 5 eexists. split; [reflexivity|]. split; [rewrite P3; apply Nat2N.id|exact Hv'].
Qed.

Lemma s_options_iff : forall fuel r, length r < fuel -> wf_bytes r ->
  (s_options fuel r = true <-> exists os, Forall valid_option os /\ r = flat_map option_enc os).
Proof.
  induction fuel as [|f IH]; intros r Hf Hwf; [lia|]. cbn [s_options].
  destruct r as [|c1 r].
  { split; [intros _; exists []; split; [constructor|reflexivity]|reflexivity]. }
  destruct r as [|c2 [|l1 [|l2 tl]]];
    try (split; [discriminate|]; intros (os & Hv & Hr);
         destruct (options_head os _ _ Hv Hr) as (? & ? & ? & ? & ? & E & _); discriminate).
  apply wf_cons in Hwf. destruct Hwf as [Hc1 Hwf]. apply wf_cons in Hwf. destruct Hwf as [Hc2 Hwf].
  apply wf_cons in Hwf. destruct Hwf as [Hl1 Hwf]. apply wf_cons in Hwf. destruct Hwf as [Hl2 Htl].
  unfold is_octet in *. simpl in Hf.
  destruct (Nat.leb_spec0 (N.to_nat (l1 * 256 + l2)) (length tl)) as [E|E].
  - rewrite IH by (try apply wf_skipn; auto; rewrite skipn_length; lia).
    split.
    + intros (os & Hv & Hr). exists (([c1; c2], firstn (N.to_nat (l1 * 256 + l2)) tl) :: os). split.
      * constructor; auto. split; [reflexivity|]. unfold valid_blob16. cbn [snd].
        rewrite firstn_length_le by lia. lia.
      * cbn [flat_map]. unfold option_enc at 1, blob16. cbn [fst snd].
        rewrite firstn_length_le by lia. rewrite N2Nat.id, be16_dec by lia.
        simpl. do 4 f_equal. rewrite <- Hr. symmetry. apply firstn_skipn.
    + intros (os & Hv & Hr). destruct (options_head os _ _ Hv Hr) as (? & ? & ? & data & os' & [= <- <- <- ->] & L & Hv').
      exists os'. split; [exact Hv'|]. rewrite L, skipn_app_exact by reflexivity. reflexivity.
  - split; [discriminate|]. intros (os & Hv & Hr).
    destruct (options_head os _ _ Hv Hr) as (? & ? & ? & data & os' & [= <- <- <- ->] & L & _).
    rewrite L, app_length in E. lia.
Qed.

Theorem smatch_iff : forall g r, wf_bytes r -> (smatch g r = true <-> matches g r).
Proof.
  induction g as [|f g IH]; intros r Hwf.
  - simpl. destruct r; split; intros H; try discriminate; try constructor; inversion H; auto.
  - destruct f; cbn [smatch].
    + (* FName *)
      destruct (sname r) as [l|] eqn:S.
      * destruct (proj1 (sname_gen r l) S) as (ls & Hv & -> & Hr).
        rewrite IH by (apply wf_skipn; exact Hwf). split.
        -- intros M. rewrite Hr. constructor; auto.
        -- intros M. inversion M as [|ls' g' rest Hv' M' E1| | | | | |]; subst.
           rewrite (sname_of_wire ls' rest Hv') in S. inversion S as [S'].
           rewrite skipn_app_exact by reflexivity. exact M'.
      * split; [discriminate|]. intros M. inversion M as [|ls' g' rest Hv' M' E1| | | | | |]; subst.
        rewrite (sname_of_wire ls' rest Hv') in S. discriminate.
    + (* FBytes *)
      destruct (n <=? length r) eqn:E; cbn [andb].
      * apply Nat.leb_le in E. rewrite IH by (apply wf_skipn; exact Hwf). split.
        -- intros M. rewrite <- (firstn_skipn n r). constructor; auto. apply firstn_length_le. exact E.
        -- intros M. inversion M as [| |n' b g' rest Hb M' E1| | | | |]; subst.
           rewrite skipn_app_exact by reflexivity. exact M'.
      * apply Nat.leb_gt in E. split; [discriminate|]. intros M.
        inversion M as [| |n' b g' rest Hb M' E1| | | | |]; subst. rewrite app_length in E. lia.
    + (* FCharStr *)
      destruct r as [|len tl].
      * split; [discriminate|]. intros M. inversion M.
      * apply wf_cons in Hwf. destruct Hwf as [Hlen Htl]. unfold is_octet in Hlen.
        destruct (N.to_nat len <=? length tl) eqn:E; cbn [andb].
        -- apply Nat.leb_le in E. rewrite IH by (apply wf_skipn; exact Htl). split.
           ++ intros M.
              replace (len :: tl) with (charstr (firstn (N.to_nat len) tl) ++ skipn (N.to_nat len) tl).
              ** constructor; auto. unfold valid_charstr. rewrite firstn_length_le by lia. lia.
              ** unfold charstr. rewrite firstn_length_le by lia. rewrite N2Nat.id. simpl. f_equal.
                 apply firstn_skipn.
           ++ intros M. inversion M as [| | |s g' rest Hs M' E1| | | |]; subst.
              rewrite Nat2N.id, skipn_app_exact by reflexivity. exact M'.
        -- apply Nat.leb_gt in E. split; [discriminate|]. intros M.
           inversion M as [| | |s g' rest Hs M' E1| | | |]; subst.
           rewrite Nat2N.id, app_length in E. lia.
    + (* FBlob16 *)
      destruct r as [|l1 [|l2 tl]].
      * split; [discriminate|]. intros M. inversion M.
      * split; [discriminate|]. intros M. inversion M.
      * apply wf_cons in Hwf. destruct Hwf as [Hl1 Hwf]. apply wf_cons in Hwf. destruct Hwf as [Hl2 Htl].
        unfold is_octet in *.
        destruct (N.to_nat (l1 * 256 + l2) <=? length tl) eqn:E; cbn [andb].
        -- apply Nat.leb_le in E. rewrite IH by (apply wf_skipn; exact Htl). split.
           ++ intros M.
              replace (l1 :: l2 :: tl) with
                (blob16 (firstn (N.to_nat (l1 * 256 + l2)) tl) ++ skipn (N.to_nat (l1 * 256 + l2)) tl).
              ** constructor; auto. unfold valid_blob16. rewrite firstn_length_le by lia. lia.
              ** unfold blob16. rewrite firstn_length_le by lia. rewrite N2Nat.id, be16_dec by lia.
                 simpl. do 2 f_equal. apply firstn_skipn.
           ++ intros M. inversion M as [| | | |b g' rest Hb M' E1| | |]; subst.
              unfold valid_blob16 in Hb. destruct (be16_parts _ Hb) as (P1 & P2 & P3).
              rewrite P3, Nat2N.id, skipn_app_exact by reflexivity. exact M'.
        -- apply Nat.leb_gt in E. split; [discriminate|]. intros M.
           inversion M as [| | | |b g' rest Hb M' E1| | |]; subst.
           unfold valid_blob16 in Hb. destruct (be16_parts _ Hb) as (P1 & P2 & P3).
           rewrite P3, Nat2N.id, app_length in E. lia.
    + (* FRest *)
      destruct g; split; intros M; try discriminate; try constructor; inversion M.
    + (* FCharStrs1 *)
      destruct g.
      * destruct r as [|x r'].
        -- split; [discriminate|]. intros M. inversion M as [| | | | | |ss Hne Hv E1|]; subst.
           destruct ss as [|s ss]; [congruence|]. discriminate.
        -- rewrite s_charstrs_iff by (auto; lia). split.
           ++ intros (ss & Hv & Hr). rewrite Hr. constructor; auto. intros ->. discriminate.
           ++ intros M. inversion M as [| | | | | |ss Hne Hv E1|]; subst. eauto.
      * split; [discriminate|]. intros M. inversion M.
    + (* FOptions *)
      destruct g.
      * rewrite s_options_iff by (auto; lia). split.
        -- intros (os & Hv & Hr). rewrite Hr. constructor; auto.
        -- intros M. inversion M as [| | | | | | |os Hv E1]; subst. eauto.
      * split; [discriminate|]. intros M. inversion M.
Qed.

Theorem spec_valid_iff c t r : wf_bytes r -> (spec_valid c t r = true <-> matches (grammar c t) r).
Proof. apply smatch_iff. Qed.

Theorem s_cmatch_iff msg e : forall g pos out,
  s_cmatch msg e pos g = Some out <-> cmatches msg e pos g out.
Proof.
  induction g as [|f g IH]; intros pos out.
  - simpl. destruct (pos =? e) eqn:E.
    + apply Nat.eqb_eq in E; subst. split; intros H; [inversion H; constructor|inversion H; reflexivity].
    + apply Nat.eqb_neq in E. split; [discriminate|]. intros H; inversion H; congruence.
  - destruct f; cbn [s_cmatch]; try (split; [discriminate|intros H; inversion H]).
    + destruct (spec_decode_name (firstn e msg) pos) as [[ls l]|] eqn:S.
      * destruct (s_cmatch msg e (pos + l) g) as [o|] eqn:R.
        -- split.
           ++ intros H; inversion H; subst. econstructor; [apply spec_decode_name_iff; exact S|].
              apply IH. exact R.
           ++ intros H. inversion H as [|pos' ls' l' g' out' D C|]; subst.
              apply spec_decode_name_iff in D. rewrite S in D. inversion D; subst.
              apply IH in C. rewrite R in C. inversion C; reflexivity.
        -- split; [discriminate|]. intros H. inversion H as [|pos' ls' l' g' out' D C|]; subst.
           apply spec_decode_name_iff in D. rewrite S in D. inversion D; subst.
           apply IH in C. rewrite R in C. discriminate.
      * split; [discriminate|]. intros H. inversion H as [|pos' ls' l' g' out' D C|]; subst.
        apply spec_decode_name_iff in D. rewrite S in D. discriminate.
    + destruct (pos + n <=? e) eqn:E.
      * apply Nat.leb_le in E. destruct (s_cmatch msg e (pos + n) g) as [o|] eqn:R.
        -- split.
           ++ intros H; inversion H; subst. constructor; auto. apply IH. exact R.
           ++ intros H. inversion H as [| |pos' n' g' out' Hle C]; subst.
              apply IH in C. rewrite R in C. inversion C; reflexivity.
        -- split; [discriminate|]. intros H. inversion H as [| |pos' n' g' out' Hle C]; subst.
           apply IH in C. rewrite R in C. discriminate.
      * apply Nat.leb_gt in E. split; [discriminate|]. intros H.
        inversion H as [| |pos' n' g' out' Hle C]; subst. lia.
Qed.

Theorem spec_read_iff c t msg cur rdlen r : wf_bytes msg ->
  (spec_read c t msg cur rdlen = Some r <-> read_spec c t msg cur rdlen r).
Proof.
  intros Hwf. unfold spec_read, read_spec. cbv zeta.
  destruct (cur + N.to_nat rdlen <=? length msg) eqn:E.
  - apply Nat.leb_le in E. destruct (decompressed c t).
    + rewrite s_cmatch_iff. split; [intros H; split; auto|intros [_ H]; exact H].
    + destruct (smatch (grammar c t) (slice msg cur (cur + N.to_nat rdlen))) eqn:S.
      * apply smatch_iff in S; [|apply Forall_slice; exact Hwf]. split.
        -- intros H; inversion H; subst. auto.
        -- intros (_ & -> & _). reflexivity.
      * split; [discriminate|]. intros (_ & -> & M).
        apply smatch_iff in M; [|apply Forall_slice; exact Hwf]. congruence.
  - apply Nat.leb_gt in E. split; [discriminate|]. intros [H _]. lia.
Qed.

(* what a successful compressed match produces is a valid, pointer-free encoding *)
Lemma cmatches_matches msg e : e <= length msg ->
  forall pos g out, cmatches msg e pos g out -> matches g out.
Proof.
  intros He. induction 1 as [|pos ls l g out D C IH|pos n g out Hle C IH].
  - constructor.
  - constructor; auto. eapply decodes_name_valid; eauto.
  - constructor; auto. rewrite slice_length by lia. lia.
Qed.
