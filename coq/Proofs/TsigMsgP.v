(* Proofs about Model/TsigMsg.v against Spec/Tsig8945S.v. *)
From QV Require Import Base.ListX Model.TsigMsg Spec.Tsig8945S Spec.TsigRepr Spec.NameRepr
  Proofs.NameWireP Proofs.RdNameP Proofs.TsigEncP.

(* the regenerated constants are the RFC's *)

Lemma offsets_val : id_end = 2 /\ arcount_start = 10 /\ arcount_end = 12.
Proof. repeat split; reflexivity. Qed.

Lemma class_ttl_val : TSIG_VARS_CLASS_TTL = u16 255 ++ u32 0.
Proof. reflexivity. Qed.

Lemma alg_name_val a : alg_name a = canon_wire (salg_name (alg_s a)).
Proof. destruct a; reflexivity. Qed.

Lemma alg_name_wire a : alg_name a = wire_of (salg_name (alg_s a)).
Proof. destruct a; reflexivity. Qed.

Lemma output_size_val a : output_size a = salg_out (alg_s a).
Proof. destruct a; reflexivity. Qed.

Lemma type_class_val : TYPE_TSIG = 250%N /\ QCLASS_ANY = 255%N /\ XRCODE_BADTIME = 18%N
  /\ TSIG_RDATA_FIXED_LEN = 16%N /\ TSIG_MIN_MAC_SIZE = 10%N.
Proof. repeat split; reflexivity. Qed.

Lemma alg_m_s a : alg_m (alg_s a) = a.
Proof. destruct a; reflexivity. Qed.

Lemma amm_spec {E} sent_id m oid : wf_smsg m ->
  @add_modified_message E (sent_prefix sent_id m) oid = Ok (comp_message m oid).
Proof.
  intros [(Hf & Hq & Ha & Hn & Har) Hb].
  unfold add_modified_message, sent_prefix, comp_message, smsg_wire.
  destruct offsets_val as (-> & -> & ->).
  set (I := u16 sent_id). set (F := u16 (m_flags m)). set (Q := u16 (m_qd m)). set (An := u16 (m_an m)).
  set (Ns := u16 (m_ns m)). set (A := u16 (m_ar m + 1)). set (B := m_body m).
  assert (LI : length I = 2) by apply be_enc_length. assert (LF : length F = 2) by apply be_enc_length.
  assert (LQ : length Q = 2) by apply be_enc_length. assert (LAn : length An = 2) by apply be_enc_length.
  assert (LNs : length Ns = 2) by apply be_enc_length. assert (LA : length A = 2) by apply be_enc_length.
  replace (I ++ F ++ Q ++ An ++ Ns ++ A ++ B) with (I ++ (F ++ Q ++ An ++ Ns) ++ A ++ B)
    by (repeat rewrite <- app_assoc; reflexivity).
  rewrite (get_range_app I (F ++ Q ++ An ++ Ns) (A ++ B) 2 10)
    by (repeat rewrite app_length; lia).
  replace (I ++ (F ++ Q ++ An ++ Ns) ++ A ++ B) with ((I ++ F ++ Q ++ An ++ Ns) ++ A ++ B)
    by (repeat rewrite <- app_assoc; reflexivity).
  rewrite (get_range_app (I ++ F ++ Q ++ An ++ Ns) A B 10 12) by (repeat rewrite app_length; lia).
  assert (HA : be_dec A = (m_ar m + 1)%N) by (apply be_dec_u16; exact Har). rewrite !HA.
  assert (Hz : (m_ar m + 1 =? 0)%N = false) by (apply N.eqb_neq; lia). rewrite Hz.
  replace ((I ++ F ++ Q ++ An ++ Ns) ++ A ++ B) with ((I ++ F ++ Q ++ An ++ Ns ++ A) ++ B)
    by (repeat rewrite <- app_assoc; reflexivity).
  rewrite (get_from_app (I ++ F ++ Q ++ An ++ Ns ++ A) B 12) by (repeat rewrite app_length; lia).
  replace (m_ar m + 1 - 1)%N with (m_ar m) by lia.
  rewrite be16_u16. unfold F, Q, An, Ns, B. repeat rewrite <- app_assoc. reflexivity.
Qed.

Lemma variables_spec K A t :
  K = canon_wire (t_key t) -> A = canon_wire (t_alg t) -> (N.of_nat (length (t_other t)) < 65536)%N ->
  add_tsig_variables (mkVars K A (u48 (t_time t)) (t_fudge t) (t_error t) (t_other t)) = comp_variables t.
Proof.
  intros -> -> Ho. unfold add_tsig_variables, add_tsig_timers, comp_variables.
  cbn [v_key_name v_algorithm v_time_signed v_fudge v_error v_other].
  rewrite class_ttl_val. rewrite len_u16_small by exact Ho.
  repeat rewrite <- app_assoc. reflexivity.
Qed.

Lemma timers_spec K A t e o :
  add_tsig_timers (mkVars K A (u48 (t_time t)) (t_fudge t) e o) = comp_timers t.
Proof. reflexivity. Qed.

Lemma prior_mac_spec (pm : bytes) : (N.of_nat (length pm) <= 65535)%N ->
  be16 (len_u16 pm) ++ pm = comp_prior_mac pm.
Proof. intros H. unfold comp_prior_mac. rewrite len_u16_small by lia. reflexivity. Qed.

Lemma too_long_false (pm : bytes) : (N.of_nat (length pm) <= 65535)%N -> (65535 <? N.of_nat (length pm))%N = false.
Proof. intros H. apply N.ltb_ge. exact H. Qed.

Lemma prepared_vars_repr p t a :
  prepared_repr p t -> t_alg t = salg_name (alg_s a) ->
  prepared_vars (alg_name a) p =
  mkVars (canon_wire (t_key t)) (canon_wire (t_alg t)) (u48 (t_time t)) (t_fudge t) (t_error t) (t_other t).
Proof.
  intros (H1 & H2 & H3 & H4 & H5 & H6) Ha. unfold prepared_vars.
  rewrite H1, H2, H3, H5, H6, alg_name_val, Ha. reflexivity.
Qed.

Lemma sign_digest_spec p t d m a sent_id :
  prepared_repr p t -> t_alg t = salg_name (alg_s a) -> wf_smsg m ->
  (N.of_nat (length (t_other t)) < 65536)%N -> (N.of_nat (length (dmode_mac d)) <= 65535)%N ->
  sign_digest p (sent_prefix sent_id m) (smode_of d) a = Ok (spec_digest d m t).
Proof.
  intros Hp Ha Hm Ho Hd.
  pose proof (prepared_vars_repr p t a Hp Ha) as Hv.
  destruct Hp as (H1 & H2 & H3 & H4 & H5 & H6).
  destruct d as [|rm|pm]; cbn [smode_of sign_digest spec_digest dmode_mac] in *.
  - rewrite amm_spec by exact Hm. cbn [bind]. rewrite Hv, variables_spec by (auto). rewrite H4. reflexivity.
  - rewrite too_long_false by exact Hd. rewrite amm_spec by exact Hm. cbn [bind].
    rewrite Hv, variables_spec by auto. rewrite H4.
    rewrite app_assoc, prior_mac_spec by exact Hd. reflexivity.
  - rewrite too_long_false by exact Hd. rewrite amm_spec by exact Hm. cbn [bind].
    rewrite Hv, timers_spec. rewrite H4.
    rewrite app_assoc, prior_mac_spec by exact Hd. reflexivity.
Qed.

Section WithHmac.
Variable hmac : alg -> bytes -> bytes -> bytes.
Hypothesis hmac_len : forall a k d, length (hmac a k d) = output_size a.

Lemma output_size_small a : output_size a <= 32.
Proof. destruct a; vm_compute; lia. Qed.

Lemma sign_spec p t d m a key sent_id :
  prepared_repr p t -> t_alg t = salg_name (alg_s a) -> wf_smsg m ->
  (N.of_nat (length (t_other t)) < 65536)%N -> (N.of_nat (length (dmode_mac d)) <= 65535)%N ->
  (N.of_nat (wire_len (t_alg t) + 16 + output_size a + length (t_other t)) <= 65535)%N ->
  sign hmac p (sent_prefix sent_id m) (smode_of d) a key = Ok (spec_sign (mac_fn_of hmac) d m t (alg_s a) key).
Proof.
  intros Hp Ha Hm Ho Hd Hlen. unfold sign.
  rewrite (sign_digest_spec p t d m a sent_id Hp Ha Hm Ho Hd). cbn [bind].
  unfold spec_sign, mac_fn_of. rewrite alg_m_s.
  set (mac := hmac a key (spec_digest d m t)).
  assert (Lmac : length mac = output_size a) by apply hmac_len.
  destruct Hp as (H1 & H2 & H3 & H4 & H5 & H6).
  assert (Hal : length (alg_name a) = wire_len (t_alg t)) by (rewrite alg_name_wire, Ha; reflexivity).
  rewrite serialize_rdata_ok by (rewrite Hal, Lmac, H6; exact Hlen).
  cbn [bind]. unfold serialize_tsig_unchecked, spec_rdata.
  cbn [t_alg t_time t_fudge t_mac t_orig_id t_error t_other].
  rewrite H2, H3, H4, H5, H6, alg_name_wire, Ha.
  rewrite (len_u16_small mac) by (rewrite Lmac; pose proof (output_size_small a); lia).
  rewrite (len_u16_small (t_other t)) by exact Ho.
  reflexivity.
Qed.

End WithHmac.

Lemma parse_alg_name (n : sname) rest : valid_sname n -> wf_bytes rest ->
  parse_uncompressed_name (wire_of n ++ rest) false = Ok (name_of n, wire_len n).
Proof.
  intros Hn Hr. apply parse_uncompressed_iff.
  - apply Forall_app. split; [apply wf_wire_of; exact Hn|exact Hr].
  - exists n. split; [|split; [reflexivity|discriminate]].
    split; [|apply Hn].
    apply (decodes_of_wire n) with (pre := []). destruct Hn as [H _].
    eapply Forall_impl; [|exact H]. intros l [[H1 H2] _]. split; assumption.
Qed.

Lemma wf_spec_rdata_tail t : wf_stsig t ->
  wf_bytes (u48 (t_time t) ++ u16 (t_fudge t) ++ u16 (N.of_nat (length (t_mac t))) ++ t_mac t
            ++ u16 (t_orig_id t) ++ u16 (t_error t) ++ u16 (N.of_nat (length (t_other t))) ++ t_other t).
Proof.
  intros (_ & _ & _ & Hm & Ho & _).
  assert (W : forall a b : bytes, wf_bytes a -> wf_bytes b -> wf_bytes (a ++ b))
    by (intros a b Ha Hb; apply Forall_app; split; assumption).
  apply W; [apply be_enc_wf|]. apply W; [apply be_enc_wf|]. apply W; [apply be_enc_wf|].
  apply W; [exact Hm|]. apply W; [apply be_enc_wf|]. apply W; [apply be_enc_wf|].
  apply W; [apply be_enc_wf|]. exact Ho.
Qed.

Section Fields.
(* the accessors of ReadTsigRr on RDATA made of nine chunks; [A'] is the lower-cased algorithm name the record keeps
   and measures offsets by, [A] the name as it stands in the RDATA: only their lengths agree *)
Variables (K A' A T F MS M O E OL X : bytes) (ms : N).
Hypothesis LA : length A' = length A.
Hypothesis LT : length T = 6.
Hypothesis LF : length F = 2.
Hypothesis LMS : length MS = 2.
Hypothesis LO : length O = 2.
Hypothesis LE : length E = 2.
Hypothesis LOL : length OL = 2.
Hypothesis Lms : N.to_nat ms = length M.
Let rd := A ++ T ++ F ++ MS ++ M ++ O ++ E ++ OL ++ X.
Let r := mkReadTsig K A' ms rd.

Lemma fld_time : r_time_signed r = Some T.
Proof.
  unfold r_time_signed, r_algo_len, r, rd. cbn [r_rdata r_algorithm]. rewrite LA.
  apply get_range_app; lia.
Qed.

Lemma fld_fudge : r_fudge r = Some (be_dec F).
Proof.
  unfold r_fudge, get_u16, r_algo_len, r, rd. cbn [r_rdata r_algorithm]. rewrite LA.
  erewrite (get_range_in _ (A ++ T) F); [reflexivity|rewrite <- !app_assoc; reflexivity|rewrite ?app_length; lia..].
Qed.

Lemma fld_mac : r_mac r = Some M.
Proof.
  unfold r_mac, r_algo_len, r_mac_len, r, rd. cbn [r_rdata r_algorithm r_mac_size]. rewrite LA, Lms.
  eapply (get_range_in _ (A ++ T ++ F ++ MS) M); [rewrite <- !app_assoc; reflexivity|rewrite ?app_length; lia..].
Qed.

Lemma fld_oid : r_original_id r = Some (be_dec O).
Proof.
  unfold r_original_id, get_u16, r_algo_len, r_mac_len, r, rd. cbn [r_rdata r_algorithm r_mac_size]. rewrite LA, Lms.
  erewrite (get_range_in _ (A ++ T ++ F ++ MS ++ M) O); [reflexivity|rewrite <- !app_assoc; reflexivity|rewrite ?app_length; lia..].
Qed.

Lemma fld_error : r_error r = Some (be_dec E).
Proof.
  unfold r_error, get_u16, r_algo_len, r_mac_len, r, rd. cbn [r_rdata r_algorithm r_mac_size]. rewrite LA, Lms.
  erewrite (get_range_in _ (A ++ T ++ F ++ MS ++ M ++ O) E); [reflexivity|rewrite <- !app_assoc; reflexivity|rewrite ?app_length; lia..].
Qed.

Lemma fld_other : r_other r = Some X.
Proof.
  unfold r_other, r_algo_len, r_mac_len, r, rd. cbn [r_rdata r_algorithm r_mac_size]. rewrite LA, Lms.
  replace (A ++ T ++ F ++ MS ++ M ++ O ++ E ++ OL ++ X) with ((A ++ T ++ F ++ MS ++ M ++ O ++ E ++ OL) ++ X)
    by (rewrite <- !app_assoc; reflexivity).
  apply get_from_app. rewrite ?app_length. lia.
Qed.

Lemma fld_mac_size_at : get_u16 rd (length A + 8) = Some (be_dec MS).
Proof.
  unfold get_u16, rd.
  erewrite (get_range_in _ (A ++ T ++ F) MS); [reflexivity|rewrite <- !app_assoc; reflexivity|rewrite ?app_length; lia..].
Qed.
End Fields.

Lemma check_mac_size_spec a (n : nat) :
  check_mac_size a (N.of_nat n) = if mac_len_okb (alg_s a) n then Ok tt else Err VFormErr.
Proof.
  unfold check_mac_size, mac_len_okb. rewrite Nat2N.id, <- output_size_val.
  (* both output sizes are even: the half rounded up is the half *)
  assert (H : exists h, output_size a = 2 * h /\ (output_size a + 1) / 2 = h)
    by (destruct a; [exists 10|exists 16]; split; reflexivity).
  destruct H as (h & E & ->). change (N.to_nat TSIG_MIN_MAC_SIZE) with 10.
  destruct (Nat.ltb_spec (output_size a) n), (Nat.ltb_spec n (Nat.max 10 h)), (Nat.leb_spec n (output_size a)),
    (Nat.leb_spec 10 n), (Nat.leb_spec (output_size a) (2 * n)); cbn [orb andb]; try reflexivity; lia.
Qed.

Lemma mac_len_okb_spec a n : mac_len_okb a n = true <-> mac_len_ok a n.
Proof.
  unfold mac_len_okb, mac_len_ok. rewrite !andb_true_iff, !Nat.leb_le. tauto.
Qed.

Lemma check_time_no_overflow ts fudge :
  (ts < 281474976710656)%N -> (fudge < 65536)%N -> (N.min (ts + fudge) u64_max = ts + fudge)%N.
Proof. intros H1 H2. apply N.min_l. unfold u64_max. lia. Qed.

(* check_time on 48-bit times and a 16-bit fudge: the u64 addition never saturates, the
   subtraction saturates exactly when the true lower bound is negative, and the outcome is the
   integer comparison of RFC 8945 5.2.3 *)
Lemma check_time_spec t now :
  (t_time t < 281474976710656)%N -> (t_fudge t < 65536)%N -> (now < 281474976710656)%N ->
  check_time (u48 (t_time t)) (t_fudge t) (u48 now) = if time_okb t now then Ok tt else Err BadTime.
Proof.
  intros H1 H2 H3. unfold check_time, to_unix_time, time_okb.
  rewrite !be_dec_u48, check_time_no_overflow by assumption.
  destruct (N.ltb_spec (t_time t) (t_fudge t));
    [destruct (N.leb_spec 0 now)|destruct (N.leb_spec (t_time t - t_fudge t) now)];
    destruct (N.leb_spec now (t_time t + t_fudge t)), (Z.leb_spec (Z.of_N (t_time t) - Z.of_N (t_fudge t)) (Z.of_N now)),
      (Z.leb_spec (Z.of_N now) (Z.of_N (t_time t) + Z.of_N (t_fudge t))); cbn [andb]; try reflexivity; lia.
Qed.

Lemma time_okb_spec t now : time_okb t now = true <-> time_ok t now.
Proof. unfold time_okb, time_ok. rewrite andb_true_iff, !Z.leb_le. tauto. Qed.

Lemma verify_truncated_left_spec full tag out :
  1 <= length tag -> length tag <= out ->
  verify_truncated_left full tag out = octets_eqb tag (firstn (length tag) full).
Proof.
  intros H1 H2. unfold verify_truncated_left.
  assert (E1 : (length tag =? 0) = false) by (apply Nat.eqb_neq; lia).
  assert (E2 : (out <? length tag) = false) by (apply Nat.ltb_ge; lia).
  rewrite E1, E2. cbn [orb]. apply bytes_octets_eqb.
Qed.

(* the ReadTsigRr that try_from makes of the record [t] (try_from_spec); used in the statements of Props/C10.v, C11.v *)
Definition read_of (t : stsig) : read_tsig :=
  mkReadTsig (canon_wire (t_key t)) (canon_wire (t_alg t)) (N.of_nat (length (t_mac t))) (spec_rdata t).

Lemma try_from_spec t : wf_stsig t -> read_tsig_try_from (tsig_read_rr t) = Ok (read_of t).
Proof.
  intros W. pose proof W as (Hk & Ha & (Ht & Hf & Hoid & He) & Hm & Ho & Lm & Lo & Ltot).
  unfold read_tsig_try_from, tsig_read_rr. cbn [rr_type rr_class rr_ttl rr_rdata rr_owner].
  destruct type_class_val as (-> & -> & _).
  change (negb (250 =? 250)%N) with false. change (negb (255 =? 255)%N || negb (0 =? 0)%N) with false.
  cbv iota. unfold spec_rdata at 1.
  rewrite parse_alg_name by (try exact Ha; apply wf_spec_rdata_tail; exact W).
  unfold wire_len, spec_rdata.
  rewrite (fld_mac_size_at (wire_of (t_alg t)) (wire_of (t_alg t)) (u48 (t_time t)) (u16 (t_fudge t))
             (u16 (N.of_nat (length (t_mac t)))) (t_mac t) (u16 (t_orig_id t)) (u16 (t_error t))
             (u16 (N.of_nat (length (t_other t)))) (t_other t) (N.of_nat (length (t_mac t))))
    by (try reflexivity; try apply be_enc_length; apply Nat2N.id).
  rewrite be_dec_u16 by exact Lm.
  unfold read_of, to_lowercase_name. cbn [n_wire name_of].
  rewrite !map_lower_wire_of by (apply valid_sname_len63; assumption).
  reflexivity.
Qed.

Section Verify.
Variable hmac : alg -> bytes -> bytes -> bytes.

Lemma read_fields t : wf_stsig t ->
  r_time_signed (read_of t) = Some (u48 (t_time t)) /\ r_fudge (read_of t) = Some (t_fudge t) /\
  r_mac (read_of t) = Some (t_mac t) /\ r_original_id (read_of t) = Some (t_orig_id t) /\
  r_error (read_of t) = Some (t_error t) /\ r_other (read_of t) = Some (t_other t).
Proof.
  intros (Hk & Ha & (Ht & Hf & Hoid & He) & Hm & Ho & Lm & Lo & Ltot).
  assert (LA : length (canon_wire (t_alg t)) = length (wire_of (t_alg t))) by apply wire_of_length_canon.
  unfold read_of, spec_rdata.
  repeat split.
  - apply fld_time; try apply be_enc_length; try exact LA; apply Nat2N.id.
  - rewrite fld_fudge by (try apply be_enc_length; try exact LA; apply Nat2N.id).
    rewrite be_dec_u16 by exact Hf. reflexivity.
  - apply fld_mac; try apply be_enc_length; try exact LA; apply Nat2N.id.
  - rewrite fld_oid by (try apply be_enc_length; try exact LA; apply Nat2N.id).
    rewrite be_dec_u16 by exact Hoid. reflexivity.
  - rewrite fld_error by (try apply be_enc_length; try exact LA; apply Nat2N.id).
    rewrite be_dec_u16 by exact He. reflexivity.
  - apply fld_other; try apply be_enc_length; try exact LA; apply Nat2N.id.
Qed.

Lemma read_digest_spec t d m sent_id : wf_stsig t -> wf_smsg m ->
  (N.of_nat (length (dmode_mac d)) <= 65535)%N ->
  read_digest (read_of t) (sent_prefix sent_id m) (vmode_of d) = Ok (spec_digest d m t).
Proof.
  intros W Hm Hd. destruct (read_fields t W) as (F1 & F2 & F3 & F4 & F5 & F6).
  destruct W as (Hk & Ha & (Ht & Hf & Hoid & He) & Hmac & Ho & Lm & Lo & Ltot).
  assert (Hv : @read_vars verr (read_of t) =
               Ok (mkVars (canon_wire (t_key t)) (canon_wire (t_alg t)) (u48 (t_time t)) (t_fudge t)
                          (t_error t) (t_other t))).
  { unfold read_vars. rewrite F1, F2, F5, F6. reflexivity. }
  destruct d as [|rm|pm]; cbn [vmode_of read_digest spec_digest dmode_mac] in *;
    rewrite F4; cbn [unwrap bind]; rewrite amm_spec by exact Hm; cbn [bind]; rewrite Hv; cbn [bind].
  - rewrite variables_spec by auto. reflexivity.
  - rewrite variables_spec by auto. rewrite app_assoc, prior_mac_spec by exact Hd. reflexivity.
  - rewrite timers_spec. rewrite app_assoc, prior_mac_spec by exact Hd. reflexivity.
Qed.

Lemma name_eqb_refl x : name_eqb x x = true.
Proof. unfold name_eqb. apply bytes_eqb_eq. reflexivity. Qed.

Theorem verify_spec t d m a key now sent_id :
  wf_stsig t -> wf_smsg m -> canon (t_alg t) = salg_name (alg_s a) ->
  (now < 281474976710656)%N -> (N.of_nat (length (dmode_mac d)) <= 65535)%N ->
  verify hmac (read_of t) (sent_prefix sent_id m) (vmode_of d) a key (be48 now)
  = res_of (spec_verify (mac_fn_of hmac) d m t (alg_s a) key now).
Proof.
  intros W Hm Halg Hnow Hd.
  destruct (read_fields t W) as (F1 & F2 & F3 & F4 & F5 & F6).
  pose proof (read_digest_spec t d m sent_id W Hm Hd) as HD.
  pose proof W as (Hk & Ha & (Ht & Hf & Hoid & He) & Hmac & Ho & Lm & Lo & Ltot).
  assert (Hcore : verification_core hmac (read_of t) (read_digest (read_of t) (sent_prefix sent_id m) (vmode_of d))
                    a key (be48 now) = res_of (spec_verify (mac_fn_of hmac) d m t (alg_s a) key now)).
  { unfold verification_core.
    assert (Hn : r_algorithm (read_of t) = alg_name a).
    { cbn [read_of r_algorithm]. unfold canon_wire. rewrite Halg, alg_name_wire. reflexivity. }
    rewrite Hn, name_eqb_refl. cbn [negb].
    cbn [read_of r_mac_size]. rewrite check_mac_size_spec. fold (read_of t).
    unfold spec_verify.
    destruct (mac_len_okb (alg_s a) (length (t_mac t))) eqn:Eok; cbn [negb bind]; [|reflexivity].
    rewrite HD. cbn [bind]. rewrite F3. cbn [unwrap bind].
    apply mac_len_okb_spec in Eok. destruct Eok as (Ho1 & Ho2 & Ho3).
    rewrite verify_truncated_left_spec by (rewrite ?output_size_val; lia).
    unfold mac_fn_of. rewrite alg_m_s.
    destruct (octets_eqb (t_mac t) (firstn (length (t_mac t)) (hmac a key (spec_digest d m t)))); cbn [negb];
      [|reflexivity].
    rewrite F1, F2. cbn [unwrap bind]. rewrite be48_u48, check_time_spec by assumption.
    destruct (time_okb t now); reflexivity. }
  destruct d as [|rm|pm]; cbn [vmode_of verify] in *; try exact Hcore.
  cbn [dmode_mac] in Hd. rewrite too_long_false by exact Hd. exact Hcore.
Qed.

(* the outcome names the first check of RFC 8945 5.2 that fails: MAC size, MAC, time *)
Lemma spec_verify_cases mac_fn d m t a key now :
  match spec_verify mac_fn d m t a key now with
  | SFormErr => ~ mac_len_ok a (length (t_mac t))
  | SBadSig => mac_len_ok a (length (t_mac t)) /\ ~ mac_matches mac_fn d m t a key
  | SBadTime => mac_len_ok a (length (t_mac t)) /\ mac_matches mac_fn d m t a key /\ ~ time_ok t now
  | SOk => spec_accepts mac_fn d m t a key now
  end.
Proof.
  unfold spec_verify, spec_accepts, mac_matches.
  pose proof (mac_len_okb_spec a (length (t_mac t))) as S1. pose proof (time_okb_spec t now) as S3.
  pose proof (octets_eqb_eq (t_mac t) (firstn (length (t_mac t)) (mac_fn a key (spec_digest d m t)))) as S2.
  destruct (mac_len_okb a (length (t_mac t))), (octets_eqb (t_mac t) _), (time_okb t now); cbn [negb]; intuition discriminate.
Qed.

Lemma spec_verify_ok_iff mac_fn d m t a key now :
  spec_verify mac_fn d m t a key now = SOk <-> spec_accepts mac_fn d m t a key now.
Proof.
  pose proof (spec_verify_cases mac_fn d m t a key now) as C. unfold spec_accepts in *.
  destruct (spec_verify mac_fn d m t a key now); split; intros H; try discriminate H; try reflexivity; tauto.
Qed.

Lemma spec_verify_errors mac_fn d m t a key now :
  (spec_verify mac_fn d m t a key now = SFormErr <-> ~ mac_len_ok a (length (t_mac t))) /\
  (spec_verify mac_fn d m t a key now = SBadSig <->
     mac_len_ok a (length (t_mac t)) /\ ~ mac_matches mac_fn d m t a key) /\
  (spec_verify mac_fn d m t a key now = SBadTime <->
     mac_len_ok a (length (t_mac t)) /\ mac_matches mac_fn d m t a key /\ ~ time_ok t now).
Proof.
  pose proof (spec_verify_cases mac_fn d m t a key now) as C. unfold spec_accepts in *.
  destruct (spec_verify mac_fn d m t a key now); (split; [|split]); split; intros H; try discriminate H; try reflexivity; tauto.
Qed.

End Verify.

Lemma res_of_inj r1 r2 : res_of r1 = res_of r2 -> r1 = r2.
Proof. destruct r1, r2; simpl; intros H; try reflexivity; discriminate. Qed.

Theorem verify_ok_iff hmac t d m a key now sent_id :
  wf_stsig t -> wf_smsg m -> canon (t_alg t) = salg_name (alg_s a) ->
  (now < 281474976710656)%N -> (N.of_nat (length (dmode_mac d)) <= 65535)%N ->
  (verify hmac (read_of t) (sent_prefix sent_id m) (vmode_of d) a key (be48 now) = Ok tt
   <-> spec_accepts (mac_fn_of hmac) d m t (alg_s a) key now).
Proof.
  intros W Hm Ha Hn Hd. rewrite (verify_spec hmac t d m a key now sent_id W Hm Ha Hn Hd).
  rewrite <- spec_verify_ok_iff. split; intros H.
  - apply (res_of_inj _ SOk). exact H.
  - rewrite H. reflexivity.
Qed.

Theorem verify_errors hmac t d m a key now sent_id :
  wf_stsig t -> wf_smsg m -> canon (t_alg t) = salg_name (alg_s a) ->
  (now < 281474976710656)%N -> (N.of_nat (length (dmode_mac d)) <= 65535)%N ->
  let v := verify hmac (read_of t) (sent_prefix sent_id m) (vmode_of d) a key (be48 now) in
  let okmac := mac_matches (mac_fn_of hmac) d m t (alg_s a) key in
  let oklen := mac_len_ok (alg_s a) (length (t_mac t)) in
  v <> Panic /\
  (v = Err VFormErr <-> ~ oklen) /\
  (v = Err BadSig <-> oklen /\ ~ okmac) /\
  (v = Err BadTime <-> oklen /\ okmac /\ ~ time_ok t now).
Proof.
  intros W Hm Ha Hn Hd. cbv zeta. rewrite (verify_spec hmac t d m a key now sent_id W Hm Ha Hn Hd).
  destruct (spec_verify_errors (mac_fn_of hmac) d m t (alg_s a) key now) as (E1 & E2 & E3).
  split; [destruct (spec_verify (mac_fn_of hmac) d m t (alg_s a) key now); discriminate|].
  rewrite <- E1, <- E2, <- E3.
  repeat split; intros H; try (rewrite H; reflexivity).
  - apply (res_of_inj _ SFormErr). exact H.
  - apply (res_of_inj _ SBadSig). exact H.
  - apply (res_of_inj _ SBadTime). exact H.
Qed.

Theorem read_spec t : wf_stsig t ->
  read_tsig_try_from (tsig_read_rr t) = Ok (read_of t) /\
  r_time_signed (read_of t) = Some (u48 (t_time t)) /\ r_fudge (read_of t) = Some (t_fudge t) /\
  r_mac (read_of t) = Some (t_mac t) /\ r_original_id (read_of t) = Some (t_orig_id t) /\
  r_error (read_of t) = Some (t_error t) /\ r_other (read_of t) = Some (t_other t).
Proof. intros W. split; [exact (try_from_spec t W)|exact (read_fields t W)]. Qed.

Theorem verify_iff_plain hmac t d m a key now sent_id :
  wf_stsig t -> wf_smsg m -> canon (t_alg t) = salg_name (alg_s a) ->
  (now < 281474976710656)%N -> (N.of_nat (length (dmode_mac d)) <= 65535)%N ->
  (verify hmac (read_of t) (sent_prefix sent_id m) (vmode_of d) a key (be48 now) = Ok tt
   <-> mac_len_ok (alg_s a) (length (t_mac t)) /\
       t_mac t = firstn (length (t_mac t)) (hmac a key (spec_digest d m t)) /\
       time_ok t now).
Proof.
  intros W Hm Ha Hn Hd.
  rewrite (verify_ok_iff hmac t d m a key now sent_id W Hm Ha Hn Hd).
  unfold spec_accepts, mac_matches, mac_fn_of. rewrite alg_m_s. tauto.
Qed.

Lemma be32_upper u : (u < 256)%N -> be32 (u * 16777216) = be_enc 1 u ++ be_enc 1 0 ++ u16 0.
Proof.
  intros H. unfold be32. cbn [be_enc u16 app].
  assert (E1 : (u * 16777216 / 16777216 = u)%N) by (apply N.div_mul; lia).
  assert (E2 : (u * 16777216 / 65536 = u * 256)%N)
    by (replace (u * 16777216)%N with (u * 256 * 65536)%N by lia; apply N.div_mul; lia).
  assert (E3 : (u * 16777216 / 256 = u * 65536)%N)
    by (replace (u * 16777216)%N with (u * 65536 * 256)%N by lia; apply N.div_mul; lia).
  rewrite E1, E2, E3.
  rewrite (N.mod_small u 256) by exact H.
  rewrite (N.mod_mul u 256) by lia.
  replace (u * 65536)%N with (u * 256 * 256)%N by lia. rewrite (N.mod_mul (u * 256) 256) by lia.
  replace (u * 16777216)%N with (u * 65536 * 256)%N by lia. rewrite (N.mod_mul (u * 65536) 256) by lia.
  reflexivity.
Qed.

Lemma opt_rr_spec e : (e_extended_rcode_upper_bits e < 256)%N ->
  opt_rr e = spec_opt_rr (e_udp_payload_size e) (e_extended_rcode_upper_bits e).
Proof.
  intros H. unfold opt_rr, spec_opt_rr. rewrite be32_upper by exact H.
  change TYPE_OPT with 41%N. repeat rewrite <- app_assoc. reflexivity.
Qed.

Lemma opt_rr_length e : length (opt_rr e) = N.to_nat OPT_RECORD_SIZE.
Proof. reflexivity. Qed.

Lemma wf_spec_opt_rr p u : wf_bytes (spec_opt_rr p u).
Proof.
  unfold spec_opt_rr, u16.
  assert (W : forall a b : bytes, wf_bytes a -> wf_bytes b -> wf_bytes (a ++ b))
    by (intros a b Ha Hb; apply Forall_app; split; assumption).
  apply W; [constructor; [unfold is_octet; lia|constructor]|].
  repeat (apply W; [apply be_enc_wf|]). apply be_enc_wf.
Qed.

Lemma sent_prefix_with_opt sid m p u : sent_prefix sid m ++ spec_opt_rr p u = sent_prefix sid (with_opt m p u).
Proof. unfold sent_prefix, smsg_wire, with_opt. cbn [m_flags m_qd m_an m_ns m_ar m_body]. repeat rewrite <- app_assoc. reflexivity. Qed.

Lemma wf_with_opt m p u : wf_smsg m -> wf_smsg (with_opt m p u).
Proof.
  intros [H Hb]. split; [exact H|]. cbn [with_opt m_body]. apply Forall_app. split; [exact Hb|apply wf_spec_opt_rr].
Qed.

Section FinishEdns.
Variable hmac : alg -> bytes -> bytes -> bytes.
Hypothesis hmac_len : forall a k d, length (hmac a k d) = output_size a.

Lemma finish_tsig_sign p msg d a key :
  finish_tsig hmac msg (tmode_of d a key) p =
  (let* (rdata, mac) := sign hmac p msg (smode_of d) a key in Ok (rdata, Some mac)).
Proof. destruct d; reflexivity. Qed.

(* With set_edns and a signing set_tsig, finish_with_mac produces header ++ sections ++ OPT RR, and the
   TSIG RDATA/MAC are the RFC 8945 ones for THAT message (the OPT RR is under the MAC). *)
Theorem finish_edns_tsig_spec p t d m a key sent_id e :
  prepared_repr p t -> t_alg t = salg_name (alg_s a) -> wf_smsg m ->
  (N.of_nat (length (t_other t)) < 65536)%N -> (N.of_nat (length (dmode_mac d)) <= 65535)%N ->
  (N.of_nat (wire_len (t_alg t) + 16 + output_size a + length (t_other t)) <= 65535)%N ->
  (e_extended_rcode_upper_bits e < 256)%N ->
  let m' := with_opt m (e_udp_payload_size e) (e_extended_rcode_upper_bits e) in
  finish_tail hmac (sent_prefix sent_id m) (Some e) (Some (tmode_of d a key, p)) =
  Ok (sent_prefix sent_id m',
      Some (fst (spec_sign (mac_fn_of hmac) d m' t (alg_s a) key),
            Some (snd (spec_sign (mac_fn_of hmac) d m' t (alg_s a) key)))).
Proof.
  intros Hp Ha Hm Ho Hd Hlen He. cbv zeta. unfold finish_tail.
  rewrite opt_rr_spec by exact He. rewrite sent_prefix_with_opt, finish_tsig_sign.
  rewrite (sign_spec hmac hmac_len p t d _ a key sent_id Hp Ha (wf_with_opt m _ _ Hm) Ho Hd Hlen).
  cbn [bind]. destruct (spec_sign (mac_fn_of hmac) d (with_opt m (e_udp_payload_size e) (e_extended_rcode_upper_bits e)) t (alg_s a) key).
  reflexivity.
Qed.

(* without EDNS: the message is signed as it is *)
Theorem finish_plain_tsig_spec p t d m a key sent_id :
  prepared_repr p t -> t_alg t = salg_name (alg_s a) -> wf_smsg m ->
  (N.of_nat (length (t_other t)) < 65536)%N -> (N.of_nat (length (dmode_mac d)) <= 65535)%N ->
  (N.of_nat (wire_len (t_alg t) + 16 + output_size a + length (t_other t)) <= 65535)%N ->
  finish_tail hmac (sent_prefix sent_id m) None (Some (tmode_of d a key, p)) =
  Ok (sent_prefix sent_id m,
      Some (fst (spec_sign (mac_fn_of hmac) d m t (alg_s a) key), Some (snd (spec_sign (mac_fn_of hmac) d m t (alg_s a) key)))).
Proof.
  intros Hp Ha Hm Ho Hd Hlen. unfold finish_tail. rewrite finish_tsig_sign.
  rewrite (sign_spec hmac hmac_len p t d m a key sent_id Hp Ha Hm Ho Hd Hlen). cbn [bind].
  destruct (spec_sign (mac_fn_of hmac) d m t (alg_s a) key). reflexivity.
Qed.

End FinishEdns.
