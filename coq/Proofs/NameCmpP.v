(* Equality, hashing, ordering and subdomain tests of the model against the list-level specification. *)
From QV Require Import Base.ListX Model.NameWire Model.NameText Spec.NameWireS Spec.NameRepr Spec.NameTextS
  Proofs.NameWireP Proofs.NameLabelsP.

Section Lex.
  Context {A : Type} (cmp : A -> A -> comparison).
  Hypothesis cmp_eq : forall x y, cmp x y = Eq <-> x = y.
  Hypothesis cmp_opp : forall x y, cmp y x = CompOpp (cmp x y).
  Hypothesis cmp_trans : forall x y z, cmp x y = Lt -> cmp y z = Lt -> cmp x z = Lt.

  Lemma lex_cmp_eq a : forall b, lex_cmp cmp a b = Eq <-> a = b.
  Proof.
    induction a as [|x a IH]; intros [|y b]; cbn; try (split; [discriminate|congruence]).
    - tauto.
    - destruct (cmp x y) eqn:E.
      + apply cmp_eq in E. subst y. rewrite IH. split; [congruence|intros H; inversion H; reflexivity].
      + split; [discriminate|]. intros H. inversion H; subst. assert (cmp y y = Eq) by (apply cmp_eq; reflexivity). congruence.
      + split; [discriminate|]. intros H. inversion H; subst. assert (cmp y y = Eq) by (apply cmp_eq; reflexivity). congruence.
  Qed.

  Lemma lex_cmp_opp a : forall b, lex_cmp cmp b a = CompOpp (lex_cmp cmp a b).
  Proof.
    induction a as [|x a IH]; intros [|y b]; cbn; try reflexivity.
    rewrite (cmp_opp x y). destruct (cmp x y); cbn; auto.
  Qed.

  Lemma lex_cmp_trans a : forall b c, lex_cmp cmp a b = Lt -> lex_cmp cmp b c = Lt -> lex_cmp cmp a c = Lt.
  Proof.
    induction a as [|x a IH]; intros [|y b] [|z c]; cbn; try discriminate; auto.
    destruct (cmp x y) eqn:E1; try discriminate; destruct (cmp y z) eqn:E2; try discriminate.
    - apply cmp_eq in E1, E2. subst. assert (H : cmp z z = Eq) by (apply cmp_eq; reflexivity). rewrite H. apply IH.
    - apply cmp_eq in E1. subst. rewrite E2. reflexivity.
    - apply cmp_eq in E2. subst. rewrite E1. reflexivity.
    - rewrite (cmp_trans _ _ _ E1 E2). reflexivity.
  Qed.
End Lex.

Lemma lex_cmp_map {A B} (f : A -> B) (cmp : B -> B -> comparison) a :
  forall b, lex_cmp cmp (map f a) (map f b) = lex_cmp (fun u v => cmp (f u) (f v)) a b.
Proof. induction a as [|x a IH]; intros [|y b]; cbn; try reflexivity. rewrite IH. reflexivity. Qed.

Lemma lex_cmp_ext {A} (c1 c2 : A -> A -> comparison) : (forall x y, c1 x y = c2 x y) ->
  forall a b, lex_cmp c1 a b = lex_cmp c2 a b.
Proof. intros H. induction a as [|x a IH]; intros [|y b]; cbn; try reflexivity. rewrite H, IH. reflexivity. Qed.

Lemma N_compare_trans x y z : N.compare x y = Lt -> N.compare y z = Lt -> N.compare x z = Lt.
Proof. rewrite !N.compare_lt_iff. lia. Qed.

Definition octets_cmp := lex_cmp N.compare.
Lemma octets_cmp_eq a b : octets_cmp a b = Eq <-> a = b.
Proof. apply lex_cmp_eq. apply N.compare_eq_iff. Qed.
Lemma octets_cmp_opp a b : octets_cmp b a = CompOpp (octets_cmp a b).
Proof. apply lex_cmp_opp. apply N.compare_antisym. Qed.
Lemma octets_cmp_trans a b c : octets_cmp a b = Lt -> octets_cmp b c = Lt -> octets_cmp a c = Lt.
Proof. apply lex_cmp_trans; [apply N.compare_eq_iff|apply N_compare_trans]. Qed.

Lemma rev_inj {A} (a b : list A) : rev a = rev b -> a = b.
Proof. intros H. rewrite <- (rev_involutive a), H. apply rev_involutive. Qed.

(* the canonical order is a total order on names modulo ASCII case *)
Theorem spec_cmp_eq a b : spec_cmp a b = Eq <-> lower_name a = lower_name b.
Proof.
  unfold spec_cmp. rewrite (lex_cmp_eq _ octets_cmp_eq). split; [apply rev_inj|congruence].
Qed.
Theorem spec_cmp_opp a b : spec_cmp b a = CompOpp (spec_cmp a b).
Proof. unfold spec_cmp. apply (lex_cmp_opp _ octets_cmp_opp). Qed.
Theorem spec_cmp_trans a b c : spec_cmp a b = Lt -> spec_cmp b c = Lt -> spec_cmp a c = Lt.
Proof. unfold spec_cmp. apply (lex_cmp_trans _ octets_cmp_eq octets_cmp_trans). Qed.

(* the iterator pipelines are lex_cmp *)

Lemma label_cmp_lex l : forall m, label_cmp l m = lex_cmp N.compare (map lower l) (map lower m).
Proof.
  unfold label_cmp. induction l as [|x l IH]; intros [|y m]; cbn; try reflexivity.
  destruct (N.compare (lower x) (lower y)); try reflexivity. apply IH.
Qed.

Lemma labels_find_cmp_lex a : forall b,
  match labels_find_cmp a b with Some c => c | None => Nat.compare (length a) (length b) end = lex_cmp label_cmp a b.
Proof.
  induction a as [|x a IH]; intros [|y b]; cbn; try reflexivity.
  destruct (label_cmp x y); try reflexivity. apply IH.
Qed.

Lemma label_cmp_nil : label_cmp [] [] = Eq.
Proof. reflexivity. Qed.

Lemma lower_name_all ls : map (map lower) (all_labels ls) = all_labels (lower_name ls).
Proof. unfold all_labels, lower_name. rewrite map_app. reflexivity. Qed.

Theorem name_cmp_spec a b : wire_len a <= 255 -> wire_len b <= 255 ->
  name_cmp (name_of a) (name_of b) = Ok (spec_cmp a b).
Proof.
  intros Ha Hb. unfold name_cmp. rewrite (labels_name_of a Ha), (labels_name_of b Hb). cbn [bind].
  f_equal. rewrite !name_len_name_of, <- (rev_length (all_labels a)), <- (rev_length (all_labels b)).
  rewrite labels_find_cmp_lex. unfold all_labels. rewrite !rev_app_distr. cbn [rev app lex_cmp].
  rewrite label_cmp_nil. unfold spec_cmp, lower_name. rewrite <- !map_rev, lex_cmp_map.
  apply lex_cmp_ext. apply label_cmp_lex.
Qed.

(* the zip stops at the shorter list: it compares the second list with a prefix of the first *)
Lemma zip_all_prefix (y : list (list N)) : forall x : list (list N), length y <= length x ->
  (zip_all label_eq x y = true <-> map (map lower) (firstn (length y) x) = map (map lower) y).
Proof.
  induction y as [|b y IH]; intros [|a x] Hl; cbn in *; try lia; try tauto.
  unfold label_eq. rewrite andb_true_iff, eq_nocase_lower, (IH x) by lia. split.
  - intros [-> ->]. reflexivity.
  - intros H. inversion H. auto.
Qed.

Lemma same_len_zip_all_iff (la lb : list label) :
  (length la =? length lb) && zip_all label_eq la lb = true <-> map (map lower) la = map (map lower) lb.
Proof.
  unfold label, bytes in *. rewrite andb_true_iff, Nat.eqb_eq. split.
  - intros [Hl Hz]. apply zip_all_prefix in Hz; [|lia]. rewrite <- Hl, firstn_all in Hz. exact Hz.
  - intros H. pose proof (f_equal (@length _) H) as Hl. rewrite !map_length in Hl.
    split; [exact Hl|]. apply zip_all_prefix; [lia|]. rewrite <- Hl, firstn_all. exact H.
Qed.

Theorem name_eq_spec a b : wire_len a <= 255 -> wire_len b <= 255 ->
  exists r, name_eq (name_of a) (name_of b) = Ok r /\ (r = true <-> lower_name a = lower_name b).
Proof.
  intros Ha Hb. unfold name_eq. rewrite (labels_name_of a Ha), (labels_name_of b Hb). cbn [bind].
  eexists. split; [reflexivity|]. rewrite !name_len_name_of, same_len_zip_all_iff, !lower_name_all. unfold all_labels. split.
  - apply app_inv_tail.
  - congruence.
Qed.

Theorem name_cmp_eq_consistent a b : wire_len a <= 255 -> wire_len b <= 255 ->
  (name_cmp (name_of a) (name_of b) = Ok Eq <-> name_eq (name_of a) (name_of b) = Ok true).
Proof.
  intros Ha Hb. rewrite (name_cmp_spec a b Ha Hb).
  destruct (name_eq_spec a b Ha Hb) as (r & Hr & Hiff). rewrite Hr. split.
  - intros H. inversion H as [H1]. apply spec_cmp_eq in H1. apply Hiff in H1. congruence.
  - intros H. inversion H; subst. f_equal. apply spec_cmp_eq. apply Hiff. reflexivity.
Qed.

Definition len_prefixed (l : label) : bytes := (N.of_nat (length l) mod 256)%N :: l.

Lemma label_hash_stream_len_prefixed l : label_hash_stream l = len_prefixed (map lower l).
Proof. unfold label_hash_stream, len_prefixed. rewrite map_length. reflexivity. Qed.

Lemma hash_stream_len_prefixed ls : flat_map label_hash_stream ls = flat_map len_prefixed (map (map lower) ls).
Proof.
  induction ls as [|l r IH]; [reflexivity|]. cbn [flat_map map]. rewrite IH, label_hash_stream_len_prefixed. reflexivity.
Qed.

Theorem name_hash_spec a : wire_len a <= 255 ->
  name_hash_stream (name_of a) = Ok (flat_map len_prefixed (all_labels (lower_name a))).
Proof.
  intros Ha. unfold name_hash_stream. rewrite (labels_name_of a Ha). cbn [bind].
  rewrite hash_stream_len_prefixed, lower_name_all. reflexivity.
Qed.

Theorem name_hash_eq a b : wire_len a <= 255 -> wire_len b <= 255 -> lower_name a = lower_name b ->
  name_hash_stream (name_of a) = name_hash_stream (name_of b).
Proof. intros Ha Hb H. rewrite (name_hash_spec a Ha), (name_hash_spec b Hb), H. reflexivity. Qed.

Lemma app_inv_length {A} (a b c d : list A) : length a = length c -> a ++ b = c ++ d -> a = c /\ b = d.
Proof.
  revert c. induction a as [|x a IH]; intros [|y c] Hl H; try discriminate; cbn in *; [auto|].
  injection Hl as Hl. injection H as -> H. destruct (IH c Hl H) as [-> ->]. auto.
Qed.

(* Different names feed different octets: the stream determines the labels.  [length l < 256]: the length
   octet is written [mod 256]. *)
Lemma len_prefixed_inj la : forall lb,
  Forall (fun l => length l < 256) la -> Forall (fun l => length l < 256) lb ->
  flat_map len_prefixed la = flat_map len_prefixed lb -> la = lb.
Proof.
  induction la as [|x la IH]; intros [|y lb] Ha Hb H; try discriminate; [reflexivity|].
  cbn [flat_map] in H. unfold len_prefixed at 1 3 in H. cbn [app] in H.
  inversion Ha as [|? ? Hx Ha']; inversion Hb as [|? ? Hy Hb']; subst.
  injection H as Hlen H.
  rewrite !N.mod_small in Hlen by lia. apply Nat2N.inj in Hlen.
  destruct (app_inv_length _ _ _ _ Hlen H) as [-> H']. f_equal. apply IH; assumption.
Qed.

Lemma lower_name_lengths ls : Forall (fun l => length l <= 63) ls ->
  Forall (fun l : label => length l < 256) (all_labels (lower_name ls)).
Proof.
  intros H. unfold all_labels, lower_name. apply Forall_app. split.
  - rewrite Forall_forall in *. intros l Hl. apply in_map_iff in Hl. destruct Hl as (l0 & <- & Hin).
    rewrite map_length. specialize (H _ Hin). lia.
  - constructor; [cbn; lia|constructor].
Qed.

Theorem name_hash_inj a b : wire_len a <= 255 -> wire_len b <= 255 ->
  Forall (fun l => length l <= 63) a -> Forall (fun l => length l <= 63) b ->
  name_hash_stream (name_of a) = name_hash_stream (name_of b) -> lower_name a = lower_name b.
Proof.
  intros Ha Hb La Lb. rewrite (name_hash_spec a Ha), (name_hash_spec b Hb). intros H. inversion H as [H1].
  apply len_prefixed_inj in H1; [|apply lower_name_lengths; assumption|apply lower_name_lengths; assumption].
  unfold all_labels in H1. apply app_inv_tail in H1. exact H1.
Qed.

Lemma zip_all_rev_suffix_iff (a b : list (list N)) : length b <= length a ->
  (zip_all label_eq (rev a) (rev b) = true <-> exists pre, map (map lower) a = pre ++ map (map lower) b).
Proof.
  intros Hl. rewrite zip_all_prefix, rev_length, firstn_rev, !map_rev by (rewrite !rev_length; exact Hl).
  set (k := length a - length b). split.
  - intros H. apply rev_inj in H. exists (map (map lower) (firstn k a)).
    rewrite <- H, <- map_app, firstn_skipn. reflexivity.
  - intros [pre H]. f_equal. rewrite <- skipn_map, H. apply skipn_app_exact.
    apply (f_equal (@length _)) in H. rewrite app_length, !map_length in H. unfold k. lia.
Qed.

Theorem eq_or_subdomain_spec a b : wire_len a <= 255 -> wire_len b <= 255 ->
  exists r, eq_or_subdomain_of (name_of a) (name_of b) = Ok r /\ (r = true <-> spec_subdomain a b).
Proof.
  intros Ha Hb. unfold eq_or_subdomain_of. rewrite (labels_name_of a Ha), (labels_name_of b Hb). cbn [bind].
  eexists. split; [reflexivity|]. rewrite !name_len_name_of, !all_labels_length. unfold all_labels.
  rewrite !rev_app_distr. cbn [rev app zip_all]. change (label_eq [] []) with true. cbn [andb].
  change (S (length b) <=? S (length a)) with (length b <=? length a).
  unfold spec_subdomain, lower_name. rewrite andb_true_iff, Nat.leb_le. split.
  - intros [Hl Hz]. apply (zip_all_rev_suffix_iff a b Hl). exact Hz.
  - intros [pre Hpre].
    assert (Hl : length b <= length a).
    { pose proof (f_equal (@length _) Hpre) as E. rewrite app_length, !map_length in E. unfold label, bytes in *. lia. }
    split; [exact Hl|]. apply (zip_all_rev_suffix_iff a b Hl). exists pre. exact Hpre.
Qed.

Theorem label_index_spec ls i : wire_len ls <= 255 ->
  label_at (name_of ls) i = match spec_label ls i with Some l => Ok l | None => Panic end.
Proof.
  intros Hlen. unfold spec_label. fold (all_labels ls).
  destruct (nth_error (all_labels ls) i) as [l|] eqn:E.
  - destruct (nth_error_split _ _ E) as (pre & post & Heq & Hl). subst i. apply (label_at_all ls pre l post Heq Hlen).
  - apply nth_error_None in E. unfold label_at, name_of. cbn [n_offsets].
    rewrite offs_of_all.
    assert (H : nth_error (offs_all 0 (all_labels ls)) i = None) by (apply nth_error_None; rewrite offs_all_length; exact E).
    rewrite H. reflexivity.
Qed.

Theorem is_root_spec ls : is_root (name_of ls) = match ls with [] => true | _ => false end.
Proof. unfold is_root. rewrite name_len_name_of, all_labels_length. destruct ls; reflexivity. Qed.
