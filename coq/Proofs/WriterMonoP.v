(* Limit-monotonicity of the Writer model (C04, clause iii): an operation that SUCCEEDS with final
   cursor c succeeds identically — same result, same octets, same compression decisions — under any
   smaller limit/available space that still has room for c.  [lower l a w] is w with limit l and
   available a; nothing else of the state is consulted differently. *)
From QV Require Import Base.ListX Gen.Consts Gen.WriterTab Model.NameWire Model.MsgWriter.
Local Open Scope nat_scope.

Definition lower (l a : nat) (w : writer) : writer := set_limit_avail w l a.

(* [mono l a f]: f succeeds monotonically in the cursor, and its success survives lowering to [a] *)
Definition mono {A} (l a : nat) (f : writer -> M A) : Prop :=
  forall w x w', f w = Ok (x, w') ->
    w_cursor w <= w_cursor w' /\
    (w_cursor w' <= a -> f (lower l a w) = Ok (x, lower l a w')).

Lemma mono_try_push l a data : mono l a (try_push data).
Proof.
  intros w x w'. unfold try_push.
  destruct (w_avail w <? w_cursor w) eqn:E1; [discriminate|].
  destruct (length data <=? w_avail w - w_cursor w) eqn:E2; [|discriminate].
  unfold w_write. destruct (buf_write (w_buf w) (w_cursor w) data) as [b'|] eqn:E3; [|discriminate].
  intros H; inversion H; subst. cbn [w_cursor set_cursor set_buf]. split; [lia|].
  intros Ha. cbn [lower set_limit_avail w_avail w_cursor w_buf].
  assert (F1 : (a <? w_cursor w) = false) by (apply Nat.ltb_ge; lia).
  assert (F2 : (length data <=? a - w_cursor w) = true) by (apply Nat.leb_le; lia).
  rewrite F1, F2, E3. reflexivity.
Qed.

Lemma mono_ret {A} l a (x : A) : mono l a (fun w => Ok (x, w)).
Proof. intros w y w' H; inversion H; subst. split; [lia|]. reflexivity. Qed.

(* sequencing: g may inspect everything of the state except limit/available *)
Lemma mono_bind {A B} l a (f : writer -> M A) (g : A -> writer -> M B) :
  mono l a f -> (forall x, mono l a (g x)) ->
  mono l a (fun w => let* (x, w1) := f w in g x w1).
Proof.
  intros Hf Hg w y w'. cbn beta. destruct (f w) as [[x w1]|[e w1]|] eqn:E; cbn [bind]; try discriminate.
  intros H. destruct (Hf _ _ _ E) as [M1 L1]. destruct (Hg x _ _ _ H) as [M2 L2].
  split; [lia|]. intros Ha. rewrite L1 by lia. cbn [bind]. apply L2. exact Ha.
Qed.

Lemma mono_ext {A} l a (f g : writer -> M A) : (forall w, f w = g w) -> mono l a g -> mono l a f.
Proof. intros E Hg w x w' H. rewrite E in H. destruct (Hg _ _ _ H) as [A1 A2]. split; [exact A1|]. intros. rewrite E. auto. Qed.

(* a state update that neither looks at nor touches limit/available, and does not move the cursor back *)
Lemma mono_after {A} l a (s : writer -> writer) (g : writer -> M A) :
  (forall w, lower l a (s w) = s (lower l a w)) -> (forall w, w_cursor w <= w_cursor (s w)) ->
  mono l a g -> mono l a (fun w => g (s w)).
Proof.
  intros Hs Hc Hg w x w' H. destruct (Hg _ _ _ H) as [A1 A2]. specialize (Hc w).
  split; [lia|]. intros Ha. rewrite <- Hs. auto.
Qed.

Lemma mono_err {A} l a (e : writer -> werr * writer) : mono l a (fun w => Err (e w) : M A).
Proof. intros w x w' H. discriminate. Qed.

(* only successes matter *)
Lemma mono_rollback {A} l a (f : writer -> M A) : mono l a f -> mono l a (with_rollback f).
Proof.
  intros Hf w x w'. unfold with_rollback. destruct (f w) as [[x0 w0]|[e w0]|] eqn:E; try discriminate.
  intros [= <- <-]. destruct (Hf _ _ _ E) as [A1 A2]. split; [exact A1|]. intros Ha. rewrite A2; auto.
Qed.

Lemma mono_u16 l a v : mono l a (try_push_u16 v). Proof. apply mono_try_push. Qed.
Lemma mono_u32 l a v : mono l a (try_push_u32 v). Proof. apply mono_try_push. Qed.

Lemma mono_uncompressed l a n : mono l a (write_uncompressed_name n).
Proof.
  intros w x w'. unfold write_uncompressed_name.
  destruct (try_push (nm_wire n) w) as [[u w1]|[e w1]|] eqn:E; cbn [bind]; try discriminate.
  intros H; inversion H; subst. destruct (mono_try_push l a _ _ _ _ E) as [A1 A2]. split; [exact A1|].
  intros Ha. rewrite A2 by exact Ha. reflexivity.
Qed.

Lemma mono_compressed l a n : mono l a (write_compressed_unhinted_name n).
Proof.
  intros w x w'. unfold write_compressed_unhinted_name.
  change (w_mro (lower l a w)) with (w_mro w). change (w_qname (lower l a w)) with (w_qname w).
  change (w_mrn (lower l a w)) with (w_mrn w). change (w_mode (lower l a w)) with (w_mode w).
  change (w_buf (lower l a w)) with (w_buf w). change (w_cursor (lower l a w)) with (w_cursor w).
  assert (U := mono_uncompressed l a n w).
  (* without any anchor, and below when the search finds no match, the name goes out uncompressed (U) *)
  destruct (or_else (w_mro w) (w_qname w)) as [p0|] eqn:E0; destruct (w_mrn w) as [p1|] eqn:E1;
    try (intros H; exact (U _ _ H)).
  (* three anchor cases remain, the same from here on: a match at column 0 is one pointer push, a match
     further right a push of the leading labels followed by the pointer push *)
  all: match goal with |- context [lift ?r _] => destruct r as [cs|e|] end; cbn [lift bind]; try discriminate.
  all: destruct (longest_match cs) as [[col pp]|]; try (intros H; exact (U _ _ H)).
  all: destruct (col =? 0).
  all: try (destruct (try_push_u16 (ptr_word pp) w) as [[u w1]|[e w1]|] eqn:E; cbn [bind]; try discriminate;
            intros H; inversion H; subst; destruct (mono_u16 l a _ _ _ _ E) as [A1 A2]; split; [exact A1|];
            intros Ha; rewrite A2 by exact Ha; reflexivity).
  all: destruct (nm_wire_to n col) as [pre|]; try discriminate.
  all: destruct (try_push pre w) as [[u w1]|[e w1]|] eqn:Ea; cbn [bind]; try discriminate.
  all: destruct (try_push_u16 (ptr_word pp) w1) as [[u2 w2]|[e w2]|] eqn:Eb; cbn [bind]; try discriminate.
  all: intros H; inversion H; subst.
  all: destruct (mono_try_push l a _ _ _ _ Ea) as [A1 A2]; destruct (mono_u16 l a _ _ _ _ Eb) as [B1 B2].
  all: split; [lia|]; intros Ha; rewrite A2 by lia; cbn [bind]; rewrite B2 by exact Ha; reflexivity.
Qed.

Lemma mono_unhinted l a n : mono l a (write_unhinted_name n).
Proof.
  intros w x w'. unfold write_unhinted_name. change (w_mode (lower l a w)) with (w_mode w).
  destruct (w_mode w); try (apply mono_uncompressed);
    (destruct (2 <? length (nm_wire n)); [apply mono_compressed|apply mono_uncompressed]).
Qed.

Lemma mono_push_prior l a pr : mono l a (push_prior_ptr pr).
Proof.
  apply (mono_bind l a _ (fun _ w1 => Ok (Some pr, w1))); [apply mono_u16|intros _; apply mono_ret].
Qed.

Lemma mono_hinted l a h n : mono l a (write_hinted_name h n).
Proof.
  intros w x w'. unfold write_hinted_name.
  change (w_mode (lower l a w)) with (w_mode w). change (w_qname (lower l a w)) with (w_qname w).
  change (w_mro (lower l a w)) with (w_mro w). change (w_mrn (lower l a w)) with (w_mrn w).
  change (w_cursor (lower l a w)) with (w_cursor w).
  destruct (w_mode w) eqn:Em; try (apply mono_uncompressed).
  - destruct (length (nm_wire n) <=? 2); [apply mono_uncompressed|].
    destruct h as [| | |p|].
    + destruct (w_qname w); [apply mono_push_prior|apply mono_compressed].
    + destruct (w_mro w); [apply mono_push_prior|apply mono_compressed].
    + destruct (w_mrn w); [apply mono_push_prior|apply mono_compressed].
    + destruct (p <? w_cursor w); [apply mono_push_prior|apply mono_compressed].
    + apply mono_compressed.
  - destruct (length (nm_wire n) <=? 2); [apply mono_uncompressed|apply mono_compressed].
Qed.

Lemma mono_components l a : forall cts rdata v, mono l a (write_components cts rdata v).
Proof.
  induction cts as [|ct rest IH]; intros rdata v w x w'.
  - cbn [write_components]. destruct (length rdata =? 0).
    + apply (mono_ret l a v).
    + apply (mono_bind l a (try_push rdata) (fun _ w1 => Ok (v, w1))); [apply mono_try_push|intros _; apply mono_ret].
  - assert (Hname : forall (wr : wname -> writer -> M (option prior)), (forall n, mono l a (wr n)) ->
      mono l a (fun w =>
        match parse_uncompressed_name rdata false with
        | Panic => Panic
        | Err _ => Err (InvalidRdata, w)
        | Ok (nm, len) =>
          let n := labels_of_name nm in
          let* (pr, w1) := wr n w in
          write_components rest (skipn len rdata) (hv_push v pr) (set_mrn w1 pr)
        end)).
    { intros wr Hwr. destruct (parse_uncompressed_name rdata false) as [[nm len]|e|]; try (intros w0 x0 w0'; discriminate).
      apply mono_bind; [apply Hwr|]. intros pr.
      apply (mono_after l a (fun w1 => set_mrn w1 pr)); auto. }
    destruct ct as [| |k]; cbn [write_components].
    + apply (Hname write_unhinted_name (mono_unhinted l a)).
    + apply (Hname write_uncompressed_name (mono_uncompressed l a)).
    + destruct (length rdata <? k); [discriminate|].
      apply (mono_bind l a (try_push (firstn k rdata)) (fun _ => write_components rest (skipn k rdata) v));
        [apply mono_try_push|intros _; apply IH].
Qed.

Lemma mono_add_rr l a h owner ty cl ttl rd v : mono l a (add_rr h owner ty cl ttl rd v).
Proof.
  unfold add_rr. apply mono_bind; [apply mono_hinted|]. intros pr.
  apply mono_bind; [apply (mono_after l a (fun w => set_mro w pr)); auto; apply mono_u16|]. intros _.
  apply mono_bind; [apply mono_u16|]. intros _.
  apply mono_bind; [apply mono_u32|]. intros _.
  (* room for RDLENGTH, the components, the back-patch: room that was there is there under the lower limit,
     since the final cursor fits *)
  intros w4 x w'.
  destruct (w_avail w4 <? w_cursor w4) eqn:F1; [discriminate|].
  destruct (w_avail w4 - w_cursor w4 <? 2) eqn:F2; [discriminate|].
  destruct (write_components (component_types cl ty) rd v (set_cursor w4 (w_cursor w4 + 2)))
    as [[v' w6]|[e w6]|] eqn:E6; cbn [bind]; try discriminate.
  destruct (w_cursor w6 <? w_cursor w4 + 2) eqn:F3; [discriminate|].
  unfold lift, w_write. destruct (buf_write (w_buf w6) (w_cursor w4) _) as [b'|] eqn:E7; cbn [bind]; try discriminate.
  intros [= <- <-]. destruct (mono_components l a _ _ _ _ _ _ E6) as [A6 L6].
  cbn [w_cursor set_cursor set_buf] in *. split; [lia|]. intros Ha.
  cbn [lower set_limit_avail w_avail w_cursor].
  replace (a <? w_cursor w4) with false by (symmetry; apply Nat.ltb_ge; lia).
  replace (a - w_cursor w4 <? 2) with false by (symmetry; apply Nat.ltb_ge; lia).
  change (set_cursor (lower l a w4) (w_cursor w4 + 2)) with (lower l a (set_cursor w4 (w_cursor w4 + 2))).
  rewrite L6 by exact Ha. cbn [bind lower set_limit_avail w_cursor w_buf]. rewrite F3, E7. reflexivity.
Qed.

Lemma mono_rrset_loop l a : forall rds h owner ty cl ttl v k, mono l a (add_rrset_loop h owner ty cl ttl rds v k).
Proof.
  induction rds as [|rd rds IH]; intros h owner ty cl ttl v k w x w'; cbn [add_rrset_loop].
  - apply (mono_ret l a (v, k)).
  - apply (mono_bind l a (add_rr h owner ty cl ttl rd v)
             (fun v' => add_rrset_loop HOwner owner ty cl ttl rds v' (S k))); [apply mono_add_rr|intros v'; apply IH].
Qed.

Lemma mono_change_section l a s : mono l a (change_section s).
Proof.
  intros w u w'. unfold change_section. change (w_section (lower l a w)) with (w_section w).
  destruct s, (w_section w); intros H; inversion H; subst; split; try reflexivity; cbn; lia.
Qed.

Lemma mono_count {A} l a s (v : A) k :
  mono l a (fun w => match checked_add16 (sec_count s w) k with
                     | Some c => Ok (v, set_sec_count s w c)
                     | None => Err (CountOverflow, w)
                     end).
Proof.
  intros w x w'. replace (sec_count s (lower l a w)) with (sec_count s w) by (destruct s; reflexivity).
  destruct (checked_add16 (sec_count s w) k); [|discriminate].
  intros [= <- <-]. split; destruct s; cbn; auto.
Qed.

(* the two operations query answering uses *)
Theorem mono_section_rr l a s h owner ty cl ttl rd v : mono l a (add_section_rr s h owner ty cl ttl rd v).
Proof.
  unfold add_section_rr. apply mono_rollback.
  apply mono_bind; [apply mono_change_section|]. intros _.
  apply mono_bind; [apply mono_add_rr|]. intros v'. apply mono_count.
Qed.

Theorem mono_section_rrset l a s h owner ty cl ttl rds v : mono l a (add_section_rrset s h owner ty cl ttl rds v).
Proof.
  unfold add_section_rrset. apply mono_rollback.
  apply mono_bind; [apply mono_change_section|]. intros _.
  apply mono_bind; [apply mono_rrset_loop|]. intros [v' k]. cbn beta iota.
  destruct (65535 <? N.of_nat k)%N; [apply mono_err|apply mono_count].
Qed.

Theorem mono_add_question l a qn qt qc : mono l a (add_question qn qt qc).
Proof.
  intros w x w'. unfold add_question. change (w_section (lower l a w)) with (w_section w).
  change (w_qd (lower l a w)) with (w_qd w).
  destruct (w_section w); try discriminate. destruct (checked_add16 (w_qd w) 1) as [nq|]; [|discriminate].
  revert w x w'. apply mono_bind.
  - apply mono_rollback. apply mono_bind; [apply mono_unhinted|]. intros pr. cbn zeta.
    apply mono_bind; [|intros _; apply mono_u16].
    apply (mono_after l a (fun w1 => if (w_qd w1 =? 0)%N then set_qname w1 pr else w1)); [| |apply mono_u16];
      intros w1; unfold lower; cbn [w_qd set_limit_avail]; destruct (w_qd w1 =? 0)%N; cbn; auto.
  - intros _ w1 x w1' [= <- <-]. split; [cbn; lia|reflexivity].
Qed.
