(* RDATA built by the zone-file parser passes the model of Rdata::validate; records,
   directives, lines and the iterator are total and preserve the context invariant. *)
From QV Require Import Base.ListX Model.NameWire Spec.NameWireS Spec.NameRepr Proofs.NameWireP
  Model.ZfReader Model.ZfParser Spec.ZfValidS Proofs.ZfStdP Proofs.ZfReaderP Proofs.ZfNameP Proofs.ZfParserP.

Local Open Scope nat_scope.

Lemma vname_good nm rest : good_name nm -> vname (n_wire nm ++ rest) false = Ok (Some (length (n_wire nm))).
Proof. intros (ls & H & ->). unfold vname, name_of. cbn [n_wire]. rewrite validate_wire by exact H. reflexivity. Qed.

Lemma vname_all_wire ls : good_labels ls -> vname_all (wire_of ls) = Ok true.
Proof. intros H. unfold vname_all, vname. rewrite validate_wire_all by exact H. reflexivity. Qed.

Lemma ok_name nm : good_name nm -> vname_all (n_wire nm) = Ok true.
Proof. intros (ls & H & ->). apply vname_all_wire. exact H. Qed.

Lemma ok_ch_a nm a : good_name nm -> validate_as_ch_a (n_wire nm ++ be16 a) = Ok true.
Proof.
  intros H. unfold validate_as_ch_a. rewrite vname_good by exact H. cbn [bind]. rewrite app_length.
  cbn [be16 length]. rewrite Nat.eqb_refl. reflexivity.
Qed.

Lemma ok_soa m r t : good_name m -> good_name r -> length t = 20 ->
  validate_as_soa (n_wire m ++ n_wire r ++ t) = Ok true.
Proof.
  intros Hm Hr Ht. unfold validate_as_soa. rewrite vname_good by exact Hm. cbn [bind].
  rewrite skipn_app_exact, vname_good by exact Hr. rewrite !app_length, Ht, (proj2 (Nat.ltb_ge _ _)) by lia.
  cbn [bind]. rewrite (proj2 (Nat.eqb_eq _ _)) by lia. reflexivity.
Qed.

Lemma vcs_ok s rest : short s ->
  validate_character_string ((N.of_nat (length s) mod 256)%N :: s ++ rest) = Some (1 + length s).
Proof.
  intros Hs. unfold short in Hs. unfold validate_character_string.
  rewrite N.mod_small by lia. rewrite Nat2N.id. cbn [length]. rewrite app_length.
  destruct (1 + length s <=? S (length s + length rest)) eqn:E; [reflexivity|apply Nat.leb_gt in E; lia].
Qed.

Lemma ok_hinfo cpu os : short cpu -> short os ->
  validate_as_hinfo ([(N.of_nat (length cpu) mod 256)%N] ++ cpu ++ [(N.of_nat (length os) mod 256)%N] ++ os) = Ok true.
Proof.
  intros Hc Ho. unfold validate_as_hinfo. cbn [app]. rewrite (vcs_ok cpu _ Hc).
  cbn [Nat.add skipn length]. rewrite skipn_app_exact, app_length. cbn [length].
  pose proof (vcs_ok os [] Ho) as H. rewrite app_nil_r in H. rewrite H.
  rewrite (proj2 (Nat.ltb_ge _ _)), (proj2 (Nat.eqb_eq _ _)) by lia. reflexivity.
Qed.

Lemma ok_minfo r e : good_name r -> good_name e -> validate_as_minfo (n_wire r ++ n_wire e) = Ok true.
Proof.
  intros Hr He. unfold validate_as_minfo. rewrite vname_good by exact Hr. cbn [bind].
  rewrite skipn_app_exact, app_length, (proj2 (Nat.ltb_ge _ _)) by lia. apply ok_name. exact He.
Qed.

Lemma ok_mx p nm : good_name nm -> validate_as_mx (be16 p ++ n_wire nm) = Ok true.
Proof. intros H. unfold validate_as_mx. simpl. apply ok_name. exact H. Qed.

Lemma ok_srv a b c nm : good_name nm -> validate_as_in_srv (be16 a ++ be16 b ++ be16 c ++ n_wire nm) = Ok true.
Proof. intros H. unfold validate_as_in_srv. simpl. apply ok_name. exact H. Qed.

Definition wf_chunk (c : bytes) : Prop := exists s, short s /\ c = (N.of_nat (length s) mod 256)%N :: s.

Lemma vtxt_chunks : forall chunks fuel, Forall wf_chunk chunks -> length chunks < fuel ->
  vtxt_loop fuel (concat chunks) = Ok true.
Proof.
  induction chunks as [|c rest IH]; intros fuel Hw Hf; (destruct fuel as [|fuel]; [simpl in Hf; lia|]).
  - reflexivity.
  - inversion Hw as [|? ? (s & Hs & ->) Hr]; subst. cbn [concat vtxt_loop app].
    rewrite (vcs_ok s (concat rest) Hs). cbn [Nat.add skipn]. rewrite skipn_app_exact.
    apply IH; [exact Hr|simpl in Hf; lia].
Qed.

Lemma concat_length_ge chunks : Forall wf_chunk chunks -> length chunks <= length (concat chunks).
Proof.
  induction 1 as [|c r (s & _ & ->) _ IH]; [simpl; lia|]. cbn [concat length app]. rewrite app_length. lia.
Qed.

Lemma ok_txt chunks : Forall wf_chunk chunks -> chunks <> [] -> validate_as_txt (concat chunks) = Ok true.
Proof.
  intros Hw Hne. unfold validate_as_txt.
  destruct (concat chunks) as [|c t] eqn:E.
  - destruct chunks as [|c0 r]; [congruence|]. inversion Hw as [|? ? (s & _ & ->) _]; subst. discriminate.
  - rewrite <- E. apply vtxt_chunks; [exact Hw|]. pose proof (concat_length_ge chunks Hw). rewrite E in *. simpl in *. lia.
Qed.

Lemma safe_mk_rdata_ok l (Q : bytes -> Prop) :
  (N.of_nat (length l) <= 65535)%N -> Q l -> safe false (mk_rdata l) Q.
Proof. intros Hl Hq. eapply safe_weaken; [apply safe_mk_rdata; exact Hl|]. intros d ->. exact Hq. Qed.

Lemma list_set_some {A} (l : list A) i x : i < length l -> exists l', list_set l i x = Some l'.
Proof.
  revert i. induction l as [|y t IH]; intros i Hi; [simpl in Hi; lia|].
  destruct i as [|i]; simpl; [eauto|]. destruct (IH i) as (t' & ->); [simpl in Hi; lia|]. eauto.
Qed.

Lemma wks_set_ok : forall ports buf, (forall p, In p ports -> N.to_nat (p / 8) < length buf) ->
  exists buf', wks_set buf ports = Some buf' /\ length buf' = length buf.
Proof.
  induction ports as [|p t IH]; intros buf H; [simpl; eauto|]. cbn [wks_set].
  assert (Hp : N.to_nat (p / 8) < length buf) by (apply H; left; reflexivity).
  destruct (nth_error buf (N.to_nat (p / 8))) as [old|] eqn:E; [|apply nth_error_None in E; lia].
  destruct (list_set_some buf (N.to_nat (p / 8)) (N.lor old (2 ^ (p mod 8))) Hp) as (b' & Hb).
  rewrite Hb. apply list_set_length in Hb. destruct (IH b') as (b'' & Hb'' & Hl'').
  - intros q Hq. rewrite Hb. apply H. right. exact Hq.
  - exists b''. split; [exact Hb''|lia].
Qed.

Lemma list_max_spec l :
  match ZfParser.list_max l with
  | Some h => In h l /\ Forall (fun p => (p <= h)%N) l
  | None => l = []
  end.
Proof.
  induction l as [|x t IH]; [reflexivity|]. cbn [ZfParser.list_max].
  destruct (ZfParser.list_max t) as [m|]; [destruct IH as [Hin Hle]|subst t].
  - split; [destruct (N.max_spec x m) as [[_ ->]|[_ ->]]; [right; exact Hin|left; reflexivity]|].
    constructor; [lia|]. eapply Forall_impl; [|exact Hle]. cbv beta. lia.
  - split; [left; reflexivity|]. constructor; [lia|constructor].
Qed.

(* the bitmap has an octet for every listed port, and at most 8192 octets *)
Lemma safe_new_in_wks addr proto ports : length addr = 4 -> Forall (fun p => (p <= 65535)%N) ports ->
  safe false (new_in_wks addr proto ports) (fun d => validate_as_in_wks d = Ok true).
Proof.
  intros Ha Hp. unfold new_in_wks. pose proof (list_max_spec ports) as Hm.
  set (len := match ZfParser.list_max ports with Some h => N.to_nat (h / 8) + 1 | None => 0 end).
  assert (Hlen : (N.of_nat len <= 8192)%N /\ forall p, In p ports -> N.to_nat (p / 8) < len).
  { unfold len. destruct (ZfParser.list_max ports) as [h|]; [|subst ports; split; [lia|contradiction]].
    destruct Hm as [Hin Hle]. rewrite Forall_forall in Hp, Hle. split.
    - pose proof (N.div_le_mono h 65535 8 ltac:(lia) (Hp h Hin)) as D. change (65535 / 8)%N with 8191%N in D. lia.
    - intros p Hi. pose proof (N.div_le_mono p h 8 ltac:(lia) (Hle p Hi)). lia. }
  destruct Hlen as [Hlen Hports].
  destruct (wks_set_ok ports (repeat 0%N len)) as (bm & Hb & Hl); [rewrite repeat_length; exact Hports|].
  rewrite Hb. rewrite repeat_length in Hl. apply safe_mk_rdata_ok.
  - rewrite !app_length. simpl length. lia.
  - unfold validate_as_in_wks. rewrite !app_length. simpl length. rewrite Ha. reflexivity.
Qed.

Definition ctx_ok (c : ctx) : Prop := origin_ok (c_origin c) /\ origin_ok (c_prev_owner c).

(* [snext L as x H]: the next step of a sequence is safe by L, x is its value and H what L says of it;
   [sskip]: the next step goes to the next field or expects the end of the line *)
Tactic Notation "snext" constr(L) "as" simple_intropattern(x) simple_intropattern(H) :=
  eapply safe_bind; [apply L|]; intros x H.
Ltac sskip := eapply safe_bind; [first [apply safe_skip_to_next_field | apply safe_expect_eol]|]; intros _ _.

Lemma safe_cbh k : safe false (check_backslash_hash k) (fun _ => True).
Proof. unfold check_backslash_hash. sskip. apply safe_expect_field_impl. Qed.

(* The shape of every typed RDATA parser: the RFC 3597 form goes through the validator of the type, and
   the type's own syntax builds octets that the validator accepts. *)
Lemma safe_typed_rdata k v (body : M bytes) : vtotal v -> safe false body (fun d => v d = Ok true) ->
  safe false (do bh <- check_backslash_hash k; if bh then parse_unknown_rdata_with_validation v else body)
       (fun d => v d = Ok true).
Proof. intros Hv Hb. snext safe_cbh as bh _. destruct bh; [apply safe_with_validation; exact Hv|exact Hb]. Qed.

Lemma safe_parse_name_rdata c : ctx_ok c -> safe false (parse_name_rdata c) (fun d => vname_all d = Ok true).
Proof.
  intros [Ho _]. apply safe_typed_rdata; [apply vname_all_total|].
  snext (safe_parse_name _ Ho) as n Hn. sskip. pose proof (good_name_len n Hn).
  apply safe_mk_rdata_ok; [lia|apply ok_name; exact Hn].
Qed.

Lemma safe_parse_in_a : safe false parse_in_a_rdata (fun d => validate_as_in_a d = Ok true).
Proof.
  apply safe_typed_rdata; [apply vt_in_a|]. snext safe_parse_ipv4 as a Ha. sskip.
  apply safe_mk_rdata_ok; [rewrite Ha; lia|]. unfold validate_as_in_a. rewrite Ha. reflexivity.
Qed.

Lemma safe_parse_in_aaaa : safe false parse_in_aaaa_rdata (fun d => validate_as_in_aaaa d = Ok true).
Proof.
  apply safe_typed_rdata; [apply vt_in_aaaa|]. snext safe_parse_ipv6 as a Ha. sskip.
  apply safe_mk_rdata_ok; [rewrite Ha; lia|]. unfold validate_as_in_aaaa. rewrite Ha. reflexivity.
Qed.

Lemma chaos_loop_safe : forall fuel start a, (a <= 65535)%N -> safeN fuel (chaos_loop fuel start a) (fun _ => True).
Proof.
  induction fuel as [|fuel IH]; intros start a Ha; [intros r Hr Hn; lia|].
  cbn [chaos_loop]. apply field_octet_stepN; [apply safe_ret; exact I|].
  intros octet. destruct (inr_ 48 55 octet) eqn:E8; [|apply safeN_of_safe, safe_failM].
  destruct (65535 <? a * 8)%N eqn:E1; [apply safeN_of_safe, safe_failM|]. apply N.ltb_ge in E1.
  unfold inr_ in E8. apply andb_true_iff in E8. destruct E8 as [L1 L2]. apply N.leb_le in L1, L2.
  (* a * 8 is a multiple of 8 below 65536, so adding at most 7 stays below 65536 *)
  rewrite (proj2 (N.ltb_ge _ _)) by lia. apply IH. lia.
Qed.

Lemma safe_parse_chaosnet_address : safe false parse_chaosnet_address (fun _ => True).
Proof.
  unfold parse_chaosnet_address. snext safe_getpos as start _. apply safe_with_fuel. intros n.
  apply chaos_loop_safe. lia.
Qed.

Lemma safe_parse_ch_a c : ctx_ok c -> safe false (parse_ch_a_rdata c) (fun d => validate_as_ch_a d = Ok true).
Proof.
  intros [Ho _]. apply safe_typed_rdata; [apply vt_ch_a|].
  snext (safe_parse_name _ Ho) as lan Hl. sskip. snext safe_parse_chaosnet_address as addr _. sskip.
  pose proof (good_name_len lan Hl).
  apply safe_mk_rdata_ok; [rewrite app_length; cbn [be16 length]; lia|apply ok_ch_a; exact Hl].
Qed.

Lemma safe_parse_soa c : ctx_ok c -> safe false (parse_soa_rdata c) (fun d => validate_as_soa d = Ok true).
Proof.
  intros [Ho _]. apply safe_typed_rdata; [apply vt_soa|].
  snext (safe_parse_name _ Ho) as m Hm. sskip. snext (safe_parse_name _ Ho) as rn Hrn. sskip.
  snext safe_parse_uint as serial _. sskip. snext safe_parse_uint as refresh _. sskip.
  snext safe_parse_uint as retry _. sskip. snext safe_parse_uint as expire _. sskip.
  snext safe_parse_uint as minimum _. sskip.
  pose proof (good_name_len m Hm). pose proof (good_name_len rn Hrn).
  apply safe_mk_rdata_ok; [rewrite !app_length; cbn [be32 length]; lia|].
  apply ok_soa; [exact Hm|exact Hrn|reflexivity].
Qed.

Lemma safe_parse_uint_strict max k : safe true (read_field (parse_uint max) k) (fun v => (v <= max)%N).
Proof.
  eapply safe_weakenQ; [apply safe_read_field_strict; intros v; rewrite parse_uint_nil; discriminate|].
  intros v [s Hs]. apply parse_uint_le in Hs. exact Hs.
Qed.

Lemma wks_loop_safe : forall fuel start count ports, Forall (fun p => (p <= 65535)%N) ports ->
  safeN fuel (wks_loop fuel start count ports) (Forall (fun p => (p <= 65535)%N)).
Proof.
  induction fuel as [|fuel IH]; intros start count ports Hp r Hr Hn; [lia|].
  cbn [wks_loop].
  apply (okres_bind false false _ _ (fun _ => True) _ r Hr (safe_through r Hr)).
  intros f r1 _ Hr1 _ Hle1. destruct f; [|simpl; auto].
  destruct (65535 <=? count)%N; [exact I|].
  (* parse_u16 consumes at least one octet: the empty string is not a number *)
  pose proof (safe_parse_uint_strict U16_MAX InvalidInt r1 Hr1) as H1. unfold bindM, parse_u16.
  destruct (read_field (parse_uint U16_MAX) InvalidInt r1) as [[port r2]|[p k|]|]; simpl in H1; auto.
  destruct H1 as (F2 & L2 & Hport). apply (okres_trans false _ r1 r2); [exact F2|lia|].
  apply IH; [constructor; assumption|unfold wfr in *; lia|lia].
Qed.

Lemma safe_parse_in_wks : safe false parse_in_wks_rdata (fun d => validate_as_in_wks d = Ok true).
Proof.
  apply safe_typed_rdata; [apply vt_in_wks|].
  snext safe_getpos as start _. snext safe_parse_ipv4 as addr Ha. sskip.
  snext safe_expect_field_impl as tcp _.
  eapply safe_bind with (Q1 := fun _ => True).
  { destruct tcp; [apply safe_ret; exact I|]. snext safe_expect_field_impl as udp _.
    destruct udp; [apply safe_ret; exact I|]. eapply safe_weaken; [apply safe_parse_uint|auto]. }
  intros proto _. apply safe_with_fuel. intros n.
  eapply safeN_bind; [apply wks_loop_safe; constructor|].
  intros ports Hp. apply safe_new_in_wks; [exact Ha|]. rewrite rev_fast_rev. apply Forall_rev. exact Hp.
Qed.

Lemma safe_parse_hinfo : safe false parse_hinfo_rdata (fun d => validate_as_hinfo d = Ok true).
Proof.
  apply safe_typed_rdata; [apply vt_hinfo|].
  snext safe_parse_character_string as cpu Hc. sskip. snext safe_parse_character_string as os Ho. sskip.
  apply safe_mk_rdata_ok; [|apply ok_hinfo; assumption].
  unfold short in *. rewrite !app_length. simpl length. lia.
Qed.

Lemma safe_parse_minfo c : ctx_ok c -> safe false (parse_minfo_rdata c) (fun d => validate_as_minfo d = Ok true).
Proof.
  intros [Ho _]. apply safe_typed_rdata; [apply vt_minfo|].
  snext (safe_parse_name _ Ho) as m Hm. sskip. snext (safe_parse_name _ Ho) as e He. sskip.
  pose proof (good_name_len m Hm). pose proof (good_name_len e He).
  apply safe_mk_rdata_ok; [rewrite app_length; lia|apply ok_minfo; assumption].
Qed.

Lemma safe_parse_mx c : ctx_ok c -> safe false (parse_mx_rdata c) (fun d => validate_as_mx d = Ok true).
Proof.
  intros [Ho _]. apply safe_typed_rdata; [apply vt_mx|].
  snext safe_parse_uint as pref _. sskip. snext (safe_parse_name _ Ho) as e He. sskip.
  pose proof (good_name_len e He).
  apply safe_mk_rdata_ok; [rewrite app_length; cbn [be16 length]; lia|apply ok_mx; exact He].
Qed.

Lemma safe_parse_in_srv c : ctx_ok c -> safe false (parse_in_srv_rdata c) (fun d => validate_as_in_srv d = Ok true).
Proof.
  intros [Ho _]. apply safe_typed_rdata; [apply vt_in_srv|].
  snext safe_parse_uint as prio _. sskip. snext safe_parse_uint as weight _. sskip.
  snext safe_parse_uint as port _. sskip. snext (safe_parse_name _ Ho) as e He. sskip.
  pose proof (good_name_len e He).
  apply safe_mk_rdata_ok; [rewrite !app_length; cbn [be16 length]; lia|apply ok_srv; exact He].
Qed.

Definition txt_ok (written : N) (chunks : list bytes) : Prop :=
  Forall wf_chunk chunks /\ written = N.of_nat (length (concat chunks)) /\ (written <= 65535)%N.

Definition txt_res (cs : list bytes) : Prop := cs <> [] /\ exists written, txt_ok written cs.

Lemma txt_loop_ok : forall fuel start written chunks r, txt_ok written chunks ->
  wfr r -> length (r_rest r) < fuel -> at_field_end_at (r_rest r) 0 = Ok false ->
  okres false txt_res r (txt_loop fuel start written chunks r).
Proof.
  induction fuel as [|fuel IH]; intros start written chunks r (Hw & Hwr & Hle) Hr Hn Hf; [lia|].
  cbn [txt_loop].
  pose proof (pcs_strict r Hr Hf) as H1. unfold bindM at 1.
  destruct (parse_character_string r) as [[cs r1]|[p k|]|]; simpl in H1; auto.
  destruct H1 as (F1 & L1 & Hcs). assert (W1 : wfr r1) by (unfold wfr in *; lia).
  destruct (65535 <? written + N.of_nat (length cs) + 1)%N eqn:E; [exact I|]. apply N.ltb_ge in E.
  set (chunks' := ((N.of_nat (length cs) mod 256)%N :: cs) :: chunks).
  assert (Hok' : txt_ok (written + N.of_nat (length cs) + 1) chunks').
  { split; [constructor; [exists cs; split; [exact Hcs|reflexivity]|exact Hw]|]. split; [|exact E].
    unfold chunks'. cbn [concat length app]. rewrite app_length. lia. }
  pose proof (through_spec r1 W1) as H2. unfold foe_post in H2. unfold bindM.
  destruct (skip_to_next_field_or_through_eol r1) as [[f r2]|[p k|]|]; auto.
  destruct H2 as (F2 & L2 & H2). destruct f.
  - apply (okres_trans false _ r r2); [congruence|lia|].
    apply IH; [exact Hok'|unfold wfr in *; lia|lia|exact H2].
  - simpl. split; [congruence|]. split; [lia|]. split; [discriminate|eexists; exact Hok'].
Qed.

Lemma cbh_spec k r : wfr r ->
  match check_backslash_hash k r with
  | Ok (b, r') => r_fuel r' = r_fuel r /\ length (r_rest r') <= length (r_rest r) /\
                  (b = false -> at_field_end_at (r_rest r') 0 = Ok false)
  | Err (ZErr _ _) => True
  | Err ZOutOfFuel => False
  | Panic => False
  end.
Proof.
  intros Hr. unfold check_backslash_hash, bindM, skip_to_next_field, skip_to_next_field_or_to_eol.
  pose proof (safe_foe false r Hr) as H1. pose proof (foe_at_field false r Hr) as H2. cbn beta in H1.
  destruct (foe_loop (foe_fuel r) false r) as [[f r1]|[p kk|]|]; simpl in H1; auto.
  destruct H1 as (F1 & L1 & _). destruct f; [|exact I]. cbn [bind].
  destruct (expect_field_impl_spec [92%N; 35%N] bytes_eqb r1) as [H|[H Hl]]; unfold expect_field; rewrite H.
  - split; [exact F1|]. split; [exact L1|]. intros _. exact H2.
  - rewrite adv_fuel, adv_len. split; [exact F1|]. split; [lia|]. discriminate.
Qed.

Lemma concat_rev_length (l : list bytes) : length (concat (rev l)) = length (concat l).
Proof.
  induction l as [|a l IH]; [reflexivity|]. cbn [rev concat]. rewrite concat_app, !app_length. cbn [concat].
  rewrite app_nil_r. lia.
Qed.

Lemma safe_parse_txt : safe false parse_txt_rdata (fun d => validate_as_txt d = Ok true).
Proof.
  intros r Hr. unfold parse_txt_rdata. pose proof (cbh_spec ExpectedCharacterStringOrBh r Hr) as H1.
  unfold bindM at 1.
  destruct (check_backslash_hash ExpectedCharacterStringOrBh r) as [[bh r1]|[p k|]|]; auto.
  destruct H1 as (F1 & L1 & H1). assert (W1 : wfr r1) by (unfold wfr in *; lia).
  apply (okres_trans false _ r r1); [exact F1|exact L1|].
  destruct bh; [apply safe_with_validation; [apply vt_txt|exact W1]|].
  specialize (H1 eq_refl). unfold bindM at 1, getpos. unfold bindM at 1, get_fuel.
  apply (okres_bind false false _ _ txt_res _ r1 W1).
  - apply txt_loop_ok; [split; [constructor|split; [reflexivity|simpl; lia]]|exact W1|unfold wfr in W1; lia|exact H1].
  - intros cs r2 (Hne & w & Hw & -> & Hlen) W2 _ _. rewrite rev_fast_rev.
    apply safe_mk_rdata_ok; [rewrite concat_rev_length; exact Hlen| |exact W2].
    apply ok_txt; [apply Forall_rev; exact Hw|].
    intros Hnil. apply Hne. rewrite <- (rev_involutive cs), Hnil. reflexivity.
Qed.

Lemma dispatch_agree : name_rdata_types = validate_name_types.
Proof. reflexivity. Qed.

(* source ties: no proof uses these; they fail to compile when the tables regenerated from the source (Gen) stop
   being the ones parse_type, parse_rdata and rdata_validate were modelled with *)
Lemma refused_types_val : refused_types = [TYPE_NULL; TYPE_OPT; TYPE_TSIG].
Proof. reflexivity. Qed.
Lemma rdata_dispatch_val : rdata_dispatch =
  [(TYPE_PTR, None); (TYPE_A, Some CLASS_IN); (TYPE_A, Some CLASS_CH); (TYPE_SOA, None); (TYPE_WKS, Some CLASS_IN);
   (TYPE_HINFO, None); (TYPE_MINFO, None); (TYPE_MX, None); (TYPE_TXT, None); (TYPE_AAAA, Some CLASS_IN);
   (TYPE_SRV, Some CLASS_IN)].
Proof. reflexivity. Qed.
Lemma validate_dispatch_val : validate_dispatch =
  [(TYPE_A, Some CLASS_IN); (TYPE_A, Some CLASS_CH); (TYPE_SOA, None); (TYPE_WKS, Some CLASS_IN); (TYPE_HINFO, None);
   (TYPE_MINFO, None); (TYPE_MX, None); (TYPE_TXT, None); (TYPE_AAAA, Some CLASS_IN); (TYPE_SRV, Some CLASS_IN);
   (TYPE_OPT, None); (TYPE_TSIG, None)].
Proof. reflexivity. Qed.
Lemma limits_val : MAX_READ_FIELD_SIZE = 65536%N /\ INCLUDE_PATH_MAX = 65536%N.
Proof. split; reflexivity. Qed.

Definition type_allowed (t : N) : Prop := t <> TYPE_NULL /\ t <> TYPE_OPT /\ t <> TYPE_TSIG.

Lemma safe_parse_rdata c class t : ctx_ok c -> type_allowed t ->
  safe false (parse_rdata c class t) (fun d => rdata_validate class t d = Ok true).
Proof.
  intros Hc (Hn & Ho & Ht). unfold parse_rdata, rdata_validate. rewrite <- dispatch_agree.
  destruct (in_types t name_rdata_types); [apply safe_parse_name_rdata; exact Hc|].
  destruct ((t =? TYPE_A)%N && (class =? CLASS_IN)%N); [apply safe_parse_in_a|].
  destruct ((t =? TYPE_A)%N && (class =? CLASS_CH)%N); [apply safe_parse_ch_a; exact Hc|].
  destruct (t =? TYPE_SOA)%N; [apply safe_parse_soa; exact Hc|].
  destruct ((t =? TYPE_WKS)%N && (class =? CLASS_IN)%N); [apply safe_parse_in_wks|].
  destruct (t =? TYPE_HINFO)%N; [apply safe_parse_hinfo|].
  destruct (t =? TYPE_MINFO)%N; [apply safe_parse_minfo; exact Hc|].
  destruct (t =? TYPE_MX)%N; [apply safe_parse_mx; exact Hc|].
  destruct (t =? TYPE_TXT)%N; [apply safe_parse_txt|].
  destruct ((t =? TYPE_AAAA)%N && (class =? CLASS_IN)%N); [apply safe_parse_in_aaaa|].
  destruct ((t =? TYPE_SRV)%N && (class =? CLASS_IN)%N); [apply safe_parse_in_srv; exact Hc|].
  assert (E : ((t =? TYPE_OPT)%N || (t =? TYPE_TSIG)%N) = false).
  { apply orb_false_iff. split; apply N.eqb_neq; assumption. }
  rewrite E. snext safe_cbh as bh _. destruct bh; cbn [negb]; [|apply safe_failHere].
  eapply safe_weaken; [apply safe_parse_unknown_rdata|]. intros; reflexivity.
Qed.

Lemma safe_parse_type : safe true parse_type type_allowed.
Proof.
  unfold parse_type. eapply safe_bind_ft; [apply safe_getpos|]. intros position _.
  eapply safe_bind_tf.
  - apply (safe_read_field_strict type_from_str InvalidType). intros v. rewrite type_from_str_nil. discriminate.
  - intros t _. destruct (t =? TYPE_NULL)%N eqn:E1; [apply safe_failM|].
    destruct (t =? TYPE_OPT)%N eqn:E2; [apply safe_failM|].
    destruct (t =? TYPE_TSIG)%N eqn:E3; [apply safe_failM|].
    apply safe_ret. repeat split; apply N.eqb_neq; assumption.
Qed.

Lemma safe_parse_ttl : safe false parse_ttl (fun _ => True).
Proof. unfold parse_ttl. snext safe_parse_uint as v _. apply safe_ret. exact I. Qed.

Lemma safe_parse_class : safe false parse_class (fun _ => True).
Proof. eapply safe_weaken; [apply safe_read_field|auto]. Qed.

Lemma safe_parse_ttl_and_class c : safe false (parse_ttl_and_class c) (fun _ => True).
Proof.
  unfold parse_ttl_and_class. snext (safe_try_ok _ _ safe_parse_ttl) as [ttl|] _.
  - sskip. snext (safe_try_ok _ _ safe_parse_class) as [class|] _.
    + apply safe_ret; exact I.
    + destruct (c_prev_class c); [apply safe_ret; exact I|apply safe_failHere].
  - snext (safe_try_ok _ _ safe_parse_class) as [class|] _.
    + sskip. snext (safe_try_ok _ _ safe_parse_ttl) as [ttl|] _.
      * apply safe_ret; exact I.
      * destruct (default_or_previous_ttl c); [apply safe_ret; exact I|apply safe_failHere].
    + destruct (default_or_previous_ttl c); [|apply safe_failHere].
      destruct (c_prev_class c); [apply safe_ret; exact I|apply safe_failHere].
Qed.

Definition line_ok (l : line) : Prop :=
  match l_content l with
  | CRecord rr => good_name (rr_owner rr) /\ type_allowed (rr_type rr) /\
                  rdata_validate (rr_class rr) (rr_type rr) (rr_rdata rr) = Ok true
  | CInclude _ o => origin_ok o
  end.

Definition line_res (x : option line * ctx) : Prop :=
  ctx_ok (snd x) /\ forall l, fst x = Some l -> line_ok l.

Lemma safe_record_fields c sol lw : ctx_ok c -> safe true (parse_record_fields c sol lw) line_res.
Proof.
  intros Hc. pose proof Hc as [Ho Hp]. unfold parse_record_fields.
  eapply safe_bind_ft with (Q1 := good_name).
  { destruct lw; [|apply safe_parse_name; exact Ho].
    destruct (c_prev_owner c) as [o|] eqn:E; [apply safe_ret; apply Hp; reflexivity|apply safe_failM]. }
  intros owner Hown. eapply safe_bind_ft; [apply safe_skip_to_next_field|]. intros _ _.
  eapply safe_bind_ft; [apply safe_parse_ttl_and_class|]. intros tc _.
  eapply safe_bind_ft; [apply safe_skip_to_next_field|]. intros _ _.
  eapply safe_bind_tf; [apply safe_parse_type|]. intros t Ht.
  eapply safe_bind; [apply safe_parse_rdata; assumption|]. intros d Hd.
  apply safe_ret. split.
  - split; cbn; [exact Ho|]. intros n [= <-]. exact Hown.
  - cbn. intros l [= <-]. unfold line_ok. cbn. auto.
Qed.

Lemma record_or_empty_ok c r : wfr r -> r_rest r <> [] -> ctx_ok c ->
  okres true line_res r (parse_record_or_empty c r).
Proof.
  intros Hr Hne Hc. unfold parse_record_or_empty. unfold bindM at 1, getpos. unfold bindM at 1, lift.
  pose proof (skip_whitespace_le r) as [Wf Wl]. pose proof (skip_whitespace_cases r) as Wc.
  destruct (skip_whitespace r) as [lw r1]. cbn [fst snd] in *.
  assert (W1 : wfr r1) by (unfold wfr in *; lia).
  pose proof (through_spec r1 W1) as H2. unfold foe_post in H2. unfold bindM.
  destruct (skip_to_next_field_or_through_eol r1) as [[f r2]|[p k|]|]; auto.
  destruct H2 as (F2 & L2 & H2). destruct f.
  - apply (okres_trans true line_res r r2); [congruence|lia|].
    apply safe_record_fields; [exact Hc|unfold wfr in *; lia].
  - simpl. split; [congruence|]. split.
    + destruct Wc as [[_ W]|[_ W]]; [lia|]. rewrite W in H2. exact (H2 eq_refl Hne).
    + split; [exact Hc|]. cbn. discriminate.
Qed.

Lemma safe_push_path_octet o p n start : safe false (push_path_octet o p n start) (fun _ => True).
Proof. unfold push_path_octet. destruct (n <? INCLUDE_PATH_MAX)%N; [apply safe_ret; exact I|apply safe_failM]. Qed.

Lemma pqip_loop_safe : forall fuel start p n, safeN fuel (pqip_loop fuel start p n) (fun _ => True).
Proof.
  induction fuel as [|fuel IH]; intros start p n r Hr Hn; [lia|].
  cbn [pqip_loop]. unfold bindM at 1, getpos.
  apply (read_octet_step _ _ fuel r Hr Hn).
  - intros r' Hr'. exact I.
  - intros octet. destruct (octet =? 92)%N.
    + apply after_escape. intros e. eapply safeN_bind_r; [apply safe_push_path_octet|]. intros pn _. apply IH.
    + destruct (octet =? 34)%N; [apply safeN_of_safe, safe_ret; exact I|].
      eapply safeN_bind_r; [apply safe_push_path_octet|]. intros pn _. apply IH.
Qed.

Lemma puip_loop_safe : forall fuel start p n, safeN fuel (puip_loop fuel start p n) (fun _ => True).
Proof.
  induction fuel as [|fuel IH]; intros start p n; [intros r Hr Hn; lia|].
  cbn [puip_loop]. apply field_octet_stepN; [apply safe_ret; exact I|]. intros octet.
  eapply safeN_bind_r with (Q1 := fun _ => True).
  - destruct (octet =? 92)%N; [apply safe_parse_escape|apply safe_ret; exact I].
  - intros eff _. eapply safeN_bind_r; [apply safe_push_path_octet|]. intros pn _. apply IH.
Qed.

Lemma safe_parse_include_path : safe false parse_include_path (fun _ => True).
Proof.
  intros r Hr. unfold parse_include_path.
  destruct (match peek_octet r with Some c => (c =? 34)%N | None => false end); (apply safe_at; [|exact Hr]).
  - snext safe_getpos as start _. snext (safe_lift read_octet read_octet_le) as o _.
    apply safe_with_fuel. intros n. apply pqip_loop_safe.
  - snext safe_getpos as start _. apply safe_with_fuel. intros n. apply puip_loop_safe.
Qed.

Definition ctx_res (c : ctx) : Prop := ctx_ok c.

Lemma safe_origin_directive c : ctx_ok c -> safe false (parse_origin_directive c) ctx_ok.
Proof.
  intros [Ho Hp]. unfold parse_origin_directive. sskip. snext (safe_parse_name _ Ho) as n Hn. sskip.
  apply safe_ret. split; cbn; [intros m [= <-]; exact Hn|exact Hp].
Qed.

Lemma safe_ttl_directive c : ctx_ok c -> safe false (parse_ttl_directive c) ctx_ok.
Proof.
  intros [Ho Hp]. unfold parse_ttl_directive. sskip. snext safe_parse_uint as ttl _. sskip.
  apply safe_ret. split; cbn; assumption.
Qed.

Lemma safe_include_directive c : ctx_ok c -> safe false (parse_include_directive c) line_ok.
Proof.
  intros [Ho Hp]. unfold parse_include_directive. snext safe_getpos as p _. sskip.
  snext safe_parse_include_path as path _. snext safe_through as f _.
  eapply safe_bind with (Q1 := origin_ok).
  - destruct f; [|apply safe_ret; exact Ho]. snext (safe_parse_name _ Ho) as o Hgo. sskip.
    apply safe_ret. intros m [= <-]. exact Hgo.
  - intros org Horg. apply safe_ret. unfold line_ok. cbn. exact Horg.
Qed.

(* a matched keyword is consumed and has at least one octet: that is the strict progress of the [f true] branch *)
Lemma expect_then {B} field cmp (f : bool -> M B) (Q : B -> Prop) r :
  wfr r -> 1 <= length field ->
  safe false (f true) Q ->
  (okres true Q r (f false r)) ->
  okres true Q r (bindM (expect_field_impl field cmp) f r).
Proof.
  intros Hr Hlen Ht Hfalse. unfold bindM.
  destruct (expect_field_impl_spec field cmp r) as [H|[H Hl]]; rewrite H; [exact Hfalse|].
  assert (W : wfr (adv r (length field))) by (unfold wfr in *; rewrite adv_fuel, adv_len; lia).
  specialize (Ht _ W). pose proof (adv_len r (length field)) as AL. pose proof (adv_fuel r (length field)) as AF.
  destruct (f true (adv r (length field))) as [[b r2]|[p k|]|]; unfold okres in *; auto.
  destruct Ht as (G1 & G2 & G3). split; [congruence|]. split; [lia|exact G3].
Qed.

Lemma directive_ok c r : wfr r -> ctx_ok c -> okres true line_res r (parse_directive c r).
Proof.
  intros Hr Hc. unfold parse_directive, expect_field_ci.
  apply expect_then; [exact Hr|simpl; lia| |].
  { snext (safe_origin_directive c Hc) as c' Hc'. apply safe_ret. split; [exact Hc'|cbn; discriminate]. }
  apply expect_then; [exact Hr|simpl; lia| |].
  { snext (safe_ttl_directive c Hc) as c' Hc'. apply safe_ret. split; [exact Hc'|cbn; discriminate]. }
  apply expect_then; [exact Hr|simpl; lia| |exact I].
  snext (safe_include_directive c Hc) as l Hl. apply safe_ret.
  split; [exact Hc|cbn; intros l' [= <-]; exact Hl].
Qed.

Lemma parse_line_ok c r : wfr r -> r_rest r <> [] -> ctx_ok c -> okres true line_res r (parse_line c r).
Proof.
  intros Hr Hne Hc. unfold parse_line. destruct (peek_octet r) as [d|].
  - destruct (d =? 36)%N; [apply directive_ok|apply record_or_empty_ok]; assumption.
  - apply record_or_empty_ok; assumption.
Qed.

Lemma lines_at_eof fuel c r : r_rest r = [] -> lines_loop (S fuel) c r = Ok (None, c, r).
Proof. intros E. cbn [lines_loop]. unfold at_eof. rewrite E. reflexivity. Qed.

Lemma lines_step fuel c r : r_rest r <> [] ->
  lines_loop (S fuel) c r =
  match parse_line c r with
  | Ok ((Some l, c'), r') => Ok (Some l, c', r')
  | Ok ((None, c'), r') => lines_loop fuel c' r'
  | Err e => Err e
  | Panic => Panic
  end.
Proof. intros H. cbn [lines_loop]. unfold at_eof. destruct (r_rest r); [congruence|reflexivity]. Qed.

Lemma lines_loop_ok : forall fuel c r, wfr r -> ctx_ok c -> length (r_rest r) < fuel ->
  match lines_loop fuel c r with
  | Ok (ol, c', r') =>
    r_fuel r' = r_fuel r /\ length (r_rest r') <= length (r_rest r) /\ ctx_ok c' /\
    match ol with
    | Some l => line_ok l /\ length (r_rest r') < length (r_rest r)
    | None => r_rest r' = []
    end
  | Err (ZErr _ _) => True
  | Err ZOutOfFuel => False
  | Panic => False
  end.
Proof.
  induction fuel as [|fuel IH]; intros c r Hr Hc Hn; [lia|].
  assert (D : r_rest r = [] \/ r_rest r <> []) by (destruct (r_rest r); [left; reflexivity|right; discriminate]).
  destruct D as [E|Hne]; [rewrite (lines_at_eof fuel c r E); auto|]. rewrite (lines_step fuel c r Hne).
  pose proof (parse_line_ok c r Hr Hne Hc) as H.
  destruct (parse_line c r) as [[[ol c'] r']|[p k|]|]; simpl in H; auto.
  destruct H as (F & L & Hc' & Hl). cbn [fst snd] in *.
  destruct ol as [l|]; [split; [exact F|split; [lia|split; [exact Hc'|split; [apply Hl; reflexivity|exact L]]]]|].
  assert (W : wfr r') by (unfold wfr in *; lia).
  specialize (IH c' r' W Hc' ltac:(lia)).
  destruct (lines_loop fuel c' r') as [[[ol c''] r'']|[p k|]|]; auto.
  destruct IH as (F2 & L2 & Hc2 & Hl2). split; [congruence|]. split; [lia|]. split; [exact Hc2|].
  destruct ol as [l|]; [split; [apply Hl2|lia]|exact Hl2].
Qed.

Definition item := (line + (pos * zkind))%type.

Definition pinv (p : parser) : Prop := wfr (ps_rd p) /\ ctx_ok (ps_ctx p).
(* 0 once the error flag is set: after an error one more call, which returns None, ends the run (drive_spec) *)
Definition measure (p : parser) : nat := if ps_error p then 0 else S (length (r_rest (ps_rd p))).

Lemma next_after_error p : ps_error p = true -> parser_next p = Ok (None, p).
Proof. intros H. unfold parser_next. rewrite H. reflexivity. Qed.

Lemma next_step p : pinv p -> ps_error p = false ->
  exists o p', parser_next p = Ok (o, p') /\ pinv p' /\
    match o with
    | Some (inl l) => line_ok l /\ ps_error p' = false /\ measure p' < measure p
    | Some (inr _) => ps_error p' = true
    | None => ps_error p' = false /\ parser_next p' = Ok (None, p')
    end.
Proof.
  intros [Hr Hc] He. unfold parser_next at 1. rewrite He.
  assert (L : length (r_rest (ps_rd p)) < r_fuel (ps_rd p)) by (unfold wfr in Hr; lia).
  pose proof (lines_loop_ok _ (ps_ctx p) (ps_rd p) Hr Hc L) as H.
  destruct (lines_loop (r_fuel (ps_rd p)) (ps_ctx p) (ps_rd p)) as [[[ol c'] r']|[ps k|]|]; try contradiction.
  - destruct H as (F & Le & Hc' & Hl). assert (W : wfr r') by (unfold wfr in *; lia).
    destruct ol as [l|]; eexists _, _; (split; [reflexivity|]); (split; [split; assumption|]).
    + destruct Hl as [A B]. split; [exact A|]. split; [reflexivity|]. unfold measure. rewrite He. cbn. lia.
    + split; [reflexivity|]. unfold parser_next. cbn [ps_error ps_rd ps_ctx].
      destruct (r_fuel r') as [|f]; [unfold wfr in W; lia|]. rewrite (lines_at_eof f c' r' Hl). reflexivity.
  - eexists _, _. split; [reflexivity|]. split; [split; assumption|reflexivity].
Qed.

Lemma next_spec p : pinv p -> ps_error p = false ->
  exists o p', parser_next p = Ok (o, p') /\ pinv p' /\
    match o with
    | Some (inl l) => line_ok l /\ ps_error p' = false /\ measure p' < measure p
    | Some (inr _) => ps_error p' = true
    | None => ps_error p' = false
    end.
Proof.
  intros Hp He. destruct (next_step p Hp He) as (o & p' & Hn & Hp' & Ho). exists o, p'.
  split; [exact Hn|]. split; [exact Hp'|]. destruct o as [[l|e]|]; [exact Ho|exact Ho|apply Ho].
Qed.

Lemma next_none_again p p' : pinv p -> ps_error p = false ->
  parser_next p = Ok (None, p') -> parser_next p' = Ok (None, p').
Proof.
  intros Hp He H. destruct (next_step p Hp He) as (o & p'' & Hn & _ & Ho).
  rewrite Hn in H. inversion H; subst. apply Ho.
Qed.

Definition item_ok {L E} (ok : L -> Prop) (it : L + E) : Prop := match it with inl l => ok l | inr _ => True end.
Definition is_line {L E} (it : L + E) : Prop := match it with inl _ => True | inr _ => False end.

Lemma error_is_last {L E} (ls tl : list (L + E)) i e : Forall is_line ls -> (tl = [] \/ exists e', tl = [inr e']) ->
  nth_error (ls ++ tl) i = Some (inr e) -> S i = length (ls ++ tl).
Proof.
  intros Hl Ht Hi. destruct (Nat.lt_ge_cases i (length ls)) as [Hlt|Hge].
  - rewrite nth_error_app1 in Hi by exact Hlt. rewrite Forall_forall in Hl.
    apply nth_error_In, Hl in Hi. contradiction.
  - rewrite nth_error_app2 in Hi by exact Hge. rewrite app_length. destruct Ht as [->|[e' ->]].
    + destruct (i - length ls); discriminate.
    + destruct (i - length ls) as [|[|j]] eqn:Ek; [simpl; lia|discriminate|discriminate].
Qed.

(* [collect] (and the driver of the records-only iterator) is [drive] for its step function: what is
   proved of [drive] needs only the two facts about the step that the hypotheses state. *)
Section Drive.
Context {L : Type}.
Variable next : parser -> res zerr (option (L + (pos * zkind)) * parser).
Variable ok : L -> Prop.

Fixpoint drive (fuel : nat) (p : parser) (acc : list (L + (pos * zkind)))
  : res zerr (list (L + (pos * zkind)) * parser) :=
  match fuel with
  | O => Err ZOutOfFuel
  | S fuel' =>
    let* (o, p') := next p in
    match o with
    | Some it => drive fuel' p' (it :: acc)
    | None => Ok (rev_fast acc, p')
    end
  end.

Hypothesis next_stopped : forall p, ps_error p = true -> next p = Ok (None, p).
Hypothesis next_ok : forall p, pinv p -> ps_error p = false ->
  exists o p', next p = Ok (o, p') /\ pinv p' /\
    match o with
    | Some (inl l) => ok l /\ ps_error p' = false /\ measure p' < measure p
    | Some (inr _) => ps_error p' = true
    | None => ps_error p' = false /\ next p' = Ok (None, p')
    end.

Lemma drive_spec : forall fuel p acc, pinv p -> ps_error p = false -> measure p < fuel ->
  Forall is_line acc -> Forall (item_ok ok) acc ->
  exists items p', drive fuel p acc = Ok (items, p') /\ Forall (item_ok ok) items /\
    next p' = Ok (None, p') /\
    (exists ls tl, items = ls ++ tl /\ Forall is_line ls /\ (tl = [] \/ exists e, tl = [inr e])).
Proof.
  induction fuel as [|fuel IH]; intros p acc Hp He Hm Hl Hok; [lia|].
  cbn [drive]. destruct (next_ok p Hp He) as (o & p' & Hn & Hp' & Ho). rewrite Hn. cbn [bind].
  destruct o as [[l|e]|].
  - destruct Ho as (A & B & C). apply IH; [exact Hp'|exact B|lia|constructor; [exact I|exact Hl]|constructor; [exact A|exact Hok]].
  - (* after an error the next call ends the run *)
    destruct fuel as [|fuel]; [unfold measure in Hm; rewrite He in Hm; lia|].
    cbn [drive]. rewrite (next_stopped p' Ho). cbn [bind]. eexists _, _. split; [reflexivity|].
    rewrite rev_fast_rev. cbn [rev]. split; [|split; [exact (next_stopped p' Ho)|]].
    + apply Forall_app. split; [apply Forall_rev; exact Hok|constructor; [exact I|constructor]].
    + exists (rev acc), [inr e]. split; [reflexivity|]. split; [apply Forall_rev; exact Hl|right; eauto].
  - eexists _, _. split; [reflexivity|]. rewrite rev_fast_rev. split; [apply Forall_rev; exact Hok|].
    split; [apply Ho|]. exists (rev acc), []. rewrite app_nil_r.
    split; [reflexivity|]. split; [apply Forall_rev; exact Hl|left; reflexivity].
Qed.
End Drive.

Lemma collect_drive : forall fuel p acc, collect fuel p acc = drive parser_next fuel p acc.
Proof.
  induction fuel as [|fuel IH]; intros p acc; [reflexivity|]. cbn [collect drive].
  destruct (parser_next p) as [[[it|] p']|e|]; cbn [bind]; auto.
Qed.

Lemma pinv_new input : pinv (parser_new input).
Proof.
  split; [unfold wfr; cbn; lia|]. split; intros n H; discriminate.
Qed.

Theorem parse_all_spec input :
  exists items p, parse_all input = Ok (items, p) /\ Forall (item_ok line_ok) items /\
    parser_next p = Ok (None, p) /\
    (exists ls tl, items = ls ++ tl /\ Forall is_line ls /\ (tl = [] \/ exists e, tl = [inr e])).
Proof.
  unfold parse_all. rewrite collect_drive.
  apply (drive_spec parser_next line_ok next_after_error next_step);
    [apply pinv_new|reflexivity|unfold measure; cbn; lia|constructor|constructor].
Qed.

Theorem parse_all_total input : exists items p, parse_all input = Ok (items, p).
Proof. destruct (parse_all_spec input) as (items & p & H & _). eauto. Qed.

Lemma next_error_sets_flag p e p' : parser_next p = Ok (Some (inr e), p') -> ps_error p' = true.
Proof.
  unfold parser_next. destruct (ps_error p); [discriminate|].
  destruct (lines_loop _ _ _) as [[[ol c] r]|[ps k|]|]; try discriminate.
  - destruct ol; discriminate.
  - intros [= _ <-]. reflexivity.
Qed.

Fixpoint next_n (n : nat) (p : parser) : list (res zerr (option item * parser)) :=
  match n with
  | O => []
  | S n' => parser_next p :: match parser_next p with Ok (_, p') => next_n n' p' | _ => [] end
  end.

Theorem stops_after_error p e p' : parser_next p = Ok (Some (inr e), p') ->
  forall n, Forall (fun x => x = Ok (None, p')) (next_n n p').
Proof.
  intros H. apply next_error_sets_flag in H. induction n as [|n IH]; [constructor|].
  cbn [next_n]. rewrite (next_after_error p' H). constructor; [reflexivity|exact IH].
Qed.

Theorem errors_only_last input items p : parse_all input = Ok (items, p) ->
  parser_next p = Ok (None, p) /\
  forall i e, nth_error items i = Some (inr e) -> S i = length items.
Proof.
  intros H. destruct (parse_all_spec input) as (items' & p' & H' & _ & Hn & ls & tl & -> & Hl & Ht).
  rewrite H in H'. inversion H'; subst. split; [exact Hn|].
  intros i e. apply error_is_last; assumption.
Qed.

Lemma type_allowed_forbidden t : type_allowed t -> ~ In t forbidden_types.
Proof.
  intros (A & B & C) Hin. unfold forbidden_types in Hin.
  change TYPE_NULL with 10%N in A. change TYPE_OPT with 41%N in B. change TYPE_TSIG with 250%N in C.
  simpl in Hin. intuition congruence.
Qed.

Theorem records_valid input items p n rr : parse_all input = Ok (items, p) ->
  In (inl (mkLine n (CRecord rr))) items ->
  good_name (rr_owner rr) /\ ~ In (rr_type rr) forbidden_types /\
  rdata_validate (rr_class rr) (rr_type rr) (rr_rdata rr) = Ok true.
Proof.
  intros H Hin. destruct (parse_all_spec input) as (items' & p' & H' & Hok & _).
  rewrite H in H'. inversion H'; subst. rewrite Forall_forall in Hok. specialize (Hok _ Hin).
  cbn in Hok. unfold line_ok in Hok. cbn in Hok. destruct Hok as (A & B & C).
  split; [exact A|]. split; [apply type_allowed_forbidden; exact B|exact C].
Qed.

Theorem includes_valid input items p n path o : parse_all input = Ok (items, p) ->
  In (inl (mkLine n (CInclude path (Some o)))) items -> good_name o.
Proof.
  intros H Hin. destruct (parse_all_spec input) as (items' & p' & H' & Hok & _).
  rewrite H in H'. inversion H'; subst. rewrite Forall_forall in Hok. specialize (Hok _ Hin).
  cbn in Hok. unfold line_ok in Hok. cbn in Hok. apply Hok. reflexivity.
Qed.

(* a good name passes the (C14) model of Name::validate_uncompressed_all and ends in the root label *)
Theorem good_name_absolute nm : good_name nm ->
  validate_uncompressed_name (n_wire nm) true = Ok (length (n_wire nm)) /\
  last (n_wire nm) 1%N = 0%N /\ length (n_wire nm) <= 255.
Proof.
  intros (ls & H & ->). unfold name_of. cbn [n_wire]. split; [apply validate_wire_all; exact H|].
  split; [unfold wire_of; apply last_last|]. destruct H as [_ H]. exact H.
Qed.
