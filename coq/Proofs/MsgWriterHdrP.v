(* The header octets and the EDNS/TSIG settings of the writer are those of the abstract header state
   denoted by the operations that succeeded (Spec/MsgWriterAbsS.v: hstep / hreplay). *)
From QV Require Import Base.ListX Model.MsgWriter Spec.MsgWriterS Spec.MsgWriterAbsS
     Proofs.NameWireP Proofs.MsgWriterP Proofs.MsgWriterScanP Proofs.MsgWriterNameP Proofs.MsgWriterInvP
     Proofs.MsgWriterStepP.

Local Open Scope nat_scope.

Definition dec2 (x : N) : bool * N * bool * bool * bool :=
  (N.testbit x 7, ((x / 8) mod 16)%N, N.testbit x 2, N.testbit x 1, N.testbit x 0).
Definition dec3 (x : N) : bool * N * N := (N.testbit x 7, ((x / 16) mod 8)%N, (x mod 16)%N).

Definition t5eqb (a b : bool * N * bool * bool * bool) : bool :=
  let '(a1, a2, a3, a4, a5) := a in let '(b1, b2, b3, b4, b5) := b in
  Bool.eqb a1 b1 && (a2 =? b2)%N && Bool.eqb a3 b3 && Bool.eqb a4 b4 && Bool.eqb a5 b5.
Definition t3eqb (a b : bool * N * N) : bool :=
  let '(a1, a2, a3) := a in let '(b1, b2, b3) := b in Bool.eqb a1 b1 && (a2 =? b2)%N && (a3 =? b3)%N.

Lemma t5eqb_eq a b : t5eqb a b = true -> a = b.
Proof.
  destruct a as [[[[a1 a2] a3] a4] a5]. destruct b as [[[[b1 b2] b3] b4] b5]. simpl.
  rewrite !andb_true_iff. intros [[[[H1 H2] H3] H4] H5].
  apply Bool.eqb_prop in H1, H3, H4, H5. apply N.eqb_eq in H2. subst. reflexivity.
Qed.
Lemma t3eqb_eq a b : t3eqb a b = true -> a = b.
Proof.
  destruct a as [[a1 a2] a3]. destruct b as [[b1 b2] b3]. simpl.
  rewrite !andb_true_iff. intros [[H1 H2] H3].
  apply Bool.eqb_prop in H1. apply N.eqb_eq in H2, H3. subst. reflexivity.
Qed.

Definition upd2 (which : nat) (v : bool) (t : bool * N * bool * bool * bool) : bool * N * bool * bool * bool :=
  let '(qr, op, aa, tc, rd) := t in
  match which with 0 => (v, op, aa, tc, rd) | 1 => (qr, op, v, tc, rd) | 2 => (qr, op, aa, v, rd)
                 | _ => (qr, op, aa, tc, v) end.

(* exhaustive over the 256 octet values *)
Lemma flag2_sweep :
  forallb (fun x => forallb (fun v =>
     (set_bit 128 v x <? 256)%N && t5eqb (dec2 (set_bit 128 v x)) (upd2 0 v (dec2 x)) &&
     (set_bit 4 v x <? 256)%N && t5eqb (dec2 (set_bit 4 v x)) (upd2 1 v (dec2 x)) &&
     (set_bit 2 v x <? 256)%N && t5eqb (dec2 (set_bit 2 v x)) (upd2 2 v (dec2 x)) &&
     (set_bit 1 v x <? 256)%N && t5eqb (dec2 (set_bit 1 v x)) (upd2 3 v (dec2 x)))
     [true; false]) (upto 256) = true.
Proof. vm_compute. reflexivity. Qed.

Lemma opcode_sweep :
  forallb (fun x => forallb (fun op =>
     let y := N.lor (N.land x (255 - 120)) ((op * 2 ^ 3) mod 256) in
     (y <? 256)%N && t5eqb (dec2 y) (let '(qr, _, aa, tc, rd) := dec2 x in (qr, op, aa, tc, rd)))
     (upto 16)) (upto 256) = true.
Proof. vm_compute. reflexivity. Qed.

Lemma flag3_sweep :
  forallb (fun x => forallb (fun v =>
     (set_bit 128 v x <? 256)%N &&
     t3eqb (dec3 (set_bit 128 v x)) (let '(_, z, rc) := dec3 x in (v, z, rc))) [true; false]) (upto 256) = true.
Proof. vm_compute. reflexivity. Qed.

Lemma rcode_sweep :
  forallb (fun x => forallb (fun rc =>
     let y := N.lor (N.land x (255 - 15)) rc in
     (y <? 256)%N && t3eqb (dec3 y) (let '(ra, z, _) := dec3 x in (ra, z, rc)))
     (upto 16)) (upto 256) = true.
Proof. vm_compute. reflexivity. Qed.

Lemma land15_sweep : forallb (fun y => (N.land y 15 =? y mod 16)%N) (upto 256) = true.
Proof. vm_compute. reflexivity. Qed.

Lemma sweep2 {A} (f : N -> A -> bool) (l : list A) n x a : forallb (fun x => forallb (f x) l) (upto n) = true ->
  (x < N.of_nat n)%N -> In a l -> f x a = true.
Proof.
  intros H Hx Ha. rewrite forallb_forall in H. specialize (H x (upto_In n x Hx)).
  rewrite forallb_forall in H. apply H; auto.
Qed.

Lemma bool_in (v : bool) : In v [true; false].
Proof. destruct v; simpl; auto. Qed.

Definition tsig_matches (t : tsigr) (a : atsig) : Prop :=
  t_alg t = at_alg a /\ t_key t = at_key a /\ t_time t = at_time a /\ t_fudge t = at_fudge a /\
  t_origid t = at_origid a /\ t_error t = at_error a /\ t_server_time t = at_stime a.

Record HInv (w : writer) (H : ahdr) : Prop := mkHInv {
  hi_len : 4 <= length (w_buf w);
  hi_id : slice (w_buf w) 0 2 = be16 (h_id H);
  hi_idb : (h_id H < 65536)%N;
  hi_f2 : exists x, nth_error (w_buf w) 2 = Some x /\ (x < 256)%N /\
                    dec2 x = (h_qr H, h_opcode H, h_aa H, h_tc H, h_rd H);
  hi_f3 : exists x, nth_error (w_buf w) 3 = Some x /\ (x < 256)%N /\ dec3 x = (h_ra H, 0%N, h_rcode H);
  hi_edns : w_edns w = match h_edns H with Some (u, up) => Some (mkEdns u up) | None => None end;
  hi_tsig : match w_tsig w, h_tsig H with
            | Some t, Some a => tsig_matches t a
            | None, None => True
            | _, _ => False
            end }.

Lemma HInv_frame w w' H : HInv w H -> agree 4 (w_buf w) (w_buf w') -> 4 <= length (w_buf w') ->
  w_edns w' = w_edns w -> w_tsig w' = w_tsig w -> HInv w' H.
Proof.
  intros [Hl Hid Hb [x2 [E2 F2]] [x3 [E3 F3]] He Ht] Ag Hl' Ee Et.
  constructor; auto.
  - rewrite (agree_slice 4 _ _ 0 2 Ag) by lia. exact Hid.
  - exists x2. split; auto. rewrite (agree_nth 4 _ _ 2 Ag) by lia. exact E2.
  - exists x3. split; auto. rewrite (agree_nth 4 _ _ 3 Ag) by lia. exact E3.
  - rewrite Ee. exact He.
  - rewrite Et. exact Ht.
Qed.

Lemma buf_write_other b pos d b' j : buf_write b pos d = Some b' -> (j < pos \/ pos + length d <= j) ->
  nth_error b' j = nth_error b j.
Proof.
  intros W Hj. apply buf_write_inv in W as [W1 ->].
  destruct Hj as [Hj|Hj].
  - rewrite nth_error_app1 by (rewrite firstn_length; lia). apply nth_error_firstn_lt; auto.
  - rewrite nth_error_app2 by (rewrite firstn_length; lia). rewrite firstn_length.
    rewrite nth_error_app2 by lia. rewrite nth_error_skipn. f_equal. lia.
Qed.

Lemma w_modify_inv w i f w' : w_modify w i f = Ok w' ->
  exists x b', nth_error (w_buf w) (N.to_nat i) = Some x /\ buf_write (w_buf w) (N.to_nat i) [f x] = Some b' /\
               w' = set_buf w b'.
Proof.
  unfold w_modify. destruct (nth_error (w_buf w) (N.to_nat i)) as [x|] eqn:E; [|discriminate].
  intros H. apply w_write_inv in H as [b' [Hb ->]]. eauto.
Qed.

Lemma modify_octet w i f w' : w_modify w i f = Ok w' ->
  exists x, nth_error (w_buf w) (N.to_nat i) = Some x /\ nth_error (w_buf w') (N.to_nat i) = Some (f x) /\
            (forall j, j <> N.to_nat i -> nth_error (w_buf w') j = nth_error (w_buf w) j) /\
            length (w_buf w') = length (w_buf w) /\ w_edns w' = w_edns w /\ w_tsig w' = w_tsig w.
Proof.
  intros H. apply w_modify_inv in H as [x [b' [E [Hb ->]]]]. exists x. split; auto. simpl.
  split; [|split; [|split; [eapply buf_write_length; eauto|auto]]].
  - replace (N.to_nat i) with (N.to_nat i + 0) at 1 by lia. eapply buf_write_nth_in; eauto.
  - intros j Hj. eapply buf_write_other; eauto. simpl. lia.
Qed.

Lemma slice_nth2 (b : bytes) x y : nth_error b 0 = Some x -> nth_error b 1 = Some y -> slice b 0 2 = [x; y].
Proof.
  intros H0 H1. rewrite (slice_cons b 0 x 2 H0) by lia. rewrite (slice_cons b 1 y 2 H1) by lia.
  rewrite slice_nil. reflexivity.
Qed.

Lemma slice2_ext (b b' : bytes) : nth_error b' 0 = nth_error b 0 -> nth_error b' 1 = nth_error b 1 ->
  2 <= length b -> slice b' 0 2 = slice b 0 2.
Proof.
  intros H0 H1 Hl.
  destruct (nth_error b 0) as [x|] eqn:E0; [|apply nth_error_None in E0; lia].
  destruct (nth_error b 1) as [y|] eqn:E1; [|apply nth_error_None in E1; lia].
  rewrite (slice_nth2 b x y E0 E1), (slice_nth2 b' x y H0 H1). reflexivity.
Qed.

Lemma HInv_f2 w H f w' t' : HInv w H -> w_modify w 2 f = Ok w' ->
  (forall x, (x < 256)%N -> dec2 x = (h_qr H, h_opcode H, h_aa H, h_tc H, h_rd H) ->
             (f x < 256)%N /\ dec2 (f x) = t') ->
  forall H', h_id H' = h_id H -> (h_qr H', h_opcode H', h_aa H', h_tc H', h_rd H') = t' ->
             h_ra H' = h_ra H -> h_rcode H' = h_rcode H -> h_edns H' = h_edns H -> h_tsig H' = h_tsig H ->
  HInv w' H'.
Proof.
  intros [Hl Hid Hb [x2 [E2 [B2 F2]]] [x3 [E3 F3]] He Ht] Hm Hf H' I1 I2 I3 I4 I5 I6.
  destruct (modify_octet _ _ _ _ Hm) as [x [Ex [Ex' [Ho [Hlen [Ee Et]]]]]].
  change (N.to_nat 2) with 2 in *. rewrite E2 in Ex. inversion Ex; subst x.
  destruct (Hf x2 B2 F2) as [B' D'].
  constructor.
  - lia.
  - rewrite I1. rewrite <- Hid. apply slice2_ext; try lia; apply Ho; lia.
  - rewrite I1. exact Hb.
  - exists (f x2). split; auto. split; auto. rewrite I2. exact D'.
  - exists x3. rewrite Ho by lia. rewrite I3, I4. auto.
  - rewrite Ee, I5. exact He.
  - rewrite Et, I6. exact Ht.
Qed.

Lemma HInv_f3 w H f w' w'' H' : HInv w H -> w_modify w 3 f = Ok w' ->
  (forall x, (x < 256)%N -> dec3 x = (h_ra H, 0%N, h_rcode H) ->
             (f x < 256)%N /\ dec3 (f x) = (h_ra H', 0%N, h_rcode H')) ->
  h_id H' = h_id H ->
  (h_qr H', h_opcode H', h_aa H', h_tc H', h_rd H') = (h_qr H, h_opcode H, h_aa H, h_tc H, h_rd H) ->
  h_tsig H' = h_tsig H -> w_buf w'' = w_buf w' -> w_tsig w'' = w_tsig w' ->
  w_edns w'' = match h_edns H' with Some (u, up) => Some (mkEdns u up) | None => None end ->
  HInv w'' H'.
Proof.
  intros [Hl Hid Hb [x2 [E2 F2]] [x3 [E3 [B3 F3]]] He Ht] Hm Hf I1 I2 I6 Eb Et'' Ee''.
  destruct (modify_octet _ _ _ _ Hm) as [x [Ex [Ex' [Ho [Hlen [Ee Et]]]]]].
  change (N.to_nat 3) with 3 in *. rewrite E3 in Ex. inversion Ex; subst x.
  destruct (Hf x3 B3 F3) as [B' D'].
  constructor; rewrite ?Eb.
  - lia.
  - rewrite I1. rewrite <- Hid. apply slice2_ext; try lia; apply Ho; lia.
  - rewrite I1. exact Hb.
  - exists x2. rewrite Ho by lia. rewrite I2. auto.
  - exists (f x3). split; auto.
  - exact Ee''.
  - rewrite Et'', Et, I6. exact Ht.
Qed.

Definition hframe (w w' : writer) : Prop :=
  agree 4 (w_buf w) (w_buf w') /\ w_edns w' = w_edns w /\ w_tsig w' = w_tsig w.

Lemma hframe_refl w : hframe w w.
Proof. split; [apply agree_refl|auto]. Qed.

Lemma hframe_ext c0 w w' : ext c0 w w' -> 4 <= c0 -> hframe w w'.
Proof. intros X Hc. split; [eapply agree_le; [apply X|exact Hc]|]. split; apply X. Qed.

Lemma hframe_obs w w' : Inv_n w -> obs_eq w w' -> hframe w w'.
Proof.
  intros [] X. pose proof wconsts as [K _]. split; [eapply agree_le; [apply X|lia]|]. split; apply X.
Qed.

Definition nonhdr (o : wop) : bool :=
  match o with
  | OAddQuestion _ _ _ | OAddRr _ _ _ _ _ _ _ _ | OAddRrset _ _ _ _ _ _ _ _ | OSetLimit _ | OSetMode _
  | OClearRrs | OTemplate _ | OTemplateSubsequent | OGet => true
  | _ => false
  end.

Lemma rrset_hframe d s h n ty cl ttl rds vec d' : Inv_n (d_w d) ->
  step d (OAddRrset s h n ty cl ttl rds vec) = Ok (d', RUnit) -> hframe (d_w d) (d_w d').
Proof.
  intros Hn E. pose proof wconsts as [K12 _]. pose proof Hn as [h1 h2 h3 h4 h5]. cbn [step] in E.
  unfold add_section_rrset, with_rollback in E.
  destruct (change_section s (d_w d)) as [[[] w1]|[e w1]|] eqn:Ecs; cbn [bind] in E; try (simpl in E; discriminate).
  destruct (change_section_inv _ _ _ _ Ecs) as [x ->].
  assert (Hpre : pre (w_cursor (d_w d)) (set_section (d_w d) x)) by (split; simpl; lia).
  match type of E with context [add_rrset_loop ?a ?b ?c ?dd ?e ?f ?g ?k ?hh] =>
    pose proof (frame_rrset_loop (w_cursor (d_w d)) f a b c dd e g k hh Hpre) as F;
    destruct (add_rrset_loop a b c dd e f g k hh) as [[[v' k'] w2]|[e' w2]|] end; cbn [bind] in E;
    try (simpl in E; discriminate).
  destruct (65535 <? N.of_nat k')%N; simpl in E; try discriminate.
  destruct (checked_add16 (sec_count s w2) (N.of_nat k')); simpl in E; try discriminate.
  inversion E; subst d'. simpl in F |- *. apply ext_unsection in F.
  destruct (hframe_ext _ _ _ F ltac:(lia)) as [A1 [A2 A3]]. destruct s; split; simpl; auto.
Qed.

Lemma step_hframe d o d' r : Inv_n (d_w d) -> nonhdr o = true -> step d o = Ok (d', r) ->
  hframe (d_w d) (d_w d').
Proof.
  intros Hn Hnh E. pose proof (step_good_all d o Hn) as G. rewrite E in G. simpl in G.
  pose proof wconsts as [K12 _]. pose proof Hn as [h1 h2 h3 h4 h5].
  assert (Herr : forall e, r = RErr e -> hframe (d_w d) (d_w d')).
  { intros e ->. apply hframe_obs; auto. }
  destruct r as [|e|l]; [|eapply Herr; eauto|].
  - destruct o; try discriminate; cbn [step] in E.
    + (* question *)
      unfold add_question in E. destruct (w_section (d_w d)); try (simpl in E; discriminate).
      destruct (checked_add16 (w_qd (d_w d)) 1); [|simpl in E; discriminate].
      match type of E with context [with_rollback ?f _] =>
        pose proof (rollback_spec f (d_w d) Hn (question_body_frame _ n qtype qclass (d_w d) (inv_pre _ Hn))) as R;
        destruct (with_rollback f (d_w d)) as [[[] w1]|[e w1]|] end; simpl in E; try discriminate.
      inversion E; subst d'. simpl.
      destruct (hframe_ext _ _ _ R ltac:(lia)) as [A1 [A2 A3]]. split; simpl; auto.
    + (* rr *) rewrite add_section_rr_rrset in E. eapply rrset_hframe; [exact Hn|cbn [step]; exact E].
    + eapply rrset_hframe; [exact Hn|cbn [step]; exact E].
    + destruct (set_limit_ok l (d_w d) Hn) as [nl [av E']]. rewrite E' in E. simpl in E.
      inversion E; subst d'. simpl. split; [apply agree_refl|split; reflexivity].
    + inversion E; subst d'. simpl. split; [apply agree_refl|split; reflexivity].
    + inversion E; subst d'. simpl. split; [apply agree_refl|split; reflexivity].
    + destruct (retemplate_ok newbuf (d_w d) Hn) as [[lim [av E']]|E']; rewrite E' in E; simpl in E; try discriminate.
      inversion E; subst d'. simpl. split; auto.
      eapply agree_le; [apply retemplate_agree|]; lia.
    + destruct (getters (d_w d)); simpl in E; discriminate.
  - destruct o; try discriminate; cbn [step] in E.
    + unfold add_question in E. destruct (w_section (d_w d)); try (simpl in E; discriminate).
      destruct (checked_add16 (w_qd (d_w d)) 1); [|simpl in E; discriminate].
      destruct (with_rollback _ (d_w d)) as [[[] w1]|[e w1]|]; simpl in E; discriminate.
    + destruct (add_section_rr _ _ _ _ _ _ _ _ _) as [[? ?]|[? ?]|]; simpl in E; discriminate.
    + destruct (add_section_rrset _ _ _ _ _ _ _ _ _) as [[? ?]|[? ?]|]; simpl in E; discriminate.
    + destruct (set_limit _ (d_w d)); simpl in E; discriminate.
    + destruct (retemplate _ (d_w d)); simpl in E; discriminate.
    + destruct (getters (d_w d)); simpl in E; inversion E; subst. apply hframe_refl.
Qed.

Definition op_wf3 (o : wop) : Prop :=
  match o with
  | OSetId v => (v < 65536)%N
  | OSetOpcode v => (v < 16)%N
  | OSetRcode v => (v < 16)%N
  | _ => True
  end.

(* set_extended_rcode splits a 12-bit value into the header's low four bits and the OPT record's upper eight *)
Lemma xrcode_split v : (v <= 4095)%N ->
  N.land (v mod 256) 15 = (v mod 16)%N /\ ((v / 16) mod 256 = v / 16)%N /\ (v mod 16 < 16)%N.
Proof.
  intros Hv. split; [|split; [apply N.mod_small, N.div_lt_upper_bound; lia|apply N.mod_lt; lia]].
  change 15%N with (N.ones 4). rewrite N.land_ones. change (2 ^ 4)%N with 16%N.
  apply N.mod_unique with (q := (16 * (v / 256) + v mod 256 / 16)%N); [apply N.mod_lt; lia|].
  pose proof (N.div_mod v 256). pose proof (N.div_mod (v mod 256) 16). lia.
Qed.

Lemma flag2_ok w H w' which mask v H' : HInv w H -> w_modify w 2 (set_bit mask v) = Ok w' ->
  (which = 0 /\ mask = 128%N \/ which = 1 /\ mask = 4%N \/ which = 2 /\ mask = 2%N \/ which = 3 /\ mask = 1%N) ->
  h_id H' = h_id H ->
  (h_qr H', h_opcode H', h_aa H', h_tc H', h_rd H') = upd2 which v (h_qr H, h_opcode H, h_aa H, h_tc H, h_rd H) ->
  h_ra H' = h_ra H -> h_rcode H' = h_rcode H -> h_edns H' = h_edns H -> h_tsig H' = h_tsig H ->
  HInv w' H'.
Proof.
  intros Hi Hm Hw I1 I2 I3 I4 I5 I6.
  eapply (HInv_f2 w H (set_bit mask v) w' (upd2 which v (h_qr H, h_opcode H, h_aa H, h_tc H, h_rd H))); eauto.
  intros x Hx Hd.
  pose proof (sweep2 _ _ 256 x v flag2_sweep ltac:(simpl; lia) (bool_in v)) as S. cbv beta in S.
  rewrite !andb_true_iff in S. destruct S as [[[[[[[S1 S2] S3] S4] S5] S6] S7] S8].
  rewrite <- Hd.
  destruct Hw as [[-> ->]|[[-> ->]|[[-> ->]|[-> ->]]]].
  - split; [apply N.ltb_lt; auto|apply t5eqb_eq; auto].
  - split; [apply N.ltb_lt; auto|apply t5eqb_eq; auto].
  - split; [apply N.ltb_lt; auto|apply t5eqb_eq; auto].
  - split; [apply N.ltb_lt; auto|apply t5eqb_eq; auto].
Qed.

Lemma of_R_ok d (r : res werr writer) d' o : of_R d r = Ok (d', o) ->
  (exists w', r = Ok w' /\ d' = mkD w' (d_regs d) /\ o = RUnit) \/ (exists e, r = Err e /\ d' = d /\ o = RErr e).
Proof. destruct r as [w'|e|]; simpl; intros H; inversion H; subst; eauto. Qed.

Lemma w_modify_total w i f : N.to_nat i < length (w_buf w) -> exists w', w_modify w i f = Ok w'.
Proof.
  intros Hi. unfold w_modify, w_write.
  destruct (nth_error (w_buf w) (N.to_nat i)) as [x|] eqn:E; [|apply nth_error_None in E; lia].
  destruct (buf_write_some (w_buf w) (N.to_nat i) [f x]) as [b' ->]; [simpl; lia|]. eauto.
Qed.

Lemma of_R_modify d i f d' r : N.to_nat i < length (w_buf (d_w d)) ->
  of_R d (w_modify (d_w d) i f) = Ok (d', r) ->
  exists w', w_modify (d_w d) i f = Ok w' /\ d' = mkD w' (d_regs d) /\ r = RUnit.
Proof.
  intros Hi E. destruct (w_modify_total (d_w d) i f Hi) as [w' Ew]. rewrite Ew in E. inversion E. eauto.
Qed.

Local Opaque nth_error.

Theorem hstep_ok d H o d' r : Inv_n (d_w d) -> HInv (d_w d) H -> op_wf3 o -> step d o = Ok (d', r) ->
  HInv (d_w d') (hstep H o r).
Proof.
  intros Hn Hi Hw E.
  destruct (nonhdr o) eqn:Enh.
  { pose proof (step_hframe d o d' r Hn Enh E) as [A1 [A2 A3]].
    pose proof (step_inv _ _ _ _ Hn E) as Hn'. pose proof wconsts as [K _].
    assert (Hs : hstep H o r = H) by (destruct o; try discriminate; destruct r; reflexivity).
    rewrite Hs. eapply HInv_frame; eauto. destruct Hn'. lia. }
  pose proof Hi as [Hl Hid Hb [x2 [E2 [B2 F2]]] [x3 [E3 [B3 F3]]] He Ht].
  destruct o; try discriminate; cbn [step] in E; simpl in Hw.
  - (* set_id *)
    apply of_R_ok in E as [[w' [E [-> ->]]]|[e [E _]]]; [|unfold set_id, w_write in E;
      destruct (buf_write (w_buf (d_w d)) (N.to_nat ID_START) (be16 v)); discriminate].
    unfold set_id in E. apply w_write_inv in E as [b' [Hb' ->]]. change (N.to_nat ID_START) with 0 in Hb'.
    simpl. constructor; simpl.
    + rewrite (buf_write_length _ _ _ _ Hb'). exact Hl.
    + exact (buf_write_data _ _ _ _ Hb').
    + exact Hw.
    + exists x2. rewrite (buf_write_other _ _ _ _ 2 Hb') by (simpl; lia). auto.
    + exists x3. rewrite (buf_write_other _ _ _ _ 3 Hb') by (simpl; lia). auto.
    + exact He.
    + exact Ht.
  - destruct (of_R_modify d QR_BYTE _ d' r ltac:(simpl; lia) E) as [w' [E' [-> ->]]].
    simpl. eapply (flag2_ok _ H w' 0 128 b); eauto; try tauto.
  - (* opcode *)
    destruct (of_R_modify d OPCODE_BYTE _ d' r ltac:(simpl; lia) E) as [w' [Em [-> ->]]].
    simpl. change OPCODE_BYTE with 2%N in Em. change OPCODE_MASK with 120%N in Em.
    change OPCODE_SHIFT with 3%N in Em.
    eapply (HInv_f2 (d_w d) H _ w' (h_qr H, v, h_aa H, h_tc H, h_rd H)); eauto.
    intros x Hx Hd.
    pose proof (sweep2 _ _ 256 x v opcode_sweep ltac:(simpl; lia) (upto_In 16 v ltac:(simpl; lia))) as S.
    cbv beta zeta in S. rewrite Hd in S. apply andb_true_iff in S as [S1 S2].
    split; [apply N.ltb_lt; auto|apply t5eqb_eq; auto].
  - destruct (of_R_modify d AA_BYTE _ d' r ltac:(simpl; lia) E) as [w' [E' [-> ->]]].
    simpl. eapply (flag2_ok _ H w' 1 4 b); eauto; try tauto.
  - destruct (of_R_modify d TC_BYTE _ d' r ltac:(simpl; lia) E) as [w' [E' [-> ->]]].
    simpl. eapply (flag2_ok _ H w' 2 2 b); eauto; try tauto.
  - destruct (of_R_modify d RD_BYTE _ d' r ltac:(simpl; lia) E) as [w' [E' [-> ->]]].
    simpl. eapply (flag2_ok _ H w' 3 1 b); eauto; try tauto.
  - (* ra *)
    destruct (of_R_modify d RA_BYTE _ d' r ltac:(simpl; lia) E) as [w' [Em [-> ->]]].
    simpl. change RA_BYTE with 3%N in Em. change RA_MASK with 128%N in Em.
    destruct (modify_octet _ _ _ _ Em) as [_ [_ [_ [_ [_ [Ee Et']]]]]].
    eapply (HInv_f3 (d_w d) H _ w' w'); eauto; [|simpl; rewrite Ee; exact He].
    intros x Hx Hd. simpl.
    pose proof (sweep2 _ _ 256 x b flag3_sweep ltac:(simpl; lia) (bool_in b)) as S.
    cbv beta in S. rewrite Hd in S. apply andb_true_iff in S as [S1 S2].
    split; [apply N.ltb_lt; auto|apply t3eqb_eq; auto].
  - (* rcode *)
    apply of_R_ok in E as [[w' [E [-> ->]]]|[e [E _]]].
    2:{ unfold set_rcode in E.
        destruct (w_modify_total (d_w d) RCODE_BYTE (fun x => N.lor (N.land x (255 - RCODE_MASK)) v)
                    ltac:(simpl; lia)) as [? Ew]. rewrite Ew in E. discriminate. }
    unfold set_rcode in E.
    destruct (w_modify (d_w d) RCODE_BYTE _) as [w1|e|] eqn:Em; simpl in E; try discriminate.
    inversion E; subst w'. change RCODE_BYTE with 3%N in Em. change RCODE_MASK with 15%N in Em.
    destruct (modify_octet _ _ _ _ Em) as [_ [_ [_ [_ [_ [Ee Et']]]]]].
    simpl. eapply (HInv_f3 (d_w d) H _ w1 (clear_upper w1)); eauto.
    + intros x Hx Hd. simpl.
      pose proof (sweep2 _ _ 256 x v rcode_sweep ltac:(simpl; lia) (upto_In 16 v ltac:(simpl; lia))) as S.
      cbv beta zeta in S. rewrite Hd in S. apply andb_true_iff in S as [S1 S2].
      split; [apply N.ltb_lt; auto|apply t3eqb_eq; auto].
    + unfold clear_upper. destruct (w_edns w1); reflexivity.
    + unfold clear_upper. destruct (w_edns w1); reflexivity.
    + simpl. destruct (h_edns H) as [[u up]|] eqn:Eh; unfold clear_upper; rewrite Ee, He; simpl;
        [reflexivity|rewrite Ee, He; reflexivity].
  - (* xrcode *)
    unfold set_extended_rcode in E. destruct (w_edns (d_w d)) as [e|] eqn:Ee0.
    2:{ simpl in E. inversion E; subst. simpl. exact Hi. }
    destruct (4095 <? v)%N eqn:Ev; [simpl in E; inversion E; subst; simpl; exact Hi|].
    apply N.ltb_ge in Ev.
    destruct (w_modify (d_w d) RCODE_BYTE _) as [w1|e1|] eqn:Em; simpl in E; try discriminate.
    2:{ destruct (w_modify_total (d_w d) RCODE_BYTE
                    (fun x => N.lor (N.land x (255 - RCODE_MASK)) (N.land (v mod 256) RCODE_MASK))
                    ltac:(simpl; lia)) as [? Ew]. rewrite Ew in Em. discriminate. }
    inversion E; subst d' r. change RCODE_BYTE with 3%N in Em. change RCODE_MASK with 15%N in Em.
    destruct (modify_octet _ _ _ _ Em) as [_ [_ [_ [_ [_ [Ee Et']]]]]].
    destruct (xrcode_split v Ev) as (S1 & S2 & S3).
    rewrite S1 in Em. rewrite S2.
    destruct (h_edns H) as [[u up]|] eqn:Eh; [|discriminate].
    inversion He; subst e.
    simpl. eapply (HInv_f3 (d_w d) H _ w1 _); eauto; simpl; auto.
    + intros x Hx Hd.
      pose proof (sweep2 _ _ 256 x (v mod 16)%N rcode_sweep ltac:(simpl; lia) (upto_In 16 _ S3)) as S.
      cbv beta zeta in S. rewrite Hd in S. apply andb_true_iff in S as [S4 S5].
      split; [apply N.ltb_lt; auto|apply t3eqb_eq; auto].
    + rewrite Eh. reflexivity.
  - (* set_edns *)
    unfold set_edns in E. destruct (w_edns (d_w d)) eqn:Ee0; [simpl in E; inversion E; subst; exact Hi|].
    destruct (w_avail (d_w d) <? _); [simpl in E; inversion E; subst; exact Hi|].
    destruct (checked_add16 (w_ar (d_w d)) 1); simpl in E; inversion E; subst; [|exact Hi].
    simpl. constructor; simpl; auto; try (eexists; eauto; fail).
  - (* set_tsig *)
    unfold set_tsig in E. destruct (w_tsig (d_w d)) eqn:Et0; [simpl in E; inversion E; subst; exact Hi|].
    destruct (w_avail (d_w d) <? _); [simpl in E; inversion E; subst; exact Hi|].
    destruct (checked_add16 (w_ar (d_w d)) 1); simpl in E; inversion E; subst; [|exact Hi].
    simpl. constructor; simpl; auto; try (eexists; eauto; fail).
    unfold tsig_matches. simpl. repeat split; reflexivity.
  - (* update_time *)
    unfold update_time_signed in E. destruct (w_tsig (d_w d)) as [t|] eqn:Et0; simpl in E; inversion E; subst.
    + simpl. destruct (h_tsig H) as [a|] eqn:Ea; [|contradiction].
      destruct Ht as [T1 [T2 [T3 [T4 [T5 [T6 T7]]]]]].
      constructor; simpl; auto; try (eexists; eauto; fail).
      unfold tsig_matches. simpl. auto 10.
    + exact Hi.
Qed.

Lemma HInv_new buf limit w0 : writer_new buf limit = Ok w0 -> HInv w0 ah0.
Proof.
  intros H. unfold writer_new in H.
  destruct (Nat.min limit (length buf) <? header_size); [discriminate|].
  destruct (length buf <? header_size) eqn:E; [discriminate|]. apply Nat.ltb_ge in E.
  inversion H; subst w0. clear H.
  constructor; cbn [w_buf w_edns w_tsig ah0 h_id h_qr h_opcode h_aa h_tc h_rd h_ra h_rcode h_edns h_tsig].
  - simpl. lia.
  - reflexivity.
  - lia.
  - exists 0%N. split; [reflexivity|]. split; [lia|reflexivity].
  - exists 0%N. split; [reflexivity|]. split; [lia|reflexivity].
  - reflexivity.
  - exact I.
Qed.

Theorem hrun : forall ops d H d' outs alive, Inv_n (d_w d) -> HInv (d_w d) H -> Forall op_wf3 ops ->
  run d ops = Ok (d', outs, alive) -> HInv (d_w d') (hreplay H ops outs).
Proof.
  induction ops as [|o rest IH]; intros d H d' outs alive Hn Hi Hw E.
  - simpl in E. inversion E; subst. simpl. exact Hi.
  - inversion Hw as [|? ? W1 W2]; subst. cbn [run] in E.
    destruct (step d o) as [[d1 r]|e|] eqn:Es; cbn [bind] in E; try discriminate.
    pose proof (hstep_ok d H o d1 r Hn Hi W1 Es) as Hi1.
    pose proof (step_inv _ _ _ _ Hn Es) as Hn1.
    destruct (stops o r).
    + inversion E; subst. simpl. destruct rest; exact Hi1.
    + destruct (run d1 rest) as [[[d2 rs] al]|e|] eqn:Er; cbn [bind] in E; try discriminate.
      inversion E; subst. simpl. eapply IH; eauto.
Qed.
