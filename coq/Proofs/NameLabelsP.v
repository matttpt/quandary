(* The labels of the Rust representation [name_of ls] of an abstract name are [ls ++ [[]]]
   (Index<usize> / labels() never panic on a well-formed name); facts about [offs_all] and [lwire] that the
   other Name*P files share. *)
From QV Require Import Base.ListX Model.NameWire Model.NameText Spec.NameWireS Spec.NameRepr Spec.NameTextS Proofs.NameWireP.

Definition all_labels (ls : list label) : list label := ls ++ [[]].

Lemma wire_of_all ls : wire_of ls = lwire (all_labels ls).
Proof. unfold wire_of, all_labels. rewrite lwire_app. reflexivity. Qed.

Fixpoint offs_all (base : nat) (ls : list label) : list N :=
  match ls with
  | [] => []
  | l :: r => (N.of_nat base mod 256)%N :: offs_all (base + 1 + length l) r
  end.

Lemma offs_of_all base ls : offs_of base ls = offs_all base (all_labels ls).
Proof.
  revert base. induction ls as [|l r IH]; intros base; cbn; [reflexivity|]. rewrite IH. reflexivity.
Qed.

Lemma offs_all_length base ls : length (offs_all base ls) = length ls.
Proof. revert base. induction ls as [|l r IH]; intros base; cbn; [|rewrite IH]; reflexivity. Qed.

Lemma lwire_length_cons l r : length (lwire (l :: r)) = 1 + length l + length (lwire r).
Proof. rewrite lwire_cons. cbn. rewrite app_length. lia. Qed.

Lemma offs_all_app x : forall base y,
  offs_all base (x ++ y) = offs_all base x ++ offs_all (base + length (lwire x)) y.
Proof.
  induction x as [|l x IH]; intros base y; cbn [app offs_all].
  - cbn. rewrite Nat.add_0_r. reflexivity.
  - rewrite IH, lwire_length_cons. do 3 f_equal. lia.
Qed.

Lemma lwire_labels_len (ds : list label) : Forall (fun l : list N => 1 <= length l <= 63) ds ->
  2 * length ds <= length (lwire ds).
Proof.
  induction 1 as [|l r Hl _ IH]; [cbn; lia|]. rewrite lwire_length_cons. cbn [length]. lia.
Qed.

Lemma nth_error_app_at {A} (a : list A) x r n : n = length a -> nth_error (a ++ x :: r) n = Some x.
Proof. intros ->. rewrite nth_error_app2, Nat.sub_diag by lia. reflexivity. Qed.

Lemma set_nth_app {A} (a : list A) x y r : set_nth (a ++ x :: r) (length a) y = Some (a ++ y :: r).
Proof.
  unfold set_nth. rewrite app_length. cbn [length].
  destruct (Nat.ltb_spec (length a) (length a + S (length r))); [|lia].
  rewrite firstn_app_exact by reflexivity. change (a ++ x :: r) with (a ++ [x] ++ r).
  rewrite app_assoc, skipn_app_exact by (rewrite app_length, Nat.add_1_r; reflexivity). reflexivity.
Qed.

Lemma offs_all_nth pre : forall base l post,
  nth_error (offs_all base (pre ++ l :: post)) (length pre) = Some (N.of_nat (base + length (lwire pre)) mod 256)%N.
Proof.
  intros base l post. rewrite offs_all_app. apply nth_error_app_at. symmetry. apply offs_all_length.
Qed.

Lemma name_len_name_of ls : name_len (name_of ls) = length (all_labels ls).
Proof. unfold name_len, name_of. cbn [n_offsets]. rewrite offs_of_all. apply offs_all_length. Qed.

Lemma all_labels_length ls : length (all_labels ls) = S (length ls).
Proof. unfold all_labels. rewrite app_length, Nat.add_1_r. reflexivity. Qed.

(* Index<usize> on the representation of a name returns the label *)
Lemma label_at_all ls pre l post : all_labels ls = pre ++ l :: post -> wire_len ls <= 255 ->
  label_at (name_of ls) (length pre) = Ok l.
Proof.
  intros Hall Hlen. unfold label_at, name_of. cbn [n_offsets n_wire].
  rewrite wire_len_lwire, <- (app_length _ [0%N]) in Hlen. fold (wire_of ls) in Hlen.
  rewrite offs_of_all, wire_of_all, Hall, offs_all_nth, lwire_app, lwire_cons in *. cbn [Nat.add].
  rewrite app_length in Hlen. cbn [length] in Hlen. rewrite app_length in Hlen.
  rewrite N.mod_small, Nat2N.id, nth_error_app_at, Nat2N.id by (reflexivity || lia).
  change (lwire pre ++ N.of_nat (length l) :: l ++ lwire post)
    with (lwire pre ++ [N.of_nat (length l)] ++ l ++ lwire post).
  rewrite app_assoc, slice_app_mid by (rewrite ?app_length; reflexivity).
  destruct (Nat.ltb_spec (length ((lwire pre ++ [N.of_nat (length l)]) ++ l ++ lwire post))
                         (length (lwire pre) + 1 + length l)) as [H|]; [|reflexivity].
  rewrite !app_length in H. cbn [length] in H. lia.
Qed.

Lemma mapM_seq {E A} (f : nat -> res E A) (l : list A) : forall start,
  (forall i x, nth_error l i = Some x -> f (start + i) = Ok x) ->
  mapM f (seq start (length l)) = Ok l.
Proof.
  induction l as [|x l IH]; intros start H; [reflexivity|].
  cbn [length seq mapM]. rewrite <- (Nat.add_0_r start) at 1. rewrite (H 0 x eq_refl). cbn [bind].
  rewrite (IH (S start)); [reflexivity|].
  intros i y Hy. replace (S start + i) with (start + S i) by lia. apply H. exact Hy.
Qed.

Theorem labels_name_of ls : wire_len ls <= 255 -> labels (name_of ls) = Ok (all_labels ls).
Proof.
  intros Hlen. unfold labels. rewrite name_len_name_of. apply mapM_seq. intros i x Hx. cbn [Nat.add].
  destruct (nth_error_split _ _ Hx) as (pre & post & Heq & Hl). subst i.
  apply (label_at_all ls pre x post Heq Hlen).
Qed.

Lemma eq_nocase_lower a : forall b, eq_nocase a b = true <-> map lower a = map lower b.
Proof.
  induction a as [|x a IH]; intros [|y b]; cbn; try (split; [discriminate|congruence]).
  - tauto.
  - rewrite andb_true_iff, N.eqb_eq, IH. split; [intros [-> ->]; reflexivity|intros H; inversion H; auto].
Qed.
