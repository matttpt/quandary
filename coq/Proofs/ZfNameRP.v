(* C23, names: parse_name on a rendered <domain-name> — absolute, relative to the origin, "@",
   "." — gives the representation [name_of] of the label list, for every legal escaping choice. *)
From QV Require Import Base.ListX Model.NameWire Spec.NameWireS Spec.NameRepr Proofs.NameWireP
  Model.ZfReader Model.ZfParser Proofs.ZfReaderP Spec.ZfValidS Proofs.ZfNameP Proofs.ZfFieldsP
  Proofs.ZfRunP Proofs.ZfTokP Spec.ZfRenderS.

Local Open Scope nat_scope.

Section Loop.
Variables (T : bytes -> Prop) (s2 : bytes) (p p' : bool) (ns : pos) (v : nb).

(* the octets of (the rest of) one label; the hypothesis is the rest of the loop *)
Lemma pnr_octets : forall l es ds cur,
  octets_ok KLabel es l = true ->
  (forall n lst b1, nb_inv b1 ds (cur ++ l) -> runsN n T (pnr_loop n ns lst b1) s2 p p' v) ->
  forall n lst b0, nb_inv b0 ds cur -> length cur + length l <= 63 -> length (nb_wire b0) + length l <= 255 ->
  runsN n T (pnr_loop n ns lst b0) (render_octets es l ++ s2) p p' v.
Proof.
  induction l as [|c l IH]; intros es ds cur Hok HK n lst b0 Hinv Hc Hw.
  - cbn [render_octets app]. rewrite app_nil_r in HK. apply HK. exact Hinv.
  - destruct n as [|n]; [apply runsN_0|].
    cbn [octets_ok] in Hok. apply andb_true_iff in Hok. destruct Hok as [Hcok Hl]. cbn [length] in Hc, Hw.
    destruct (nb_try_push_exact b0 ds cur c Hinv ltac:(lia) ltac:(lia)) as (b' & Eb & Hinv').
    assert (Hrest : runsN n T (pnr_loop n ns lst b') (render_octets (tl es) l ++ s2) p p' v).
    { apply (IH (tl es) ds (cur ++ [c])); [exact Hl| |exact Hinv'|rewrite app_length; simpl; lia|].
      - intros n' lst' b1 Hb1. apply HK. rewrite <- app_assoc in Hb1. exact Hb1.
      - rewrite (nb_wire_len _ _ _ Hinv'), app_length. rewrite (nb_wire_len _ _ _ Hinv) in Hw. simpl. lia. }
    cbn [render_octets pnr_loop]. rewrite <- app_assoc.
    eapply (octet_step KLabel); [exact Hcok|intros r; reflexivity| |cbv beta; rewrite Eb; exact Hrest].
    intros o r Ho. apply raw_label_plain in Ho. destruct Ho as (_ & H92 & H46). apply N.eqb_neq in H92, H46.
    cbv beta iota. rewrite H92, H46. reflexivity.
Qed.

Lemma pnr_dot ds cur :
  (forall n lst b1, nb_inv b1 (ds ++ [cur]) [] -> runsN n T (pnr_loop n ns lst b1) s2 p p' v) ->
  forall n lst b0, nb_inv b0 ds cur -> 1 <= length cur -> length (nb_wire b0) < 255 ->
  runsN n T (pnr_loop n ns lst b0) (46%N :: s2) p p' v.
Proof.
  intros HK n lst b0 Hinv Hne Hw. destruct n as [|n]; [apply runsN_0|].
  destruct (nb_next_label_exact b0 ds cur Hinv Hne Hw) as (b' & Eb & Hinv').
  cbn [pnr_loop]. change (46%N :: s2) with ([46%N] ++ s2).
  eapply runsN_bind_dec; [apply rfo_plain; reflexivity|discriminate|intros; exact I|].
  cbv beta iota. change (46 =? 92)%N with false. change (46 =? 46)%N with true. cbv iota. rewrite Eb.
  apply runsN_getpos. intros q. apply HK. exact Hinv'.
Qed.
End Loop.

Lemma pnr_end n ns lst b0 p : runsN n fend (pnr_loop n ns lst b0) [] p p b0.
Proof.
  destruct n as [|n]; [apply runsN_0|]. cbn [pnr_loop].
  change (@nil N) with (@nil N ++ []). eapply runsN_bind; [apply rfo_end|intros t Ht; exact Ht|].
  cbv beta iota. apply runs_N, runs_ret.
Qed.

Lemma render_rel_cons ess x ls : ls <> [] ->
  render_rel ess (x :: ls) = render_octets (hd [] ess) x ++ 46%N :: render_rel (tl ess) ls.
Proof. destruct ls; [congruence|reflexivity]. Qed.

(* the labels ls ++ [l]; the continuation takes over inside the last label *)
Lemma pnr_rel T s2 p p' ns v : forall ls l ess ds,
  labels_ok ess (ls ++ [l]) = true -> Forall good_label (ls ++ [l]) -> length (lwire (ds ++ ls ++ [l])) <= 254 ->
  (forall n lst b1, nb_inv b1 (ds ++ ls) l -> runsN n T (pnr_loop n ns lst b1) s2 p p' v) ->
  forall n lst b0, nb_inv b0 ds [] -> runsN n T (pnr_loop n ns lst b0) (render_rel ess (ls ++ [l]) ++ s2) p p' v.
Proof.
  induction ls as [|x ls IH]; intros l ess ds Hok Hg Hlen HK n lst b0 Hinv;
    pose proof (nb_wire_len _ _ _ Hinv) as Hwl; cbn [length] in Hwl;
    cbn [app labels_ok] in Hok; apply andb_true_iff in Hok; destruct Hok as [Hx Hls];
    cbn [app] in Hg, Hlen; apply Forall_cons_iff in Hg; destruct Hg as [Hgx Hgls]; unfold good_label in Hgx.
  - rewrite app_nil_r in HK. rewrite lwire_snoc_len in Hlen. cbn [app render_rel]. rewrite app_nil_r.
    apply (pnr_octets T s2 p p' ns v l (hd [] ess) ds []); [exact Hx|exact HK|exact Hinv|simpl; lia|lia].
  - cbn [app]. rewrite lwire_app_len, lwire_cons_len in Hlen.
    rewrite render_rel_cons by (destruct ls; discriminate). rewrite <- app_assoc. cbn [app].
    apply (pnr_octets T _ p p' ns v x (hd [] ess) ds []); [exact Hx| |exact Hinv|simpl; lia|lia].
    intros n1 lst1 b1 Hb1. cbn [app] in Hb1.
    apply (pnr_dot T _ p p' ns v ds x); [|exact Hb1|lia|rewrite (nb_wire_len _ _ _ Hb1); lia].
    intros n2 lst2 b2 Hb2.
    apply (IH l (tl ess) (ds ++ [x])); [exact Hls|exact Hgls| | |exact Hb2].
    + rewrite <- app_assoc. cbn [app]. rewrite lwire_app_len, lwire_cons_len. lia.
    + intros n3 lst3 b3 Hb3. apply HK. rewrite <- app_assoc in Hb3. exact Hb3.
Qed.

(* the invariant determines the builder: results can be stated with the concrete value nb_of ds cur *)
Definition nb_of (ds : list label) (cur : label) : nb :=
  mkNb (lwire ds ++ 0%N :: cur) (offs_of 0 ds) (length (lwire ds)) (N.of_nat (length cur)).

Lemma nb_inv_eq b ds cur : nb_inv b ds cur -> b = nb_of ds cur.
Proof. intros (H1 & H2 & H3 & H4 & _). destruct b. simpl in *. subst. reflexivity. Qed.

Lemma nb_of_inv ds cur : Forall good_label ds -> length cur <= 63 -> length (lwire ds) + 1 + length cur <= 255 ->
  nb_inv (nb_of ds cur) ds cur.
Proof.
  intros H1 H2 H3. unfold nb_inv, nb_of. cbn [nb_wire nb_offs nb_start nb_len].
  repeat split; auto. rewrite app_length. simpl. lia.
Qed.

Lemma nb_new_of : nb_new = nb_of [] []. Proof. reflexivity. Qed.

Lemma good_labels_b_spec ls : good_labels_b ls = true -> good_labels ls.
Proof.
  unfold good_labels_b. intros H. apply andb_true_iff in H. destruct H as [H1 H2]. apply Nat.leb_le in H2.
  split; [|exact H2]. rewrite forallb_forall in H1. apply Forall_forall. intros l Hl. specialize (H1 l Hl).
  apply andb_true_iff in H1. destruct H1 as [A B]. apply Nat.leb_le in A, B. unfold good_label. lia.
Qed.

Lemma pnr_rel_runs ess ds cur p q n :
  labels_ok ess (ds ++ [cur]) = true -> Forall good_label (ds ++ [cur]) -> length (lwire (ds ++ [cur])) <= 254 ->
  runsN n fend (pnr_loop n q q nb_new) (render_rel ess (ds ++ [cur])) p p (nb_of ds cur).
Proof.
  intros Hok Hg Hlen. rewrite <- (app_nil_r (render_rel _ _)).
  apply (pnr_rel fend [] p p q _ ds cur ess []); [exact Hok|exact Hg|exact Hlen| |rewrite nb_new_of; apply nb_inv_new].
  intros n1 lst1 b1 Hb1. cbn [app] in Hb1. rewrite <- (nb_inv_eq _ _ _ Hb1). apply pnr_end.
Qed.

Lemma pnr_abs_runs ess ls p q n : ls <> [] -> labels_ok ess ls = true -> Forall good_label ls -> length (lwire ls) <= 254 ->
  runsN n fend (pnr_loop n q q nb_new) (render_rel ess ls ++ [46%N]) p p (nb_of ls []).
Proof.
  intros Hne Hok Hg Hlen. destruct (exists_last Hne) as (ds & cur & ->).
  apply (pnr_rel fend [46%N] p p q _ ds cur ess []); [exact Hok|exact Hg|exact Hlen| |rewrite nb_new_of; apply nb_inv_new].
  intros n1 lst1 b1 Hb1. cbn [app] in Hb1.
  apply Forall_app in Hg. destruct Hg as [_ Hg]. apply Forall_inv in Hg. unfold good_label in Hg.
  rewrite lwire_snoc_len in Hlen.
  apply (pnr_dot fend [] p p q _ ds cur); [|exact Hb1|lia|rewrite (nb_wire_len _ _ _ Hb1); lia].
  intros n2 lst2 b2 Hb2. rewrite <- (nb_inv_eq _ _ _ Hb2). apply pnr_end.
Qed.

Lemma raw_label_unq c : raw_ok KLabel c = true -> raw_ok KUnquoted c = true.
Proof. unfold raw_ok. intros H. apply negb_true_iff, orb_false_iff in H. destruct H as [H _]. rewrite H. reflexivity. Qed.

Lemma esc_label_unq e c : esc_ok KLabel e c = true -> esc_ok KUnquoted e c = true.
Proof.
  unfold esc_ok. intros H. apply andb_true_iff in H. destruct H as [H1 H2]. rewrite H1. cbn [andb].
  destruct e; auto. apply raw_label_unq. exact H2.
Qed.

Lemma octets_label_unq : forall s es, octets_ok KLabel es s = true -> octets_ok KUnquoted es s = true.
Proof.
  induction s as [|c s IH]; intros es H; [reflexivity|]. cbn [octets_ok] in *. apply andb_true_iff in H. destruct H as [H1 H2].
  rewrite (esc_label_unq _ _ H1), (IH _ H2). reflexivity.
Qed.

(* a continuation of a token: nothing, or something that begins with an octet that does not end a field
   (what expect_field_unless asks of the text after the word) *)
Definition tailish (R : bytes) : Prop := R = [] \/ exists y R', R = y :: R' /\ plainb y = true.

Lemma octets_tailish es s R : octets_ok KUnquoted es s = true -> tailish R -> tailish (render_octets es s ++ R).
Proof.
  intros Hok HR. destruct s as [|c s]; [exact HR|]. right. cbn [octets_ok] in Hok. apply andb_true_iff in Hok. destruct Hok as [Hc _].
  cbn [render_octets]. destruct (hd EDec es).
  - apply esc_ok_raw, raw_unq_plain in Hc. destruct Hc as [Hp _]. cbn [render_octet app]. eauto.
  - cbn [render_octet app]. eexists _, _. split; [reflexivity|reflexivity].
  - cbn [render_octet app]. eexists _, _. split; [reflexivity|reflexivity].
Qed.

Lemma expect_differs_head fld r c l d fl : r_rest r = c :: l -> fld = d :: fl -> c <> d ->
  expect_field fld r = Ok (false, r).
Proof.
  intros E -> H. apply expect_field_differs. rewrite E. cbn [length firstn]. apply bytes_eqb_head. exact H.
Qed.

(* the token is not the one-octet word [x]: if it begins with x, that is a raw octet and the token goes on *)
Lemma tok_expect1 x es c s R r t : octets_ok KUnquoted es (c :: s) = true -> tailish R -> x <> 92%N ->
  render_octets es (c :: s) ++ R <> [x] -> r_rest r = (render_octets es (c :: s) ++ R) ++ t ->
  expect_field [x] r = Ok (false, r).
Proof.
  intros Hok HR H92 Hne E. cbn [octets_ok] in Hok. apply andb_true_iff in Hok. destruct Hok as [Hc Hs].
  pose proof (octets_tailish (tl es) s R Hs HR) as HT.
  apply expect_field_unless. intros rest Hrest. rewrite E in Hrest. cbn [render_octets] in Hrest, Hne.
  destruct (hd EDec es); cbn [render_octet app] in Hrest, Hne; [|congruence..].
  injection Hrest as -> <-. destruct HT as [HY|(y & Y' & HY & Hy)]; rewrite HY in *; [congruence|cbn [app]; eauto].
Qed.

(* the token is not the word \#: if it begins so, the # is an escaped octet and the token goes on *)
Lemma tok_expect_bh es c s R r t : octets_ok KUnquoted es (c :: s) = true -> tailish R ->
  render_octets es (c :: s) ++ R <> bh -> r_rest r = (render_octets es (c :: s) ++ R) ++ t ->
  expect_field bh r = Ok (false, r).
Proof.
  intros Hok HR Hne E. cbn [octets_ok] in Hok. apply andb_true_iff in Hok. destruct Hok as [Hc Hs].
  pose proof (octets_tailish (tl es) s R Hs HR) as HT.
  apply expect_field_unless. intros rest Hrest. rewrite E in Hrest. unfold bh in *. cbn [render_octets] in Hrest, Hne.
  destruct (hd EDec es); cbn [render_octet dec3 app] in Hrest, Hne.
  - apply esc_ok_raw, raw_unq_plain in Hc. destruct Hc as [_ Hc]. congruence.
  - injection Hrest as -> <-. destruct HT as [HY|(y & Y' & HY & Hy)]; rewrite HY in *; [congruence|cbn [app]; eauto].
  - assert (Hd : (48 + c / 100 = 35)%N) by congruence. revert Hd. generalize (c / 100)%N. intros; lia.
Qed.

Lemma render_octets_nonempty es c s : render_octets es (c :: s) <> [].
Proof. cbn [render_octets]. destruct (hd EDec es); discriminate. Qed.

Lemma render_octets_len es c s : 1 <= length (render_octets es (c :: s)).
Proof. pose proof (render_octets_nonempty es c s). destruct (render_octets es (c :: s)); [congruence|simpl; lia]. Qed.

Lemma label_head es c s : octets_ok KLabel es (c :: s) = true ->
  exists h Y, render_octets es (c :: s) = h :: Y /\ h <> 46%N.
Proof.
  cbn [octets_ok]. intros H. apply andb_true_iff in H. destruct H as [Hc _]. cbn [render_octets]. destruct (hd EDec es).
  - apply esc_ok_raw, raw_label_plain in Hc. cbn [render_octet app]. eexists _, _. split; [reflexivity|tauto].
  - cbn [render_octet app]. eexists _, _. split; [reflexivity|discriminate].
  - cbn [render_octet app]. eexists _, _. split; [reflexivity|discriminate].
Qed.

Lemma beq_eq : forall a b, beq a b = true -> a = b.
Proof.
  induction a as [|x a IH]; intros [|y b] H; simpl in H; try discriminate; [reflexivity|].
  apply andb_true_iff in H. destruct H as [H1 H2]. apply N.eqb_eq in H1. rewrite H1, (IH b H2). reflexivity.
Qed.

Lemma lbeq_eq : forall a b, lbeq a b = true -> a = b.
Proof.
  induction a as [|x a IH]; intros [|y b] H; simpl in H; try discriminate; [reflexivity|].
  apply andb_true_iff in H. destruct H as [H1 H2]. apply beq_eq in H1. rewrite H1, (IH b H2). reflexivity.
Qed.

Lemma beq_false a b : beq a b = false -> a <> b.
Proof.
  intros H Heq. subst b. assert (G : forall a, beq a a = true).
  { induction a0 as [|x a0 IH]; simpl; [reflexivity|]. rewrite N.eqb_refl, IH. reflexivity. }
  rewrite G in H. discriminate.
Qed.

Lemma opt_lbeq_eq o ls : opt_lbeq o ls = true -> o = Some ls.
Proof. destruct o as [x|]; simpl; [|discriminate]. intros H. apply lbeq_eq in H. congruence. Qed.

Definition origin_good (origin : option (list label)) : Prop := forall ols, origin = Some ols -> good_labels ols.

Lemma root_name_of : root_name = name_of []. Proof. reflexivity. Qed.

Lemma good_firstn k ls : Forall good_label ls -> Forall good_label (firstn k ls).
Proof. intros H. rewrite Forall_forall in *. intros l Hl. apply H. eapply In_firstn. exact Hl. Qed.

Lemma render_rel_shape ess l ls : exists R, render_rel ess (l :: ls) = render_octets (hd [] ess) l ++ R /\ tailish R /\
  (R = [] <-> ls = []).
Proof.
  cbn [render_rel]. destruct ls as [|l2 ls].
  - exists []. split; [reflexivity|]. split; [left; reflexivity|tauto].
  - eexists. split; [reflexivity|]. split; [right; eexists _, _; split; reflexivity|]. split; [discriminate|discriminate].
Qed.

Lemma tailish_app R S : tailish R -> tailish S -> tailish (R ++ S).
Proof. intros [->|(y & R' & -> & Hy)] HS; [exact HS|]. right. cbn [app]. eauto. Qed.

Lemma name_token_runs T origin es c l R p p' v :
  octets_ok KLabel es (c :: l) = true -> tailish R ->
  render_octets es (c :: l) ++ R <> [64%N] -> render_octets es (c :: l) ++ R <> [46%N] ->
  runs T (parse_non_root_name origin) (render_octets es (c :: l) ++ R) p p' v ->
  runs T (parse_name origin) (render_octets es (c :: l) ++ R) p p' v.
Proof.
  intros Hl HR H64 H46 Hrun. apply octets_label_unq in Hl. unfold parse_name. apply runs_getpos. intros q.
  eapply runs_peek.
  { intros r t E _. eapply (tok_expect1 64%N es c l R); [exact Hl|exact HR|discriminate|exact H64|exact E]. }
  cbv beta iota. eapply runs_peek.
  { intros r t E _. eapply (tok_expect1 46%N es c l R); [exact Hl|exact HR|discriminate|exact H46|exact E]. }
  cbv beta iota. exact Hrun.
Qed.

Lemma non_root_runs origin X p b nm :
  (forall n q, runsN n fend (pnr_loop n q q nb_new) X p p b) ->
  (if nb_fq b then nb_finish b
   else match origin with Some o => nb_finish_with_suffix b o | None => Panic end) = Ok nm ->
  runs fend (parse_non_root_name origin) X p p nm.
Proof.
  intros Hloop Hfin. unfold parse_non_root_name. apply runs_getpos. intros q. apply runs_get_fuel. intros n.
  apply runsN_app_nil. eapply runsN_bind_l; [apply Hloop|intros t Ht; exact Ht|]. cbv beta.
  destruct (nb_fq b); [|destruct origin; [|discriminate]]; rewrite Hfin; apply runs_ret.
Qed.

Theorem name_runs first bol origin nc ls p :
  name_ok first bol origin nc ls = true -> origin_good origin ->
  runs fend (parse_name (option_map name_of origin)) (render_name nc ls) p p (name_of ls).
Proof.
  unfold name_ok. intros H Hog. apply andb_true_iff in H. destruct H as [Hgood H].
  apply good_labels_b_spec in Hgood. pose proof Hgood as [Hg Hwl]. rewrite wire_len_lwire in Hwl.
  destruct nc as [|ess|k ess]; cbn [render_name].
  - apply opt_lbeq_eq in H. subst origin. cbn [option_map]. unfold parse_name. apply runs_getpos. intros q.
    apply runs_app_nil. eapply runs_bind; [apply expect_field_yes; [reflexivity|repeat constructor; discriminate]|intros t Ht; exact Ht|].
    cbv beta iota. apply runs_ret.
  - apply andb_true_iff in H. destruct H as [Hok _]. destruct ls as [|l ls].
    + unfold parse_name. apply runs_getpos. intros q. cbn [render_rel app]. eapply runs_peek.
      { intros r t E _. eapply expect_differs_head; [exact E|reflexivity|discriminate]. }
      cbv beta iota. apply runs_app_nil. eapply runs_bind; [apply expect_field_yes; [reflexivity|repeat constructor; discriminate]|intros t Ht; exact Ht|].
      cbv beta iota. rewrite root_name_of. apply runs_ret.
    + (* absolute: at least two octets, so not a one-octet word *)
      pose proof Hok as Hok'. cbn [labels_ok] in Hok'. apply andb_true_iff in Hok'. destruct Hok' as [Hl _].
      inversion Hg as [|? ? Hgl _]; subst. unfold good_label in Hgl. destruct l as [|c l]; [simpl in Hgl; lia|].
      destruct (render_rel_shape ess (c :: l) ls) as (R & ER & HR & _). rewrite ER, <- app_assoc.
      assert (Hlen2 : forall x, render_octets (hd [] ess) (c :: l) ++ R ++ [46%N] <> [x]).
      { intros x Heq. apply (f_equal (@length N)) in Heq. pose proof (render_octets_len (hd [] ess) c l).
        rewrite !app_length in Heq. cbn [length] in Heq. lia. }
      apply name_token_runs; [exact Hl|apply tailish_app; [exact HR|right; eexists _, _; split; reflexivity]|apply Hlen2..|].
      rewrite app_assoc, <- ER.
      assert (Hinv : nb_inv (nb_of ((c :: l) :: ls) []) ((c :: l) :: ls) [])
        by (apply nb_of_inv; [exact Hg|simpl; lia|cbn [length]; rewrite Nat.add_0_r; exact Hwl]).
      apply (non_root_runs _ _ _ (nb_of ((c :: l) :: ls) [])).
      * (* [label] is written out in one of the two places, which lia takes for different terms *)
        intros n q2. apply pnr_abs_runs; [discriminate|exact Hok|exact Hg|unfold label, bytes in *; lia].
      * rewrite (nb_fq_inv _ _ _ Hinv). apply (nb_finish_exact _ _ Hinv).
  - repeat (apply andb_true_iff in H; destruct H as [H ?]).
    apply Nat.leb_le in H, H5. apply opt_lbeq_eq in H4. subst origin. cbn [option_map].
    apply negb_true_iff, beq_false in H2. cbn [render_name] in H2.
    pose proof (Hog _ eq_refl) as Hss.
    set (rel := firstn k ls) in *.
    assert (Hrel : rel <> []) by (unfold rel; destruct ls; [simpl in H5; lia|destruct k; [lia|discriminate]]).
    assert (Hgr : Forall good_label rel) by (apply good_firstn; exact Hg).
    destruct rel as [|l rel'] eqn:Erel; [congruence|].
    inversion Hgr as [|? ? Hgl _]; subst. unfold good_label in Hgl. destruct l as [|c l]; [simpl in Hgl; lia|].
    pose proof H3 as Hok'. cbn [labels_ok] in Hok'. apply andb_true_iff in Hok'. destruct Hok' as [Hl _].
    destruct (render_rel_shape ess (c :: l) rel') as (R & ER & HR & _). rewrite ER in H2 |- *.
    apply name_token_runs; [exact Hl|exact HR|exact H2| |].
    { destruct (label_head _ _ _ Hl) as (h & Y & EY & Hh). rewrite EY. cbn [app]. congruence. }
    rewrite <- ER.
    assert (Hlw : length (lwire rel) <= 254) by (unfold rel; pose proof (lwire_app_len (firstn k ls) (skipn k ls)) as L; rewrite firstn_skipn in L; lia).
    rewrite Erel in Hlw. unfold rel in Erel.
    destruct (exists_last Hrel) as (ds & cur & Edc). rewrite Edc in *.
    assert (Hls : ds ++ cur :: skipn k ls = ls) by (rewrite app_cons_snoc, <- Erel; apply firstn_skipn).
    apply (non_root_runs _ _ _ (nb_of ds cur)); [intros n q2; apply pnr_rel_runs; assumption|].
    apply Forall_app in Hgr. destruct Hgr as [Hgd Hcur]. apply Forall_inv in Hcur. unfold good_label in Hcur.
    rewrite lwire_snoc_len in Hlw.
    assert (Hinv : nb_inv (nb_of ds cur) ds cur) by (apply nb_of_inv; [exact Hgd|lia|lia]).
    rewrite (nb_fq_inv _ _ _ Hinv), (proj2 (Nat.eqb_neq _ _)) by lia. rewrite <- Hls at 2.
    apply (nb_finish_with_suffix_exact _ ds cur (skipn k ls) Hinv); [lia|exact Hss|rewrite Hls; exact Hgood].
Qed.
