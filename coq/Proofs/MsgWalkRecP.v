(* OPT and TSIG records against the spec: the RDATA validators of the Reader model agree with the spec's layouts, and
   peek_parse rd_lite on a delimited record yields what the spec sees. *)
From QV Require Import Base.ListX Model.NameWire Model.Reader Model.RdataLite Model.Server
  Spec.NameWireS Spec.NameRepr Spec.ReaderS Spec.MsgWalkS
  Proofs.NameWireP Proofs.NameWireSP Proofs.ReaderP Proofs.RdataLiteP Proofs.ServerP Proofs.MsgWalkP.
Local Open Scope nat_scope.

Lemma validate_opt_loop_spec o : forall f offset f', length o - offset < f -> length o - offset < f' -> offset <= length o ->
  match validate_opt_loop f o offset with
  | Ok _ => s_options_tile f' (skipn offset o) = true
  | Err _ => s_options_tile f' (skipn offset o) = false
  | Panic => False
  end.
Proof.
  induction f as [|f IH]; intros offset f' Hf Hf' Hle; [lia|]. destruct f' as [|f']; [lia|].
  cbn [validate_opt_loop s_options_tile]. destruct (Nat.ltb_spec offset (length o)); [|rewrite skipn_all2 by lia; reflexivity].
  assert (Hlen : length (skipn offset o) = length o - offset) by apply skipn_length.
  destruct (skipn offset o) as [|x rest] eqn:Sk; [simpl in Hlen; lia|]. rewrite <- Sk in *. clear x rest Sk.
  unfold validate_option, sbe16. change (2 + 1) with 3.
  destruct (nth_error (skipn offset o) 2) as [hi|]; [|reflexivity].
  destruct (nth_error (skipn offset o) 3) as [lo|]; [|reflexivity].
  set (len := N.to_nat (hi * 256 + lo)).
  destruct (Nat.leb_spec (len + 4) (length (skipn offset o))), (Nat.leb_spec (4 + len) (length (skipn offset o)));
    try lia; cbn [bind andb]; [|reflexivity].
  rewrite skipn_plus. replace (offset + (4 + len)) with (offset + (len + 4)) by lia. apply IH; lia.
Qed.

Lemma validate_as_opt_spec o :
  match validate_as_opt o with
  | Ok _ => s_opt_rdata_ok o = true
  | Err _ => s_opt_rdata_ok o = false
  | Panic => False
  end.
Proof.
  unfold validate_as_opt, s_opt_rdata_ok.
  pose proof (validate_opt_loop_spec o (S (length o)) 0 (S (length o)) ltac:(lia) ltac:(lia) ltac:(lia)) as H.
  exact H.
Qed.

Lemma val_loop_spec b : forall fuel o fuel', 256 - o < fuel -> length b - o < fuel' ->
  match val_loop fuel b o with
  | Ok l => s_name_end fuel' b o o = Some (l, false)
  | Err _ => forall e, s_name_end fuel' b o o <> Some (e, false)
  | Panic => False
  end.
Proof.
  destruct consts_vals as (C63 & C255 & _).
  induction fuel as [|f IH]; intros o fuel' Hf Hf'; [lia|]. destruct fuel' as [|f']; [lia|].
  cbn [val_loop s_name_end]. destruct (nth_error b o) as [l|] eqn:Hn; [|intros e; discriminate].
  pose proof (nth_error_Some_lt _ _ _ Hn) as Hlt. rewrite C63, C255.
  destruct (N.ltb_spec 63 l), (N.eqb_spec l 0), (N.leb_spec l 63); try lia.
  - intros e. destruct (192 <=? l)%N; [destruct (o + 1 <=? 255)|]; discriminate.
  - subst l. cbn [N.to_nat]. rewrite Nat.add_0_r.
    destruct (Nat.ltb_spec 255 (o + 1)), (Nat.leb_spec (o + 1) 255); try lia; [intros e; discriminate|reflexivity].
  - replace (o + N.to_nat l + 1) with (o + 1 + N.to_nat l) by lia.
    destruct (Nat.ltb_spec 255 (o + 1 + N.to_nat l)); [intros e; rewrite s_name_end_over by lia; discriminate|].
    apply IH; lia.
Qed.

Lemma validate_uncompressed_spec o :
  match validate_uncompressed_name o false with
  | Ok l => s_first_name o 0 = Some (l, false)
  | Err _ => forall e, s_first_name o 0 <> Some (e, false)
  | Panic => False
  end.
Proof.
  unfold validate_uncompressed_name, s_first_name, unc_fuel. destruct consts_vals as (_ & C255 & _). rewrite C255.
  pose proof (val_loop_spec o (S (S 255)) 0 (S (length o)) ltac:(lia) ltac:(lia)) as H.
  destruct (val_loop (S (S 255)) o 0) as [l|e|]; cbn [bind andb]; exact H.
Qed.

Lemma get16_sbe16 o a : get16 o a = sbe16 o a.
Proof. reflexivity. Qed.

Lemma validate_as_tsig_spec o :
  match validate_as_tsig o with
  | Ok _ => s_tsig_rdata_ok o = true
  | Err _ => s_tsig_rdata_ok o = false
  | Panic => False
  end.
Proof.
  unfold validate_as_tsig, s_tsig_rdata_ok. pose proof (validate_uncompressed_spec o) as V.
  destruct (validate_uncompressed_name o false) as [al|e|]; cbv beta iota in V; [| |contradiction].
  - rewrite V, !get16_sbe16. destruct (sbe16 o (al + 8)) as [mac|]; [|cbv beta iota; reflexivity]. cbv zeta. rewrite ?get16_sbe16.
    replace (al + 10 + N.to_nat mac + 4) with (al + N.to_nat mac + 14) by lia.
    destruct (sbe16 o (al + N.to_nat mac + 14)) as [other|]; [|cbv beta iota; reflexivity].
    replace (al + 10 + N.to_nat mac + 6 + N.to_nat other) with (al + N.to_nat mac + N.to_nat other + 16) by lia.
    destruct (_ =? _); cbv beta iota; reflexivity.
  - destruct (s_first_name o 0) as [[al [|]]|] eqn:F; try reflexivity. exfalso. exact (V al eq_refl).
Qed.

Lemma rd_lite_opt cl b cur rdlen : cur + N.to_nat rdlen <= length b ->
  rd_lite cl 41%N b cur rdlen =
    if s_opt_rdata_ok (slice b cur (cur + N.to_nat rdlen)) then Ok (slice b cur (cur + N.to_nat rdlen))
    else match rd_lite cl 41%N b cur rdlen with Err e => Err e | _ => Err RdOther end.
Proof.
  intros H. unfold rd_lite, prepare_rdata.
  destruct (length b <? cur + N.to_nat rdlen) eqn:E; [apply Nat.ltb_lt in E; lia|]. cbn [bind].
  change (lite_unsupported cl 41%N) with false. cbv iota.
  change ((41 =? TYPE_A)%N && (cl =? CLASS_IN)%N) with false. change ((41 =? TYPE_AAAA)%N && (cl =? CLASS_IN)%N) with false.
  change (41 =? TYPE_OPT)%N with true. cbv iota.
  pose proof (validate_as_opt_spec (slice b cur (cur + N.to_nat rdlen))) as V.
  destruct (validate_as_opt (slice b cur (cur + N.to_nat rdlen))) as [u|e|]; cbn [bind]; [| |contradiction]; rewrite V; reflexivity.
Qed.

Lemma rd_lite_tsig cl b cur rdlen : cur + N.to_nat rdlen <= length b ->
  rd_lite cl 250%N b cur rdlen =
    if s_tsig_rdata_ok (slice b cur (cur + N.to_nat rdlen)) then Ok (slice b cur (cur + N.to_nat rdlen))
    else match rd_lite cl 250%N b cur rdlen with Err e => Err e | _ => Err RdOther end.
Proof.
  intros H. unfold rd_lite, prepare_rdata.
  destruct (length b <? cur + N.to_nat rdlen) eqn:E; [apply Nat.ltb_lt in E; lia|]. cbn [bind].
  change (lite_unsupported cl 250%N) with false. cbv iota.
  change ((250 =? TYPE_A)%N && (cl =? CLASS_IN)%N) with false. change ((250 =? TYPE_AAAA)%N && (cl =? CLASS_IN)%N) with false.
  change (250 =? TYPE_OPT)%N with false. change (250 =? TYPE_TSIG)%N with true. cbv iota.
  pose proof (validate_as_tsig_spec (slice b cur (cur + N.to_nat rdlen))) as V.
  destruct (validate_as_tsig (slice b cur (cur + N.to_nat rdlen))) as [u|e|]; cbn [bind]; [| |contradiction]; rewrite V; reflexivity.
Qed.

Lemma owner_decodes_spec b c : wf_bytes b ->
  match parse_compressed_name b c with
  | Ok (nm, _) => exists ls l, spec_decode_name b c = Some (ls, l) /\ nm = name_of ls
  | Err _ => spec_decode_name b c = None
  | Panic => False
  end.
Proof.
  intros Hw. destruct (parse_compressed_total b c) as [NP _].
  destruct (parse_compressed_name b c) as [[nm l]|e|] eqn:P; [| |congruence].
  - apply (parse_compressed_iff _ _ _ _ Hw) in P. destruct P as (ls & D & ->).
    exists ls, l. split; [apply spec_decode_name_iff; exact D|reflexivity].
  - destruct (spec_decode_name b c) as [[ls l]|] eqn:SD; [|reflexivity]. exfalso.
    apply spec_decode_name_iff in SD.
    assert (P' : parse_compressed_name b c = Ok (name_of ls, l)) by (apply (parse_compressed_iff _ _ _ _ Hw); eauto).
    congruence.
Qed.

Lemma peek_parse_lite r p ty cl raw rdlen : rinv r -> peek_core r = Ok p ->
  @be16_at reader_err (r_octets r) (p_owner_end p) = Ok ty ->
  @be16_at reader_err (r_octets r) (p_owner_end p + 2) = Ok cl ->
  @be32_at reader_err (r_octets r) (p_owner_end p + 4) = Ok raw ->
  @be16_at reader_err (r_octets r) (p_owner_end p + 8) = Ok rdlen ->
  match spec_decode_name (r_octets r) (r_cursor r), rd_lite cl ty (r_octets r) (p_owner_end p + 10) rdlen with
  | Some (ls, _), Ok rdata =>
    peek_parse rd_lite r p = (with_cursor r (p_rr_end p), Ok (mkReadRr (name_of ls) ty cl (ttl_from raw) rdata))
  | _, _ => exists e, peek_parse rd_lite r p = (r, Err e)
  end.
Proof.
  intros (Hw & _) P T C R L. unfold peek_parse, peek_owner, peek_class, peek_type, peek_rdlength, peek_ttl, peek_raw_ttl.
  rewrite T, C, R, L. pose proof (owner_decodes_spec (r_octets r) (r_cursor r) Hw) as O.
  destruct (parse_compressed_name (r_octets r) (r_cursor r)) as [[nm l]|e|]; cbn [lift_name map_err map_ok bind fst];
    [| |contradiction].
  - destruct O as (ls & l' & SD & ->). rewrite SD.
    pose proof (rd_lite_total cl ty (r_octets r) (p_owner_end p + 10) rdlen) as NP.
    destruct (rd_lite cl ty (r_octets r) (p_owner_end p + 10) rdlen) as [rdata|e|]; cbn [map_err bind map_ok]; [| |congruence].
    + reflexivity.
    + eauto.
  - rewrite O. eauto.
Qed.
