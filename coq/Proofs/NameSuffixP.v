(* C16 — NameBuilder::finish_with_suffix against the list-level specification:
   NullNonTerminal when the current label is empty, otherwise NameTooLong iff the concatenated name
   exceeds 255 octets, otherwise exactly the representation of (finished labels ++ current label ++
   suffix labels); never a panic (the label-offset `u8` additions and the ArrayVec pushes cannot
   fail once the octets fitted). *)
From QV Require Import Base.ListX Model.NameWire Model.DecU16 Model.NameText Spec.NameWireS Spec.NameRepr Spec.NameTextS
  Proofs.NameWireP Proofs.NameLabelsP Proofs.NameTextP Proofs.NameMoreP.

(* the first loop: every label's length octet and octets, while they fit *)
Lemma push_suffix_labels_spec (ls : list (list N)) : forall w,
  length w <= 255 -> Forall (fun l : list N => length l <= 63) ls ->
  push_suffix_labels w ls =
  if length w + length (lwire ls) <=? 255 then Ok (w ++ lwire ls) else Err NameTooLong.
Proof.
  induction ls as [|l r IH]; intros w Hw Hf.
  - cbn [push_suffix_labels]. change (lwire []) with (@nil N). cbn [length]. rewrite Nat.add_0_r, app_nil_r.
    assert (E : (length w <=? 255) = true) by (apply Nat.leb_le; exact Hw). rewrite E. reflexivity.
  - inversion Hf as [|? ? Hl Hr]; subst. cbn [push_suffix_labels]. change max_wire_len with 255.
    rewrite lwire_length_cons. destruct (length w <? 255) eqn:E1.
    + apply Nat.ltb_lt in E1. unfold try_extend. change max_wire_len with 255. rewrite app_length. cbn [length].
      destruct (255 <? length w + 1 + length l) eqn:E2.
      * apply Nat.ltb_lt in E2. assert (E : (length w + (1 + length l + length (lwire r)) <=? 255) = false)
          by (apply Nat.leb_gt; lia). rewrite E. reflexivity.
      * apply Nat.ltb_ge in E2. rewrite IH; [|rewrite !app_length; cbn [length]; lia|exact Hr].
        rewrite !app_length. cbn [length].
        replace (length w + 1 + length l + length (lwire r)) with (length w + (1 + length l + length (lwire r))) by lia.
        destruct (length w + (1 + length l + length (lwire r)) <=? 255); [|reflexivity].
        rewrite N.mod_small by lia. rewrite lwire_cons, <- !app_assoc. reflexivity.
    + apply Nat.ltb_ge in E1. assert (E : (length w + (1 + length l + length (lwire r)) <=? 255) = false)
        by (apply Nat.leb_gt; lia). rewrite E. reflexivity.
Qed.

(* the second loop: the suffix' label offsets shifted by the length of what precedes them (256: the last
   offset is at most 254, and one more for the root label's octet) *)
Lemma push_suffix_offsets_spec (y : list (list N)) : forall B base offs,
  B + base + length (lwire y) <= 256 -> length offs + length y <= 128 ->
  push_suffix_offsets offs (N.of_nat B) (offs_all base y) = Some (offs ++ offs_all (B + base) y).
Proof.
  induction y as [|l r IH]; intros B base offs H Hn.
  - cbn. rewrite app_nil_r. reflexivity.
  - rewrite lwire_length_cons in H. cbn [length] in Hn. cbn [offs_all push_suffix_offsets].
    rewrite N.mod_small by lia. unfold u8_add.
    assert (E : (255 <? N.of_nat base + N.of_nat B)%N = false) by (apply N.ltb_ge; lia). rewrite E.
    change max_n_labels with 128.
    assert (E2 : (128 <=? length offs) = false) by (apply Nat.leb_gt; lia). rewrite E2.
    rewrite IH; [|lia|rewrite app_length; cbn [length]; lia].
    rewrite <- app_assoc. cbn [app]. rewrite N.mod_small by lia.
    replace (B + (base + 1 + length l)) with (B + base + 1 + length l) by lia.
    do 3 f_equal. lia.
Qed.

Theorem finish_with_suffix_spec b (ds : list (list N)) (cur : list N) (suf : list (list N)) :
  brepr b (ds, cur) -> ast_ok (ds, cur) ->
  Forall (fun l : list N => 1 <= length l <= 63) suf -> wire_len suf <= 255 ->
  finish_with_suffix b (name_of suf) =
    if is_nil cur then Err NullNonTerminal
    else if wire_len (ds ++ cur :: suf) <=? 255 then Ok (name_of (ds ++ cur :: suf))
    else Err NameTooLong.
Proof.
  intros Hb (Hds & Hcur & Hw) Hsuf Hlen. destruct Hb as (Ewire & Eoffs & Estart & Elen).
  unfold awire in Hw. cbn [fst snd] in *.
  unfold finish_with_suffix, is_fully_qualified, update_label_len.
  rewrite Elen, Ewire, Estart, set_nth_app, <- lwire_snoc.
  destruct cur as [|c cur']; [reflexivity|]. set (cur := c :: cur') in *.
  destruct (N.eqb_spec (N.of_nat (length cur)) 0); [discriminate|]. change (is_nil cur) with false. cbv iota.
  (* from here on only pre = ds ++ [cur] matters: the buffer is lwire pre, the offsets are offs_all 0 pre *)
  change (ds ++ cur :: suf) with (ds ++ [cur] ++ suf). rewrite (app_assoc ds).
  assert (Eoffs' : b_offsets b = offs_all 0 (ds ++ [cur])) by (rewrite Eoffs, offs_all_app; reflexivity).
  assert (Hpre : length (lwire (ds ++ [cur])) <= 255 /\ 2 * length (ds ++ [cur]) <= length (lwire (ds ++ [cur]))).
  { pose proof (lwire_labels_len ds Hds). rewrite lwire_snoc, !app_length. subst cur. cbn [length] in *.
    unfold label, bytes in *. lia. }
  rewrite Eoffs'. unfold label, bytes in *. generalize dependent (ds ++ [cur]). intros pre _ [Hpre Hcnt].
  pose proof (lwire_labels_len suf Hsuf). rewrite (labels_name_of suf Hlen). cbn [bind].
  unfold wire_len, name_of. cbn [n_offsets].
  rewrite wire_len_lwire in Hlen.
  rewrite !offs_of_all, !wire_of_all, all_labels_app, lwire_app, offs_all_app, app_length. cbn [Nat.add].
  assert (Hsl : length (lwire (all_labels suf)) = length (lwire suf) + 1)
    by (unfold all_labels; rewrite lwire_app, app_length; reflexivity).
  rewrite push_suffix_labels_spec.
  2:{ exact Hpre. }
  2:{ apply Forall_app. split; [|repeat constructor].
      eapply Forall_impl; [|exact Hsuf]. cbn. intros l Hl. lia. }
  destruct (Nat.leb_spec (length (lwire pre) + length (lwire (all_labels suf))) 255); [|reflexivity].
  cbn [bind]. rewrite N.mod_small by lia.
  rewrite (push_suffix_offsets_spec (all_labels suf) (length (lwire pre)) 0), Nat.add_0_r; [reflexivity|lia|].
  rewrite offs_all_length, all_labels_length. unfold label, bytes in *. lia.
Qed.
