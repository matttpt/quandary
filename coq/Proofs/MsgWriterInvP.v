(* Operation-level facts about the writer model, for ALL operation sequences:
   the numeric invariant (=> the message never exceeds the limit in effect) and atomicity of
   failed operations.  These need no assumption on hints or names. *)
From QV Require Import Base.ListX Model.MsgWriter Proofs.NameWireP Proofs.MsgWriterP
     Proofs.MsgWriterScanP Proofs.MsgWriterNameP.

Local Open Scope nat_scope.

Definition frame {A} (c0 : nat) (w : writer) (r : M A) : Prop :=
  match r with
  | Ok (_, w') => ext c0 w w'
  | Err (_, w') => ext c0 w w'
  | Panic => True
  end.

Definition pre (c0 : nat) (w : writer) : Prop := c0 <= w_cursor w /\ w_cursor w <= w_avail w.

Lemma pre_ext c0 w w' : pre c0 w -> ext c0 w w' -> pre c0 w'.
Proof. intros [H1 H2] []. split; lia. Qed.

Lemma frame_try_push c0 data w : pre c0 w -> frame c0 w (try_push data w).
Proof.
  intros [Hc Ha]. destruct (try_push data w) as [[u w1]|[e w1]|] eqn:E; simpl; auto.
  - apply (try_push_ext c0) in E; auto. apply E.
  - apply try_push_err in E as [_ ->]. apply ext_refl; auto.
Qed.

Lemma ext_set_mrn c0 w w' x : ext c0 w w' -> ext c0 w (set_mrn w' x).
Proof. intros []. constructor; auto. Qed.
Lemma ext_set_mro c0 w w' x : ext c0 w w' -> ext c0 w (set_mro w' x).
Proof. intros []. constructor; auto. Qed.
Lemma ext_set_qname c0 w w' x : ext c0 w w' -> ext c0 w (set_qname w' x).
Proof. intros []. constructor; auto. Qed.
Lemma ext_set_section c0 w w' x : ext c0 w w' -> ext c0 w (set_section w' x).
Proof. intros []. constructor; auto. Qed.

Lemma frame_bind {A B} c0 w (r : M A) (g : A * writer -> M B) :
  pre c0 w -> frame c0 w r ->
  (forall a w1, r = Ok (a, w1) -> pre c0 w1 -> frame c0 w1 (g (a, w1))) ->
  frame c0 w (bind r g).
Proof.
  intros Hp Hr Hg. destruct r as [[a w1]|[e w1]|]; simpl in *; auto.
  specialize (Hg a w1 eq_refl (pre_ext _ _ _ Hp Hr)).
  destruct (g (a, w1)) as [[b w2]|[e w2]|]; simpl in *; auto; eapply ext_trans; eauto.
Qed.

Lemma frame_ok {A} c0 w (a : A) w' : ext c0 w w' -> frame c0 w (Ok (a, w')).
Proof. auto. Qed.

Lemma frame_trans {A} c0 w w1 (r : M A) : ext c0 w w1 -> frame c0 w1 r -> frame c0 w r.
Proof. destruct r as [[a w2]|[e w2]|]; simpl; auto; apply ext_trans. Qed.

Lemma pre_refl c0 w : pre c0 w -> ext c0 w w.
Proof. intros Hp. apply ext_refl, Hp. Qed.

Lemma frame_then_ret {A B} c0 w (r : M A) (k : A -> B) : frame c0 w r ->
  frame c0 w (let* (a, w1) := r in Ok (k a, w1)).
Proof. destruct r as [[a w1]|[e w1]|]; auto. Qed.

Lemma frame_push_u16 c0 v w : pre c0 w -> frame c0 w (try_push_u16 v w).
Proof. apply frame_try_push. Qed.

Lemma frame_uncompressed c0 n w : pre c0 w -> frame c0 w (write_uncompressed_name n w).
Proof. intros Hp. apply (frame_then_ret _ _ _ (fun _ => _)), frame_try_push, Hp. Qed.

Lemma frame_push_prior c0 pr w : pre c0 w -> frame c0 w (push_prior_ptr pr w).
Proof. intros Hp. apply (frame_then_ret _ _ _ (fun _ => _)), frame_push_u16, Hp. Qed.

Lemma frame_emit c0 n w m : pre c0 w -> frame c0 w (emit n w m).
Proof.
  intros Hp. destruct m as [[sc pp]|]; [|apply frame_uncompressed; auto]. cbn [emit].
  destruct (sc =? 0).
  - apply (frame_then_ret _ _ _ (fun _ => _)), frame_push_u16, Hp.
  - destruct (nm_wire_to n sc); simpl; auto.
    apply frame_bind; [assumption|apply frame_try_push; assumption|].
    intros [] w1 _ Hp1. apply (frame_then_ret _ _ _ (fun _ => _)), frame_push_u16, Hp1.
Qed.

Lemma frame_compressed c0 n w : pre c0 w -> frame c0 w (write_compressed_unhinted_name n w).
Proof.
  intros Hp. apply compressed_cases; [apply frame_uncompressed; auto|].
  match goal with |- context [lift ?r _] => destruct r as [cs|e|] end; simpl; auto using frame_emit, pre_refl.
Qed.

Lemma frame_unhinted c0 n w : pre c0 w -> frame c0 w (write_unhinted_name n w).
Proof.
  intros Hp. apply (unhinted_cases (fun _ => frame c0 w)); auto using frame_uncompressed, frame_compressed.
Qed.

Lemma frame_hinted c0 h n w : pre c0 w -> frame c0 w (write_hinted_name h n w).
Proof.
  intros Hp. apply (hinted_cases (fun _ => frame c0 w));
    auto using frame_uncompressed, frame_compressed, frame_push_prior.
Qed.

Lemma frame_components c0 : forall cts rdata v w, pre c0 w ->
  frame c0 w (write_components cts rdata v w).
Proof.
  induction cts as [|ct rest IH]; intros rdata v w Hp; simpl.
  - destruct (length rdata =? 0); [apply pre_refl, Hp|].
    apply (frame_then_ret _ _ _ (fun _ => _)), frame_try_push, Hp.
  - assert (Hname : forall (wr : wname -> writer -> M (option prior)),
               (forall n w, pre c0 w -> frame c0 w (wr n w)) ->
               frame c0 w
                 match parse_uncompressed_name rdata false with
                 | Ok (nm, len) =>
                   let n := labels_of_name nm in
                   let* (pr, w1) := wr n w in
                   let w2 := set_mrn w1 pr in
                   write_components rest (skipn len rdata) (hv_push v pr) w2
                 | Err _ => Err (InvalidRdata, w)
                 | Panic => Panic
                 end).
    { intros wr Hwr. destruct (parse_uncompressed_name rdata false) as [[nm len]|e|]; simpl; auto.
      - apply frame_bind; auto. intros pr w1 _ Hp1.
        pose proof (ext_set_mrn c0 w1 w1 pr (pre_refl _ _ Hp1)) as X.
        eapply frame_trans; [exact X|]. apply IH. eapply pre_ext; eauto.
      - apply pre_refl, Hp. }
    destruct ct as [| |k].
    + apply (Hname write_unhinted_name). intros; apply frame_unhinted; auto.
    + apply (Hname write_uncompressed_name). intros; apply frame_uncompressed; auto.
    + destruct (length rdata <? k); [apply pre_refl, Hp|].
      apply frame_bind; [assumption|apply frame_try_push; assumption|].
      intros [] w1 _ Hp1. apply IH; auto.
Qed.

Lemma w_write_inv w pos data w' : w_write w pos data = Ok w' ->
  exists b', buf_write (w_buf w) pos data = Some b' /\ w' = set_buf w b'.
Proof.
  unfold w_write. destruct (buf_write (w_buf w) pos data) as [b'|]; [|discriminate].
  intros H; inversion H; eauto.
Qed.

Lemma ext_w_write c0 w pos data w' : pre c0 w -> c0 <= pos -> w_write w pos data = Ok w' -> ext c0 w w'.
Proof.
  intros Hp Hc H. apply w_write_inv in H as [b' [Hb ->]]. constructor; simpl; auto; try apply Hp.
  - eapply buf_write_length; eauto.
  - eapply buf_write_agree; eauto.
Qed.

Lemma frame_add_rr c0 h owner ty cl ttl rd v w : pre c0 w ->
  frame c0 w (add_rr h owner ty cl ttl rd v w).
Proof.
  intros Hp. unfold add_rr.
  apply frame_bind; [assumption|apply frame_hinted; assumption|].
  intros pr w1 _ Hp1. cbn beta iota zeta.
  pose proof (ext_set_mro c0 w1 w1 pr (pre_refl _ _ Hp1)) as X1.
  apply frame_trans with (1 := X1). pose proof (pre_ext _ _ _ Hp1 X1) as Hp1'.
  apply frame_bind; [assumption|apply frame_push_u16; assumption|].
  intros [] w2 _ Hp2.
  apply frame_bind; [assumption|apply frame_push_u16; assumption|].
  intros [] w3 _ Hp3.
  apply frame_bind; [assumption|apply frame_try_push; assumption|].
  intros [] w4 _ Hp4. cbn beta iota.
  destruct (w_avail w4 <? w_cursor w4); [exact I|].
  destruct (w_avail w4 - w_cursor w4 <? 2) eqn:E2; [apply pre_refl, Hp4|].
  apply Nat.ltb_ge in E2. cbn zeta.
  assert (X5 : ext c0 w4 (set_cursor w4 (w_cursor w4 + 2))).
  { constructor; simpl; auto; try lia. apply agree_refl. }
  apply frame_trans with (1 := X5). pose proof (pre_ext _ _ _ Hp4 X5) as Hp5.
  apply frame_bind; [assumption|apply frame_components; assumption|].
  intros v' w6 _ Hp6.
  destruct (w_cursor w6 <? w_cursor w4 + 2); [exact I|].
  unfold lift. destruct (w_write w6 (w_cursor w4) _) as [w7|e|] eqn:E7; simpl; auto using pre_refl.
  apply (ext_w_write c0 _ _ _ _ Hp6 (proj1 Hp4) E7).
Qed.

Lemma frame_rrset_loop c0 : forall rds h owner ty cl ttl v k w, pre c0 w ->
  frame c0 w (add_rrset_loop h owner ty cl ttl rds v k w).
Proof.
  induction rds as [|rd rest IH]; intros h owner ty cl ttl v k w Hp; simpl.
  - apply pre_refl, Hp.
  - apply frame_bind; [assumption|apply frame_add_rr; assumption|].
    intros v' w1 _ Hp1. apply IH; auto.
Qed.

Definition resv (w : writer) : nat :=
  (if w_edns w then opt_record_size else 0) + match w_tsig w with Some t => t_reserved t | None => 0 end.

Record Inv_n (w : writer) : Prop := mkInv {
  i_hdr : header_size <= w_rr_start w;
  i_rs : w_rr_start w <= w_cursor w;
  i_cur : w_cursor w <= w_avail w;
  i_av : w_avail w + resv w = w_limit w;
  i_lim : w_limit w <= length (w_buf w) }.

Lemma inv_ext c0 w w' : Inv_n w -> ext c0 w w' -> Inv_n w'.
Proof.
  intros [h1 h2 h3 h4 h5] X.
  pose proof (x_len _ _ _ X). pose proof (x_lim _ _ _ X). pose proof (x_av _ _ _ X).
  pose proof (x_rs _ _ _ X). pose proof (x_cur _ _ _ X). pose proof (x_cav _ _ _ X).
  constructor; try lia.
  unfold resv in *. rewrite (x_edns _ _ _ X), (x_tsig _ _ _ X). lia.
Qed.

Lemma inv_pre w : Inv_n w -> pre (w_cursor w) w.
Proof. intros []. split; lia. Qed.

(* everything a caller can observe of the writer, except octets at or above the cursor *)
Record obs_eq (w w' : writer) : Prop := mkObs {
  o_buf : agree (w_cursor w) (w_buf w) (w_buf w');
  o_len : length (w_buf w') = length (w_buf w);
  o_cur : w_cursor w' = w_cursor w; o_lim : w_limit w' = w_limit w; o_av : w_avail w' = w_avail w;
  o_rs : w_rr_start w' = w_rr_start w; o_sec : w_section w' = w_section w;
  o_qd : w_qd w' = w_qd w; o_an : w_an w' = w_an w; o_ns : w_ns w' = w_ns w; o_ar : w_ar w' = w_ar w;
  o_qn : w_qname w' = w_qname w; o_mro : w_mro w' = w_mro w; o_mrn : w_mrn w' = w_mrn w;
  o_mode : w_mode w' = w_mode w; o_edns : w_edns w' = w_edns w; o_tsig : w_tsig w' = w_tsig w }.

Lemma obs_eq_refl w : obs_eq w w.
Proof. constructor; auto. apply agree_refl. Qed.

Lemma obs_eq_inv w w' : Inv_n w -> obs_eq w w' -> Inv_n w'.
Proof.
  intros [h1 h2 h3 h4 h5] X.
  pose proof (o_len _ _ X). pose proof (o_lim _ _ X). pose proof (o_av _ _ X).
  pose proof (o_rs _ _ X). pose proof (o_cur _ _ X).
  constructor; try lia. unfold resv in *. rewrite (o_edns _ _ X), (o_tsig _ _ X). lia.
Qed.

(* with_rollback: a failure is observably a no-op, a success extends *)
Lemma rollback_spec {A} (f : writer -> M A) w : Inv_n w ->
  frame (w_cursor w) w (f w) ->
  match with_rollback f w with
  | Ok (_, w') => ext (w_cursor w) w w'
  | Err (_, w') => obs_eq w w'
  | Panic => True
  end.
Proof.
  intros Hi F. unfold with_rollback. destruct (f w) as [[a w1]|[e w1]|]; simpl in *; auto.
  destruct F. constructor; simpl; auto.
Qed.

Lemma frame_change_section c0 s w : pre c0 w -> frame c0 w (change_section s w).
Proof.
  intros Hp. unfold change_section.
  destruct s; destruct (w_section w); simpl; try (apply ext_refl; apply Hp);
    apply ext_set_section, ext_refl; apply Hp.
Qed.

Lemma ext_set_counts c0 w w' qd an ns ar : ext c0 w w' ->
  ext c0 (set_counts w (w_qd w) (w_an w) (w_ns w) (w_ar w)) (set_counts w' qd an ns ar) -> True.
Proof. auto. Qed.

(* the body of add_<section>_rr / add_<section>_rrset: change the section, write, bump the count.
   The Ok branch can only say Inv_n: the new count breaks ext, so rollback_spec does not apply to these *)
Lemma section_body {A B} c0 s w (f : writer -> M A) (fin : A -> writer -> M B) : pre c0 w ->
  (forall w1, pre c0 w1 -> frame c0 w1 (f w1)) ->
  (forall a w2, match fin a w2 with
                | Ok (_, w') => exists c, w' = set_sec_count s w2 c
                | Err (_, w') => w' = w2
                | Panic => True end) ->
  match (let* (_, w1) := change_section s w in let* (a, w2) := f w1 in fin a w2) with
  | Ok (_, w') => Inv_n w -> Inv_n w'
  | Err (_, w') => ext c0 w w'
  | Panic => True
  end.
Proof.
  intros Hp Hf Hfin.
  pose proof (frame_change_section c0 s w Hp) as F1.
  destruct (change_section s w) as [[[] w1]|[e w1]|]; simpl in *; auto.
  pose proof (Hf w1 (pre_ext _ _ _ Hp F1)) as F2.
  destruct (f w1) as [[a w2]|[e w2]|]; simpl in *; auto; [|eapply ext_trans; eauto].
  pose proof (ext_trans _ _ _ _ F1 F2) as X. specialize (Hfin a w2).
  destruct (fin a w2) as [[b w']|[e w']|]; auto.
  - destruct Hfin as [c ->]. intros Hi. pose proof (inv_ext _ _ _ Hi X) as [].
    destruct s; constructor; simpl; auto.
  - subst w'. exact X.
Qed.

Lemma frame_section_rr_body c0 s h owner ty cl ttl rd v w : pre c0 w ->
  match (let* (_, w1) := change_section s w in
         let* (v', w2) := add_rr h owner ty cl ttl rd v w1 in
         match checked_add16 (sec_count s w2) 1 with
         | Some c => Ok (v', set_sec_count s w2 c)
         | None => Err (CountOverflow, w2)
         end) with
  | Ok (_, w') => Inv_n w -> Inv_n w'
  | Err (_, w') => ext c0 w w'
  | Panic => True
  end.
Proof.
  intros Hp. apply section_body; auto using frame_add_rr.
  intros v' w2. destruct (checked_add16 (sec_count s w2) 1); eauto.
Qed.

Lemma frame_section_rrset_body c0 s h owner ty cl ttl rds v w : pre c0 w ->
  match (let* (_, w1) := change_section s w in
         let* (r, w2) := add_rrset_loop h owner ty cl ttl rds v 0 w1 in
         let '(v', n_added) := r in
         if (65535 <? N.of_nat n_added)%N then Err (CountOverflow, w2)
         else match checked_add16 (sec_count s w2) (N.of_nat n_added) with
              | Some c => Ok (v', set_sec_count s w2 c)
              | None => Err (CountOverflow, w2)
              end) with
  | Ok (_, w') => Inv_n w -> Inv_n w'
  | Err (_, w') => ext c0 w w'
  | Panic => True
  end.
Proof.
  intros Hp. apply section_body; auto using frame_rrset_loop.
  intros [v' k] w2. destruct (65535 <? N.of_nat k)%N; auto.
  destruct (checked_add16 (sec_count s w2) (N.of_nat k)); eauto.
Qed.

Lemma inv_set_buf w b' : Inv_n w -> length b' = length (w_buf w) -> Inv_n (set_buf w b').
Proof. intros [] H. constructor; simpl; auto; lia. Qed.

Lemma w_write_obs w pos data w' : w_write w pos data = Ok w' ->
  length (w_buf w') = length (w_buf w) /\ w_limit w' = w_limit w.
Proof.
  intros H. apply w_write_inv in H as [b' [Hb ->]]. simpl. split; auto. eapply buf_write_length; eauto.
Qed.

Lemma inv_w_write w pos data w' : Inv_n w -> w_write w pos data = Ok w' -> Inv_n w'.
Proof.
  intros Hi H. apply w_write_inv in H as [b' [Hb ->]]. apply inv_set_buf; auto.
  eapply buf_write_length; eauto.
Qed.

Lemma inv_w_modify w i f w' : Inv_n w -> w_modify w i f = Ok w' -> Inv_n w'.
Proof.
  unfold w_modify. intros Hi. destruct (nth_error (w_buf w) (N.to_nat i)); [|discriminate].
  apply inv_w_write; auto.
Qed.

Lemma inv_clear_upper w : Inv_n w -> Inv_n (clear_upper w).
Proof.
  intros []. unfold clear_upper. destruct (w_edns w) eqn:E; [|constructor; auto].
  constructor; simpl; auto. unfold resv in *. simpl. rewrite E in i_av0. exact i_av0.
Qed.

Lemma question_body_frame c0 qname qtype qclass w : pre c0 w ->
  frame c0 w (let* (pr, w1) := write_unhinted_name qname w in
              let w1 := if (w_qd w1 =? 0)%N then set_qname w1 pr else w1 in
              let* (_, w2) := try_push_u16 qtype w1 in
              try_push_u16 qclass w2).
Proof.
  intros Hp.
  apply frame_bind; [assumption|apply frame_unhinted; assumption|].
  intros pr w1 _ Hp1. cbn beta iota zeta.
  assert (X : ext c0 w1 (if (w_qd w1 =? 0)%N then set_qname w1 pr else w1)).
  { destruct (w_qd w1 =? 0)%N; [apply ext_set_qname|]; apply pre_refl, Hp1. }
  apply frame_trans with (1 := X). pose proof (pre_ext _ _ _ Hp1 X) as Hp2.
  apply frame_bind; [assumption|apply frame_push_u16; assumption|].
  intros [] w2 _ Hp3. apply frame_push_u16; auto.
Qed.

Definition step_good (d : dstate) (r : res werr (dstate * outcome)) : Prop :=
  match r with
  | Ok (d', RErr _) => obs_eq (d_w d) (d_w d')
  | Ok (d', _) => Inv_n (d_w d')
  | _ => True
  end.

Lemma of_R_good d r : (forall w', r = Ok w' -> Inv_n w') -> step_good d (of_R d r).
Proof.
  intros H. destruct r as [w'|e|]; simpl; auto. apply obs_eq_refl.
Qed.

Lemma of_M_good {A} d (r : M A) :
  match r with Ok (_, w') => Inv_n w' | Err (_, w') => obs_eq (d_w d) w' | Panic => True end ->
  step_good d (of_M d r).
Proof. intros H. destruct r as [[a w']|[e w']|]; simpl; auto. Qed.

Lemma of_Mv_good d vec (r : M (option hvec)) :
  match r with Ok (_, w') => Inv_n w' | Err (_, w') => obs_eq (d_w d) w' | Panic => True end ->
  step_good d (of_Mv d vec r).
Proof. intros H. destruct r as [[a w']|[e w']|]; simpl; auto. Qed.

Lemma set_limit_inv l w w' : Inv_n w -> set_limit l w = Ok w' -> Inv_n w'.
Proof.
  intros [] . unfold set_limit.
  destruct (w_limit w <=? l) eqn:E1.
  - destruct (Nat.min l (length (w_buf w)) <? w_limit w) eqn:E2; [discriminate|].
    intros H; inversion H; subst. apply Nat.ltb_ge in E2.
    constructor; simpl; auto; try lia. unfold resv in *. simpl. lia.
  - destruct (w_cursor w + w_limit w <? w_avail w); [discriminate|].
    destruct (w_limit w <? Nat.max l (w_cursor w + w_limit w - w_avail w)) eqn:E3; [discriminate|].
    destruct (w_avail w <? w_limit w - Nat.max l (w_cursor w + w_limit w - w_avail w)) eqn:E4; [discriminate|].
    intros H; inversion H; subst. apply Nat.ltb_ge in E3. apply Nat.ltb_ge in E4.
    constructor; simpl; auto; try lia. unfold resv in *. simpl. lia.
Qed.

Lemma retemplate_inv nb w w' : Inv_n w -> retemplate nb w = Ok w' -> Inv_n w'.
Proof.
  intros []. unfold retemplate.
  destruct (length (w_buf w) <? w_cursor w); [discriminate|].
  destruct (w_limit w <? w_avail w); [discriminate|].
  destruct (length nb <? w_cursor w + (w_limit w - w_avail w)) eqn:E1; [discriminate|].
  destruct (Nat.min (w_limit w) (length nb) <? w_limit w - w_avail w) eqn:E2; [discriminate|].
  destruct (length nb <? w_cursor w) eqn:E3; [discriminate|].
  intros H; inversion H; subst.
  apply Nat.ltb_ge in E1. apply Nat.ltb_ge in E2. apply Nat.ltb_ge in E3.
  constructor; simpl; auto; try lia.
  - unfold resv in *. simpl. lia.
  - rewrite app_length, firstn_length, skipn_length. lia.
Qed.

(* add_*_rr is add_*_rrset of one record *)
Lemma add_section_rr_rrset s h owner ty cl ttl rd v w :
  add_section_rr s h owner ty cl ttl rd v w = add_section_rrset s h owner ty cl ttl [rd] v w.
Proof.
  unfold add_section_rr, add_section_rrset, with_rollback.
  destruct (change_section s w) as [[[] w1]|[e w1]|]; cbn [bind]; auto.
  cbn [add_rrset_loop]. destruct (add_rr h owner ty cl ttl rd v w1) as [[v' w2]|[e w2]|]; reflexivity.
Qed.

Lemma rrset_good d s h n ty class ttl rdatas vec : Inv_n (d_w d) ->
  step_good d (step d (OAddRrset s h n ty class ttl rdatas vec)).
Proof.
  intros Hi. pose proof (inv_pre _ Hi) as Hp. cbn [step].
  apply of_Mv_good; auto. unfold add_section_rrset.
  pose proof (frame_section_rrset_body (w_cursor (d_w d)) s (resolve_hint (d_regs d) h) n ty class
                (ttl_from ttl) rdatas (if vec then Some [] else None) (d_w d) Hp) as B.
  unfold with_rollback.
  destruct (let* (_, w1) := change_section s (d_w d) in _) as [[a w1]|[e w1]|]; simpl in *; auto.
  destruct B. constructor; simpl; auto.
Qed.

Theorem step_good_all d o : Inv_n (d_w d) -> step_good d (step d o).
Proof.
  intros Hi. pose proof (inv_pre _ Hi) as Hp.
  destruct o; cbn [step].
  (* the five flags and the opcode: one modified header octet *)
  2-7: (apply of_R_good; auto; intros w'; apply inv_w_modify; auto).
  - apply of_R_good; auto. intros w'. apply inv_w_write; auto.
  - apply of_R_good; auto. intros w'. unfold set_rcode.
    destruct (w_modify (d_w d) RCODE_BYTE _) as [w1|e|] eqn:E; simpl; try discriminate.
    intros H; inversion H; subst. apply inv_clear_upper. eapply inv_w_modify; eauto.
  - apply of_M_good; auto. unfold set_extended_rcode.
    destruct (w_edns (d_w d)) as [e|] eqn:Ee; [|apply obs_eq_refl].
    destruct (4095 <? v)%N; [apply obs_eq_refl|].
    unfold lift. destruct (w_modify (d_w d) RCODE_BYTE _) as [w1|e1|] eqn:E; simpl; auto.
    + pose proof (inv_w_modify _ _ _ _ Hi E) as [].
      unfold w_modify in E. destruct (nth_error (w_buf (d_w d)) (N.to_nat RCODE_BYTE)); [|discriminate].
      apply w_write_inv in E as [b' [Hb ->]].
      constructor; simpl in *; auto. unfold resv in *. simpl in *. rewrite Ee in i_av0. exact i_av0.
    + apply obs_eq_refl.
  - (* add_question *)
    apply of_M_good; auto. unfold add_question.
    destruct (w_section (d_w d)); try apply obs_eq_refl.
    destruct (checked_add16 (w_qd (d_w d)) 1); [|apply obs_eq_refl].
    match goal with |- context [with_rollback ?f _] =>
      pose proof (rollback_spec f (d_w d) Hi (question_body_frame _ n qtype qclass (d_w d) Hp)) as R;
      destruct (with_rollback f (d_w d)) as [[[] w1]|[e w1]|] end; simpl in *; auto.
    pose proof (inv_ext _ _ _ Hi R) as []. constructor; simpl; auto; lia.
  - (* add rr *) rewrite add_section_rr_rrset. exact (rrset_good d s h n ty class ttl [rdata] vec Hi).
  - exact (rrset_good d s h n ty class ttl rdatas vec Hi).
  - apply of_R_good; auto. intros w'. apply set_limit_inv; auto.
  - simpl. destruct Hi. constructor; auto.
  - (* set_edns *)
    apply of_M_good; auto. unfold set_edns.
    destruct (w_edns (d_w d)) eqn:Ee; [apply obs_eq_refl|].
    destruct (w_avail (d_w d) <? w_cursor (d_w d) + opt_record_size) eqn:E1; [apply obs_eq_refl|].
    destruct (checked_add16 (w_ar (d_w d)) 1); [|apply obs_eq_refl].
    apply Nat.ltb_ge in E1. destruct Hi. constructor; simpl; auto; try lia.
    unfold resv in *. cbn [w_edns w_tsig set_edns_f set_avail set_limit_avail set_counts].
    rewrite Ee in i_av0. lia.
  - (* set_tsig *)
    apply of_M_good; auto. unfold set_tsig.
    destruct (w_tsig (d_w d)) eqn:Ee; [apply obs_eq_refl|].
    destruct (w_avail (d_w d) <? w_cursor (d_w d) + _) eqn:E1; [apply obs_eq_refl|].
    destruct (checked_add16 (w_ar (d_w d)) 1); [|apply obs_eq_refl].
    apply Nat.ltb_ge in E1. destruct Hi. constructor; simpl; auto; try lia.
    unfold resv in *. simpl. rewrite Ee in i_av0. lia.
  - apply of_M_good; auto. unfold update_time_signed.
    destruct (w_tsig (d_w d)) eqn:Ee; [|apply obs_eq_refl].
    destruct Hi. constructor; simpl; auto. unfold resv in *. simpl. rewrite Ee in i_av0. exact i_av0.
  - simpl. destruct Hi. constructor; simpl; auto; lia.
  - apply of_R_good; auto. intros w'. apply retemplate_inv; auto.
  - simpl. apply obs_eq_refl.
  - destruct (getters (d_w d)); simpl; auto.
Qed.

Lemma writer_new_inv buf limit w : writer_new buf limit = Ok w -> Inv_n w.
Proof.
  unfold writer_new.
  destruct (Nat.min limit (length buf) <? header_size) eqn:E1; [discriminate|].
  destruct (length buf <? header_size) eqn:E2; [discriminate|].
  apply Nat.ltb_ge in E1. apply Nat.ltb_ge in E2.
  assert (HL : length (repeat 0%N header_size ++ skipn header_size buf) = length buf)
    by (rewrite app_length, repeat_length, skipn_length; lia).
  generalize dependent (repeat 0%N header_size ++ skipn header_size buf). intros b0 HL H.
  injection H as <-.
  constructor; unfold resv; cbn [w_rr_start w_cursor w_avail w_limit w_buf w_edns w_tsig]; lia.
Qed.

Lemma step_inv d o d' r : Inv_n (d_w d) -> step d o = Ok (d', r) -> Inv_n (d_w d').
Proof.
  intros Hi E. pose proof (step_good_all d o Hi) as G. rewrite E in G. simpl in G.
  destruct r; auto. eapply obs_eq_inv; eauto.
Qed.

Lemma run_inv : forall ops d d' outs alive, Inv_n (d_w d) ->
  run d ops = Ok (d', outs, alive) -> Inv_n (d_w d').
Proof.
  induction ops as [|o rest IH]; intros d d' outs alive Hi; simpl.
  - intros H; inversion H; subst; auto.
  - destruct (step d o) as [[d1 r]|e|] eqn:E; simpl; try discriminate.
    pose proof (step_inv _ _ _ _ Hi E) as Hi1.
    destruct (stops o r); [intros H; inversion H; subst; auto|].
    destruct (run d1 rest) as [[[d2 rs] al]|e|] eqn:E2; simpl; try discriminate.
    intros H; inversion H; subst. eapply IH; eauto.
Qed.

Lemma unwrap_frame {A} c0 w (r : M A) w' : unwrap_w r = Ok w' -> frame c0 w r -> ext c0 w w'.
Proof. destruct r as [[a w1]|[e w1]|]; simpl; try discriminate. intros H; inversion H; subst; auto. Qed.

(* a finish that succeeded: four header writes, then records appended above the header, within the limit
   (that it does succeed is finish_tail in MsgWriterStepP.v) *)
Lemma finish_gen_ext f w len b : Inv_n w -> finish_gen f w = Ok (len, b) ->
  exists w1 w2 w3 w4,
    w_write w (N.to_nat QDCOUNT_START) (be16 (w_qd w)) = Ok w1 /\
    w_write w1 (N.to_nat ANCOUNT_START) (be16 (w_an w1)) = Ok w2 /\
    w_write w2 (N.to_nat NSCOUNT_START) (be16 (w_ns w2)) = Ok w3 /\
    w_write w3 (N.to_nat ARCOUNT_START) (be16 (w_ar w3)) = Ok w4 /\
    agree header_size (w_buf w4) b /\ len <= w_limit w /\ length b = length (w_buf w).
Proof.
  intros Hi. unfold finish_gen.
  destruct (w_write w (N.to_nat QDCOUNT_START) _) as [w1|e|] eqn:E1; cbn [bind]; try discriminate.
  destruct (w_write w1 (N.to_nat ANCOUNT_START) _) as [w2|e|] eqn:E2; cbn [bind]; try discriminate.
  destruct (w_write w2 (N.to_nat NSCOUNT_START) _) as [w3|e|] eqn:E3; cbn [bind]; try discriminate.
  destruct (w_write w3 (N.to_nat ARCOUNT_START) _) as [w4|e|] eqn:E4; cbn [bind]; try discriminate.
  intros H. exists w1, w2, w3, w4. split; [reflexivity|]. do 3 (split; [assumption|]).
  pose proof (inv_w_write _ _ _ _ (inv_w_write _ _ _ _ (inv_w_write _ _ _ _ (inv_w_write _ _ _ _ Hi E1) E2) E3) E4)
    as [h1 h2 h3 h4 h5].
  apply w_write_obs in E1 as [L1 M1]. apply w_write_obs in E2 as [L2 M2].
  apply w_write_obs in E3 as [L3 M3]. apply w_write_obs in E4 as [L4 M4].
  replace (w_limit w) with (w_limit w4) by congruence.
  replace (length (w_buf w)) with (length (w_buf w4)) by congruence.
  clear - h1 h2 h3 h4 h5 H. unfold resv in h4.
  destruct (match w_edns w4 with Some e => _ | None => Ok w4 end) as [w5|e|] eqn:E5; cbn [bind] in H; try discriminate.
  assert (X5 : ext header_size (set_avail w4 (w_avail w4 + if w_edns w4 then opt_record_size else 0)) w5).
  { destruct (w_edns w4) as [ed|].
    - eapply unwrap_frame; [exact E5|]. apply frame_add_rr. split; cbn [w_avail w_cursor set_avail set_limit_avail]; lia.
    - injection E5 as <-. constructor; cbn [w_avail w_cursor set_avail set_limit_avail]; auto; try lia. apply agree_refl. }
  pose proof (x_cur _ _ _ X5) as C5. pose proof (x_cav _ _ _ X5) as V5. pose proof (x_av _ _ _ X5) as A5.
  pose proof (x_len _ _ _ X5) as N5. pose proof (x_lim _ _ _ X5) as M5. pose proof (x_tsig _ _ _ X5) as T5.
  cbn [w_avail w_cursor w_buf w_limit w_tsig set_avail set_limit_avail] in C5, V5, A5, N5, M5, T5.
  destruct (match w_tsig w5 with Some t => _ | None => Ok w5 end) as [w6|e|] eqn:E6; cbn [bind] in H; try discriminate.
  injection H as <- <-.
  assert (X6 : ext header_size (set_avail (set_tsig_f w5 None)
                                  (w_avail w5 + match w_tsig w5 with Some t => t_reserved t | None => 0 end)) w6).
  { destruct (w_tsig w5) as [t|] eqn:Et.
    - eapply unwrap_frame; [exact E6|]. apply frame_add_rr.
      split; cbn [w_avail w_cursor set_avail set_limit_avail set_tsig_f]; lia.
    - injection E6 as <-.
      constructor; cbn [w_avail w_cursor w_tsig set_avail set_limit_avail set_tsig_f]; auto; try lia. apply agree_refl. }
  pose proof (x_cav _ _ _ X6) as V6. pose proof (x_av _ _ _ X6) as A6. pose proof (x_len _ _ _ X6) as N6.
  cbn [w_avail w_buf set_avail set_limit_avail set_tsig_f] in V6, A6, N6. rewrite T5 in *.
  split; [exact (agree_trans _ _ _ _ (x_agree _ _ _ X5) (x_agree _ _ _ X6))|]. split; lia.
Qed.

Lemma finish_gen_limit f w len b : Inv_n w -> finish_gen f w = Ok (len, b) ->
  len <= w_limit w /\ length b = length (w_buf w).
Proof. intros Hi H. destruct (finish_gen_ext f w len b Hi H) as (_ & _ & _ & _ & _ & _ & _ & _ & _ & L). exact L. Qed.

Theorem run_writer_limit f buf limit ops rr len b :
  run_writer_gen f buf limit ops = Ok rr -> rr_final rr = Some (len, b) ->
  (forall w l b', Inv_n w -> f w = Ok (l, b') -> l <= w_limit w /\ length b' = length (w_buf w)) ->
  exists w0 d outs, writer_new buf limit = Ok w0 /\ run (mkD w0 []) ops = Ok (d, outs, true)
    /\ Inv_n (d_w d) /\ len <= w_limit (d_w d) /\ w_limit (d_w d) <= length b.
Proof.
  unfold run_writer_gen. intros H Hf Hfin.
  destruct (writer_new buf limit) as [w0|e|] eqn:E0; simpl in H; try discriminate.
  destruct (run (mkD w0 []) ops) as [[[d outs] alive]|e|] eqn:E1; simpl in H; try discriminate.
  pose proof (run_inv ops (mkD w0 []) d outs alive (writer_new_inv _ _ _ E0) E1) as Hi.
  destruct alive.
  - destruct (f (d_w d)) as [[l b']|e|] eqn:E2; simpl in H; try discriminate.
    inversion H; subst. simpl in Hf. inversion Hf; subst.
    destruct (Hfin _ _ _ Hi E2) as [L1 L2].
    exists w0, d, outs. split; [reflexivity|]. split; [exact E1|]. split; [exact Hi|].
    split; [exact L1|]. rewrite L2. apply Hi.
  - inversion H; subst. simpl in Hf. discriminate.
Qed.
