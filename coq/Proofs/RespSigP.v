(* Facts about the TSIG-tolerant pair relation of Spec/RespSigS.v: it is [pair_check] on responses
   without a TSIG record, and what a verdict [SPair PairOk] means. *)
From Coq Require Import List Bool Arith NArith Lia.
From QV Require Import Base.Res Base.Octets Spec.NameWireS Spec.MsgWriterS Spec.RdataFormatS Spec.RespS Spec.RespSigS Proofs.RespP.
Import ListNotations.

Lemma split_tsig_none : forall ar,
  forallb (fun r => negb (is_tsig r)) ar = true -> split_tsig ar = (ar, None).
Proof.
  intros ar H. unfold split_tsig. destruct (rev ar) as [|last before] eqn:E; [reflexivity|].
  assert (Hin : In last ar). { apply in_rev. rewrite E. left. reflexivity. }
  rewrite forallb_forall in H. specialize (H _ Hin). apply negb_true_iff in H. rewrite H. reflexivity.
Qed.

Lemma split_tsig_spec : forall ar body ts,
  split_tsig ar = (body, ts) ->
  match ts with
  | Some x => ar = body ++ [x] /\ is_tsig x = true
  | None => body = ar
  end.
Proof.
  intros ar body ts. unfold split_tsig. destruct (rev ar) as [|last before] eqn:E.
  - intros H. inversion H. reflexivity.
  - destruct (is_tsig last) eqn:T; intros H; inversion H; subst; [|reflexivity].
    split; [|exact T]. rewrite <- (rev_involutive ar), E. reflexivity.
Qed.

Theorem pair_check_signed_plain : forall their server u t,
  no_tsig u -> no_tsig t ->
  pair_check_signed their server u t = SPair (pair_check their server u t).
Proof.
  intros their server u t Hu Ht. unfold no_tsig in Hu, Ht. unfold pair_check_signed, pair_rel_signed, pair_check.
  destruct (decode_msg u) as [mu|]; [|reflexivity].
  destruct (decode_msg t) as [mt|]; [|reflexivity].
  rewrite (split_tsig_none _ Hu), (split_tsig_none _ Ht). cbn [tsig_eq_mod_rdata negb].
  destruct (_ || _); [reflexivity|]. destruct (tc_bit mt); [reflexivity|].
  destruct (length t <=? _); [destruct (label_eqb u t); reflexivity|].
  destruct (tc_bit mu); [destruct (_ && _); reflexivity|].
  destruct (negb _); [reflexivity|]. destruct (negb _); [reflexivity|].
  destruct (omitted _ _); [|reflexivity]. destruct (existsb _ _); reflexivity.
Qed.

Lemma label_eqb_eq' : forall a b, label_eqb a b = true -> a = b.
Proof.
  induction a as [|x a IH]; destruct b as [|y b]; simpl; try discriminate; auto.
  intros H. apply andb_true_iff in H. destruct H as [H1 H2]. apply N.eqb_eq in H1. f_equal; auto.
Qed.

(* sizes, TC never over TCP, octet identity (TSIG included) when the complete response fits *)
Theorem signed_sizes_and_identity : forall their server u t mu mt,
  decode_msg u = Some mu -> decode_msg t = Some mt ->
  pair_check_signed their server u t = SPair PairOk ->
  length u <= udp_limit_of mu their server /\ length t <= N.to_nat 65535 /\ tc_bit mt = false /\
  (length t <= udp_limit_of mu their server -> u = t).
Proof.
  intros their server u t mu mt Hu Ht. unfold pair_check_signed, pair_rel_signed. rewrite Hu, Ht.
  destruct (udp_limit_of mu their server <? length u) eqn:A; [discriminate|].
  destruct (N.to_nat 65535 <? length t) eqn:B; [discriminate|]. cbn [orb].
  apply Nat.ltb_ge in A. apply Nat.ltb_ge in B.
  destruct (tc_bit mt); [discriminate|]. intros H. repeat split; auto.
  intros Hfit. apply Nat.leb_le in Hfit. rewrite Hfit in H.
  destruct (label_eqb u t) eqn:E; [|discriminate]. apply label_eqb_eq'. exact E.
Qed.

Lemma length_zero_nil : forall {A} (l : list A), (length l =? 0) = true -> l = [].
Proof. intros A [|x l]; simpl; [reflexivity|discriminate]. Qed.

(* TC shape: a truncated UDP response carries nothing but the OPT and/or TSIG record *)
Theorem signed_tc_shape : forall their server u t mu mt,
  decode_msg u = Some mu -> decode_msg t = Some mt ->
  pair_check_signed their server u t = SPair PairOk -> tc_bit mu = true ->
  m_an mu = [] /\ m_ns mu = [] /\ forallb is_pseudo (m_ar mu) = true /\ tc_bit mt = false /\
  udp_limit_of mu their server < length t.
Proof.
  intros their server u t mu mt Hu Ht. unfold pair_check_signed, pair_rel_signed. rewrite Hu, Ht.
  destruct (_ || _); [discriminate|]. destruct (tc_bit mt) eqn:Tt; [discriminate|].
  intros H Htc. destruct (length t <=? udp_limit_of mu their server) eqn:F.
  { destruct (label_eqb u t) eqn:E; [|discriminate]. apply label_eqb_eq' in E. subst t.
    rewrite Hu in Ht. inversion Ht; subst. rewrite Htc in *. discriminate. }
  rewrite Htc in H.
  destruct (length (m_an mu) =? 0) eqn:A; [|discriminate]. destruct (length (m_ns mu) =? 0) eqn:B; [|discriminate].
  destruct (forallb is_pseudo (m_ar mu)) eqn:C; [|discriminate].
  apply length_zero_nil in A. apply length_zero_nil in B. apply Nat.leb_gt in F. repeat split; auto.
Qed.

(* the omission clause: complete response too long, TC clear *)
Theorem signed_omission : forall their server u t mu mt,
  decode_msg u = Some mu -> decode_msg t = Some mt ->
  pair_check_signed their server u t = SPair PairOk ->
  udp_limit_of mu their server < length t -> tc_bit mu = false ->
  m_id mu = m_id mt /\ m_flags2 mu = m_flags2 mt /\ m_flags3 mu = m_flags3 mt /\
  rrs_eq (m_an mu) (m_an mt) = true /\ rrs_eq (m_ns mu) (m_ns mt) = true /\
  exists au su at_ st left_out,
    split_tsig (m_ar mu) = (au, su) /\ split_tsig (m_ar mt) = (at_, st) /\
    tsig_eq_mod_rdata su st = true /\
    omitted au at_ = Some left_out /\
    forallb (fun r => negb (is_pseudo r) && negb (is_glue_for (m_ns mt) r)) left_out = true.
Proof.
  intros their server u t mu mt Hu Ht. unfold pair_check_signed, pair_rel_signed. rewrite Hu, Ht.
  destruct (_ || _); [discriminate|]. destruct (tc_bit mt); [discriminate|].
  intros H Hlong Htc. apply Nat.leb_gt in Hlong. rewrite Hlong, Htc in H.
  destruct ((m_id mu =? m_id mt)%N && (m_flags2 mu =? m_flags2 mt)%N && (m_flags3 mu =? m_flags3 mt)%N) eqn:Hh;
    cbn [negb] in H; [|discriminate].
  destruct (rrs_eq (m_an mu) (m_an mt) && rrs_eq (m_ns mu) (m_ns mt) && (length (m_qs mu) =? length (m_qs mt))) eqn:Hm;
    cbn [negb] in H; [|discriminate].
  apply andb_true_iff in Hh. destruct Hh as [Hh H3]. apply andb_true_iff in Hh. destruct Hh as [H1 H2].
  apply N.eqb_eq in H1. apply N.eqb_eq in H2. apply N.eqb_eq in H3.
  apply andb_true_iff in Hm. destruct Hm as [Hm _]. apply andb_true_iff in Hm. destruct Hm as [Ha Hn].
  destruct (split_tsig (m_ar mu)) as [au su] eqn:Su. destruct (split_tsig (m_ar mt)) as [at_ st] eqn:St.
  destruct (tsig_eq_mod_rdata su st) eqn:Te; cbn [negb] in H; [|discriminate].
  destruct (omitted au at_) as [left_out|] eqn:Om; [|discriminate].
  destruct (existsb _ left_out) eqn:Ex; [discriminate|].
  repeat split; auto. exists au, su, at_, st, left_out. repeat split; auto.
  apply forallb_forall. intros r Hr.
  destruct (is_pseudo r || is_glue_for (m_ns mt) r) eqn:Q.
  - assert (existsb (fun r => is_pseudo r || is_glue_for (m_ns mt) r) left_out = true).
    { apply existsb_exists. exists r. split; auto. }
    congruence.
  - apply orb_false_iff in Q. destruct Q as [Q1 Q2]. rewrite Q1, Q2. reflexivity.
Qed.

(* Under C02's verdict the set-aside is complete: a well-formed response carries at most one TSIG record, as the last
   record, so the additional-section bodies compared by the omission clause contain no TSIG record at all. *)
Theorem split_tsig_complete : forall m body ts,
  wf_decoded m = true -> split_tsig (m_ar m) = (body, ts) ->
  forallb (fun r => negb (is_tsig r)) body = true.
Proof.
  intros m body ts Hwf. unfold wf_decoded in Hwf. apply andb_true_iff in Hwf. destruct Hwf as [_ Hlast].
  unfold split_tsig. destruct (rev (m_ar m)) as [|last before] eqn:E.
  - intros H. inversion H; subst. assert (m_ar m = []) as ->.
    { rewrite <- (rev_involutive (m_ar m)), E. reflexivity. } reflexivity.
  - apply Nat.eqb_eq in Hlast. pose proof (proj1 (count_zero_forall _ _) Hlast) as Hb.
    destruct (is_tsig last) eqn:T; intros H; inversion H; subst; apply forallb_forall; intros x Hx.
    + apply in_rev in Hx. rewrite (Hb _ Hx). reflexivity.
    + assert (Hx' : In x (rev (m_ar m))). { apply in_rev. rewrite rev_involutive. exact Hx. }
      rewrite E in Hx'. destruct Hx' as [<-|Hx']; [rewrite T; reflexivity|]. rewrite (Hb _ Hx'). reflexivity.
Qed.
