(* C23: parse_line on a rendered line (record with the context update, blank, $ORIGIN, $TTL, $INCLUDE),
   whole files through the iterator and through records_only, and the witness of the WKS bit-order finding. *)
From QV Require Import Base.ListX Model.NameWire Spec.NameWireS Spec.NameRepr Proofs.NameWireP
  Model.ZfReader Model.ZfParser Proofs.ZfReaderP Proofs.ZfStdP Spec.ZfValidS Proofs.ZfNameP Proofs.ZfParserP
  Proofs.ZfRecordP Proofs.ZfFieldsP Proofs.ZfRunP Proofs.ZfTokP Proofs.ZfNameRP Proofs.ZfSymP Proofs.ZfAddrP
  Proofs.ZfRecRP Spec.ZfRenderS Model.ZfRecOnly Proofs.ZfRecOnlyP.

Local Open Scope N_scope.

(* for either numbering of the bits of a WKS bit map; where a WKS record lists ports in its own syntax the
   parser's numbering is required ([ord_rdata] / [ord_line] / [ord_file]) *)
Section Ord.
Context {bo : BitOrder}.

Definition ord_rdata (dc : dchoice) (d : ardata) : Prop := bo = impl_order \/ wks_listed dc d = false.
Definition ord_line (l : aline) : Prop := bo = impl_order \/ line_wks_listed l = false.
Definition ord_file (ls : list aline) : Prop := Forall ord_line ls.

Definition rr_of (r : arec) : rr :=
  mkRr (name_of (a_owner r)) (a_ttl r) (a_class r) (a_type r) (rdata_wire (a_rdata r)).

Definition sep_strip (s : sep) : bytes * sep :=
  match s_groups s with
  | (bl, it) :: gs => (bl, mkSep (([], it) :: gs) (s_tail s))
  | [] => (s_tail s, mkSep [] [])
  end.

Lemma sep_strip_spec s p p' : sep_paren p s = Some p' ->
  let (b0, s') := sep_strip s in
  render_sep s = b0 ++ render_sep s' /\ blanks_ok b0 = true /\ sep_paren p s' = Some p' /\
  sep_lead_blank s = negb (beq b0 []) /\ (forall X, not_ws_head X -> not_ws_head (render_sep s' ++ X)).
Proof.
  unfold sep_paren, sep_strip, sep_lead_blank, render_sep. destruct (blanks_ok (s_tail s)) eqn:Ht; [|discriminate].
  destruct (s_groups s) as [|[bl it] gs]; cbn [s_groups s_tail].
  - intros [= <-]. cbn [flat_map app]. rewrite app_nil_r. repeat split; auto.
  - cbn [groups_paren]. destruct (blanks_ok bl) eqn:Hb; [|discriminate]. intros H.
    cbn [flat_map]. unfold render_group_s at 1 3. cbn [fst snd app]. rewrite <- !app_assoc. rewrite Ht. cbn [blanks_ok forallb].
    repeat split; auto. intros X HX. rewrite <- !app_assoc. apply sitem_not_ws.
Qed.

Lemma skip_ws_runs b0 p : blanks_ok b0 = true -> runs not_ws_head (lift skip_whitespace) b0 p p (negb (beq b0 [])).
Proof.
  intros Hb r t E P W Ht. destruct (skip_ws_post r b0 t Hb Ht E) as (S1 & P1 & Lw). exists (adv r (length b0)).
  unfold lift. rewrite (surjective_pairing (skip_whitespace r)), S1, Lw. split; [reflexivity|]. rewrite <- P. exact P1.
Qed.

Lemma lead_field {B} (g : bool -> field_or_eol -> M B) (T : bytes -> Prop) lead s2 p1 p2 v :
  sep_paren false lead = Some p1 -> (forall t, T t -> fstart (s2 ++ t)) ->
  runs T (g (sep_lead_blank lead) Field) s2 p1 p2 v ->
  runs T (bindM (lift skip_whitespace) (fun lw => bindM skip_to_next_field_or_through_eol (fun f => g lw f)))
       (render_sep lead ++ s2) false p2 v.
Proof.
  intros Hs Hf Hg. pose proof (sep_strip_spec lead false p1 Hs) as S. destruct (sep_strip lead) as [b0 lead'].
  destruct S as (Etext & Hb0 & Hs' & Hlb & Hnw). rewrite Etext, <- app_assoc.
  eapply runs_bind; [apply skip_ws_runs; exact Hb0|intros t Ht; rewrite <- app_assoc; apply Hnw, fstart_not_ws, Hf, Ht|].
  cbv beta. rewrite <- Hlb. eapply runs_bind; [apply through_field_runs; exact Hs'|exact Hf|exact Hg].
Qed.

Lemma lead_eol {B} (g : bool -> field_or_eol -> M B) e v :
  eol_ok false e = true -> (forall lw, g lw Eol = ret v) ->
  runs (eoft (e_term e)) (bindM (lift skip_whitespace) (fun lw => bindM skip_to_next_field_or_through_eol (fun f => g lw f)))
       (render_eol e) false false v.
Proof.
  intros He Hg. pose proof He as He'. unfold eol_ok in He'.
  destruct (sep_paren false (e_sep e)) as [[|]|] eqn:Hs; try discriminate.
  pose proof (sep_strip_spec (e_sep e) false false Hs) as S. destruct (sep_strip (e_sep e)) as [b0 lead'].
  destruct S as (Etext & Hb0 & Hs' & _ & Hnw). unfold render_eol. rewrite Etext, <- app_assoc.
  eapply runs_bind; [apply skip_ws_runs; exact Hb0|intros t Ht; rewrite <- app_assoc; apply Hnw, term_not_ws, Ht|].
  cbv beta. apply runs_app_nil.
  eapply runs_bind; [apply (through_eol_runs (mkEol lead' (e_term e))); unfold eol_ok; cbn [e_sep e_term]; rewrite Hs'; exact He'
                    |intros t Ht; exact Ht|rewrite Hg; apply runs_ret].
Qed.

Lemma type_runs sc ty p : sym_ok spec_types sc ty = true -> type_allowed_b ty = true ->
  runs fend parse_type (render_type sc ty) p p ty.
Proof.
  intros Hok Hal. destruct (type_tok sc ty Hok) as [H1 H2]. unfold parse_type. apply runs_getpos. intros q.
  apply runs_app_nil. eapply runs_bind; [apply read_field_runs; [exact H1|exact H2|apply type_roundtrip; exact Hok]|intros t Ht; exact Ht|].
  cbv beta. unfold type_allowed_b in Hal. apply negb_true_iff in Hal. apply orb_false_iff in Hal. destruct Hal as [Hal H250].
  apply orb_false_iff in Hal. destruct Hal as [H10 H41].
  change TYPE_NULL with 10. change TYPE_OPT with 41. change TYPE_TSIG with 250. rewrite H10, H41, H250. apply runs_ret.
Qed.

Lemma tc_m_bind {B} c (K : N * N -> M B) r :
  bindM (parse_ttl_and_class c) (fun tc => bindM (skip_to_next_field ExpectedType) (fun _ => K tc)) r = bindM (tc_m c) K r.
Proof.
  unfold tc_m. rewrite bindM_assoc. unfold bindM. destruct (parse_ttl_and_class c r) as [[tc r1]|e|]; try reflexivity.
  destruct (skip_to_next_field ExpectedType r1) as [[u r2]|e|]; reflexivity.
Qed.

Lemma rdata_fend o p class type dc d p3 e t : rdata_ok o p class type dc d = Some p3 -> eol_ok p3 e = true ->
  eoft (e_term e) t -> fend (render_rdata dc d ++ render_eol e ++ t).
Proof.
  intros H He Ht. apply rdata_ok_inv in H. destruct H as (_ & _ & [(cs & fs & -> & -> & Hok)|(s0 & s1 & ic & ws & -> & Hgen)]).
  - rewrite app_assoc. exact (fields_tail _ _ false _ _ _ _ _ _ Hok He Ht).
  - destruct Hgen as (p0 & p1 & Hs0 & _). apply sep_ok_inv in Hs0. destruct Hs0 as [Hs Hse].
    cbn [render_rdata]. rewrite <- !app_assoc. eapply fend_sep; [exact Hs|apply Hse; reflexivity].
Qed.

Lemma type_fstart sc ty t : sym_ok spec_types sc ty = true -> fstart (render_type sc ty ++ t).
Proof.
  intros H. apply tok_fstart; [apply (type_tok _ _ H)|apply render_type_nonempty].
Qed.

Lemma class_fstart sc c t : sym_ok spec_classes sc c = true -> fstart (render_class sc c ++ t).
Proof.
  intros H. apply tok_fstart; [apply (class_tok _ _ H)|apply render_class_nonempty].
Qed.

Lemma tc_fstart x p tc r p' sc ty t : tc_ok x p tc r = Some p' -> sym_ok spec_types sc ty = true ->
  fstart (render_tc tc (a_class r) ++ render_type sc ty ++ t).
Proof.
  intros Etc Hty. destruct tc as [|raw ic s'|cc s'|raw ic s1 cc s2|cc s1 raw ic s2]; cbn [render_tc tc_ok app] in *; rewrite <- ?app_assoc.
  - apply type_fstart, Hty.
  - apply uint_fstart.
  - destruct (class_shown_ok cc r) eqn:Ec; [|discriminate]. apply class_fstart, Ec.
  - apply uint_fstart.
  - destruct (ttl_shown_ok raw ic r); [|discriminate]. destruct (class_shown_ok cc r) eqn:Ec; [|discriminate]. apply class_fstart, Ec.
Qed.

Lemma record_ok_inv x rc r : record_ok x rc r = true -> exists p0 p1 p2 p3,
  sep_paren false (rc_lead rc) = Some p0 /\
  match rc_owner rc with
  | Some (nc, s) => sep_lead_blank (rc_lead rc) = false /\ name_ok false true (x_origin x) nc (a_owner r) = true /\
                    sep_ok p0 false s = Some p1
  | None => sep_lead_blank (rc_lead rc) = true /\ x_owner x = Some (a_owner r) /\ p1 = p0
  end /\
  tc_ok x p1 (rc_tc rc) r = Some p2 /\ sym_ok spec_types (rc_type rc) (a_type r) = true /\ type_allowed_b (a_type r) = true /\
  rdata_ok (x_origin x) p2 (a_class r) (a_type r) (rc_rdata rc) (a_rdata r) = Some p3 /\ eol_ok p3 (rc_end rc) = true.
Proof.
  unfold record_ok. destruct (sep_paren false (rc_lead rc)) as [p0|]; [|discriminate].
  destruct (match rc_owner rc with Some _ => _ | None => _ end) as [p1|] eqn:Eown; [|discriminate]. intros H.
  apply andb_true_iff in H. destruct H as [_ H]. destruct (tc_ok x p1 (rc_tc rc) r) as [p2|] eqn:Etc; [|discriminate].
  apply andb_true_iff in H. destruct H as [Hty H]. apply andb_true_iff in Hty. destruct Hty as [Hty Hal].
  destruct (rdata_ok _ p2 _ _ _ _) as [p3|] eqn:Erd; [|discriminate]. exists p0, p1, p2, p3. repeat split; try assumption.
  destruct (rc_owner rc) as [[nc s]|].
  - destruct (sep_lead_blank (rc_lead rc)); [discriminate|]. cbn [negb andb] in Eown. destruct (name_ok _ _ _ _ _); [auto|discriminate].
  - destruct (sep_lead_blank (rc_lead rc)); [|discriminate]. cbn [andb] in Eown.
    destruct (opt_lbeq (x_owner x) (a_owner r)) eqn:Eow; [|discriminate]. apply opt_lbeq_eq in Eow. inversion Eown. auto.
Qed.

Lemma record_rest_runs x r sol tc sc dc e p2 p3 p4 : ord_rdata dc (a_rdata r) -> sctx_good x ->
  tc_ok x p2 tc r = Some p3 -> sym_ok spec_types sc (a_type r) = true -> type_allowed_b (a_type r) = true ->
  rdata_ok (x_origin x) p3 (a_class r) (a_type r) dc (a_rdata r) = Some p4 -> eol_ok p4 e = true ->
  runs (eoft (e_term e))
       (do tc <- tc_m (ctx_of x); do rr_type <- parse_type; do rdata <- parse_rdata (ctx_of x) (snd tc) rr_type;
        ret (Some (mkLine (p_line sol) (CRecord (mkRr (name_of (a_owner r)) (fst tc) (snd tc) rr_type rdata))),
             mkCtx (c_origin (ctx_of x)) (Some (name_of (a_owner r))) (Some (fst tc)) (Some (snd tc)) (c_default_ttl (ctx_of x))))
       (render_tc tc (a_class r) ++ render_type sc (a_type r) ++ render_rdata dc (a_rdata r) ++ render_eol e) p2 false
       (Some (mkLine (p_line sol) (CRecord (rr_of r))), ctx_of (after_record x r)).
Proof.
  intros Hord Hx Etc Hty Hal Erd Heol.
  eapply runs_bind; [eapply (tc_runs x (ctx_of x)); [repeat split|exact Etc|exact (type_tok _ _ Hty)|apply type_roundtrip; exact Hty]| |].
  { intros t Ht. eexists. split; [rewrite <- app_assoc; reflexivity|]. rewrite <- app_assoc. eapply rdata_fend; eassumption. }
  cbn [fst snd]. eapply runs_bind; [apply type_runs; assumption|intros t Ht; rewrite <- app_assoc; eapply rdata_fend; eassumption|].
  cbv beta. apply runs_app_nil. eapply runs_bind; [eapply rdata_runs; eassumption|intros t Ht; exact Ht|apply runs_ret].
Qed.

Theorem record_fields_runs x rc r sol p1 : ord_rdata (rc_rdata rc) (a_rdata r) ->
  sctx_good x -> sep_paren false (rc_lead rc) = Some p1 -> record_ok x rc r = true ->
  runs (eoft (e_term (rc_end rc))) (parse_record_fields (ctx_of x) sol (sep_lead_blank (rc_lead rc)))
       (match rc_owner rc with Some (nc, s) => render_name nc (a_owner r) ++ render_sep s | None => [] end
        ++ render_tc (rc_tc rc) (a_class r) ++ render_type (rc_type rc) (a_type r)
        ++ render_rdata (rc_rdata rc) (a_rdata r) ++ render_eol (rc_end rc))
       p1 false
       (Some (mkLine (p_line sol) (CRecord (rr_of r))), ctx_of (after_record x r)).
Proof.
  intros Hord Hx Hlead Hok. destruct (record_ok_inv _ _ _ Hok) as (p0 & p2 & p3 & p4 & Hl & Hown & Etc & Hty & Hal & Erd & Heol).
  rewrite Hlead in Hl. injection Hl as <-.
  pose proof (record_rest_runs x r sol _ _ _ _ _ _ _ Hord Hx Etc Hty Hal Erd Heol) as Rest.
  unfold parse_record_fields. destruct (rc_owner rc) as [[nc s]|].
  - destruct Hown as (-> & Enm & Es). pose proof (sep_ok_inv _ _ _ _ Es) as [HPs HEs]. rewrite <- !app_assoc.
    eapply runs_bind; [eapply name_runs; [exact Enm|exact Hx]|intros t Ht; rewrite <- app_assoc; eapply fend_sep; [exact HPs|apply HEs; reflexivity]|].
    cbv beta. eapply runs_bind; [apply skip_to_next_field_runs; exact HPs|intros t Ht; rewrite <- !app_assoc; eapply tc_fstart; eassumption|].
    eapply runs_eq; [intros r0; apply tc_m_bind|exact Rest].
  - destruct Hown as (-> & Eow & ->). cbn [app].
    replace (c_prev_owner (ctx_of x)) with (Some (name_of (a_owner r))) by (unfold ctx_of; cbn [c_prev_owner]; rewrite Eow; reflexivity).
    eapply runs_eq; [intros r0; apply bind_ret_l|]. rewrite <- (app_nil_l (render_tc _ _ ++ _)).
    eapply runs_bind; [apply (skip_to_next_field_runs _ sep_none p1 p1); reflexivity|intros t Ht; rewrite <- !app_assoc; eapply tc_fstart; eassumption|].
    eapply runs_eq; [intros r0; apply tc_m_bind|exact Rest].
Qed.

Definition item_of (n : N) (r : arec) : line := mkLine n (CRecord (rr_of r)).
Definition line_of (n : N) (it : aitem) : line :=
  match it with
  | IRecord r => item_of n r
  | IInclude path o => mkLine n (CInclude path (option_map name_of o))
  end.
Definition line_item (x : sctx) (l : aline) : option aitem :=
  match l with
  | LRecord _ r => Some (IRecord r)
  | LInclude _ _ _ path org _ => Some (IInclude path (match org with Some (_, _, ls) => Some ls | None => x_origin x end))
  | _ => None
  end.

Lemma name_not_dollar first origin nc ls : name_ok first true origin nc ls = true -> head_is 36 (render_name nc ls) = false.
Proof.
  unfold name_ok. intros H. apply andb_true_iff in H. destruct H as [_ H]. destruct nc as [|ess|k ess]; [reflexivity| |];
    apply andb_true_iff in H; destruct H as [_ H]; apply negb_true_iff in H; exact H.
Qed.

Lemma record_body_head x rc r rest : record_ok x rc r = true ->
  let body := match rc_owner rc with Some (nc, s) => render_name nc (a_owner r) ++ render_sep s | None => [] end
              ++ render_tc (rc_tc rc) (a_class r) ++ render_type (rc_type rc) (a_type r) ++ rest in
  fstart body /\ (sep_empty (rc_lead rc) = true -> head_is 36 body = false).
Proof.
  intros Hok. destruct (record_ok_inv _ _ _ Hok) as (p0 & p2 & p3 & p4 & _ & Hown & Etc & Hty & _).
  destruct (rc_owner rc) as [[nc s]|]; cbv zeta.
  - destruct Hown as (_ & Enm & _). pose proof (name_not_dollar _ _ _ _ Enm) as Hd.
    destruct (name_starts _ _ _ _ _ Enm) as (h & tl & Eh & Hp & _). rewrite Eh in *. split; [apply fstart_plain, Hp|intros _; exact Hd].
  - destruct Hown as (Elb & _). split; [eapply tc_fstart; eassumption|]. intros Ee.
    unfold sep_empty in Ee. unfold sep_lead_blank in Elb. destruct (s_groups (rc_lead rc)); [|discriminate]. destruct (s_tail (rc_lead rc)); discriminate.
Qed.

(* parse_line looks at the first octet only: '$' (36) sends it to parse_directive *)
Lemma parse_line_record c r : head_is 36 (r_rest r) = false -> parse_line c r = parse_record_or_empty c r.
Proof. unfold parse_line, peek_octet. destruct (r_rest r) as [|d l]; [reflexivity|]. cbn [hd_error head_is]. intros ->. reflexivity. Qed.

Lemma sep_head_not_dollar s p p' rest : sep_paren p s = Some p' -> sep_empty s = false -> head_is 36 (render_sep s ++ rest) = false.
Proof.
  unfold sep_paren, sep_empty, render_sep. destruct (blanks_ok (s_tail s)) eqn:Ht; [|discriminate].
  assert (Blank : forall c bl X, blanks_ok (c :: bl) = true -> head_is 36 ((c :: bl) ++ X) = false).
  { intros c bl X Hb. unfold blanks_ok in Hb. cbn [forallb] in Hb. apply andb_true_iff in Hb. destruct Hb as [Hc _].
    cbn [app head_is]. apply N.eqb_neq. intros ->. discriminate. }
  destruct (s_groups s) as [|[bl it] gs].
  - intros _ Hne. destruct (s_tail s) as [|c tl]; [discriminate|]. apply Blank, Ht.
  - cbn [groups_paren]. destruct (blanks_ok bl) eqn:Hb; [|discriminate]. intros _ _.
    cbn [flat_map]. unfold render_group_s at 1. cbn [fst snd]. rewrite <- !app_assoc. destruct bl as [|c bl]; [|apply Blank, Hb].
    destruct it as [| |[|]|x cr]; reflexivity.
Qed.

Lemma render_record_split rc r :
  render_record rc r = render_sep (rc_lead rc) ++
    (match rc_owner rc with Some (nc, s) => render_name nc (a_owner r) ++ render_sep s | None => [] end
     ++ render_tc (rc_tc rc) (a_class r) ++ render_type (rc_type rc) (a_type r)
     ++ render_rdata (rc_rdata rc) (a_rdata r) ++ render_eol (rc_end rc)).
Proof. unfold render_record. destruct (rc_owner rc) as [[nc s]|]; rewrite <- ?app_assoc; reflexivity. Qed.

Lemma sep_empty_render s : sep_empty s = true -> render_sep s = [].
Proof. unfold sep_empty, render_sep. destruct (s_groups s); [|discriminate]. destruct (s_tail s); [reflexivity|discriminate]. Qed.

(* a record line: the record with the number of the line it starts on, and the new context *)
Theorem record_line_parses x rc r t rd0 : ord_rdata (rc_rdata rc) (a_rdata r) -> sctx_good x -> record_ok x rc r = true ->
  r_rest rd0 = render_record rc r ++ t -> r_paren rd0 = false -> wfr rd0 -> eoft (e_term (rc_end rc)) t ->
  exists rd1, parse_line (ctx_of x) rd0 = Ok ((Some (item_of (p_line (r_pos rd0)) r), ctx_of (after_record x r)), rd1) /\
              post rd0 rd1 (render_record rc r) t false.
Proof.
  intros Hord Hx Hok E P W Ht. destruct (record_ok_inv _ _ _ Hok) as (p1 & _ & _ & _ & Hlead & _).
  rewrite parse_line_record.
  2:{ rewrite E, render_record_split, <- !app_assoc. destruct (sep_empty (rc_lead rc)) eqn:Ee.
      - rewrite (sep_empty_render _ Ee). apply (record_body_head x rc r _ Hok), Ee.
      - eapply sep_head_not_dollar; eassumption. }
  rewrite render_record_split in *. unfold parse_record_or_empty. unfold bindM at 1. unfold getpos.
  refine (lead_field (fun lw f => match f with Eol => ret (None, ctx_of x) | Field => parse_record_fields (ctx_of x) (r_pos rd0) lw end)
                     _ _ _ p1 _ _ Hlead _ _ rd0 t E P W Ht).
  - intros t0 _. rewrite <- !app_assoc. apply (record_body_head x rc r _ Hok).
  - apply record_fields_runs; assumption.
Qed.

Theorem blank_line_parses x e t rd0 : eol_ok false e = true -> r_rest rd0 = render_eol e ++ t -> r_paren rd0 = false -> wfr rd0 ->
  eoft (e_term e) t ->
  exists rd1, parse_line (ctx_of x) rd0 = Ok ((None, ctx_of x), rd1) /\ post rd0 rd1 (render_eol e) t false.
Proof.
  intros He E P W Ht. rewrite parse_line_record.
  2:{ rewrite E. unfold render_eol. rewrite <- app_assoc. pose proof He as He'. unfold eol_ok in He'.
      destruct (sep_paren false (e_sep e)) as [[|]|] eqn:Hs; try discriminate. destruct (sep_empty (e_sep e)) eqn:Ee.
      - rewrite (sep_empty_render _ Ee). cbn [app]. destruct (e_term e) as [[|]|cx [|]| |cx]; try reflexivity.
        cbn [render_term app]. rewrite (Ht eq_refl). reflexivity.
      - eapply sep_head_not_dollar; eassumption. }
  unfold parse_record_or_empty. unfold bindM at 1. unfold getpos.
  apply (lead_eol (fun lw f => match f with Eol => ret (None, ctx_of x) | Field => parse_record_fields (ctx_of x) (r_pos rd0) lw end) e
                  (None, ctx_of x) He); [reflexivity|exact E|exact P|exact W|exact Ht].
Qed.

Lemma directive_line T c text v t rd0 : head_is 36 text = true -> runs T (parse_directive c) text false false v ->
  r_rest rd0 = text ++ t -> r_paren rd0 = false -> wfr rd0 -> T t ->
  exists rd1, parse_line c rd0 = Ok (v, rd1) /\ post rd0 rd1 text t false.
Proof.
  intros Hh R E P W Ht. destruct text as [|d l]; [discriminate|]. cbn [head_is] in Hh. apply N.eqb_eq in Hh. subst d.
  unfold parse_line, peek_octet. rewrite E. exact (R rd0 t E P W Ht).
Qed.

(* the word [w] in any letter case, a separator, one argument read by [m], the line end, where the directive
   yields the context [g a] for the argument a; [els] is what parse_directive does with other words *)
Lemma directive_runs {A} w lows K (m : M A) (g : A -> ctx) (els : M (option line * ctx)) s X e p1 first v c' :
  forallb (fun c => negb (c =? 10) && negb (lower c =? 10)) w = true -> sep_ok false false s = Some p1 -> eol_ok p1 e = true ->
  starts_field first X -> runs fend m X p1 p1 v -> g v = c' ->
  runs (eoft (e_term e))
       (do o <- expect_field_ci w;
        if o then do c'' <- (skip_to_next_field K ;; do a <- m; expect_eol ;; ret (g a)); ret (None, c'') else els)
       (apply_case lows w ++ render_sep s ++ X ++ render_eol e) false false (None, c').
Proof.
  intros Hw Es He HX Hm <-. apply sep_ok_inv in Es. destruct Es as [HP HE].
  eapply runs_bind; [apply (cased_word_runs lows w); exact Hw|intros t Ht; rewrite <- app_assoc; eapply fend_sep; [exact HP|apply HE; reflexivity]|].
  cbv beta iota. apply runs_app_nil. eapply runs_bind; [|intros t Ht; exact Ht|cbv beta; apply runs_ret].
  eapply runs_bind; [apply skip_to_next_field_runs; exact HP|intros t Ht; rewrite <- app_assoc; eapply starts_fstart, HX|].
  cbv beta. eapply runs_bind; [exact Hm|intros t Ht; eapply fend_eol; eassumption|].
  cbv beta. apply runs_app_nil. eapply runs_bind; [apply expect_eol_runs; exact He|intros t Ht; exact Ht|apply runs_ret].
Qed.

Theorem origin_line_parses x lows s nc ls e t rd0 : sctx_good x -> line_ok x (LOrigin lows s nc ls e) = true ->
  r_rest rd0 = render_line (LOrigin lows s nc ls e) ++ t -> r_paren rd0 = false -> wfr rd0 -> eoft (e_term e) t ->
  exists rd1, parse_line (ctx_of x) rd0 = Ok ((None, ctx_of (after_line x (LOrigin lows s nc ls e))), rd1) /\
              post rd0 rd1 (render_line (LOrigin lows s nc ls e)) t false.
Proof.
  intros Hx Hok E P W Ht. cbn [line_ok] in Hok. destruct (sep_ok false false s) as [p1|] eqn:Es; [|discriminate].
  apply andb_true_iff in Hok. destruct Hok as [Hnm He].
  refine (directive_line _ _ _ _ t rd0 _ _ E P W Ht); [cbn [render_line apply_case d_origin_s app head_is]; destruct (hd false lows); reflexivity|].
  eapply (directive_runs d_origin); [reflexivity|exact Es|exact He|eapply name_starts, Hnm|eapply name_runs; [exact Hnm|exact Hx]|reflexivity].
Qed.

(* two directive words that differ in the second letter *)
Lemma other_directive lows a b w' w rest r : lower a <> lower b -> r_rest r = apply_case lows (36 :: a :: w') ++ rest ->
  expect_field_ci (36 :: b :: w) r = Ok (false, r).
Proof.
  intros Hab E. apply expect_field_differs. rewrite E. cbn [apply_case length app firstn eq_ignore_case].
  replace (lower (if hd false (tl lows) then lower a else a)) with (lower a) by (destruct (hd false (tl lows)); [|reflexivity]; symmetry; apply lower_idem).
  apply N.eqb_neq in Hab. rewrite Hab. apply andb_false_r.
Qed.

Theorem ttl_line_parses x lows s ic raw e t rd0 : line_ok x (LTtl lows s ic raw e) = true ->
  r_rest rd0 = render_line (LTtl lows s ic raw e) ++ t -> r_paren rd0 = false -> wfr rd0 -> eoft (e_term e) t ->
  exists rd1, parse_line (ctx_of x) rd0 = Ok ((None, ctx_of (after_line x (LTtl lows s ic raw e))), rd1) /\
              post rd0 rd1 (render_line (LTtl lows s ic raw e)) t false.
Proof.
  intros Hok E P W Ht. cbn [line_ok] in Hok. destruct (sep_ok false false s) as [p1|] eqn:Es; [|discriminate].
  apply andb_true_iff in Hok. destruct Hok as [Hu He].
  refine (directive_line _ _ _ _ t rd0 _ _ E P W Ht); [cbn [render_line apply_case d_ttl_s app head_is]; destruct (hd false lows); reflexivity|].
  cbn [render_line]. eapply runs_peek; [intros r0 t0 E0 _; rewrite <- app_assoc in E0; eapply (other_directive lows 84 79); [discriminate|exact E0]|].
  destruct (render_uint_head ic raw) as (h & tl & Eh & Hh).
  eapply (directive_runs d_ttl); [reflexivity|exact Es|exact He|rewrite Eh; apply (starts_num false), Hh|apply u32_runs; exact Hu|].
  unfold after_line, ctx_of. cbn [x_origin x_owner x_ttl x_class x_default c_origin c_prev_owner c_prev_ttl c_prev_class]. rewrite ttl_from_denote. reflexivity.
Qed.

(* everything after the word $INCLUDE; q is the position the line number is taken from *)
Lemma include_body_runs x q s pc path org e : sctx_good x -> line_ok x (LInclude [] s pc path org e) = true ->
  runs (eoft (e_term e))
       (skip_to_next_field ExpectedIncludePath ;;
        do pth <- parse_include_path;
        do f <- skip_to_next_field_or_through_eol;
        do origin <- (match f with
                      | Eol => ret (c_origin (ctx_of x))
                      | Field => do o <- parse_name (c_origin (ctx_of x)); expect_eol ;; ret (Some o)
                      end);
        ret (mkLine (p_line q) (CInclude pth origin)))
       (render_sep s ++ render_string pc path ++ render_org org ++ render_eol e) false false
       (mkLine (p_line q) (CInclude path (option_map name_of (match org with Some (_, _, ls) => Some ls | None => x_origin x end)))).
Proof.
  intros Hx Hok. cbn [line_ok] in Hok. destruct (sep_ok false false s) as [p1|] eqn:Es; [|discriminate].
  apply andb_true_iff in Hok. destruct Hok as [Hpath Hok]. pose proof (sep_ok_inv _ _ _ _ Es) as [HP HE].
  assert (Hhead : forall rest, fstart (render_string pc path ++ rest)).
  { intros rest. unfold path_ok in Hpath. apply andb_true_iff in Hpath. destruct Hpath as [_ Hpath]. destruct pc as [es|es]; cbn [render_string].
    - apply fstart_plain. reflexivity.
    - apply andb_true_iff in Hpath. destruct Hpath as [Hpath _]. apply andb_true_iff in Hpath. destruct Hpath as [Hpath Hne].
      destruct path as [|c path]; [discriminate|]. apply (starts_fstart false). rewrite <- (app_nil_r (render_octets es (c :: path))).
      apply starts_octets; [exact Hpath|left; reflexivity|discriminate]. }
  eapply runs_bind; [apply skip_to_next_field_runs; exact HP|intros t Ht; rewrite <- app_assoc; apply Hhead|].
  cbv beta. destruct org as [[[s2 nc] ls]|]; cbn [render_org].
  - destruct (sep_ok p1 (quoted pc) s2) as [p2|] eqn:Es2; [|discriminate]. apply andb_true_iff in Hok. destruct Hok as [Hnm He].
    pose proof (sep_ok_inv _ _ _ _ Es2) as [HP2 HE2].
    eapply runs_bind; [apply path_runs; exact Hpath| |].
    { intros t Ht. destruct (quoted pc) eqn:Eq; [exact I|]. cbn [ftail]. rewrite <- !app_assoc. eapply fend_sep; [exact HP2|apply HE2; reflexivity]. }
    cbv beta. rewrite <- !app_assoc.
    eapply runs_bind; [apply through_field_runs; exact HP2| |].
    { intros t Ht. rewrite <- app_assoc. eapply starts_fstart, name_starts, Hnm. }
    cbv beta iota. eapply runs_eq; [intros r; apply bindM_assoc|].
    eapply runs_bind; [eapply name_runs; [exact Hnm|exact Hx]|intros t Ht; eapply fend_eol; eassumption|].
    cbv beta. eapply runs_eq; [intros r; apply bindM_assoc|].
    apply runs_app_nil. eapply runs_bind; [apply expect_eol_runs; exact He|intros t Ht; exact Ht|].
    cbv beta. eapply runs_eq; [intros r; apply bind_ret_l|]. apply runs_ret.
  - cbn [app].
    eapply runs_bind; [apply path_runs; exact Hpath| |].
    { intros t Ht. destruct (quoted pc); [exact I|]. cbn [ftail]. eapply fend_eol; eassumption. }
    cbv beta. apply runs_app_nil.
    eapply runs_bind; [apply through_eol_runs; exact Hok|intros t Ht; exact Ht|].
    cbv beta iota. eapply runs_eq; [intros r; apply bind_ret_l|]. apply runs_ret.
Qed.

Theorem include_line_parses x lows s pc path org e t rd0 : sctx_good x -> line_ok x (LInclude lows s pc path org e) = true ->
  r_rest rd0 = render_line (LInclude lows s pc path org e) ++ t -> r_paren rd0 = false -> wfr rd0 -> eoft (e_term e) t ->
  exists rd1, parse_line (ctx_of x) rd0 =
                Ok ((option_map (line_of (p_line (r_pos rd0))) (line_item x (LInclude lows s pc path org e)), ctx_of x), rd1) /\
              post rd0 rd1 (render_line (LInclude lows s pc path org e)) t false.
Proof.
  intros Hx Hok E P W Ht. cbn [render_line line_item option_map line_of] in *.
  assert (Hok' : line_ok x (LInclude [] s pc path org e) = true) by exact Hok.
  pose proof Hok as Hok2. cbn [line_ok] in Hok2. destruct (sep_ok false false s) as [p1|] eqn:Es; [|discriminate].
  pose proof (sep_ok_inv _ _ _ _ Es) as [HP HE].
  assert (Hd : parse_line (ctx_of x) rd0 = parse_directive (ctx_of x) rd0).
  { unfold parse_line, peek_octet. rewrite E. cbn [apply_case d_include_s app hd_error]. destruct (hd false lows); reflexivity. }
  rewrite Hd. unfold parse_directive.
  rewrite <- app_assoc in E.
  unfold bindM at 1. rewrite (other_directive lows 73 79 _ _ _ rd0 ltac:(discriminate) E : expect_field_ci d_origin rd0 = _).
  unfold bindM at 1. rewrite (other_directive lows 73 84 _ _ _ rd0 ltac:(discriminate) E : expect_field_ci d_ttl rd0 = _).
  assert (Ht1 : fend ((render_sep s ++ render_string pc path ++ render_org org ++ render_eol e) ++ t)).
  { rewrite <- app_assoc. eapply fend_sep; [exact HP|apply HE; reflexivity]. }
  destruct (cased_word_runs lows d_include false eq_refl rd0 _ E P W Ht1) as (r1 & F1 & P1).
  unfold bindM at 1. rewrite F1.
  pose proof (post_wfr _ _ _ _ _ W E P1) as W1.
  assert (Hline : p_line (r_pos r1) = p_line (r_pos rd0)).
  { destruct P1 as (_ & _ & A3 & _). rewrite A3, count_nl_none; [lia|]. apply apply_case_no_nl. reflexivity. }
  unfold parse_include_directive. unfold bindM at 1. unfold bindM at 1. unfold getpos.
  destruct (include_body_runs x (r_pos r1) s pc path org e Hx Hok' r1 t
              (post_rest _ _ _ _ _ P1) (post_paren _ _ _ _ _ P1) W1 Ht) as (r2 & F2 & P2).
  rewrite F2. unfold ret. rewrite Hline. exists r2. split; [reflexivity|].
  eapply post_trans; [exact P1|]. exact P2.
Qed.

Theorem line_parses x l t rd0 : ord_line l -> sctx_good x -> line_ok x l = true ->
  r_rest rd0 = render_line l ++ t -> r_paren rd0 = false -> wfr rd0 -> eoft (e_term (line_end l)) t ->
  exists rd1, parse_line (ctx_of x) rd0 =
                Ok ((option_map (line_of (p_line (r_pos rd0))) (line_item x l), ctx_of (after_line x l)), rd1) /\
              post rd0 rd1 (render_line l) t false.
Proof.
  intros Hord Hx Hok E P W Ht. destruct l as [rc r|e|lows s nc ls e|lows s ic raw e|lows s pc path org e]; cbn [line_end] in Ht.
  - eapply record_line_parses; eassumption.
  - cbn [after_line]. eapply blank_line_parses; eassumption.
  - eapply origin_line_parses; eassumption.
  - eapply ttl_line_parses; eassumption.
  - cbn [after_line]. eapply include_line_parses; eassumption.
Qed.

Lemma after_line_good x l : sctx_good x -> line_ok x l = true -> sctx_good (after_line x l).
Proof.
  intros Hx Hok. destruct l as [rc r|e|lows s nc ls e|lows s ic raw e|lows s pc path org e]; cbn [after_line]; try exact Hx.
  cbn [line_ok] in Hok. destruct (sep_ok false false s); [|discriminate]. apply andb_true_iff in Hok. destruct Hok as [Hnm _].
  unfold sctx_good. cbn [x_origin]. intros ols [= <-]. eapply name_ok_good. exact Hnm.
Qed.

Lemma record_nonempty x rc r : record_ok x rc r = true -> render_record rc r <> [].
Proof.
  intros Hok. rewrite render_record_split. intros H. apply app_eq_nil in H. destruct H as [_ H].
  destruct (record_body_head x rc r (render_rdata (rc_rdata rc) (a_rdata r) ++ render_eol (rc_end rc)) Hok) as [Hf _].
  cbv zeta in Hf. rewrite H in Hf. discriminate Hf.
Qed.

Lemma denote_cons x n l ls : denote x n (l :: ls) =
  match line_item x l with
  | Some it => (n, it) :: denote (after_line x l) (n + count_nl (render_line l)) ls
  | None => denote (after_line x l) (n + count_nl (render_line l)) ls
  end.
Proof. destruct l; reflexivity. Qed.

Lemma line_nonempty x l : line_ok x l = true -> (forall e, l <> LBlank e) -> render_line l <> [].
Proof.
  intros Hok Hb. destruct l as [rc r|e|lows s nc ls e|lows s ic raw e|lows s pc path org e]; cbn [render_line];
    [exact (record_nonempty x rc r Hok)|destruct (Hb e eq_refl)|..]; destruct (hd false lows); discriminate.
Qed.

Lemma denote_empty : forall ls x n, sctx_good x -> file_ok x ls = true -> render_file ls = [] -> denote x n ls = [].
Proof.
  induction ls as [|l ls IH]; intros x n Hx Hok He; [reflexivity|].
  cbn [file_ok] in Hok. apply andb_true_iff in Hok. destruct Hok as [Hok Hrest]. apply andb_true_iff in Hok. destruct Hok as [Hl _].
  cbn [render_file] in He. apply app_eq_nil in He. destruct He as [He1 He2].
  rewrite denote_cons. destruct (line_item x l) as [it|] eqn:Eit.
  - exfalso. apply (line_nonempty x l Hl); [intros e ->; discriminate Eit|exact He1].
  - eapply IH; [eapply after_line_good; eassumption|exact Hrest|exact He2].
Qed.

Definition at_file (x : sctx) (ls : list aline) (rd : rd) : Prop :=
  ord_file ls /\ sctx_good x /\ file_ok x ls = true /\ r_rest rd = render_file ls /\ r_paren rd = false /\ wfr rd.

Lemma lines_loop_file : forall ls x rd fuel, at_file x ls rd -> (length (r_rest rd) < fuel)%nat ->
  match denote x (p_line (r_pos rd)) ls with
  | [] => exists c' rd', lines_loop fuel (ctx_of x) rd = Ok (None, c', rd')
  | (n, it) :: rest =>
    exists x' ls' rd', lines_loop fuel (ctx_of x) rd = Ok (Some (line_of n it), ctx_of x', rd') /\ at_file x' ls' rd' /\
      denote x' (p_line (r_pos rd')) ls' = rest /\ (length (r_rest rd') < length (r_rest rd))%nat
  end.
Proof.
  induction ls as [|l ls IH]; intros x rd fuel (Hord & Hx & Hok & E & P & W) L; (destruct fuel as [|fuel]; [lia|]).
  - cbn [denote lines_loop]. cbn [render_file] in E. unfold at_eof. rewrite E. eauto.
  - pose proof Hok as Hok0. cbn [file_ok] in Hok. apply andb_true_iff in Hok. destruct Hok as [Hok Hrest]. apply andb_true_iff in Hok. destruct Hok as [Hl Heof].
    cbn [render_file] in E.
    destruct (r_rest rd) as [|c0 rest0] eqn:Er.
    + rewrite (denote_empty (l :: ls) x _ Hx Hok0); [|cbn [render_file]; rewrite <- E; reflexivity].
      cbn [lines_loop]. unfold at_eof. rewrite Er. eauto.
    + cbn [lines_loop]. unfold at_eof. rewrite Er.
      assert (Ht : eoft (e_term (line_end l)) (render_file ls)).
      { intros Hte. destruct ls as [|l2 ls2]; [reflexivity|]. rewrite Hte in Heof. discriminate. }
      assert (Hne : (1 <= length (render_line l))%nat).
      { destruct (render_line l) as [|c1 tx] eqn:Etx; [|simpl; lia]. exfalso.
        apply (line_nonempty x l Hl); [|exact Etx]. intros e ->. cbn [render_line line_end] in *.
        (* a blank line without text ends the file: nothing follows, but the reader is not at the end *)
        unfold render_eol in Etx. apply app_eq_nil in Etx. destruct Etx as [_ Etx].
        destruct (e_term e) as [[|]|cx [|]| |cx]; try discriminate Etx. rewrite (Ht eq_refl) in E. discriminate E. }
      inversion Hord as [|? ? Hordl Hordls]; subst.
      rewrite <- Er in *. destruct (line_parses x l (render_file ls) rd Hordl Hx Hl E P W Ht) as (rd1 & F1 & P1).
      rewrite F1. pose proof (post_wfr _ _ _ _ _ W E P1) as W1. pose proof (post_len _ _ _ _ _ E P1) as L1.
      destruct P1 as (A1 & A2 & A3 & _).
      assert (Hat : at_file (after_line x l) ls rd1) by (split; [exact Hordls|]; split; [eapply after_line_good; eassumption|auto]).
      rewrite denote_cons, <- A3. destruct (line_item x l) as [it|] eqn:Eit; cbn [option_map].
      * exists (after_line x l), ls, rd1. split; [reflexivity|]. split; [exact Hat|]. split; [reflexivity|lia].
      * specialize (IH _ rd1 fuel Hat ltac:(lia)).
        destruct (denote (after_line x l) (p_line (r_pos rd1)) ls) as [|[n it] rest]; [exact IH|].
        destruct IH as (x' & ls' & rd' & F & Hat' & Hd & Hlen). exists x', ls', rd'. split; [exact F|]. split; [exact Hat'|]. split; [exact Hd|lia].
Qed.

Definition items_of (l : list (N * aitem)) : list (line + (pos * zkind)) := map (fun nr => inl (line_of (fst nr) (snd nr))) l.

(* an iterator over the lines whose step [next] turns what lines_loop yields, on the items that are [good], into [item] *)
Section DriveFile.
Context {L : Type}.
Variable next : parser -> res zerr (option (L + (pos * zkind)) * parser).
Variable item : N * aitem -> L + (pos * zkind).
Variable good : aitem -> Prop.
Hypothesis next_none : forall rd c c' rd', lines_loop (r_fuel rd) c rd = Ok (None, c', rd') ->
  next (mkParser false rd c) = Ok (None, mkParser false rd' c').
Hypothesis next_some : forall rd c n it c' rd', good it -> lines_loop (r_fuel rd) c rd = Ok (Some (line_of n it), c', rd') ->
  next (mkParser false rd c) = Ok (Some (item (n, it)), mkParser false rd' c').

Lemma drive_file : forall recs ls x rd fuel acc, denote x (p_line (r_pos rd)) ls = recs -> Forall (fun nit => good (snd nit)) recs ->
  at_file x ls rd -> (length (r_rest rd) < fuel)%nat ->
  exists p', drive next fuel (mkParser false rd (ctx_of x)) acc = Ok (rev acc ++ map item recs, p').
Proof.
  induction recs as [|[n it] recs IH]; intros ls x rd fuel acc Hd Hg Hat Hf; (destruct fuel as [|fuel]; [lia|]);
    assert (LL : (length (r_rest rd) < r_fuel rd)%nat) by (destruct Hat as (_ & _ & _ & _ & _ & W); unfold wfr in W; lia);
    pose proof (lines_loop_file ls x rd (r_fuel rd) Hat LL) as H; rewrite Hd in H; cbn [drive].
  - destruct H as (c' & rd' & F). rewrite (next_none _ _ _ _ F). cbn [bind]. eexists. rewrite rev_fast_rev, app_nil_r. reflexivity.
  - destruct H as (x' & ls' & rd' & F & Hat' & Hd' & Hlen). inversion Hg as [|? ? Hg1 Hg2]; subst. cbn [snd] in Hg1.
    rewrite (next_some _ _ _ _ _ _ Hg1 F). cbn [bind].
    destruct (IH ls' x' rd' fuel (item (n, it) :: acc) eq_refl Hg2 Hat' ltac:(lia)) as (p' & Hc).
    exists p'. rewrite Hc. cbn [rev map]. rewrite <- app_assoc. reflexivity.
Qed.
End DriveFile.

Lemma at_file_start ls : ord_file ls -> file_ok sctx0 ls = true -> at_file sctx0 ls (rd_new (render_file ls)).
Proof.
  intros Hord Hok. split; [exact Hord|]. split; [intros ols Ho; discriminate|]. split; [exact Hok|].
  split; [reflexivity|]. split; [reflexivity|unfold wfr, rd_new; cbn; lia].
Qed.

(* a rendered file parses to exactly the records and $INCLUDE directives it denotes, in order, with their line numbers *)
Theorem file_roundtrip ls : ord_file ls -> file_ok sctx0 ls = true ->
  exists p, parse_all (render ls) = Ok (items_of (number_lines ls), p).
Proof.
  intros Hord Hok. unfold parse_all. rewrite collect_drive.
  refine (drive_file parser_next _ (fun _ => True) _ _ _ ls sctx0 _ _ [] eq_refl _ (at_file_start ls Hord Hok) _).
  - intros rd c c' rd' F. unfold parser_next. cbn [ps_error ps_rd ps_ctx]. rewrite F. reflexivity.
  - intros rd c n it c' rd' _ F. unfold parser_next. cbn [ps_error ps_rd ps_ctx]. rewrite F. reflexivity.
  - apply Forall_forall. intros; exact I.
  - unfold rd_new, render; cbn; lia.
Qed.

Definition no_include (ls : list aline) : Prop := Forall (fun l => match l with LInclude _ _ _ _ _ _ => False | _ => True end) ls.

Fixpoint records_of (its : list (N * aitem)) : list (ro_line + (pos * zkind)) :=
  match its with
  | [] => []
  | (n, IRecord r) :: rest => inl (mkRoLine n (rr_of r)) :: records_of rest
  | (_, IInclude _ _) :: rest => records_of rest
  end.

Definition is_record (it : aitem) : Prop := exists r, it = IRecord r.

Lemma denote_no_include : forall ls x n, no_include ls -> Forall (fun nit => is_record (snd nit)) (denote x n ls).
Proof.
  induction ls as [|l ls IH]; intros x n H; [constructor|]. inversion H as [|? ? Hl Hls]; subst. rewrite denote_cons.
  destruct l; cbn [line_item]; try (apply IH; exact Hls); [|contradiction]. constructor; [eexists; reflexivity|apply IH; exact Hls].
Qed.

(* what RecordsOnly::next makes of a yielded line *)
Definition ro_item_of (nit : N * aitem) : ro_line + (pos * zkind) :=
  match snd nit with
  | IRecord r => inl (mkRoLine (fst nit) (rr_of r))
  | IInclude _ _ => inr (mkPos (fst nit) 1, IncludeNotSupported)
  end.

Lemma records_of_map its : Forall (fun nit => is_record (snd nit)) its -> records_of its = map ro_item_of its.
Proof. induction 1 as [|[n it] its [r Hr] _ IH]; [reflexivity|]. cbn [snd] in Hr. subst it. cbn [records_of map]. rewrite IH. reflexivity. Qed.

(* a rendered file without $INCLUDE lines, read through Parser::records_only(): exactly its records *)
Theorem file_roundtrip_records_only ls : ord_file ls -> file_ok sctx0 ls = true -> no_include ls ->
  exists p, ro_all (render ls) = Ok (records_of (number_lines ls), p).
Proof.
  intros Hord Hok Hni. pose proof (denote_no_include ls sctx0 1 Hni) as Hrec. unfold ro_all, number_lines.
  rewrite ro_collect_drive, (records_of_map _ Hrec).
  refine (drive_file ro_next ro_item_of is_record _ _ _ ls sctx0 (rd_new (render_file ls)) _ [] eq_refl Hrec (at_file_start ls Hord Hok) _).
  - intros rd c c' rd' F. unfold ro_next, parser_next. cbn [ps_error ps_rd ps_ctx]. rewrite F. reflexivity.
  - intros rd c n it c' rd' [r ->] F. unfold ro_next, parser_next. cbn [ps_error ps_rd ps_ctx]. rewrite F. reflexivity.
  - unfold rd_new, render; cbn; lia.
Qed.

End Ord.

Lemma ord_file_impl ls : @ord_file impl_order ls.
Proof. apply Forall_forall. intros l _. left. reflexivity. Qed.

Lemma ord_file_free {bo : BitOrder} ls : wks_free ls = true -> ord_file ls.
Proof.
  unfold wks_free. rewrite forallb_forall. intros H. apply Forall_forall. intros l Hl. right. apply negb_true_iff. apply H. exact Hl.
Qed.

(* the statements against the RFC's numbering of the WKS bits (outside the class of known finding C23-1),
   against the implementation's numbering (no exclusion), and the witness of the difference *)

Lemma rdata_runs_rfc x class type dc d e p p3 : sctx_good x -> wks_listed dc d = false ->
  @rdata_ok rfc_order (x_origin x) p class type dc d = Some p3 -> eol_ok p3 e = true ->
  runs (eoft (e_term e)) (parse_rdata (ctx_of x) class type) (@render_rdata rfc_order dc d ++ render_eol e) p false (@rdata_wire rfc_order d).
Proof. intros Hx Hw. apply (@rdata_runs rfc_order); [exact Hx|right; exact Hw]. Qed.

Lemma record_line_parses_rfc x rc r t rd0 : wks_listed (rc_rdata rc) (a_rdata r) = false -> sctx_good x ->
  @record_ok rfc_order x rc r = true ->
  r_rest rd0 = @render_record rfc_order rc r ++ t -> r_paren rd0 = false -> wfr rd0 -> eoft (e_term (rc_end rc)) t ->
  exists rd1, parse_line (ctx_of x) rd0 = Ok ((Some (@item_of rfc_order (p_line (r_pos rd0)) r), ctx_of (after_record x r)), rd1) /\
              post rd0 rd1 (@render_record rfc_order rc r) t false.
Proof. intros Hw. apply (@record_line_parses rfc_order). right. exact Hw. Qed.

Lemma line_parses_rfc x l t rd0 : line_wks_listed l = false -> sctx_good x -> @line_ok rfc_order x l = true ->
  r_rest rd0 = @render_line rfc_order l ++ t -> r_paren rd0 = false -> wfr rd0 -> eoft (e_term (line_end l)) t ->
  exists rd1, parse_line (ctx_of x) rd0 =
                Ok ((option_map (@line_of rfc_order (p_line (r_pos rd0))) (line_item x l), ctx_of (after_line x l)), rd1) /\
              post rd0 rd1 (@render_line rfc_order l) t false.
Proof. intros Hw. apply (@line_parses rfc_order). right. exact Hw. Qed.

Lemma file_roundtrip_rfc ls : wks_free ls = true -> @file_ok rfc_order sctx0 ls = true ->
  exists p, parse_all (@render rfc_order ls) = Ok (@items_of rfc_order (@number_lines rfc_order ls), p).
Proof. intros Hw. apply (@file_roundtrip rfc_order). apply ord_file_free. exact Hw. Qed.

Lemma file_roundtrip_records_only_rfc ls : wks_free ls = true -> @file_ok rfc_order sctx0 ls = true -> no_include ls ->
  exists p, ro_all (@render rfc_order ls) = Ok (@records_of rfc_order (@number_lines rfc_order ls), p).
Proof. intros Hw. apply (@file_roundtrip_records_only rfc_order). apply ord_file_free. exact Hw. Qed.

Lemma file_roundtrip_impl ls : @file_ok impl_order sctx0 ls = true ->
  exists p, parse_all (@render impl_order ls) = Ok (@items_of impl_order (@number_lines impl_order ls), p).
Proof. apply (@file_roundtrip impl_order). apply ord_file_impl. Qed.

(* ". 1 IN WKS 1.2.3.4 6 25<LF>" *)
Definition wks_witness : list aline :=
  let sp := mkSep [] [32] in
  [LRecord (mkRc sep_none (Some (NAbs [], sp)) (TcTC 1 i_plain sp (SymMnemonic []) sp) (SymMnemonic [])
              (DFields [(sp, CPlain); (sp, CProto (PNum i_plain)); (sp, CInt i_plain)]) (mkEol sep_none (TNl false)))
           (mkArec [] 1 1 11 (AFields [VIp4 1 2 3 4; VProto 6; VPort 25]))].

Lemma wks_bit_order_refuted :
  @file_ok rfc_order sctx0 wks_witness = true /\
  @render rfc_order wks_witness = [46;32;49;32;73;78;32;87;75;83;32;49;46;50;46;51;46;52;32;54;32;50;53;10] /\
  (exists r, @number_lines rfc_order wks_witness = [(1, IRecord r)] /\ @rdata_wire rfc_order (a_rdata r) = [1;2;3;4;6;0;0;0;64]) /\
  (exists r p, parse_all (@render rfc_order wks_witness) = Ok ([inl (mkLine 1 (CRecord r))], p) /\ rr_rdata r = [1;2;3;4;6;0;0;0;2]) /\
  (forall p, parse_all (@render rfc_order wks_witness) <> Ok (@items_of rfc_order (@number_lines rfc_order wks_witness), p)).
Proof.
  split; [vm_compute; reflexivity|]. split; [vm_compute; reflexivity|].
  split; [eexists; split; vm_compute; reflexivity|].
  split; [vm_compute; do 2 eexists; split; reflexivity|].
  intros p H. vm_compute in H. discriminate H.
Qed.
