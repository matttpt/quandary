(* superdomain, make_ascii_lowercase / LowercaseName, is_wildcard against the list-level specification. *)
From QV Require Import Base.ListX Model.NameWire Model.DecU16 Model.NameText Spec.NameWireS Spec.NameRepr Spec.NameTextS
  Proofs.NameWireP Proofs.NameLabelsP Proofs.NameTextP.

Definition rebase (o0 : N) (o : N) : res name_err N := if (o <? o0)%N then Panic else Ok (o - o0)%N.

(* 256, not 255: the last offset (of the root label) is at most 254, and one more for its octet *)
Lemma rebase_offs B (y : list (list N)) : forall base, B + base + length (lwire y) <= 256 ->
  mapM (rebase (N.of_nat B)) (offs_all (B + base) y) = Ok (offs_all base y).
Proof.
  induction y as [|l r IH]; intros base H; [reflexivity|].
  rewrite lwire_length_cons in H. cbn [offs_all mapM].
  rewrite !N.mod_small by lia. unfold rebase at 1.
  assert (E : (N.of_nat (B + base) <? N.of_nat B)%N = false) by (apply N.ltb_ge; lia). rewrite E. cbn [bind].
  replace (B + base + 1 + length l) with (B + (base + 1 + length l)) by lia.
  rewrite IH by lia. cbn [bind]. do 3 f_equal. lia.
Qed.

Lemma all_labels_app (pre post : list (list N)) : all_labels (pre ++ post) = pre ++ all_labels post.
Proof. unfold all_labels. rewrite <- app_assoc. reflexivity. Qed.

Theorem superdomain_spec (ls : list (list N)) skip :
  Forall (fun l : list N => 1 <= length l <= 63) ls -> wire_len ls <= 255 ->
  superdomain (name_of ls) skip = Ok (option_map name_of (spec_superdomain ls skip)).
Proof.
  intros Hf Hlen. unfold superdomain, spec_superdomain. rewrite name_len_name_of, all_labels_length. unfold label, bytes in *.
  change (skip <? S (length ls)) with (skip <=? length ls).
  destruct (Nat.leb_spec skip (length ls)) as [E|]; [|reflexivity]. cbn [option_map].
  assert (Hsplit : exists pre post, ls = pre ++ post /\ length pre = skip).
  { exists (firstn skip ls), (skipn skip ls). split; [symmetry; apply firstn_skipn|apply firstn_length_le; exact E]. }
  destruct Hsplit as (pre & post & -> & Hpre). clear E.
  rewrite (skipn_app_exact pre post skip) by (symmetry; exact Hpre).
  apply Forall_app in Hf as [_ Hfp]. pose proof (lwire_labels_len post Hfp) as Hcnt.
  rewrite wire_len_lwire, lwire_app, app_length in Hlen.
  unfold name_of. cbn [n_offsets n_wire].
  rewrite !offs_of_all, !wire_of_all, all_labels_app, offs_all_app, lwire_app. cbn [Nat.add].
  (* the labels kept, root label included: one or more, and they fit behind B = length (lwire pre) *)
  assert (Hq1 : length (lwire (all_labels post)) = length (lwire post) + 1)
    by (unfold all_labels; rewrite lwire_app, app_length; reflexivity).
  pose proof (all_labels_length post) as Hq2. set (B := length (lwire pre)) in *.
  destruct (all_labels post) as [|p0 rest]; [discriminate|]. cbn [offs_all length] in *.
  rewrite (nth_error_app_at _ _ _ skip) by (rewrite offs_all_length; symmetry; exact Hpre).
  rewrite N.mod_small, Nat2N.id by lia.
  rewrite (skipn_app_exact _ _ skip) by (rewrite offs_all_length; symmetry; exact Hpre).
  destruct (Nat.ltb_spec (length (lwire pre ++ lwire (p0 :: rest))) B) as [E1|_];
    [rewrite app_length in E1; fold B in E1; lia|].
  pose proof (rebase_offs B (p0 :: rest) 0) as Hr. rewrite Nat.add_0_r in Hr. cbn [offs_all] in Hr.
  rewrite N.mod_small in Hr by lia. unfold rebase in Hr. cbn [Nat.add] in Hr.
  rewrite Hr by lia. cbn [bind length]. rewrite offs_all_length. change max_n_labels with 128.
  destruct (Nat.ltb_spec 128 (S (length rest))); [lia|].
  rewrite (skipn_app_exact _ _ B) by reflexivity. reflexivity.
Qed.

Lemma lwire_lower_length (ls : list (list N)) : length (lwire (lower_name ls)) = length (lwire ls).
Proof.
  induction ls as [|l r IH]; [reflexivity|]. unfold lower_name in *. cbn [map].
  rewrite !lwire_length_cons, IH, map_length. reflexivity.
Qed.

Lemma offs_all_lower (ls : list (list N)) : forall base, offs_all base (map (map lower) ls) = offs_all base ls.
Proof.
  induction ls as [|l r IH]; intros base; [reflexivity|]. cbn [map offs_all]. rewrite map_length, IH. reflexivity.
Qed.

Lemma lowercase_loop_spec (post : list (list N)) : forall (pre : list (list N)),
  length (lwire pre) + length (lwire post) <= 255 ->
  lowercase_loop (offs_all (length (lwire pre)) post) (lwire pre ++ lwire post) =
  Ok (lwire pre ++ lwire (map (map lower) post)).
Proof.
  induction post as [|l r IH]; intros pre H; [reflexivity|].
  rewrite lwire_length_cons in H. cbn [offs_all lowercase_loop map].
  rewrite N.mod_small, Nat2N.id, !lwire_cons, nth_error_app_at, Nat2N.id, map_length by (reflexivity || lia).
  set (x := N.of_nat (length l)).
  (* the buffer is (pre, length octet) ++ label ++ rest, cut at the ends of its first and second part *)
  change (lwire pre ++ x :: l ++ lwire r) with (lwire pre ++ [x] ++ l ++ lwire r). rewrite (app_assoc (lwire pre)).
  assert (Hs : length (lwire pre) + 1 = length (lwire pre ++ [x])) by (rewrite app_length; reflexivity).
  rewrite Hs, firstn_app_exact, slice_app_mid by reflexivity.
  rewrite (app_assoc _ l), skipn_app_exact by (symmetry; apply app_length).
  destruct (Nat.ltb_spec (length (((lwire pre ++ [x]) ++ l) ++ lwire r)) (length (lwire pre ++ [x]) + length l)) as [E|_].
  { rewrite !app_length in E. lia. }
  specialize (IH (pre ++ [map lower l])). rewrite lwire_snoc, app_length, !map_length in IH. fold x in IH.
  cbn [length] in IH. rewrite map_length, <- !app_assoc in IH. rewrite <- Hs, <- !app_assoc. cbn [app] in *.
  replace (length (lwire pre) + S (length l)) with (length (lwire pre) + 1 + length l) in IH by lia.
  apply IH. lia.
Qed.

Theorem make_ascii_lowercase_spec (ls : list (list N)) : wire_len ls <= 255 ->
  make_ascii_lowercase (name_of ls) = Ok (name_of (spec_lowercase ls)).
Proof.
  intros Hlen. unfold make_ascii_lowercase, name_of. cbn [n_offsets n_wire].
  rewrite !offs_of_all, !wire_of_all.
  pose proof (lowercase_loop_spec (all_labels ls) []) as H. cbn [lwire flat_map length app] in H.
  change (length (@nil N)) with 0 in H.
  rewrite H by (rewrite <- wire_of_all; exact Hlen). cbn [bind].
  unfold spec_lowercase. f_equal. f_equal.
  - unfold all_labels, lower_name. rewrite <- (offs_all_lower (ls ++ [[]])), map_app. reflexivity.
  - unfold all_labels, lower_name. rewrite map_app. reflexivity.
Qed.

Theorem lowercase_idempotent (ls : list (list N)) : spec_lowercase (spec_lowercase ls) = spec_lowercase ls.
Proof.
  unfold spec_lowercase, lower_name. rewrite map_map. apply map_ext. intros l. rewrite map_map.
  apply map_ext. intros b. apply lower_idem.
Qed.

Theorem lowercase_wire_len (ls : list (list N)) : wire_len (spec_lowercase ls) = wire_len ls.
Proof. rewrite !wire_len_lwire. unfold spec_lowercase. rewrite lwire_lower_length. reflexivity. Qed.

Theorem is_wildcard_spec (ls : list (list N)) : wire_len ls <= 255 ->
  is_wildcard (name_of ls) = Ok (match ls with l :: _ => eq_nocase l [42%N] | [] => false end).
Proof.
  intros Hlen. unfold is_wildcard.
  pose proof (label_at_all ls [] (match ls with l :: _ => l | [] => [] end)
                (match ls with _ :: r => all_labels r | [] => [] end)) as H.
  cbn [length app] in H. rewrite H; [|destruct ls; reflexivity|exact Hlen].
  cbn [bind]. destruct ls; reflexivity.
Qed.

Theorem try_push_slice_spec b st (o : list N) : brepr b st -> ast_ok st ->
  (63 < length (snd st) + length o -> try_push_slice b o = Err LabelTooLong) /\
  (length (snd st) + length o <= 63 -> 255 < awire st + length o -> try_push_slice b o = Err NameTooLong) /\
  (length (snd st) + length o <= 63 -> awire st + length o <= 255 ->
   exists b', try_push_slice b o = Ok b' /\ brepr b' (fst st, snd st ++ o) /\ ast_ok (fst st, snd st ++ o)).
Proof.
  intros Hb (Hds & Hcur & Hw). pose proof (brepr_wire_len b st Hb) as Hlen.
  destruct Hb as (Ewire & Eoffs & Estart & Elen). destruct st as [ds cur]. cbn [fst snd] in *.
  unfold try_push_slice, try_extend, u8_add. change (N.to_nat max_label_len) with 63. change max_wire_len with 255.
  rewrite Elen, Nat2N.id, Hlen.
  destruct (Nat.ltb_spec 63 (length cur + length o)); [split; [auto|split; intros; lia]|].
  destruct (Nat.ltb_spec 255 (awire (ds, cur) + length o)); [split; [lia|split; [auto|intros; lia]]|].
  rewrite N.mod_small by lia. destruct (N.ltb_spec 255 (N.of_nat (length cur) + N.of_nat (length o))); [lia|].
  split; [lia|split; [lia|]]. intros _ _. eexists. split; [reflexivity|].
  unfold brepr, ast_ok, awire in *. cbn [b_wire b_offsets b_label_start b_label_len fst snd] in *.
  rewrite Ewire, <- app_assoc, app_length. cbn [app]. repeat split; auto; lia.
Qed.
