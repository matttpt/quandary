(* No deadlock after shutdown was requested (repaired loop), and the well-foundedness of the
   order in which PoolMeasure's measure decreases. *)
From Coq Require Import Lia Permutation Wellfounded.
From QV Require Import Model.Pool Spec.PoolS Proofs.PoolLemmas Proofs.PoolInv Proofs.PoolP.


Definition is_waiting (p : pc) : bool := on_task p || on_avail p || on_sd p.
Definition is_active (p : pc) : bool := negb (quiescent_pc p) && negb (is_waiting p).

Lemma existsb_nth (f : pc -> bool) l : existsb f l = true -> exists i p, nth_error l i = Some p /\ f p = true.
Proof.
  induction l as [|h t IH]; simpl; intros H; [discriminate|].
  destruct (f h) eqn:E.
  - exists 0, h; split; [reflexivity | exact E].
  - destruct (IH H) as (i & p & Hn & Hf). exists (S i), p; split; assumption.
Qed.

(* the sections are total: whatever the shared state, some outcome is enabled *)
Lemma submit_section_enabled s i r blocked ob : ob = SWaitO \/ ob = SNeed ->
  exists o c s', submit_section s i r blocked ob o c = Some s'.
Proof.
  intros Hob. unfold submit_section. destruct (psd s).
  - exists SReject, None; eexists; reflexivity.
  - destruct (length (queue s) <? avail s).
    + destruct (notify_one_enabled on_task (thr s)) as (c & l' & Hn).
      exists SPush, c; rewrite Hn; eexists; reflexivity.
    + exists ob, None; destruct Hob as [-> | ->]; eexists; reflexivity.
Qed.

Lemma work_loop_enabled s i k : exists o s', work_loop s i k false o = Some s'.
Proof.
  unfold work_loop. destruct (queue s); [destruct (psd s); [|rewrite andb_false_r]|];
    [exists WExitSd | exists WWaitO | exists WTake]; eexists; reflexivity.
Qed.

Lemma active_can_move s i p : glock s = false -> nth_error (thr s) i = Some p -> is_active p = true ->
  can_move true s.
Proof.
  intros Hg E Ha. unfold can_move.
  destruct p as [[|[] r]|r|r|r|k|k|k to|k t|k| | | | | | | | | | | | |]; try discriminate.
  14,15: (* AwIdle, AwWoken *)
    destruct (gsd s && (tcount s =? 0)) eqn:Eg; [exists (LAwait i ARet) | exists (LAwait i AWaitO)];
    eexists; (split; [reflexivity|]); simpl; rewrite Hg, E, Eg; reflexivity.
  1,3: (* SIdle (OSubmit :: r), SWoken r *)
    destruct (submit_section_enabled s i r (SWait r) SWaitO) as (o & c & s' & H); [left; reflexivity|];
    exists (LSubmit i o c), s'; (split; [reflexivity|]); simpl; unfold sub_enter; rewrite E; exact H.
  - destruct (submit_section_enabled s i r (SSpawn r) SNeed) as (o & c & s' & H); [right; reflexivity|].
    exists (LSos i o c), s'; split; [reflexivity|]. simpl; unfold sos_enter; rewrite E; exact H.
  - destruct (gsd s) eqn:Eg; [exists (LSpawn i PReject) | exists (LSpawn i POk)];
      eexists; (split; [reflexivity|]); simpl; rewrite Hg, E, Eg; reflexivity.
  - destruct (notify_one_enabled on_avail (thr s)) as (c & l' & Hn).
    destruct (work_loop_enabled (with_thr l' (with_avail (S (avail s)) s)) i k) as (o & s' & H).
    exists (LWork i false o c), s'; split; [reflexivity|]. simpl; rewrite E, Hn; exact H.
  - destruct (is_aux k && to && (negb true || is_nil (queue s))) eqn:Et.
    + exists (LWork i false WExitTo None); eexists; split; [reflexivity|].
      simpl; rewrite E; unfold work_wake; rewrite Et; reflexivity.
    + destruct (work_loop_enabled s i k) as (o & s' & H).
      exists (LWork i false o None), s'; split; [reflexivity|].
      simpl; rewrite E; unfold work_wake; rewrite Et; exact H.
  - exists (LTaskDone i false); eexists; split; [reflexivity|]. simpl; rewrite E; reflexivity.
  - (* WDrop k: a permanent worker is respawned unless the group is shutting down *)
    destruct k, (gsd s) eqn:Eg;
      [exists (LDrop i DEnd) | exists (LDrop i DRespawn) | exists (LDrop i DEnd) | exists (LDrop i DEnd)];
      eexists; (split; [reflexivity|]); simpl; unfold drop_enter; rewrite Hg, E, ?Eg; reflexivity.
  - destruct (gsd s) eqn:Eg; [exists (LDrop i DEnd) | exists (LDrop i DRespawn)];
      eexists; (split; [reflexivity|]); simpl; unfold drop_enter; rewrite Hg, E, Eg; reflexivity.
  - destruct (reg s) eqn:Er; exists (LSdG i); eexists; (split; [reflexivity|]); simpl; rewrite Hg, E, Er; reflexivity.
  - exists (LSdP i); eexists; split; [reflexivity|]. simpl; rewrite E; reflexivity.
  - exists (LPsd1 i); eexists; split; [reflexivity|]. simpl; rewrite Hg, E; reflexivity.
  - exists (LPsd2 i); eexists; split; [reflexivity|]. simpl; rewrite E; reflexivity.
Qed.

Lemma cnt_pos_elim f l : 1 <= cnt f l -> exists i p, nth_error l i = Some p /\ f p = true.
Proof.
  intros H. apply existsb_nth. destruct (existsb f l) eqn:E; [reflexivity|].
  apply existsb_false_cnt in E. lia.
Qed.

Theorem no_deadlock_inv s : Inv s -> no_deadlock true s.
Proof.
  intros I Hgsd.
  destruct (glock s) eqn:Hgl.
  { (* the shutdown caller holds the group lock and can finish *)
    right. pose proof (i_glock s I) as Hc. rewrite Hgl in Hc; simpl in Hc.
    destruct (cnt_pos_elim is_ghold (thr s)) as (i & p & E & Hp); [lia|].
    destruct p; try discriminate.
    - exists (LSdP i); eexists; split; [reflexivity|]. simpl; rewrite E; reflexivity.
    - exists (LPsd2 i); eexists; split; [reflexivity|]. simpl; rewrite E; reflexivity. }
  destruct (existsb is_active (thr s)) eqn:Eact.
  { right. destruct (existsb_nth _ _ Eact) as (i & p & E & Hp). eapply active_can_move; eassumption. }
  left. pose proof (cnt_zero_all _ _ (existsb_false_cnt _ _ Eact)) as Hna.
  (* the group lock is free, so the pool flag is set *)
  pose proof (inv_gsd_psd s I Hgsd Hgl) as Hpsd.
  destruct (i_psd_w s I Hpsd) as [Ht Ha].
  assert (Hgh : cnt is_gh (thr s) = 0).
  { pose proof (i_glock s I) as Hc. rewrite Hgl in Hc; simpl in Hc.
    pose proof (sumf_le (fun p => b2n (is_gh p)) (fun p => b2n (is_ghold p)) (thr s)) as Hle.
    cbn beta in Hle. assert (forall p, b2n (is_gh p) <= b2n (is_ghold p)) as Hpt by (intros []; simpl; auto).
    specialize (Hle Hpt). lia. }
  destruct (i_gsd_w s I Hgsd Hgh) as [Hr Haw].
  pose proof (cnt_zero_all _ _ Ht) as Ht'. pose proof (cnt_zero_all _ _ Ha) as Ha'.
  pose proof (cnt_zero_all _ _ Hr) as Hr'.
  assert (Hlive : cnt is_live (thr s) = 0).
  { apply sumf_all_zero. intros p Hp.
    specialize (Hna p Hp); specialize (Ht' p Hp); specialize (Hr' p Hp).
    destruct p; try discriminate; reflexivity. }
  pose proof (i_live s I) as Hl. rewrite Hlive in Hl.
  pose proof (cnt_zero_all _ _ (Haw Hl)) as Haw'.
  intros p Hp.
  specialize (Hna p Hp); specialize (Ht' p Hp); specialize (Ha' p Hp); specialize (Hr' p Hp);
    specialize (Haw' p Hp).
  destruct p as [[|]| | | | | | | | | | | | | | | | | | | | |]; try discriminate; reflexivity.
Qed.

Theorem no_deadlock_reachable s : reachable true s -> no_deadlock true s.
Proof. intros R. apply no_deadlock_inv, inv_reachable, R. Qed.


Lemma lex_lt_wf : well_founded lex_lt.
Proof.
  intros [a b]. revert b.
  induction a as [a IHa] using (well_founded_induction lt_wf).
  induction b as [b IHb] using (well_founded_induction lt_wf).
  constructor. intros [a' b'] [H|[H1 H2]]; simpl in *.
  - apply IHa; exact H.
  - subst a'. apply IHb; exact H2.
Qed.
