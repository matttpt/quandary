(* C23, addresses: IPv4 dotted quads and IPv6 groups through the models of Ipv4Addr::from_str and
   Ipv6Addr::from_str, Chaosnet octal addresses. *)
From QV Require Import Base.ListX Model.ZfReader Model.ZfParser Proofs.ZfReaderP Proofs.ZfStdP
  Proofs.ZfRunP Proofs.ZfTokP Spec.ZfRenderS.

Local Open Scope N_scope.

Definition stopper (radix : N) (l : bytes) : Prop := match l with [] => True | c :: _ => to_digit radix c = None end.

(* the digit loop of core::net::parser::read_number on a run of digits, for any radix; dv gives the value of a
   digit character *)
Lemma rn_loop_digits radix maxd (dv : N -> N) : forall ds l result count,
  Forall (fun c => to_digit radix c = Some (dv c)) ds -> stopper radix l -> (count + length ds <= maxd)%nat ->
  rn_loop radix maxd (ds ++ l) result count =
  Some (fold_left (fun a c => a * radix + dv c) ds result, (count + length ds)%nat, l).
Proof.
  induction ds as [|c ds IH]; intros l result count Hd Hs Hl.
  - cbn [app length fold_left]. rewrite Nat.add_0_r. destruct l as [|x l]; [reflexivity|].
    cbn [rn_loop]. simpl in Hs. rewrite Hs. reflexivity.
  - inversion Hd as [|? ? Hc Hds]; subst. cbn [app rn_loop]. rewrite Hc. cbn [length] in Hl.
    rewrite (proj2 (Nat.ltb_ge maxd (S count)%nat)) by lia.
    rewrite IH; [|exact Hds|exact Hs|lia]. cbn [length fold_left]. do 2 f_equal. f_equal. lia.
Qed.

Lemma to_digit_dec c : digit_of 10 c -> to_digit 10 c = Some (c - 48).
Proof.
  unfold digit_of. intros H. unfold to_digit, is_digit.
  rewrite !(proj2 (N.leb_le _ _)) by lia. cbn [andb]. rewrite (proj2 (N.ltb_lt _ _)) by lia. reflexivity.
Qed.

Definition dec_good (a : N) : bool :=
  (length (dec a) <=? 3)%nat && negb (head_is 48 (dec a) && (1 <? length (dec a))%nat).
Lemma dec_sweep : forallb dec_good octets256 = true. Proof. vm_compute. reflexivity. Qed.

(* the decimal text of an octet: at most three digits, no leading zero before another digit *)
Lemma dec_shape a : a < 256 ->
  (length (dec a) <= 3)%nat /\ head_is 48 (dec a) && (1 <? length (dec a))%nat = false.
Proof.
  intros Ha. pose proof (sweep_below _ 256 dec_sweep a Ha) as G. unfold dec_good in G.
  apply andb_true_iff in G. destruct G as [G1 G2]. apply Nat.leb_le in G1. apply negb_true_iff in G2. auto.
Qed.

Lemma read_number_dec a l : a < 256 -> stopper 10 l -> read_number 10 3 false U8_MAX (dec a ++ l) = Some (a, l).
Proof.
  intros Ha Hs. destruct (dec_shape a Ha) as [G1 G2].
  pose proof (num_digits 10 a ltac:(lia)) as Hd. fold (dec a) in Hd.
  pose proof (num_nonempty 10 a) as Hne. fold (dec a) in Hne.
  pose proof (num_val 10 a ltac:(lia)) as Hv. fold (dec a) in Hv.
  unfold read_number.
  rewrite (rn_loop_digits 10 3 (fun c => c - 48) _ l 0 0%nat (Forall_impl _ to_digit_dec Hd) Hs) by (simpl; lia).
  fold (dval 10 (dec a) 0). rewrite Hv. cbn [Nat.add].
  destruct (dec a) as [|x ds] eqn:Ed; [congruence|]. cbn [app length]. cbn [Nat.eqb].
  cbn [head_is length] in G2. cbn [negb andb]. rewrite G2. unfold U8_MAX.
  rewrite (proj2 (N.ltb_ge 255 a)) by lia. reflexivity.
Qed.

Lemma stopper_dot l : stopper 10 (46 :: l). Proof. reflexivity. Qed.

Lemma dec_len3 x : x < 256 -> (length (dec x) <= 3)%nat.
Proof. intros Hx. apply (dec_shape x Hx). Qed.

Lemma ip4_ok_inv a b c d : ip4_ok a b c d = true -> a < 256 /\ b < 256 /\ c < 256 /\ d < 256.
Proof.
  unfold ip4_ok. intros H. apply andb_true_iff in H. destruct H as [H Hd]. apply andb_true_iff in H. destruct H as [H Hc].
  apply andb_true_iff in H. destruct H as [Ha Hb]. apply N.ltb_lt in Ha, Hb, Hc, Hd. auto.
Qed.

Lemma ip4_len a b c d : ip4_ok a b c d = true -> (length (render_ip4 a b c d) <= 15)%nat.
Proof.
  intros H. apply ip4_ok_inv in H. destruct H as (Ha & Hb & Hc & Hd). unfold render_ip4.
  pose proof (dec_len3 a Ha). pose proof (dec_len3 b Hb). pose proof (dec_len3 c Hc). pose proof (dec_len3 d Hd).
  repeat (rewrite app_length; cbn [length]). lia.
Qed.

Theorem ipv4_roundtrip a b c d : ip4_ok a b c d = true -> ipv4_from_str (render_ip4 a b c d) = Some [a; b; c; d].
Proof.
  intros H. pose proof (ip4_len a b c d H) as HL. apply ip4_ok_inv in H. destruct H as (Ha & Hb & Hc & Hd).
  unfold ipv4_from_str. destruct (Nat.ltb 15 (length (render_ip4 a b c d))) eqn:E; [apply Nat.ltb_lt in E; lia|].
  unfold render_ip4, read_ipv4_addr. cbn [read_sep].
  rewrite (read_number_dec a _ Ha (stopper_dot _)). change (46 =? 46) with true. cbv iota.
  rewrite (read_number_dec b _ Hb (stopper_dot _)). change (46 =? 46) with true. cbv iota.
  rewrite (read_number_dec c _ Hc (stopper_dot _)). change (46 =? 46) with true. cbv iota.
  rewrite <- (app_nil_r (dec d)). rewrite (read_number_dec d [] Hd I). reflexivity.
Qed.

Lemma ip4_tok a b c d : forallb tokch (render_ip4 a b c d) = true.
Proof.
  unfold render_ip4. assert (T : forall x, forallb tokch (dec x) = true).
  { intros x. eapply digits_tokch; [|apply num_digits; lia]. lia. }
  repeat (rewrite forallb_app; cbn [forallb]). rewrite !T. reflexivity.
Qed.

Theorem ip4_field_runs a b c d p : ip4_ok a b c d = true -> runs fend parse_ipv4 (render_ip4 a b c d) p p [a; b; c; d].
Proof.
  intros H. unfold parse_ipv4. apply read_field_runs; [apply ip4_tok|pose proof (ip4_len a b c d H); lia|].
  rewrite (ipv4_roundtrip a b c d H). reflexivity.
Qed.

Lemma chaos_runs start p : forall ds acc fuel, Forall (digit_of 8) ds -> dval 8 ds acc <= 65535 ->
  runsN fuel fend (chaos_loop fuel start acc) ds p p (dval 8 ds acc).
Proof.
  induction ds as [|c ds IH]; intros acc fuel Hd Hm; (destruct fuel as [|fuel]; [apply runsN_0|]).
  - cbn [chaos_loop]. change (@nil N) with (@nil N ++ []). eapply runsN_bind; [apply rfo_end|intros t Ht; exact Ht|].
    cbv beta iota. apply runs_N, runs_ret.
  - inversion Hd as [|? ? Hc Hds]; subst. unfold digit_of in Hc.
    change (dval 8 (c :: ds) acc) with (dval 8 ds (acc * 8 + (c - 48))) in *.
    pose proof (dval_ge 8 ltac:(lia) ds (acc * 8 + (c - 48))) as Hge.
    cbn [chaos_loop]. change (c :: ds) with ([c] ++ ds).
    assert (Hpl : plainb c = true).
    { pose proof (digit_tokch 8 c ltac:(lia) Hc) as G. unfold tokch in G. apply andb_true_iff in G. tauto. }
    eapply runsN_bind_dec; [apply rfo_plain; exact Hpl|discriminate|intros; exact I|].
    cbv beta iota. unfold inr_.
    rewrite !(proj2 (N.leb_le _ _)) by lia. cbn [andb]. rewrite !(proj2 (N.ltb_ge _ _)) by lia. apply IH; assumption.
Qed.

Theorem oct_field_runs ic n p : oct_ok ic n = true -> runs fend parse_chaosnet_address (render_oct ic n) p p n.
Proof.
  unfold oct_ok. intros H. apply andb_true_iff in H. destruct H as [H _]. apply andb_true_iff in H. destruct H as [Hn _].
  apply N.leb_le in Hn. unfold parse_chaosnet_address. apply runs_getpos. intros q. apply runs_get_fuel. intros fuel.
  unfold render_oct.
  assert (Hv : dval 8 (repeat 48 (i_zeros ic) ++ oct n) 0 = n).
  { rewrite dval_app. change 0 with (0 * 0) at 1. rewrite zeros_val. apply num_val. lia. }
  rewrite <- Hv at 2. apply chaos_runs.
  - apply Forall_app. split; [apply zeros_digits; lia|apply num_digits; lia].
  - rewrite Hv. exact Hn.
Qed.

Definition hexv (c : N) : N := match to_digit 16 c with Some d => d | None => 0 end.
Definition hval (ds : bytes) (acc : N) : N := fold_left (fun a c => a * 16 + hexv c) ds acc.
Definition is_hex (c : N) : Prop := to_digit 16 c <> None.

Lemma is_hex_digit c : is_hex c -> to_digit 16 c = Some (hexv c).
Proof. unfold is_hex, hexv. destruct (to_digit 16 c); congruence. Qed.

(* the 16 digit characters of either letter case: each reads back as its value and is an ordinary token octet *)
Definition hexchar_good (d : N) : bool :=
  implb (d <? 16)
    (forallb (fun c => match to_digit 16 c with Some v => v =? d | None => false end && tokch c && negb (c =? 46))
             [hexdig true d; hexdig false d]).
Lemma hexchar_sweep : forallb hexchar_good octets256 = true. Proof. vm_compute. reflexivity. Qed.

Lemma hexchar_facts upper d : d < 16 ->
  to_digit 16 (hexdig upper d) = Some d /\ tokch (hexdig upper d) = true /\ hexdig upper d <> 46.
Proof.
  intros Hd. pose proof (sweep_below _ 256 hexchar_sweep d ltac:(lia)) as G. unfold hexchar_good in G.
  apply N.ltb_lt in Hd. rewrite Hd in G. cbn [implb] in G. rewrite forallb_forall in G.
  specialize (G (hexdig upper d) ltac:(destruct upper; simpl; auto)).
  apply andb_true_iff in G. destruct G as [G H46]. apply andb_true_iff in G. destruct G as [G Ht].
  apply negb_true_iff, N.eqb_neq in H46. destruct (to_digit 16 (hexdig upper d)); [|discriminate].
  apply N.eqb_eq in G. subst. auto.
Qed.

Definition digits_val (ds : list N) (acc : N) : N := fold_left (fun a d => a * 16 + d) ds acc.

Lemma hexdigs_facts upper : forall ds, Forall (fun d => d < 16) ds ->
  let t := map (hexdig upper) ds in
  Forall is_hex t /\ (forall acc, hval t acc = digits_val ds acc) /\ forallb tokch t = true /\ Forall (fun c => c <> 46) t.
Proof.
  induction 1 as [|d ds Hd _ (Hh & Hv & Ht & Hp)]; cbn [map forallb]; [repeat split; constructor|].
  destruct (hexchar_facts upper d Hd) as (Ed & Etok & E46).
  split; [constructor; [unfold is_hex; congruence|exact Hh]|].
  split; [intros acc; cbn [hval digits_val fold_left]; unfold hexv; rewrite Ed; apply Hv|].
  split; [rewrite Etok; exact Ht|constructor; assumption].
Qed.

Lemma group_digits_lt g : g < 65536 -> Forall (fun d => d < 16) (group_digits g).
Proof.
  intros Hg. unfold group_digits. repeat constructor; try (apply N.mod_lt; lia).
  apply N.div_lt_upper_bound; lia.
Qed.

Lemma group_digits_val g : digits_val (group_digits g) 0 = g.
Proof.
  unfold group_digits, digits_val. cbn [fold_left].
  replace (g / 256) with (g / 16 / 16) by (rewrite N.div_div by lia; reflexivity).
  replace (g / 4096) with (g / 16 / 16 / 16) by (rewrite !N.div_div by lia; reflexivity).
  pose proof (N.div_mod g 16). pose proof (N.div_mod (g / 16) 16). pose proof (N.div_mod (g / 16 / 16) 16). lia.
Qed.

Lemma digits_val_drop : forall drop ds, forallb (N.eqb 0) (firstn drop ds) = true ->
  digits_val (skipn drop ds) 0 = digits_val ds 0.
Proof.
  induction drop as [|drop IH]; intros [|d ds] H; try reflexivity.
  cbn [firstn forallb] in H. apply andb_true_iff in H. destruct H as [Hd H]. apply N.eqb_eq in Hd. subst d.
  cbn [skipn]. rewrite IH by exact H. reflexivity.
Qed.

Lemma group_facts drop upper g : group_ok drop g = true ->
  let t := render_group drop upper g in
  Forall is_hex t /\ hval t 0 = g /\ (1 <= length t <= 4)%nat /\ forallb tokch t = true /\ Forall (fun c => c <> 46) t.
Proof.
  unfold group_ok. intros H. apply andb_true_iff in H. destruct H as [H Hz]. apply andb_true_iff in H.
  destruct H as [Hg Hd]. apply N.ltb_lt in Hg. apply Nat.leb_le in Hd.
  assert (Hlt : Forall (fun d => d < 16) (skipn drop (group_digits g))).
  { pose proof (group_digits_lt g Hg) as F. rewrite Forall_forall in *. intros d Hin. apply F. eapply In_skipn. exact Hin. }
  destruct (hexdigs_facts upper _ Hlt) as (Hh & Hv & Ht & Hp). unfold render_group. cbv zeta.
  split; [exact Hh|]. split; [rewrite Hv, digits_val_drop by exact Hz; apply group_digits_val|].
  split; [rewrite map_length, skipn_length; cbn [group_digits length]; lia|]. split; assumption.
Qed.

Lemma rn_loop_suffix radix maxd : forall l result count r n l1,
  rn_loop radix maxd l result count = Some (r, n, l1) -> exists pre, l = pre ++ l1.
Proof.
  induction l as [|c l IH]; intros result count r n l1 H; cbn [rn_loop] in H.
  - inversion H; subst. exists []. reflexivity.
  - destruct (to_digit radix c) as [d|].
    + destruct (maxd <? S count)%nat; [discriminate|]. destruct (IH _ _ _ _ _ H) as (pre & ->). exists (c :: pre). reflexivity.
    + inversion H; subst. exists []. reflexivity.
Qed.

Lemma read_number_suffix radix maxd z tmax l v l1 : read_number radix maxd z tmax l = Some (v, l1) -> exists pre, l = pre ++ l1.
Proof.
  unfold read_number. destruct (rn_loop radix maxd l 0 0) as [[[r n] l']|] eqn:E; [|discriminate].
  destruct (n =? 0)%nat; [discriminate|]. destruct (_ && _ && _); [discriminate|]. destruct (tmax <? r); [discriminate|].
  intros H. inversion H; subst. eapply rn_loop_suffix. exact E.
Qed.

Lemma read_ipv4_nodot l : Forall (fun c => c <> 46) l -> read_ipv4_addr l = None.
Proof.
  intros H. unfold read_ipv4_addr. cbn [read_sep].
  destruct (read_number 10 3 false U8_MAX l) as [[a l1]|] eqn:E; [|reflexivity].
  destruct (read_number_suffix _ _ _ _ _ _ _ E) as (pre & ->). apply Forall_app in H. destruct H as [_ H].
  destruct l1 as [|c l1]; [reflexivity|]. inversion H as [|? ? Hc _]; subst. apply N.eqb_neq in Hc. rewrite Hc. reflexivity.
Qed.

Lemma render_groups_nodot : forall gs drops uppers, groups_ok drops gs = true ->
  Forall (fun c => c <> 46) (render_groups drops uppers gs).
Proof.
  induction gs as [|g gs IH]; intros drops uppers H; [constructor|]. cbn [groups_ok] in H. apply andb_true_iff in H. destruct H as [Hg Hgs].
  cbn [render_groups]. apply Forall_app. split; [apply (group_facts _ _ _ Hg)|].
  destruct gs; [constructor|]. constructor; [discriminate|]. apply IH. exact Hgs.
Qed.

Lemma read_group_hex drop upper g l : group_ok drop g = true -> stopper 16 l ->
  read_number 16 4 true U16_MAX (render_group drop upper g ++ l) = Some (g, l).
Proof.
  intros Hok Hs. destruct (group_facts drop upper g Hok) as (Hh & Hv & [Hl1 Hl4] & _).
  pose proof Hok as Hok'. unfold group_ok in Hok'. apply andb_true_iff in Hok'. destruct Hok' as [Hok' _].
  apply andb_true_iff in Hok'. destruct Hok' as [Hg _]. apply N.ltb_lt in Hg.
  unfold read_number. rewrite (rn_loop_digits 16 4 hexv _ l 0 0%nat (Forall_impl _ is_hex_digit Hh) Hs) by (simpl; lia).
  fold (hval (render_group drop upper g) 0). rewrite Hv. cbn [Nat.add negb andb].
  destruct (length (render_group drop upper g) =? 0)%nat eqn:E0; [apply Nat.eqb_eq in E0; lia|].
  unfold U16_MAX. rewrite (proj2 (N.ltb_ge 65535 g)) by lia. reflexivity.
Qed.

(* what may follow a run of groups: the end of the text, or "::" *)
Definition gstop (rest : bytes) : Prop := rest = [] \/ exists X, rest = 58 :: 58 :: X.

Lemma gstop_stopper rest : gstop rest -> stopper 16 rest.
Proof. intros [->|(X & ->)]; reflexivity. Qed.

Lemma read_number_colon radix maxd z tmax X : read_number radix maxd z tmax (58 :: X) = None.
Proof.
  unfold read_number. cbn [rn_loop]. assert (H : to_digit radix 58 = None) by (unfold to_digit; cbn; reflexivity).
  rewrite H. reflexivity.
Qed.

Lemma read_ipv4_colon X : read_ipv4_addr (58 :: X) = None.
Proof. unfold read_ipv4_addr. cbn [read_sep]. rewrite read_number_colon. reflexivity. Qed.

Lemma read_ipv4_nil : read_ipv4_addr [] = None. Proof. reflexivity. Qed.

Lemma read_groups_stop m i limit rest acc : gstop rest -> read_groups m i limit rest acc = (acc, false, rest).
Proof.
  intros Hs. destruct m as [|m]; [reflexivity|]. cbn [read_groups]. destruct Hs as [->|(X & ->)].
  - destruct i; destruct (_ <? _)%nat; reflexivity.
  - destruct i; cbn [read_sep]; [|change (58 =? 58) with true; cbv iota];
      rewrite read_ipv4_colon, read_number_colon; destruct (_ <? _)%nat; reflexivity.
Qed.

(* the separator read_sep expects in front of group number i *)
Definition colon_at (i : nat) : bytes := match i with O => [] | S _ => [58] end.

Lemma read_sep_colon {A} i (inner : bytes -> option (A * bytes)) l : read_sep 58 i inner (colon_at i ++ l) = inner l.
Proof. destruct i; reflexivity. Qed.

(* a run of groups, the first of them being group number i of the address (or of its part after "::") *)
Lemma read_groups_run limit : forall gs drops uppers m i acc rest, groups_ok drops gs = true ->
  gstop rest -> Forall (fun c => c <> 46) rest ->
  read_groups (length gs + m) i limit
    (match gs with [] => [] | _ => colon_at i ++ render_groups drops uppers gs end ++ rest) acc =
  read_groups m (i + length gs) limit rest (acc ++ gs).
Proof.
  induction gs as [|g gs IH]; intros drops uppers m i acc rest Hok Hs Hnd.
  - cbn [length app Nat.add]. rewrite Nat.add_0_r, app_nil_r. reflexivity.
  - assert (Hnd' : Forall (fun c => c <> 46) (render_groups drops uppers (g :: gs) ++ rest))
      by (apply Forall_app; split; [apply render_groups_nodot; exact Hok|exact Hnd]).
    cbn [groups_ok] in Hok. apply andb_true_iff in Hok. destruct Hok as [Hg Hgs].
    cbn [length Nat.add read_groups]. rewrite <- app_assoc, !read_sep_colon, (read_ipv4_nodot _ Hnd').
    cbn [render_groups]. rewrite <- app_assoc, (read_group_hex _ _ _ _ Hg).
    + pose proof (IH (tl drops) (tl uppers) m (S i) (acc ++ [g]) rest Hgs Hs Hnd) as Hnext.
      cbn [colon_at app] in Hnext. destruct (i <? limit - 1)%nat; rewrite Hnext, <- app_assoc; f_equal; lia.
    + destruct gs; [apply gstop_stopper; exact Hs|reflexivity].
Qed.

Lemma read_groups_part limit k gs drops uppers rest : groups_ok drops gs = true -> gstop rest ->
  Forall (fun c => c <> 46) rest -> (length gs <= k)%nat ->
  read_groups k 0 limit (render_groups drops uppers gs ++ rest) [] = (gs, false, rest).
Proof.
  intros Hok Hs Hnd Hk. replace k with (length gs + (k - length gs))%nat by lia.
  rewrite <- (read_groups_stop (k - length gs) (length gs) limit rest gs Hs).
  destruct gs; exact (read_groups_run limit _ drops uppers _ 0 [] rest Hok Hs Hnd).
Qed.

Lemma groups_ok_firstn : forall gs drops k, groups_ok drops gs = true -> groups_ok drops (firstn k gs) = true.
Proof.
  induction gs as [|g gs IH]; intros drops k H; [destruct k; reflexivity|]. destruct k as [|k]; [reflexivity|].
  cbn [groups_ok firstn] in *. apply andb_true_iff in H. destruct H as [Hg Hgs]. rewrite Hg, (IH _ _ Hgs). reflexivity.
Qed.

Lemma groups_ok_skipn : forall gs drops k, groups_ok drops gs = true -> groups_ok (skipn k drops) (skipn k gs) = true.
Proof.
  induction gs as [|g gs IH]; intros drops k H; [destruct k; reflexivity|]. destruct k as [|k]; [exact H|].
  cbn [groups_ok] in H. apply andb_true_iff in H. destruct H as [_ Hgs]. cbn [skipn]. destruct drops as [|d drops].
  - specialize (IH [] k Hgs). destruct k; exact IH.
  - apply IH. exact Hgs.
Qed.

Lemma zeros_repeat : forall l : list N, forallb (N.eqb 0) l = true -> l = repeat 0 (length l).
Proof.
  induction l as [|x l IH]; intros H; [reflexivity|]. cbn [forallb] in H. apply andb_true_iff in H. destruct H as [Hx Hl].
  apply N.eqb_eq in Hx. subst x. cbn [length repeat]. f_equal. apply IH. exact Hl.
Qed.

Theorem ipv6_roundtrip c gs : ip6_ok c gs = true -> ipv6_from_str (render_ip6 c gs) = Some (flat_map sbe16 gs).
Proof.
  unfold ip6_ok. intros H. apply andb_true_iff in H. destruct H as [H Hzip]. apply andb_true_iff in H. destruct H as [Hlen Hok].
  apply Nat.eqb_eq in Hlen. unfold ipv6_from_str, read_ipv6_addr, render_ip6. destruct (g_zip c) as [[i n]|].
  - apply andb_true_iff in Hzip. destruct Hzip as [Hzip Hz]. apply andb_true_iff in Hzip. destruct Hzip as [Hn Hin].
    apply Nat.leb_le in Hn, Hin.
    set (L := firstn i gs). set (R := skipn (i + n) gs).
    assert (HL : length L = i) by (unfold L; rewrite firstn_length; lia).
    assert (HR : length R = (8 - (i + n))%nat) by (unfold R; rewrite skipn_length; lia).
    pose proof (groups_ok_firstn gs (g_drop c) i Hok) as HokL. fold L in HokL.
    pose proof (groups_ok_skipn gs (g_drop c) (i + n) Hok) as HokR. fold R in HokR.
    set (Rt := render_groups (skipn (i + n) (g_drop c)) (skipn (i + n) (g_upper c)) R) in *.
    assert (HndR : Forall (fun c => c <> 46) Rt) by (apply render_groups_nodot; exact HokR).
    (* the part before "::" *)
    rewrite (read_groups_part 8 8 L (g_drop c) (g_upper c) ([58; 58] ++ Rt) HokL);
      [|right; eexists; reflexivity|constructor; [discriminate|constructor; [discriminate|exact HndR]]|lia].
    rewrite HL. destruct (i =? 8)%nat eqn:Ei8; [apply Nat.eqb_eq in Ei8; lia|].
    cbn [app]. change (58 =? 58) with true. cbn [andb].
    (* the part after it *)
    rewrite <- (app_nil_r Rt). unfold Rt.
    rewrite (read_groups_part _ (8 - (i + 1)) R _ _ [] HokR); [|left; reflexivity|constructor|lia].
    f_equal. rewrite HR.
    assert (Egs : gs = L ++ repeat 0 n ++ R).
    { unfold L, R. rewrite <- (firstn_skipn i gs) at 1. f_equal. rewrite <- (firstn_skipn n (skipn i gs)) at 1. f_equal.
      - rewrite (zeros_repeat _ Hz) at 1. f_equal. rewrite firstn_length, skipn_length. lia.
      - rewrite skipn_plus. f_equal. }
    replace (8 - i - (8 - (i + n)))%nat with n by lia. rewrite <- Egs. reflexivity.
  - rewrite <- (app_nil_r (render_groups (g_drop c) (g_upper c) gs)).
    rewrite (read_groups_part 8 8 gs _ _ [] Hok); [|left; reflexivity|constructor|lia].
    rewrite Hlen. reflexivity.
Qed.

Lemma render_groups_tok : forall gs drops uppers, groups_ok drops gs = true ->
  forallb tokch (render_groups drops uppers gs) = true /\ (length (render_groups drops uppers gs) <= 5 * length gs)%nat.
Proof.
  induction gs as [|g gs IH]; intros drops uppers H; [split; [reflexivity|simpl; lia]|].
  cbn [groups_ok] in H. apply andb_true_iff in H. destruct H as [Hg Hgs].
  destruct (group_facts (hd 0%nat drops) (hd false uppers) g Hg) as (_ & _ & [_ L4] & Ht & _).
  destruct (IH (tl drops) (tl uppers) Hgs) as [IH1 IH2].
  cbn [render_groups]. rewrite forallb_app, app_length. destruct gs as [|g2 gs].
  - split; [rewrite Ht; reflexivity|simpl; lia].
  - cbn [forallb length]. rewrite Ht, IH1. split; [reflexivity|]. cbn [length] in IH2. lia.
Qed.

Lemma ip6_ok_len c gs : ip6_ok c gs = true -> length gs = 8%nat.
Proof. unfold ip6_ok. intros H. apply andb_true_iff in H. destruct H as [H _]. apply andb_true_iff in H. destruct H as [H _]. apply Nat.eqb_eq. exact H. Qed.

Lemma ip6_tok c gs : ip6_ok c gs = true -> forallb tokch (render_ip6 c gs) = true /\ (length (render_ip6 c gs) <= 50)%nat.
Proof.
  intros H. pose proof (ip6_ok_len c gs H) as Hlen. unfold ip6_ok in H. apply andb_true_iff in H. destruct H as [H Hzip].
  apply andb_true_iff in H. destruct H as [_ Hok]. unfold render_ip6. destruct (g_zip c) as [[i n]|].
  - destruct (render_groups_tok _ _ (g_upper c) (groups_ok_firstn gs (g_drop c) i Hok)) as [A1 A2].
    destruct (render_groups_tok _ _ (skipn (i + n) (g_upper c)) (groups_ok_skipn gs (g_drop c) (i + n) Hok)) as [B1 B2].
    rewrite !forallb_app, A1, B1. split; [reflexivity|]. rewrite !app_length. cbn [length].
    rewrite firstn_length in A2. rewrite skipn_length in B2. lia.
  - destruct (render_groups_tok gs (g_drop c) (g_upper c) Hok) as [A1 A2]. split; [exact A1|lia].
Qed.

(* a rendered IPv6 address is not empty and does not begin with a backslash: as the first RDATA field of an AAAA
   record it is not taken for \#; both read off the round trip, which would fail otherwise *)
Lemma ip6_head c gs : ip6_ok c gs = true -> exists h tl, render_ip6 c gs = h :: tl /\ h <> 92 /\ plainb h = true.
Proof.
  intros H. destruct (ip6_tok c gs H) as [Ht _]. pose proof (ipv6_roundtrip c gs H) as Hr.
  destruct (render_ip6 c gs) as [|h tl]; [change (ipv6_from_str []) with (@None bytes) in Hr; discriminate|]. exists h, tl. split; [reflexivity|].
  cbn [forallb] in Ht. apply andb_true_iff in Ht. destruct Ht as [Hh _]. split; [|unfold tokch in Hh; apply andb_true_iff in Hh; tauto].
  intros ->. unfold ipv6_from_str, read_ipv6_addr in Hr. cbn [read_groups read_sep] in Hr.
  assert (E1 : read_ipv4_addr (92 :: tl) = None) by (unfold read_ipv4_addr; cbn [read_sep]; unfold read_number; cbn [rn_loop]; reflexivity).
  assert (E2 : read_number 16 4 true U16_MAX (92 :: tl) = None) by (unfold read_number; cbn [rn_loop]; reflexivity).
  rewrite E1, E2 in Hr. destruct tl as [|c2 l2]; cbn in Hr; discriminate.
Qed.

Theorem ip6_field_runs c gs p : ip6_ok c gs = true -> runs fend parse_ipv6 (render_ip6 c gs) p p (flat_map sbe16 gs).
Proof.
  intros H. destruct (ip6_tok c gs H) as [T1 T2].
  unfold parse_ipv6. apply read_field_runs; [exact T1|lia|].
  rewrite (ipv6_roundtrip c gs H). reflexivity.
Qed.
