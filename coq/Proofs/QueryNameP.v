(* Names and fixed fields inside RDATA: what the query model's readers (read_name_from_rdata,
   name_from_all, read_soa_minimum, Ttl::from) return, in terms of the independent decoders of
   Spec/ResolveS.v (which are the C14 specification decoder). *)
From QV Require Import Base.ListX Model.NameWire Spec.NameWireS Spec.NameRepr
  Proofs.NameWireP Proofs.NameWireSP Spec.RdataFormatS Proofs.RdNameP
  Gen.QueryConsts Model.ZoneTree Spec.ZoneLookupS Model.Query Spec.ResolveS.
Local Open Scope nat_scope.

Lemma q_wire_labels_lwire ls : Forall valid_label ls -> forall fuel rest,
  length (lwire ls) < fuel -> q_wire_labels fuel (lwire ls ++ 0%N :: rest) = ls.
Proof.
  induction 1 as [|l ls Hl Hls IH]; intros fuel rest Hf.
  - destruct fuel; [simpl in Hf; lia|]. reflexivity.
  - destruct fuel; [lia|].
    change (lwire (l :: ls)) with ((N.of_nat (length l) :: l) ++ lwire ls) in *.
    rewrite app_length in Hf. cbn [length] in Hf.
    cbn [app q_wire_labels]. destruct Hl as [H1 H2].
    destruct (N.eqb_spec (N.of_nat (length l)) 0) as [E|E]; [lia|].
    rewrite Nat2N.id. rewrite <- app_assoc.
    rewrite firstn_app_exact by reflexivity. rewrite skipn_app_exact by reflexivity.
    f_equal. apply IH. lia.
Qed.

Lemma labels_of_name_of ls : Forall valid_label ls -> labels_of (name_of ls) = ls.
Proof.
  intros H. unfold labels_of, name_of. cbn [n_wire]. unfold wire_of.
  apply q_wire_labels_lwire; auto. rewrite app_length. simpl. lia.
Qed.

Lemma name_of_wire_iff w ls : name_of_wire w = Some ls <-> decodes_uncompressed w ls (length w).
Proof.
  unfold name_of_wire. rewrite <- decodes_name0_unc, <- spec_decode_name_iff.
  destruct (spec_decode_name w 0) as [[ls' l]|]; [|split; discriminate].
  destruct (Nat.eqb_spec l (length w)) as [->|Hl]; cbv iota.
  - split; intros [= ->]; reflexivity.
  - split; [discriminate|]. intros [= _ E]. destruct (Hl E).
Qed.

(* Name::try_from_uncompressed_all against the spec decoder.  [w <> []] is what rules out the
   model-only Panic arm of follow_cname_1 (the unwrap of the CNAME's wire form). *)
Lemma name_from_all_spec w :
  match name_from_all w with
  | Ok (Some (n, wire)) => name_of_wire w = Some n /\ wire = w /\ w <> []
  | Ok None => name_of_wire w = None
  | _ => False
  end.
Proof.
  unfold name_from_all. destruct (parse_uncompressed_total w true) as [Hp _].
  pose proof (parse_uncompressed_iff_any w true) as Hiff.
  destruct (parse_uncompressed_name w true) as [[nm l]|e|]; [| |congruence].
  - destruct (proj1 (Hiff nm l) eq_refl) as (ls & D & -> & Hl). rewrite (Hl eq_refl) in D.
    pose proof D as D'. apply decodes_unc_gen in D'. destruct D' as ((Hv & _) & _ & Hb).
    rewrite skipn_all, app_nil_r in Hb. rewrite labels_of_name_of by exact Hv.
    split; [apply name_of_wire_iff, D|]. split; [symmetry; exact Hb|].
    rewrite Hb. unfold wire_of. destruct (lwire ls); discriminate.
  - destruct (name_of_wire w) as [ls|] eqn:N; [|reflexivity]. apply name_of_wire_iff in N.
    assert (P : Err e = Ok (name_of ls, length w)) by (apply Hiff; eauto). discriminate.
Qed.

Lemma read_name_spec rd off :
  read_name_from_rdata rd off = match rdata_name rd off with Some n => Ok n | None => Err PServFail end.
Proof.
  unfold read_name_from_rdata, rdata_name. destruct (length rd <? off); [reflexivity|].
  pose proof (name_from_all_spec (skipn off rd)) as H.
  destruct (name_from_all (skipn off rd)) as [[[n wire]|]|e|]; try contradiction.
  - destruct H as [-> _]. reflexivity.
  - rewrite H. reflexivity.
Qed.

Lemma be32_u32 l : length l = 4 -> u32_of l = Some (be32_value l).
Proof.
  destruct l as [|a [|b [|c [|d [|x l]]]]]; simpl; intros H; try discriminate.
  f_equal. lia.
Qed.

Lemma soa_minimum_sname rd :
  soa_minimum rd =
  match sname rd with
  | None => None
  | Some l1 =>
    match sname (skipn l1 rd) with
    | None => None
    | Some l2 => let fixed := skipn (l1 + l2) rd in
                 if length fixed =? 20 then u32_of (skipn 16 fixed) else None
    end
  end.
Proof.
  unfold soa_minimum, sname. destruct (spec_decode_name rd 0) as [[? l1]|]; [|reflexivity].
  destruct (spec_decode_name (skipn l1 rd) 0) as [[? ?]|]; reflexivity.
Qed.

Lemma soa_minimum_spec rd :
  match read_soa_minimum rd with
  | Ok m => soa_minimum rd = Some m
  | Err e => e = PServFail /\ soa_minimum rd = None
  | Panic => False
  end.
Proof.
  unfold read_soa_minimum. rewrite soa_minimum_sname.
  pose proof (vun_spec rd) as H1.
  destruct (validate_uncompressed_name rd false) as [l1|e1|]; [| |contradiction].
  2:{ destruct H1 as [-> _]. auto. }
  destruct H1 as (-> & _ & H1).
  destruct (length rd <? l1) eqn:L1; [apply Nat.ltb_lt in L1; lia|].
  pose proof (vun_spec (skipn l1 rd)) as H2.
  destruct (validate_uncompressed_name (skipn l1 rd) false) as [l2|e2|]; [| |contradiction].
  2:{ destruct H2 as [-> _]. auto. }
  destruct H2 as (-> & _ & H2). cbv zeta. change SOA_MINIMUM_OFFSET with 16.
  rewrite skipn_length in H2. rewrite skipn_plus, !skipn_length.
  destruct (Nat.eqb_spec (length rd - (l1 + l2)) 20) as [E|E].
  - replace (length rd <? l1 + l2 + 16) with false by (symmetry; apply Nat.ltb_ge; lia).
    replace (length rd - (l1 + l2 + 16) =? 4) with true by (symmetry; apply Nat.eqb_eq; lia).
    apply be32_u32. rewrite skipn_length. lia.
  - destruct (length rd <? l1 + l2 + 16) eqn:L; [auto|]. apply Nat.ltb_ge in L.
    destruct (Nat.eqb_spec (length rd - (l1 + l2 + 16)) 4); [lia|auto].
Qed.


Lemma ttl_from_value m : q_ttl_from m = ttl_value m.
Proof.
  unfold q_ttl_from, ttl_value.
  destruct (N.ltb_spec 2147483647 m), (N.leb_spec 2147483648 m); auto; lia.
Qed.

Lemma zname_eqb_lc a b : zname_eqb a b = name_eqb (lc a) (lc b).
Proof.
  unfold zname_eqb. revert b. induction a as [|x a IH]; intros [|y b]; simpl; auto.
  specialize (IH b). destruct (length a =? length b) eqn:L.
  - cbn [andb] in IH |- *. rewrite IH. unfold label_eqb, lower_label.
    assert (E : forall p q, ZoneTree.bytes_eqb p q = octets_eqb p q).
    { induction p; destruct q; simpl; auto; try (rewrite IHp; reflexivity). }
    rewrite E. reflexivity.
  - cbn [andb] in IH |- *. rewrite <- IH. symmetry. apply andb_false_r.
Qed.
