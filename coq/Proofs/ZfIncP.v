(* C25 — the include stack machine over a stateful per-file parser (Model/ZfInc.v) computes the
   structural expansion (Spec/ZfIncS.v).  Generic part: any parser, any file system. *)
From QV Require Import Base.Octets Model.ZfFs Spec.ZfFsS Proofs.ZfFsP Model.ZfInc Spec.ZfIncS.

Section IncP.
  Variables Origin Own Ttl Cls Rec SErr Num P F : Type.
  Notation ctx := (ZfFs.ctx Origin Own Ttl Cls).
  Notation pres := (pres Origin Rec SErr Num P).
  Notation entry := (ZfInc.entry Num P).
  Notation item := (ZfInc.item Rec Num).
  Notation final := (ZfInc.final SErr Num).
  Variable pnext : P -> pres.
  Variable pctx : P -> ctx.
  Variable pwith : P -> ctx -> P.
  Variable pnew : F -> ctx -> P.
  Variable fs : path -> option F.
  Variable size : P -> nat.
  Variable max_depth : nat.

  Notation nstep := (ZfInc.next_step Origin Own Ttl Cls Rec SErr Num P F pnext pctx pwith pnew fs max_depth).
  Notation run := (ZfInc.run Origin Own Ttl Cls Rec SErr Num P F pnext pctx pwith pnew fs max_depth).
  Notation gexpand := (gexpand Origin Own Ttl Cls Rec SErr Num P F pnext pctx pwith pnew fs size).
  Notation goutcome := (goutcome Origin Own Ttl Cls SErr Num).
  Notation mchain := (ZfInc.make_chain Num P).

  (* complete executions of the machine: what the iterator yields until it returns None *)
  Inductive inc_steps : list entry -> list item -> final -> Prop :=
  | ist_done : forall st, nstep st = SDone _ _ _ _ -> inc_steps st [] (FDone _ _)
  | ist_fail : forall st p e, nstep st = SFail _ _ _ _ p e -> inc_steps st [] (FBad _ _ p e)
  | ist_abort : forall st a, nstep st = SAbort _ _ _ _ a -> inc_steps st [] (FAbort _ _ a)
  | ist_emit : forall st it st' l f, nstep st = SEmit _ _ _ _ it st' -> inc_steps st' l f -> inc_steps st (it :: l) f
  | ist_silent : forall st st' l f, nstep st = SSilent _ _ _ _ st' -> inc_steps st' l f -> inc_steps st l f.

  Definition gfinal_of (o : goutcome) : final :=
    match o with
    | GCtx _ _ _ _ _ _ _ => FDone _ _
    | GBad _ _ _ _ _ _ p e => FBad _ _ p e
    | GAbort _ _ _ _ _ _ a => FAbort _ _ a
    | GFuel _ _ _ _ _ _ => FOutOfFuel _ _
    end.

  (* what the machine does once the file on top of the stack has been read to its end with context cend *)
  Definition end_inc_steps (rest : list entry) (cend : ctx) (l : list item) (f : final) : Prop :=
    match rest with
    | [] => l = [] /\ f = FDone _ _
    | (p2, fl2, s2) :: rest' =>
        inc_steps ((p2, fl2, pwith s2 (ctx_after_include _ _ _ _ (pctx s2) cend)) :: rest') l f
    end.

  (* [gexpand] is a fixpoint on d with an inner one on k: its equation at [S k] for any d *)
  Lemma gexpand_S d chain p k s :
    gexpand d chain p (S k) s =
        match pnext s with
        | PNone _ _ _ _ _ s' => ([], GCtx _ _ _ _ _ _ (pctx s'))
        | PErr _ _ _ _ _ e => ([], GBad _ _ _ _ _ _ p (ISyntax _ _ e))
        | PRec _ _ _ _ _ n r s' => let '(it, o) := gexpand d chain p k s' in ((p, n, r) :: it, o)
        | PAbort _ _ _ _ _ a => ([], GAbort _ _ _ _ _ _ a)
        | PInc _ _ _ _ _ n ip org s' =>
            match d with
            | O => ([], GBad _ _ _ _ _ _ p (ITooDeep _ _ n (chain ++ [(p, n)])))
            | S d' =>
                match compute_path p ip with
                | None => ([], GAbort _ _ _ _ _ _ APanic)
                | Some newp =>
                    match fs newp with
                    | None => ([], GBad _ _ _ _ _ _ p (IOpen _ _ n newp))
                    | Some content =>
                        let child := pnew content (start_ctx _ _ _ _ (pctx s') org) in
                        let '(it, o) := gexpand d' (chain ++ [(p, n)]) newp (S (size child)) child in
                        match o with
                        | GCtx _ _ _ _ _ _ cend =>
                            let '(it', o') := gexpand (S d') chain p k
                                                (pwith s' (resume_ctx _ _ _ _ (pctx s') cend)) in
                            (it ++ it', o')
                        | bad => (it, bad)
                        end
                    end
                end
            end
        end.
  Proof. destruct d; reflexivity. Qed.

  (* what may follow an expansion that ended with o, K being the continuation after a file read to its end;
     [False] for GFuel: nothing is claimed when the spec's budget was too small *)
  Definition then_inc_steps (o : goutcome) (K : ctx -> list item -> final -> Prop) (l : list item) (f : final) : Prop :=
    match o with
    | GCtx _ _ _ _ _ _ cend => K cend l f
    | GFuel _ _ _ _ _ _ => False
    | _ => l = [] /\ f = gfinal_of o
    end.

  (* the file on top of the stack, run by the machine, behaves like its expansion, and then like
     the machine once that file has been read to its end *)
  Lemma inc_file_steps : forall d k p fl rest s,
    length rest + d = max_depth -> forall l f,
    then_inc_steps (snd (gexpand d (mchain rest fl) p k s)) (end_inc_steps rest) l f ->
    inc_steps ((p, fl, s) :: rest) (fst (gexpand d (mchain rest fl) p k s) ++ l) f.
  Proof.
    induction d as [d IHd] using lt_wf_ind.
    induction k as [|k IHk]; intros p fl rest s Hd l f; [destruct d; intros []|].
    rewrite gexpand_S. destruct (pnext s) as [s'|e|n r s'|n ip org s'|a] eqn:Hp.
    - destruct rest as [|[[p2 fl2] s2] rest'].
      + intros [-> ->]. apply ist_done. cbn. rewrite Hp. reflexivity.
      + intros H. eapply ist_silent; [cbn; rewrite Hp; reflexivity|]. exact H.
    - intros [-> ->]. apply ist_fail. cbn. rewrite Hp. reflexivity.
    - specialize (IHk p fl rest s' Hd l f). destruct (gexpand d (mchain rest fl) p k s') as [it o].
      intros H. eapply ist_emit; [cbn; rewrite Hp; reflexivity|]. apply IHk, H.
    - destruct d as [|d].
      { intros [-> ->]. apply ist_fail. cbn. rewrite Hp.
        replace (max_depth <=? length rest) with true by (symmetry; apply Nat.leb_le; lia). reflexivity. }
      assert (E : (max_depth <=? length rest) = false) by (apply Nat.leb_gt; lia).
      destruct (compute_path p ip) as [newp|] eqn:Hc.
      2:{ intros [-> ->]. apply ist_abort. cbn. rewrite Hp, E, Hc. reflexivity. }
      destruct (fs newp) as [content|] eqn:Hf.
      2:{ intros [-> ->]. apply ist_fail. cbn. rewrite Hp, E, Hc, Hf. reflexivity. }
      cbv zeta. set (child := pnew content (start_ctx _ _ _ _ (pctx s') org)).
      (* the included file runs on top of the includer's entry, which resumes when it has ended *)
      assert (Hd' : length ((p, fl, s') :: rest) + d = max_depth)
        by (cbn [length]; unfold ZfInc.entry in *; lia).
      pose proof (IHd d (Nat.lt_succ_diag_r d) (S (size child)) newp n _ child Hd') as Hinc.
      cbn [ZfInc.make_chain] in Hinc.
      destruct (gexpand d (mchain rest fl ++ [(p, n)]) newp (S (size child)) child) as [it [cend|bp be|a|]];
        intros H; try contradiction;
        (eapply ist_silent; [cbn; rewrite Hp, E, Hc, Hf, start_ctx_eq; reflexivity|]).
      + specialize (IHk p fl rest (pwith s' (resume_ctx _ _ _ _ (pctx s') cend)) Hd l f).
        destruct (gexpand (S d) (mchain rest fl) p k (pwith s' (resume_ctx _ _ _ _ (pctx s') cend))) as [it' o'].
        cbn [fst]. rewrite <- app_assoc. apply Hinc. apply IHk, H.
      + apply Hinc, H.
      + apply Hinc, H.
    - intros [-> ->]. apply ist_abort. cbn. rewrite Hp. reflexivity.
  Qed.

  Lemma inc_steps_run st l f : inc_steps st l f -> exists f0, forall fuel, f0 <= fuel -> run fuel st = (l, f).
  Proof.
    induction 1 as [st H|st p e H|st a H|st it st' l f H _ [f0 IH]|st st' l f H _ [f0 IH]].
    1-3: exists 1; intros [|fuel] Hf; [lia|]; cbn [ZfInc.run]; rewrite H; reflexivity.
    - exists (S f0). intros [|fuel] Hf; [lia|]. cbn [ZfInc.run]. rewrite H, IH by lia. reflexivity.
    - exists (S f0). intros [|fuel] Hf; [lia|]. cbn [ZfInc.run]. rewrite H. apply IH. lia.
  Qed.

  (* whenever the spec's per-file budget suffices, iterating fs::Parser::next yields exactly the
     structural expansion, then its first error / end *)
  Lemma run_eq_gexpand p0 n0 s0 k :
    snd (gexpand max_depth [] p0 k s0) <> GFuel _ _ _ _ _ _ ->
    exists f0, forall fuel, f0 <= fuel ->
      run fuel [(p0, n0, s0)] =
      (fst (gexpand max_depth [] p0 k s0), gfinal_of (snd (gexpand max_depth [] p0 k s0))).
  Proof.
    intros H. apply inc_steps_run. rewrite <- (app_nil_r (fst _)).
    apply (inc_file_steps max_depth k p0 n0 [] s0 eq_refl). cbn [ZfInc.make_chain].
    destruct (snd (gexpand max_depth [] p0 k s0)); cbn; auto.
  Qed.

  Lemma run_stable : forall fuel st, snd (run fuel st) <> FOutOfFuel _ _ ->
    forall fuel', fuel <= fuel' -> run fuel' st = run fuel st.
  Proof.
    induction fuel as [|f IH]; intros st H fuel' Hle; [cbn in H; congruence|].
    destruct fuel' as [|f']; [lia|]. cbn [ZfInc.run] in *.
    destruct (nstep st) as [|p e|it st'|st'|a]; try reflexivity.
    - destruct (run f st') as [l o] eqn:E. cbn [snd] in H.
      rewrite (IH st') by (rewrite ?E; cbn [snd]; try exact H; lia). rewrite E. reflexivity.
    - apply IH; [exact H|lia].
  Qed.

  Lemma run_any_fuel p0 n0 s0 k fuel :
    snd (gexpand max_depth [] p0 k s0) <> GFuel _ _ _ _ _ _ ->
    snd (run fuel [(p0, n0, s0)]) <> FOutOfFuel _ _ ->
    run fuel [(p0, n0, s0)] =
    (fst (gexpand max_depth [] p0 k s0), gfinal_of (snd (gexpand max_depth [] p0 k s0))).
  Proof.
    intros Hk Hf. destruct (run_eq_gexpand p0 n0 s0 k Hk) as [f0 H0].
    rewrite <- (H0 (Nat.max f0 fuel)) by lia. symmetry. apply run_stable; [exact Hf|lia].
  Qed.

  Lemma gexpand_too_deep chain p k s n ip o s' :
    pnext s = PInc _ _ _ _ _ n ip o s' ->
    gexpand 0 chain p (S k) s = ([], GBad _ _ _ _ _ _ p (ITooDeep _ _ n (chain ++ [(p, n)]))).
  Proof. intros H. rewrite gexpand_S, H. reflexivity. Qed.
End IncP.
