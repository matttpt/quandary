(* C08: one additional record, the additional-section scan and the whole pre-scan of the server model decide as the
   spec-level classifier [first_problem] (Spec/MsgWalkS.v) does; the FORMERR / BADVERS / silent / clean consequences. *)
From QV Require Import Base.ListX Model.NameWire Model.Reader Model.RdataLite Model.Server
  Spec.NameWireS Spec.NameRepr Spec.ReaderS Spec.MsgWalkS
  Proofs.NameWireP Proofs.NameWireSP Proofs.ReaderP Proofs.RdataLiteP Proofs.ServerP Proofs.MsgWalkP Proofs.MsgWalkRecP.
Local Open Scope nat_scope.

Definition upper0 (w : resp) : Prop := match w_edns w with Some (_, up) => up = 0%N | None => True end.
(* FORMERR: RCODE 1, no extended bits, no TSIG *)
Definition formerr_resp (w : resp) : Prop := w_rcode w = RC_FORMERR /\ w_tsig w = None /\ upper0 w.
(* BADVERS: extended RCODE 16 = upper bits 1, RCODE 0, in an EDNS response *)
Definition badvers_resp (w : resp) : Prop := w_rcode w = 0%N /\ w_tsig w = None /\ exists sz, w_edns w = Some (sz, 1%N).
(* a response decided by TSIG processing: it carries a TSIG record, or TC because the TSIG did not fit *)
Definition tsig_resp (w : resp) : Prop := w_tsig w <> None \/ w_tc w = true.

Lemma formerr_set_rcode w : w_tsig w = None -> formerr_resp (set_rcode w RC_FORMERR).
Proof.
  intros H. split; [reflexivity|]. split; [exact H|]. unfold upper0, set_rcode; simpl.
  destruct (w_edns w) as [[sz up]|]; auto.
Qed.

Lemma tsig_or_truncate_resp w t : tsig_resp (fst (set_tsig_or_truncate w t)).
Proof.
  destruct (set_tsig_or_truncate_cases w t) as [(w' & E & ->)| ->]; [left|right; reflexivity].
  pose proof (set_tsig_Ok _ _ _ E) as ->. discriminate.
Qed.

Lemma offs_of_length ls : forall base, length (offs_of base ls) = S (length ls).
Proof. induction ls as [|l r IH]; intros base; simpl; [reflexivity|]. rewrite IH. reflexivity. Qed.

Lemma shiftr16 raw : N.shiftr raw 16 = (raw / 65536)%N.
Proof. rewrite N.shiftr_div_pow2. reflexivity. Qed.

Definition pa_rel (w : resp) (seen : bool) (cls : rec_class) (r' : reader) (s : step_result) (seen' : bool) : Prop :=
  match cls with
  | RUndelim | RSecondOpt | RTsigNotLast | RTsigMalformed | ROptMalformed => exists w', s = Return w' /\ formerr_resp w'
  | RBadVers => exists w', s = Return w' /\ badvers_resp w'
  | ROptOk e => exists w', s = Continue w' /\ r_cursor r' = e /\ seen' = true /\ w_rcode w' = 0%N /\ w_tsig w' = None
  | RTsig e => (exists w', s = Return w' /\ tsig_resp w') \/
               (exists w', s = Continue w' /\ r_cursor r' = e /\ w_rcode w' = 0%N /\ w_tsig w' <> None)
  | ROrdinary e => s = Continue w /\ r_cursor r' = e /\ seen' = seen
  end.

Lemma pa_spec verify cfg r w seen last r' s seen' : rinv r -> srv_inv cfg seen w -> w_rcode w = 0%N ->
  process_additional verify cfg r w seen last = Ok (r', s, seen') ->
  pa_rel w seen (s_classify (r_octets r) (r_cursor r) seen last) r' s seen'.
Proof.
  intros Hinv I Hrc H. pose proof I as (_ & _ & Hts & _).
  (* FORMERR on a response without TSIG: what the five malformed classes ask for *)
  assert (Fe : forall w0, w_tsig w0 = None -> exists w', Return (set_rcode w0 RC_FORMERR) = Return w' /\ formerr_resp w')
    by (intros w0 T0; eexists; split; [reflexivity|apply formerr_set_rcode; exact T0]).
  unfold process_additional, peek_rr in H. pose proof (peek_core_spec r Hinv) as HS.
  destruct (peek_core r) as [p|e|] eqn:P; [| |contradiction].
  2:{ inv H. unfold s_classify. rewrite HS. cbn [pa_rel]. apply Fe, Hts. }
  destruct (delimited_fields r p Hinv P) as (_ & B1 & B2 & B3 & ty & cl & raw & rdlen & T1 & T2 & C1 & C2 & R1 & R2 & L1 & L2 & He).
  unfold s_classify. rewrite HS, T2, C2, R2.
  unfold peek_type in H. rewrite T1 in H. cbn [bind] in H. change TYPE_OPT with 41%N in H. change TYPE_TSIG with 250%N in H.
  pose proof (peek_parse_lite r p ty cl raw rdlen Hinv P T1 C1 R1 L1) as PP.
  destruct (ty =? 41)%N eqn:Topt.
  - 
    apply N.eqb_eq in Topt. subst ty.
    destruct seen.
    { inv H. cbn [pa_rel]. apply Fe, Hts. }
    destruct (set_edns_total cfg w I) as (w1 & E1 & I1 & Rc1). rewrite E1 in H.
    pose proof I1 as (_ & _ & Hts1 & _).
    unfold peek_raw_ttl in H. rewrite R1 in H. cbn [bind] in H.
    rewrite (rd_lite_opt cl (r_octets r) (p_owner_end p + 10) rdlen) in PP by lia.
    replace (p_owner_end p + 10 + N.to_nat rdlen) with (p_rr_end p) in PP by lia.
    unfold s_owner_is_root.
    destruct (spec_decode_name (r_octets r) (r_cursor r)) as [[ls l]|] eqn:SD.
    2:{ destruct PP as [ee PP]. rewrite PP in H. inv H. cbn [andb negb pa_rel].
        apply Fe, Hts1. }
    destruct (s_opt_rdata_ok (slice (r_octets r) (p_owner_end p + 10) (p_rr_end p))) eqn:RD.
    2:{ destruct (rd_lite cl 41%N (r_octets r) (p_owner_end p + 10) rdlen); destruct PP as [ee PP]; rewrite PP in H; inv H;
          rewrite andb_false_r; cbn [negb pa_rel]; apply Fe, Hts1. }
    rewrite PP in H. cbn [rr_class rr_owner] in H.
    change (bind (negotiate cfg w1 cl) (fun w2 =>
              match validate_opt (name_of ls) raw with
              | Some rc => match set_extended_rcode w2 rc with Ok w3 => Ok (with_cursor r (p_rr_end p), Return w3, true) | _ => Panic end
              | None => Ok (with_cursor r (p_rr_end p), Continue w2, true)
              end) = Ok (r', s, seen')) in H.
    destruct (negotiate cfg w1 cl) as [w2|e|] eqn:Ng; cbn [bind] in H; try discriminate.
    assert (w_rcode w2 = w_rcode w1 /\ w_edns w2 = w_edns w1 /\ w_tsig w2 = w_tsig w1) as (Rc2 & Ed2 & Ts2).
    { destruct (negotiate_Ok _ _ _ _ Ng) as [[_ ->]|[_ SL]]; [auto|].
      destruct (set_limit_Ok _ _ _ SL) as (nl & av & -> & _). auto. }
    destruct (srv_inv_edns cfg w1 I1) as [up Ed]. rewrite <- Ed2 in Ed. set (sz := c_edns_size cfg) in Ed.
    unfold validate_opt in H. cbn [n_offsets name_of] in H. rewrite offs_of_length in H.
    destruct ls as [|l0 ls'].
    + cbn [length Nat.eqb negb andb] in *. rewrite shiftr16 in H.
      destruct ((raw / 65536) mod 256 =? 0)%N eqn:V; cbn [negb] in *.
      * inv H. cbn [pa_rel]. eexists. split; [reflexivity|]. split; [reflexivity|]. split; [reflexivity|].
        split; [congruence|exact (eq_trans Ts2 Hts1)].
      * unfold set_extended_rcode in H. rewrite Ed in H. change (4095 <? XRC_BADVERSBADSIG)%N with false in H. cbv iota in H.
        inv H. cbn [pa_rel]. eexists. split; [reflexivity|]. split; [reflexivity|]. split; [exact (eq_trans Ts2 Hts1)|].
        exists sz. reflexivity.
    + cbn [length Nat.eqb negb andb] in *.
      unfold set_extended_rcode in H. rewrite Ed in H. change (4095 <? RC_FORMERR)%N with false in H. cbv iota in H.
      inv H. cbn [pa_rel]. eexists. split; [reflexivity|]. split; [reflexivity|]. split; [exact (eq_trans Ts2 Hts1)|].
      unfold upper0; simpl. reflexivity.
  - destruct (ty =? 250)%N eqn:Ttsig.
    + 
      apply N.eqb_eq in Ttsig. subst ty.
      destruct last; cbn [negb] in *.
      2:{ inv H. cbn [pa_rel]. apply Fe, Hts. }
      destruct (message_to_cursor_ok r Hinv) as [m Em]. rewrite Em in H. cbn [bind] in H.
      rewrite (rd_lite_tsig cl (r_octets r) (p_owner_end p + 10) rdlen) in PP by lia.
      replace (p_owner_end p + 10 + N.to_nat rdlen) with (p_rr_end p) in PP by lia.
      unfold s_owner_decodes.
      destruct (spec_decode_name (r_octets r) (r_cursor r)) as [[ls l]|] eqn:SD.
      2:{ destruct PP as [ee PP]. rewrite PP in H. inv H. cbn [andb negb pa_rel].
          apply Fe, Hts. }
      destruct (s_tsig_rdata_ok (slice (r_octets r) (p_owner_end p + 10) (p_rr_end p))) eqn:RD.
      2:{ destruct (rd_lite cl 250%N (r_octets r) (p_owner_end p + 10) rdlen); destruct PP as [ee PP]; rewrite PP in H; inv H;
            cbn [andb negb pa_rel]; apply Fe, Hts. }
      rewrite PP in H. cbn [rr_class rr_ttl rr_rdata rr_owner] in H. rewrite ttl_from_spec in H.
      change CLASS_ANY with 255%N in H. cbn [andb].
      destruct (cl =? 255)%N; cbn [negb orb andb] in *.
      2:{ inv H. cbn [pa_rel]. apply Fe, Hts. }
      destruct (spec_ttl raw =? 0)%N; cbn [negb orb andb] in *.
      2:{ inv H. cbn [pa_rel]. apply Fe, Hts. }
      cbn [pa_rel].
      assert (Rp : forall rc t, exists w', Return (fst (set_tsig_or_truncate (set_rcode w rc) t)) = Return w' /\ tsig_resp w')
        by (intros; eexists; split; [reflexivity|apply tsig_or_truncate_resp]).
      destruct (alg_of_name _); [|inv H; left; apply Rp]. destruct (find_key _ _ _); [|inv H; left; apply Rp].
      destruct (verify _ _ _ _ _ _); inv H; try (left; apply Rp).
      match goal with |- context [if snd ?x then _ else _] => destruct (snd x) eqn:Sn end; [right|left; apply Rp].
      destruct (set_tsig_or_truncate_tsig _ _ Sn) as [K1 K2].
      eexists. split; [reflexivity|]. split; [reflexivity|]. split; [etransitivity; [exact K2|reflexivity]|exact K1].
    + 
      inv H. cbn [pa_rel]. repeat split.
Qed.

Definition ar_rel (res : ar_result) (r' : reader) (s : step_result) : Prop :=
  match res with
  | ArFormerr _ => exists w', s = Return w' /\ formerr_resp w'
  | ArBadVers _ => exists w', s = Return w' /\ badvers_resp w'
  | ArTsig _ e => (exists w', s = Return w' /\ tsig_resp w') \/
                  (exists w', s = Continue w' /\ r_cursor r' = e /\ w_rcode w' = 0%N /\ w_tsig w' <> None)
  | ArEnd e => exists w', s = Continue w' /\ r_cursor r' = e /\ w_rcode w' = 0%N /\ w_tsig w' = None
  end.

Lemma classify_tsig_last b c seen last e : s_classify b c seen last = RTsig e -> last = true.
Proof.
  unfold s_classify. destruct (s_delimit b c) as [[oe e0]|]; [|discriminate].
  destruct (sbe16 b oe); [|discriminate]. destruct (sbe16 b (oe + 2)); [|discriminate].
  destruct (sbe32 b (oe + 4)); [|discriminate].
  destruct (_ =? 41)%N.
  - destruct seen; [discriminate|]. destruct (negb _); [discriminate|]. destruct (negb _); discriminate.
  - destruct (_ =? 250)%N; [|discriminate]. destruct last; [reflexivity|discriminate].
Qed.

Lemma last_flag n : (n =? 0) = match n with O => true | S _ => false end.
Proof. destruct n; reflexivity. Qed.

Lemma scan_additional_spec verify cfg : wf_cfg cfg -> forall n r w seen idx r' s,
  rinv r -> srv_inv cfg seen w -> w_rcode w = 0%N ->
  scan_additional verify cfg n r w seen = Ok (r', s) ->
  ar_rel (s_walk_ar n (r_octets r) (r_cursor r) idx seen) r' s.
Proof.
  intros Hcfg. induction n as [|n IH]; intros r w seen idx r' s Hinv I Hrc H; cbn [scan_additional s_walk_ar] in *.
  - inv H. cbn [ar_rel]. exists w. pose proof I as (_ & _ & Hts & _). auto.
  - destruct (process_additional_facts verify cfg r w seen (n =? 0) Hcfg Hinv I) as (r1 & s1 & seen1 & E & Hinv1 & RO).
    rewrite E in H. cbn [bind] in H.
    pose proof (pa_spec verify cfg r w seen (n =? 0) r1 s1 seen1 Hinv I Hrc E) as PA.
    pose proof (process_additional_same _ _ _ _ _ _ _ _ _ E) as [So _].
    rewrite <- last_flag.
    destruct (s_classify (r_octets r) (r_cursor r) seen (n =? 0)) as [| | | |e| | |e|e] eqn:CL; cbn [pa_rel] in PA.
    (* the classes that end the scan with a response *)
    1-4,6-7: destruct PA as (w' & -> & F); inv H; cbn [ar_rel]; eauto.
    + destruct PA as (w' & -> & Hc & -> & Rc' & Ts'). destruct RO as (_ & [I1|[L1 _]] & _).
      * rewrite <- So, <- Hc. eapply IH; eauto.
      * apply Nat.eqb_eq in L1. subst n. cbn [scan_additional s_walk_ar] in *. inv H. cbn [ar_rel]. eauto 6.
    + pose proof (classify_tsig_last _ _ _ _ _ CL) as Ln. apply Nat.eqb_eq in Ln. subst n.
      cbn [ar_rel]. destruct PA as [(w' & -> & F)|(w' & -> & Hc & Rc' & Ts')].
      * inv H. left. eauto.
      * cbn [scan_additional] in H. inv H. right. eauto.
    + destruct PA as (-> & Hc & ->). rewrite <- So, <- Hc. eapply IH; eauto.
Qed.

Lemma flags_octet r : rinv r -> exists x, nth_error (r_octets r) 2 = Some x /\ In x (upto 256).
Proof.
  intros (Hwf & H12 & _). destruct (nth_error (r_octets r) 2) as [x|] eqn:X; [|apply nth_error_None in X; lia].
  exists x. split; [reflexivity|]. apply upto_In, (nth_error_Forall _ _ _ _ Hwf X).
Qed.

Lemma opcode_spec r o : rinv r -> rd_opcode r = Ok o -> s_opcode (r_octets r) = Some o.
Proof.
  intros Hinv. destruct (flags_octet r Hinv) as (x & X & Hx).
  unfold rd_opcode, s_opcode, idx. change (N.to_nat OPCODE_BYTE) with 2. rewrite X. cbn [bind].
  assert (A : forallb (fun x => (N.shiftr (N.land x OPCODE_MASK) OPCODE_SHIFT =? (x / 8) mod 16)%N) (upto 256) = true)
    by (vm_compute; reflexivity).
  rewrite forallb_forall in A. rewrite (proj1 (N.eqb_eq _ _) (A x Hx)).
  destruct (_ <? 16)%N; [|discriminate]. intros H; inv H. reflexivity.
Qed.

Lemma qr_spec r v : rinv r -> rd_qr r = Ok v -> s_qr (r_octets r) = Some v.
Proof.
  intros Hinv. destruct (flags_octet r Hinv) as (x & X & Hx).
  unfold rd_qr, flag_at, s_qr, idx. change (N.to_nat QR_BYTE) with 2. rewrite X. cbn [bind].
  assert (A : forallb (fun x => Bool.eqb (negb (N.land x QR_MASK =? 0)%N) (128 <=? x)%N) (upto 256) = true)
    by (vm_compute; reflexivity).
  rewrite forallb_forall in A. rewrite (Bool.eqb_prop _ _ (A x Hx)). intros H; inv H. reflexivity.
Qed.

(* [hq]: a question was read (QDCOUNT = 1) *)
Definition rest_rel (hq : bool) (v : verdict) (p : prescan_result) : Prop :=
  match v with
  | VSilent => False
  | VFormerr QueryWithoutQuestion => exists w, p = PClean OPCODE_QUERY w /\ hq = false /\ w_rcode w = 0%N /\ w_tsig w = None
  | VFormerr _ => exists w, p = PEarly w /\ formerr_resp w
  | VBadVers _ => exists w, p = PEarly w /\ badvers_resp w
  | VTsig _ t =>
    (exists w, p = PEarly w /\ tsig_resp w) \/
    match t with
    | Some TrailingOctets => False
    | Some _ => exists w, p = PClean OPCODE_QUERY w /\ hq = false /\ w_tsig w <> None
    | None => exists o w, p = PClean o w /\ w_tsig w <> None /\ w_rcode w = 0%N /\ (o = OPCODE_QUERY -> hq = true)
    end
  | VClean => exists o w, p = PClean o w /\ w_rcode w = 0%N /\ w_tsig w = None /\ (o = OPCODE_QUERY -> hq = true)
  end.

Lemma after_records_spec hq r3 w3 p : rinv r3 ->
  (if at_eom r3 then exists o, rd_opcode r3 = Ok o /\ p = PClean o w3 else p = PEarly (set_rcode w3 RC_FORMERR)) ->
  match s_after_records (r_octets r3) (r_cursor r3) hq with
  | Some TrailingOctets => p = PEarly (set_rcode w3 RC_FORMERR)
  | Some _ => p = PClean OPCODE_QUERY w3 /\ hq = false
  | None => exists o, p = PClean o w3 /\ (o = OPCODE_QUERY -> hq = true)
  end.
Proof.
  intros Hinv H. unfold s_after_records, at_eom in *.
  destruct (Nat.leb_spec (length (r_octets r3)) (r_cursor r3)).
  - destruct (Nat.ltb_spec (r_cursor r3) (length (r_octets r3))); [lia|].
    destruct H as (o & Eo & ->). rewrite (opcode_spec r3 o Hinv Eo).
    destruct o as [|po]; [destruct hq|]; [exists 0%N; auto|split; reflexivity|].
    exists (N.pos po). split; [reflexivity|discriminate].
  - destruct (Nat.ltb_spec (r_cursor r3) (length (r_octets r3))); [exact H|lia].
Qed.

Definition record_problem (pr : problem) : Prop :=
  match pr with QueryWithoutQuestion | TrailingOctets | QuestionUnparseable => False | _ => True end.

Lemma walk_an_ns_problem b : forall n c i pr, s_walk_an_ns n b c i = inl pr -> record_problem pr.
Proof.
  induction n as [|n IH]; intros c i pr W; cbn [s_walk_an_ns] in W; [discriminate|].
  destruct (s_delimit b c) as [[oe e]|]; [|inv W; exact I].
  destruct (sbe16 b oe); [|inv W; exact I]. destruct (_ || _); [inv W; exact I|]. eapply IH; eauto.
Qed.

Lemma walk_ar_problem b : forall n c i seen pr, s_walk_ar n b c i seen = ArFormerr pr -> record_problem pr.
Proof.
  induction n as [|n IH]; intros c i seen pr W; cbn [s_walk_ar] in W; [discriminate|].
  destruct (s_classify b c seen _); try (inv W; exact I); try discriminate; eapply IH; eauto.
Qed.

Lemma after_records_cases b c hq pr : s_after_records b c hq = Some pr -> pr = TrailingOctets \/ pr = QueryWithoutQuestion.
Proof.
  unfold s_after_records. destruct (c <? length b); [intros X; inv X; auto|].
  destruct (s_opcode b) as [[|?]|]; try discriminate. destruct hq; [discriminate|intros X; inv X; auto].
Qed.

Lemma prescan_rest_spec verify cfg r1 w1 hq p : wf_cfg cfg -> rinv r1 -> srv_inv cfg false w1 -> w_rcode w1 = 0%N ->
  prescan_rest verify cfg r1 w1 = Ok p ->
  rest_rel hq (s_walk_sections (r_octets r1) (r_cursor r1) hq) p.
Proof.
  intros Hcfg Hinv1 I1 Hrc H. unfold s_walk_sections. pose proof I1 as (_ & _ & Hts1 & _).
  destruct (prescan_rest_inv _ _ _ _ _ H) as (an & ns & Ean & Ens & R).
  destruct (hdr_counts r1 Hinv1) as (qd & an' & ns' & ar & _ & _ & A1 & A2 & N1 & N2 & R1 & R2). rewrite A2, N2, R2.
  assert (an' = an) as -> by congruence. assert (ns' = ns) as -> by congruence.
  pose proof (an_ns_reader_spec (N.to_nat an + N.to_nat ns) (rd_mark r1) 0 (rd_mark_inv r1 Hinv1)) as W.
  cbn [rd_mark r_octets r_cursor] in W.
  destruct (an_ns_reader _ (rd_mark r1)) as [r2|].
  2:{ destruct W as [pr W]. rewrite W. subst p. pose proof (walk_an_ns_problem _ _ _ _ _ W) as RP.
      assert (F : exists w, PEarly (set_rcode w1 RC_FORMERR) = PEarly w /\ formerr_resp w)
        by (eexists; split; [reflexivity|apply formerr_set_rcode; exact Hts1]).
      destruct pr; cbn [rest_rel record_problem] in *; try exact F; contradiction. }
  destruct W as (W1 & Hinv2 & So & _). rewrite W1. destruct R as (ar' & r3 & s3 & Ear & E3 & R).
  rewrite (proj1 (header_same_octets r1 r2 So)), R1 in Ear. injection Ear as <-.
  destruct (scan_additional_facts verify cfg Hcfg (N.to_nat ar) r2 w1 false Hinv2 I1) as (r3' & s3' & E3' & Hinv3 & _).
  rewrite E3 in E3'. injection E3' as <- <-.
  pose proof (scan_additional_spec verify cfg Hcfg (N.to_nat ar) r2 w1 false (N.to_nat an + N.to_nat ns) r3 s3 Hinv2 I1 Hrc E3) as AS.
  cbn [rd_mark r_octets] in So. rewrite So in AS.
  assert (Ho3 : r_octets r3 = r_octets r1) by (rewrite (proj1 (scan_additional_same _ _ _ _ _ _ _ _ E3)); exact So).
  destruct (s_walk_ar (N.to_nat ar) (r_octets r1) (r_cursor r2) (N.to_nat an + N.to_nat ns) false) as [pr|i|i e|e] eqn:WA;
    cbn [ar_rel s_finish] in *.
  - destruct AS as (w' & -> & F). subst p. pose proof (walk_ar_problem _ _ _ _ _ _ WA) as RP.
    assert (G : exists w, PEarly w' = PEarly w /\ formerr_resp w) by eauto.
    destruct pr; cbn [rest_rel record_problem] in *; try exact G; contradiction.
  - destruct AS as (w' & -> & F). subst p. cbn [rest_rel]. eauto.
  - destruct AS as [(w' & -> & F)|(w' & -> & Hc & Rc' & Ts')].
    + subst p. cbn [rest_rel]. left. eauto.
    + pose proof (after_records_spec hq r3 w' p Hinv3 R) as AF. rewrite Ho3, Hc in AF.
      cbn [rest_rel]. destruct (s_after_records (r_octets r1) e hq) as [pr|] eqn:SA.
      * destruct (after_records_cases _ _ _ _ SA) as [-> | ->].
        -- subst p. left. eexists. split; [reflexivity|]. left. unfold set_rcode; simpl. exact Ts'.
        -- destruct AF as [-> Hq]. right. eexists. split; [reflexivity|]. split; [exact Hq|exact Ts'].
      * destruct AF as (o & -> & Hq). right. exists o, w'. auto.
  - destruct AS as (w' & -> & Hc & Rc' & Ts').
    pose proof (after_records_spec hq r3 w' p Hinv3 R) as AF. rewrite Ho3, Hc in AF.
    destruct (s_after_records (r_octets r1) e hq) as [pr|] eqn:SA; cbn [rest_rel].
    + destruct (after_records_cases _ _ _ _ SA) as [-> | ->]; cbn [rest_rel].
      * subst p. eexists. split; [reflexivity|apply formerr_set_rcode; exact Ts'].
      * destruct AF as [-> Hq]. eexists. split; [reflexivity|]. auto.
    + destruct AF as (o & -> & Hq). exists o, w'. auto.
Qed.

Definition top_rel (v : verdict) (p : prescan_result) : Prop :=
  match v with
  | VSilent => p = PNone
  | VFormerr QueryWithoutQuestion =>
    exists w, p = PClean OPCODE_QUERY w /\ w_question w = None /\ w_rcode w = 0%N /\ w_tsig w = None
  | VFormerr _ => exists w, p = PEarly w /\ formerr_resp w
  | VBadVers _ => exists w, p = PEarly w /\ badvers_resp w
  | VTsig _ t =>
    (exists w, p = PEarly w /\ tsig_resp w) \/
    match t with
    | Some TrailingOctets => False
    | Some _ => exists w, p = PClean OPCODE_QUERY w /\ w_question w = None /\ w_tsig w <> None
    | None => exists o w, p = PClean o w /\ w_tsig w <> None /\ w_rcode w = 0%N /\ (o = OPCODE_QUERY -> w_question w <> None)
    end
  | VClean => exists o w, p = PClean o w /\ w_rcode w = 0%N /\ w_tsig w = None /\ (o = OPCODE_QUERY -> w_question w <> None)
  end.

Lemma rest_top hq v p : (forall o w, p = PClean o w -> (hq = true <-> w_question w <> None)) -> v <> VSilent ->
  rest_rel hq v p -> top_rel v p.
Proof.
  intros Q NS R.
  assert (Qn : forall o w, p = PClean o w -> hq = false -> w_question w = None).
  { intros o w E Hq. destruct (w_question w) eqn:X; [|reflexivity]. destruct (Q o w E) as [_ Y].
    rewrite Y in Hq; [discriminate|]. rewrite X. discriminate. }
  assert (Qs : forall o w, p = PClean o w -> (o = OPCODE_QUERY -> hq = true) -> o = OPCODE_QUERY -> w_question w <> None)
    by (intros o w E C Ho; apply (Q o w E), C, Ho).
  destruct v as [|pr|i|i t|]; cbn [rest_rel top_rel] in *; try contradiction; auto.
  - destruct pr; auto. destruct R as (w & E & Hq & A). exists w. eauto.
  - destruct R as [R|R]; [left; exact R|right]. destruct t as [pr|].
    + destruct pr; auto; destruct R as (w & E & Hq & A); exists w; eauto.
    + destruct R as (o & w & E & A & B & C). exists o, w. eauto 6.
  - destruct R as (o & w & E & A & B & C). exists o, w. eauto 6.
Qed.

Lemma walk_sections_not_silent b c hq : 12 <= length b -> s_walk_sections b c hq <> VSilent.
Proof.
  intros H. unfold s_walk_sections.
  destruct (@be16_at_sbe16 reader_err b 6 ltac:(lia)) as (an & _ & A). destruct (@be16_at_sbe16 reader_err b 8 ltac:(lia)) as (ns & _ & B).
  destruct (@be16_at_sbe16 reader_err b 10 ltac:(lia)) as (ar & _ & C). rewrite A, B, C.
  destruct (s_walk_an_ns _ _ _ _); [discriminate|]. unfold s_finish.
  destruct (s_walk_ar _ _ _ _ _); try discriminate. destruct (s_after_records _ _ _); discriminate.
Qed.

Theorem prescan_first_problem verify cfg req p : wf_cfg cfg -> wf_bytes req ->
  prescan verify cfg req = Ok p -> top_rel (first_problem req) p.
Proof.
  intros Hcfg Hwf H. unfold first_problem.
  (* the header as the spec reads it *)
  assert (Hd : 12 <= length req -> (length req <? 12) = false /\ rinv (r0_of req) /\
            (forall v, rd_qr (r0_of req) = Ok v -> s_qr req = Some v) /\
            (forall qd, rd_qdcount (r0_of req) = Ok qd -> sbe16 req 4 = Some qd)).
  { intros H12. pose proof (r0_inv req Hwf H12) as Hinv0. split; [apply Nat.ltb_ge; exact H12|]. split; [exact Hinv0|].
    split; [intros v; apply (qr_spec _ v Hinv0)|]. intros qd Eqd.
    destruct (hdr_counts _ Hinv0) as (qd' & an & ns & ar & Q1 & Q2 & _). rewrite Eqd in Q1. inv Q1. exact Q2. }
  (* after the question: [w1] is the started response, possibly with the question *)
  assert (Rest : forall w0 r1 w1 hq, started cfg req w0 -> rinv r1 -> r_octets r1 = req -> srv_inv cfg false w1 ->
            w_rcode w1 = 0%N -> (hq = true <-> w_question w1 <> None) -> prescan_rest verify cfg r1 w1 = Ok p ->
            top_rel (s_walk_sections req (r_cursor r1) hq) p).
  { intros w0 r1 w1 hq St Hinv1 Ho I1 Rc1 Q1 ER.
    pose proof (prescan_rest_spec verify cfg r1 w1 hq p Hcfg Hinv1 I1 Rc1 ER) as R. rewrite Ho in R.
    apply (rest_top hq); [|apply walk_sections_not_silent; apply St|exact R].
    intros o w ->. destruct (prescan_rest_facts verify cfg r1 w1 Hcfg Hinv1 I1) as (p' & Ep & Fp). rewrite ER in Ep. inv Ep.
    destruct Fp as ((_ & _ & _ & C4 & _) & _). rewrite C4. exact Q1. }
  destruct (prescan_inv _ _ _ _ H) as [Hs|H12 Eqr|w0 qd St Eqd Hqd|w0 p St Eqd ER|w0 r1 e St Eqd RQ|w0 r1 q e St Eqd RQ EA|w0 r1 q w1 p St Eqd RQ EA ER].
  { apply Nat.ltb_lt in Hs. rewrite Hs. reflexivity. }
  { destruct (Hd H12) as (-> & _ & Sq & _). rewrite (Sq _ Eqr). destruct (sbe16 req 4); reflexivity. }
  all: pose proof St as (H12 & Eqr & _); destruct (Hd H12) as (-> & Hinv0 & Sq & Sd); rewrite (Sq _ Eqr), (Sd _ Eqd);
    destruct (started_inv cfg req w0 Hcfg St) as (I0 & C0 & Q0 & Rc0).
  - destruct (N.eqb_spec qd 0); [lia|]. destruct (N.eqb_spec qd 1); [lia|]. reflexivity.
  - apply (Rest w0 (r0_of req) w0 false); auto. rewrite Q0. intuition discriminate.
  - pose proof (read_question_spec req Hwf H12) as RS. rewrite RQ in RS. cbn. rewrite RS.
    eexists. split; [reflexivity|]. apply formerr_set_rcode, I0.
  - destruct (read_question_wire_bound _ _ _ Hinv0 RQ) as [Hq _].
    destruct (add_question_total cfg w0 q I0 C0 Hq) as [w1 EA']. congruence.
  - pose proof (read_question_spec req Hwf H12) as RS. rewrite RQ in RS. cbn. rewrite RS.
    destruct (read_question_wire_bound _ _ _ Hinv0 RQ) as [Hq Hinv1].
    pose proof (read_question_facts _ Hinv0) as (_ & _ & _ & F). rewrite RQ in F. destruct (F q eq_refl) as (ls & _ & _ & Ho & _).
    apply (Rest w0 r1 w1 true); auto; [eapply add_question_inv; eauto| |];
      pose proof (add_question_Ok _ _ _ EA) as ->; cbn; [exact Rc0|intuition discriminate].
Qed.

(* "the pre-processing ends in FORMERR": an early FORMERR response, or a QUERY that reaches
   handle_query without a question (FORMERR there, see handle_query_table) *)
Definition prescan_formerr (p : prescan_result) : Prop :=
  (exists w, p = PEarly w /\ formerr_resp w) \/ (exists w, p = PClean OPCODE_QUERY w /\ w_question w = None).

Theorem formerr_iff_first_problem verify cfg req p : wf_cfg cfg -> wf_bytes req ->
  prescan verify cfg req = Ok p -> (forall i t, first_problem req <> VTsig i t) ->
  (prescan_formerr p <-> exists pr, first_problem req = VFormerr pr).
Proof.
  intros Hcfg Hwf H NT. pose proof (prescan_first_problem verify cfg req p Hcfg Hwf H) as T.
  unfold prescan_formerr. destruct (first_problem req) as [|pr|i|i t|]; cbn [top_rel] in T.
  - subst p. split; [intros [(w & X & _)|(w & X & _)]; discriminate|intros (pr & X); discriminate].
  - split; [eauto|]. intros _. destruct pr; try (left; exact T). destruct T as (w & -> & Q & _). right. eauto.
  - destruct T as (w & -> & R & _). split; [|intros (pr & X); discriminate].
    intros [(w' & X & F & _)|(w' & X & _)]; [|discriminate]. inv X. rewrite R in F. discriminate.
  - exfalso. exact (NT i t eq_refl).
  - destruct T as (o & w & -> & _ & _ & Q). split; [|intros (pr & X); discriminate].
    intros [(w' & X & _)|(w' & X & Qn)]; [discriminate|]. inv X. exfalso. apply (Q eq_refl). exact Qn.
Qed.

Lemma prescan_top verify cfg req : wf_cfg cfg -> wf_bytes req ->
  exists p, prescan verify cfg req = Ok p /\ top_rel (first_problem req) p.
Proof.
  intros Hcfg Hwf. destruct (prescan_facts verify cfg req Hcfg Hwf) as (p & E & _).
  exists p. split; [exact E|exact (prescan_first_problem verify cfg req p Hcfg Hwf E)].
Qed.

Theorem formerr_response answer verify cfg req pr w : wf_cfg cfg -> wf_bytes req ->
  first_problem req = VFormerr pr -> handle_message answer verify cfg req = Ok (Some w) ->
  w_rcode w = RC_FORMERR /\ no_data w /\ w_tsig w = None /\ upper0 w.
Proof.
  intros Hcfg Hwf FP HM. destruct (prescan_top verify cfg req Hcfg Hwf) as (p & E & T). rewrite FP in T. cbn [top_rel] in T.
  assert (Early : (exists w0, p = PEarly w0 /\ formerr_resp w0) -> w_rcode w = RC_FORMERR /\ no_data w /\ w_tsig w = None /\ upper0 w).
  { intros (w0 & -> & F1 & F2 & F3). destruct (early_is_final answer verify cfg req w0 Hcfg Hwf E) as [HM' ND].
    rewrite HM in HM'. inv HM'. auto. }
  destruct pr; try (apply Early; exact T).
  destruct T as (w0 & -> & Q & Rc & Ts).
  destruct (clean_dispatch answer verify cfg req _ w0 Hcfg Hwf E) as (_ & ND & HM').
  rewrite HM in HM'. change (OPCODE_QUERY =? OPCODE_QUERY)%N with true in HM'. cbv iota in HM'. inv HM'.
  unfold handle_query. rewrite Q. destruct (set_rcode_no_data w0 RC_FORMERR ND) as [A B].
  split; [exact B|]. split; [exact A|]. split; [exact Ts|]. unfold upper0, set_rcode; simpl. destruct (w_edns w0) as [[sz up]|]; auto.
Qed.

Theorem badvers_response answer verify cfg req i w : wf_cfg cfg -> wf_bytes req ->
  first_problem req = VBadVers i -> handle_message answer verify cfg req = Ok (Some w) ->
  badvers_resp w /\ no_data w.
Proof.
  intros Hcfg Hwf FP HM. destruct (prescan_top verify cfg req Hcfg Hwf) as (p & E & T). rewrite FP in T. cbn [top_rel] in T.
  destruct T as (w0 & -> & F). destruct (early_is_final answer verify cfg req w0 Hcfg Hwf E) as [HM' ND].
  rewrite HM in HM'. inv HM'. auto.
Qed.

(* a request with no problem reaches the opcode dispatch untouched: RCODE 0, no TSIG, and a QUERY has its question *)
Theorem clean_reaches_dispatch verify cfg req : wf_cfg cfg -> wf_bytes req -> first_problem req = VClean ->
  exists o w, prescan verify cfg req = Ok (PClean o w) /\ w_rcode w = 0%N /\ w_tsig w = None /\
              (o = OPCODE_QUERY -> w_question w <> None).
Proof.
  intros Hcfg Hwf FP. destruct (prescan_top verify cfg req Hcfg Hwf) as (p & E & T). rewrite FP in T. cbn [top_rel] in T.
  destruct T as (o & w & -> & A). exists o, w. split; [exact E|exact A].
Qed.

(* no response at all exactly when the spec says so *)
Theorem silent_iff_first_problem answer verify cfg req : wf_cfg cfg -> wf_bytes req ->
  (handle_message answer verify cfg req = Ok None <-> first_problem req = VSilent).
Proof.
  intros Hcfg Hwf. destruct (prescan_top verify cfg req Hcfg Hwf) as (p & E & T). unfold handle_message. rewrite E. cbn [bind].
  split.
  - intros H. destruct p as [|w|o w]; [|discriminate|destruct (o =? OPCODE_QUERY)%N; discriminate].
    destruct (first_problem req) as [|pr|i|i t|]; cbn [top_rel] in T; auto.
    + destruct pr; destruct T as (w & X & _); discriminate.
    + destruct T as (w & X & _); discriminate.
    + destruct T as [(w & X & _)|T]; [discriminate|]. destruct t as [[]|]; try contradiction;
        try (destruct T as (w & X & _); discriminate). destruct T as (o & w & X & _); discriminate.
    + destruct T as (o & w & X & _); discriminate.
  - intros FP. rewrite FP in T. cbn [top_rel] in T. subst p. reflexivity.
Qed.

Theorem opt_iff_spec answer verify cfg req w : wf_cfg cfg -> wf_bytes req ->
  handle_message answer verify cfg req = Ok (Some w) ->
  (w_edns w <> None <-> s_opt_reached req = true).
Proof.
  intros Hcfg Hwf H. destruct (handle_message_response answer verify cfg req w Hcfg Hwf H) as (_ & _ & _ & B).
  rewrite <- (opt_reached_spec req Hwf). exact B.
Qed.
