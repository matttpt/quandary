(* C03 at the byte level for ANSWERED responses: the first three header octets.
   Every response [QueryW.respond_w] produces starts with the ID it was given (big-endian) and a
   third octet with QR = 1, opcode 0 (QUERY) and RD as given — whatever query answering does: AA and
   TC live in the same octet and are set and cleared along the way, the RCODE lives in the next one.
   (RA and the Z bits are in the RCODE's octet: Proofs/ServerHdr3P.v.) *)
From QV Require Import Base.ListX Gen.Consts Model.MsgWriter Proofs.NameWireP Proofs.MsgWriterP Proofs.MsgWriterNameP
  Proofs.MsgWriterInvP Model.ZoneTree Model.Query Model.QueryW Proofs.QueryWP.
Local Open Scope nat_scope.

Definition hdr2_ok (rd : bool) (x : N) : Prop :=
  (x < 256)%N /\ N.testbit x 7 = true /\ ((x / 8) mod 16 = 0)%N /\ N.testbit x 0 = rd.
Definition hdr2_okb (rd : bool) (x : N) : bool :=
  (x <? 256)%N && Bool.eqb (N.testbit x 7) true && ((x / 8) mod 16 =? 0)%N && Bool.eqb (N.testbit x 0) rd.

Lemma hdr2_okb_spec rd x : hdr2_okb rd x = true <-> hdr2_ok rd x.
Proof.
  unfold hdr2_okb, hdr2_ok. rewrite !andb_true_iff, N.ltb_lt, N.eqb_eq, !Bool.eqb_true_iff. tauto.
Qed.

(* AA and TC changes keep QR, the opcode and RD: set_bit only ors in, or masks out, bit 2 (AA) or bit 1 (TC), and
   hdr2_ok reads bits 7, 6-3 and 0; checked over the 256 octet values *)
Lemma hdr2_set_bit rd mask v x : mask = AA_MASK \/ mask = TC_MASK -> hdr2_ok rd x -> hdr2_ok rd (set_bit mask v x).
Proof.
  intros Hm H. pose proof H as (Hx & _). apply hdr2_okb_spec in H. apply hdr2_okb_spec.
  assert (A : forallb (fun x => forallb (fun rd => forallb (fun v => forallb (fun mask =>
                implb (hdr2_okb rd x) (hdr2_okb rd (set_bit mask v x))) [AA_MASK; TC_MASK]) [true; false]) [true; false])
              (upto 256) = true) by (vm_compute; reflexivity).
  rewrite forallb_forall in A. specialize (A x (upto_In 256 x Hx)).
  rewrite forallb_forall in A. specialize (A rd ltac:(destruct rd; simpl; auto)).
  rewrite forallb_forall in A. specialize (A v ltac:(destruct v; simpl; auto)).
  rewrite forallb_forall in A. specialize (A mask ltac:(destruct Hm as [-> | ->]; simpl; auto)).
  rewrite H in A. exact A.
Qed.

Definition HK (id : N) (rd : bool) (w : writer) : Prop :=
  Inv_n w /\ slice (w_buf w) 0 2 = be16 id /\ exists x, nth_error (w_buf w) 2 = Some x /\ hdr2_ok rd x.

(* HK id rd is [WK (fun w => header_at id rd (w_buf w))] *)
Definition header_at (id : N) (rd : bool) (b : bytes) : Prop :=
  slice b 0 2 = be16 id /\ exists x, nth_error b 2 = Some x /\ hdr2_ok rd x.

Lemma header_at_ext id rd b b' : header_at id rd b -> (forall j, j < 3 -> nth_error b' j = nth_error b j) ->
  header_at id rd b'.
Proof.
  intros (Hs & x & Hx & Ho) H. split.
  - rewrite <- Hs. apply slice_ext_nth. intros j _ Hj. apply H. lia.
  - exists x. split; [|exact Ho]. rewrite H by lia. exact Hx.
Qed.

Lemma header_at_agree id rd b b' c : header_at id rd b -> agree c b b' -> 3 <= c -> header_at id rd b'.
Proof. intros H A Hc. apply (header_at_ext id rd b b' H). intros j Hj. apply (agree_nth _ _ _ _ A). lia. Qed.

Lemma HK_ext id rd c0 w w' : HK id rd w -> ext c0 w w' -> 12 <= c0 -> Inv_n w' -> HK id rd w'.
Proof.
  intros (_ & H) X Hc Hi'. split; [exact Hi'|]. apply (header_at_agree id rd _ _ c0 H (x_agree _ _ _ X)). lia.
Qed.

Lemma HK_keeps id rd w w' : Inv_n w -> header_at id rd (w_buf w) -> keeps w w' -> header_at id rd (w_buf w').
Proof.
  intros Hi H X. apply (header_at_agree id rd _ _ _ H (k_buf _ _ X)). pose proof (i_hdr _ Hi) as H12.
  change header_size with 12 in H12. lia.
Qed.

Lemma HK_modify id rd w i f w' : (2 <= i)%N -> (i = 2%N -> forall x, hdr2_ok rd x -> hdr2_ok rd (f x)) ->
  header_at id rd (w_buf w) -> w_modify w i f = Ok w' -> header_at id rd (w_buf w').
Proof.
  intros Hi Hf H E. destruct (w_modify_at _ _ _ _ E) as (x & b' & Hx & -> & _ & Hx' & Hoth). cbn [w_buf set_buf].
  destruct (N.eq_dec i 2) as [->|Hne]; [|apply (header_at_ext id rd _ _ H); intros j Hj; apply Hoth; lia].
  destruct H as (Hs & y & Hy & Ho). change (N.to_nat 2) with 2 in *. split.
  - rewrite <- Hs. apply slice_ext_nth. intros j _ Hj. apply Hoth. lia.
  - rewrite Hy in Hx. injection Hx as <-. exists (f y). split; [exact Hx'|exact (Hf eq_refl y Ho)].
Qed.

Theorem handle_HK id rd negttl z qname qtype tcp w w' : HK id rd w ->
  handle_non_axfr_query w_iface negttl z qname qtype tcp w = Some w' -> HK id rd w'.
Proof.
  apply (handle_keeps (fun w => header_at id rd (w_buf w)) (HK_keeps id rd)).
  - intros b w0 w0' _. apply HK_modify; [discriminate|]. intros _ x. apply hdr2_set_bit. left; reflexivity.
  - intros rc w0 w0' _ _ H E. apply set_rcode_inv in E as (w1 & E1 & ->). rewrite clear_upper_buf.
    revert H E1. apply HK_modify; discriminate.
  - intros b w0 w0' _. apply HK_modify; [discriminate|]. intros _ x. apply hdr2_set_bit. right; reflexivity.
Qed.

Lemma finish_HK id rd w len b : HK id rd w -> finish w = Ok (len, b) -> header_at id rd b.
Proof.
  intros (Hi & H) E. destruct (finish_below _ _ _ Hi E) as (_ & Hn). apply (header_at_ext id rd _ _ H).
  intros j Hj. pose proof (inv_cursor_12 w Hi). apply Hn; lia.
Qed.

Theorem prepare_HK buf tcp id rd qname qtype qclass edns limit w :
  prepare_w buf tcp id rd qname qtype qclass edns limit = Some w -> HK id rd w.
Proof.
  intros E. destruct (prepare_w_shape _ _ _ _ _ _ _ _ _ _ E) as (Hi & Hs & H2 & _).
  split; [exact Hi|]. split; [exact Hs|]. eexists. split; [exact H2|]. apply hdr2_okb_spec. destruct rd; reflexivity.
Qed.

Theorem respond_w_header negttl buf tcp id rd qname qtype qclass edns limit z len b :
  respond_w negttl buf tcp id rd qname qtype qclass edns limit z = Some (len, b) ->
  slice b 0 2 = be16 id /\
  exists x, nth_error b 2 = Some x /\ (x < 256)%N /\ N.testbit x 7 = true /\ ((x / 8) mod 16 = 0)%N /\ N.testbit x 0 = rd.
Proof.
  intros R. destruct (respond_w_inv _ _ _ _ _ _ _ _ _ _ _ _ R) as (w & w' & Ep & Eh & Ef).
  exact (finish_HK _ _ _ _ _ (handle_HK _ _ _ _ _ _ _ _ _ (prepare_HK _ _ _ _ _ _ _ _ _ _ Ep) Eh) Ef).
Qed.
