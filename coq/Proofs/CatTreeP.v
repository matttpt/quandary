(* C22: forests as maps, the path a descent follows, the abstraction function [adata] of one
   class tree of Model/CatTree.v, and what insert / remove / lookup do to it. *)
From QV Require Import Model.CatTree Spec.CatTreeS.
From Coq Require Import Permutation.

Scheme node_mind := Induction for node Sort Prop
  with forest_mind := Induction for forest Sort Prop.
Combined Scheme node_forest_ind from node_mind, forest_mind.

Lemma firstn_S_nth {A} (l : list A) i x : nth_error l i = Some x ->
  firstn (S i) l = firstn i l ++ [x].
Proof.
  revert i; induction l as [|y l IH]; intros i H.
  - destruct i; discriminate.
  - destruct i as [|i]; simpl in H.
    + inversion H; subst. reflexivity.
    + simpl. f_equal. apply IH. exact H.
Qed.

Lemma skipn_nth_cons {A} (l : list A) i x : nth_error l i = Some x ->
  skipn i l = x :: skipn (S i) l.
Proof.
  revert i; induction l as [|y l IH]; intros i H.
  - destruct i; discriminate.
  - destruct i as [|i]; simpl in H.
    + inversion H; subst. reflexivity.
    + simpl. apply IH. exact H.
Qed.

Lemma rev_inj {A} (a b : list A) : rev a = rev b -> a = b.
Proof. intros H. rewrite <- (rev_involutive a), <- (rev_involutive b). f_equal. exact H. Qed.

Lemma canon_lower_name (nm : cname) : canon nm = lower_name nm.
Proof. reflexivity. Qed.

Lemma lower_name_app a b : lower_name (a ++ b) = lower_name a ++ lower_name b.
Proof. unfold lower_name. apply map_app. Qed.

Lemma lower_name_length a : length (lower_name a) = length a.
Proof. unfold lower_name. apply map_length. Qed.

Lemma name_index_lt (nm : cname) i : i < length nm ->
  exists lab, name_index nm i = Some lab /\ nth_error nm i = Some lab.
Proof.
  intros H. unfold name_index. rewrite nth_error_app1 by exact H.
  destruct (nth_error nm i) eqn:E.
  - eauto.
  - apply nth_error_None in E. lia.
Qed.

(* the path (root downwards, lower-cased) that a descent from [level] follows *)
Definition lpath (nm : cname) (level : nat) : list clabel := rev (lower_name (firstn level nm)).

Lemma lpath_S nm l lab : nth_error nm l = Some lab ->
  lpath nm (S l) = lower_label lab :: lpath nm l.
Proof.
  intros H. unfold lpath. rewrite (firstn_S_nth _ _ _ H), lower_name_app, rev_app_distr. reflexivity.
Qed.

Lemma lpath_all nm : lpath nm (length nm) = rev (lower_name nm).
Proof. unfold lpath. rewrite firstn_all. reflexivity. Qed.

Section P.
Variable V : Type.
Notation entry := (entry V).
Notation node := (node V).
Notation forest := (forest V).
Notation catalog := (catalog V).

Lemma f_get_set k k2 (n : node) f :
  f_get k2 (f_set k n f) = if label_eq_dec k2 k then Some n else f_get k2 f.
Proof.
  induction f as [|k' c r IH]; simpl.
  - destruct (label_eq_dec k2 k); reflexivity.
  - destruct (label_eq_dec k k'); simpl; [|rewrite IH];
      destruct (label_eq_dec k2 k), (label_eq_dec k2 k'); congruence.
Qed.

Lemma f_get_remove k k2 (f : forest) :
  f_get k2 (f_remove k f) = if label_eq_dec k2 k then None else f_get k2 f.
Proof.
  induction f as [|k' c r IH]; simpl.
  - destruct (label_eq_dec k2 k); reflexivity.
  - destruct (label_eq_dec k k'); simpl; rewrite IH;
      destruct (label_eq_dec k2 k), (label_eq_dec k2 k'); congruence.
Qed.

Lemma f_is_empty_true (f : forest) : f_is_empty f = true -> f = FNil.
Proof. destruct f; simpl; congruence. Qed.

Fixpoint walk (n : node) (rp : list clabel) : option node :=
  match rp with
  | [] => Some n
  | k :: r => match f_get k (node_children n) with
              | Some c => walk c r
              | None => None
              end
  end.

Definition adata (n : node) (rp : list clabel) : option entry :=
  match walk n rp with Some m => node_data m | None => None end.

Lemma adata_nil n : adata n [] = node_data n.
Proof. reflexivity. Qed.

Lemma adata_cons n k r :
  adata n (k :: r) = match f_get k (node_children n) with Some c => adata c r | None => None end.
Proof. unfold adata. simpl. destruct (f_get k (node_children n)); reflexivity. Qed.

Lemma adata_new s rp : adata (node_new s : node) rp = None.
Proof. destruct rp; reflexivity. Qed.

Lemma adata_f_set nn d ch k c k2 r :
  adata (Node nn d (f_set k c ch)) (k2 :: r) =
  if label_eq_dec k2 k then adata c r else adata (Node nn d ch) (k2 :: r).
Proof.
  rewrite !adata_cons. cbn [node_children]. rewrite f_get_set. destruct (label_eq_dec k2 k); reflexivity.
Qed.

Lemma adata_f_remove nn d ch k k2 r :
  adata (Node nn d (f_remove k ch)) (k2 :: r) =
  if label_eq_dec k2 k then None else adata (Node nn d ch) (k2 :: r).
Proof.
  rewrite !adata_cons. cbn [node_children]. rewrite f_get_remove. destruct (label_eq_dec k2 k); reflexivity.
Qed.

(* the child an insertion continues in: the existing one, or a fresh node named [s] *)
Definition child_or_new (k : clabel) (ch : forest) (s : cname) : node :=
  match f_get k ch with Some c => c | None => node_new s end.

Lemma adata_child_or_new nn d k ch s r :
  adata (child_or_new k ch s) r = adata (Node nn d ch) (k :: r).
Proof.
  rewrite adata_cons. unfold child_or_new. cbn [node_children].
  destruct (f_get k ch); [reflexivity|apply adata_new].
Qed.

Lemma insert_desc_S nn d ch nm l lab e : nth_error nm l = Some lab ->
  insert_desc (Node nn d ch) nm (S l) e =
  (let* (c', old) := insert_desc (child_or_new (lower_label lab) ch (skipn l nm)) nm l e in
   Ok (Node nn d (f_set (lower_label lab) c' ch), old)).
Proof.
  intros Hn. assert (Hl : l < length nm) by (apply nth_error_Some; congruence).
  cbn [insert_desc]. unfold name_index, superdomain, name_len, child_or_new.
  rewrite nth_error_app1, Hn by exact Hl.
  replace (l <? S (length nm)) with true by (symmetry; apply Nat.ltb_lt; lia).
  destruct (f_get (lower_label lab) ch); reflexivity.
Qed.

(* [level <= length nm] is more than the absence of a panic: [name_index nm (length nm)] is the root
   label [[]], so a descent from [S (length nm)] would quietly walk to a child keyed [[]]. *)
Lemma insert_desc_spec : forall level (n : node) nm e, level <= length nm ->
  exists n', insert_desc n nm level e = Ok (n', adata n (lpath nm level)) /\
             adata n' (lpath nm level) = Some e /\
             (forall rp, rp <> lpath nm level -> adata n' rp = adata n rp).
Proof.
  induction level as [|l IH]; intros [nn d ch] nm e Hl.
  - eexists. split; [reflexivity|]. repeat split. intros [|k r] Hrp; [destruct Hrp|]; reflexivity.
  - destruct (name_index_lt nm l) as [lab [_ Hn]]; [lia|].
    rewrite (insert_desc_S _ _ _ _ _ _ _ Hn), (lpath_S _ _ _ Hn). set (k := lower_label lab).
    destruct (IH (child_or_new k ch (skipn l nm)) nm e) as [c' [-> [Hnew Hoth]]]; [lia|].
    rewrite (adata_child_or_new nn d). eexists. split; [reflexivity|]. repeat split.
    + rewrite adata_f_set. destruct (label_eq_dec k k); [exact Hnew|congruence].
    + intros [|k2 r] Hrp; [reflexivity|]. rewrite adata_f_set.
      destruct (label_eq_dec k2 k) as [->|]; [|reflexivity].
      rewrite Hoth by congruence. apply adata_child_or_new.
Qed.

Lemma remove_in_class_spec : forall level (n : node) nm, level <= length nm ->
  exists n' rm, remove_in_class n nm level = Ok (n', adata n (lpath nm level), rm) /\
                adata n' (lpath nm level) = None /\
                (forall rp, rp <> lpath nm level -> adata n' rp = adata n rp) /\
                (rm = true -> forall rp, adata n' rp = None).
Proof.
  unfold remove_in_class.
  induction level as [|l IH]; intros [nn d ch] nm Hl.
  - eexists. eexists. split; [reflexivity|]. repeat split.
    + intros [|k r] Hrp; [destruct Hrp|]; reflexivity.
    + intros Hrm rp. apply f_is_empty_true in Hrm. subst ch. destruct rp; reflexivity.
  - destruct (name_index_lt nm l) as [lab [Hi Hn]]; [lia|].
    cbn [remove_in_class_gen]. rewrite Hi, (lpath_S _ _ _ Hn). set (k := lower_label lab).
    rewrite (adata_cons _ k). cbn [node_children].
    destruct (f_get k ch) as [sub|] eqn:Hg.
    2:{ eexists. eexists. split; [reflexivity|]. repeat split; [|discriminate].
        rewrite adata_cons. cbn [node_children]. rewrite Hg. reflexivity. }
    destruct (IH sub nm) as [sub' [rm' [-> [Hnone [Hoth Hall]]]]]; [lia|]. cbn [bind].
    (* outside the child [k] nothing changes; inside it the child's own statement applies *)
    assert (Hsub : forall k2 r, k2 :: r <> k :: lpath nm l ->
              (if label_eq_dec k2 k then adata sub' r else adata (Node nn d ch) (k2 :: r))
              = adata (Node nn d ch) (k2 :: r)).
    { intros k2 r Hrp. destruct (label_eq_dec k2 k) as [->|]; [|reflexivity].
      rewrite adata_cons. cbn [node_children]. rewrite Hg. apply Hoth. congruence. }
    destruct rm'; eexists; eexists; (split; [reflexivity|]); repeat split; try discriminate.
    + rewrite adata_f_remove. destruct (label_eq_dec k k); congruence.
    + intros [|k2 r] Hrp; [reflexivity|]. rewrite adata_f_remove, <- (Hsub k2 r Hrp).
      destruct (label_eq_dec k2 k); [symmetry; apply Hall|]; reflexivity.
    + intros Hrm rp. apply andb_true_iff in Hrm. destruct Hrm as [H1 H2].
      apply f_is_empty_true in H1. destruct d; [discriminate|].
      destruct rp as [|k2 r]; [reflexivity|]. rewrite adata_cons. cbn [node_children]. rewrite H1. reflexivity.
    + rewrite adata_f_set. destruct (label_eq_dec k k); [exact Hnone|congruence].
    + intros [|k2 r] Hrp; [reflexivity|]. rewrite adata_f_set. apply Hsub, Hrp.
Qed.

Fixpoint deepest (n : node) (rp : list clabel) : option entry :=
  match rp with
  | [] => node_data n
  | k :: r => match f_get k (node_children n) with
              | Some c => match deepest c r with Some e => Some e | None => node_data n end
              | None => node_data n
              end
  end.

Lemma lookup_in_class_deepest : forall level (n : node) nm, level <= length nm ->
  lookup_in_class n nm level = Ok (deepest n (lpath nm level)).
Proof.
  induction level as [|l IH]; intros n nm Hl.
  - reflexivity.
  - destruct (name_index_lt nm l) as [lab [Hi Hn]]; [lia|].
    cbn [lookup_in_class]. rewrite Hi, (lpath_S _ _ _ Hn). cbn [deepest].
    destruct (f_get (lower_label lab) (node_children n)) as [sub|].
    + rewrite IH by lia. reflexivity.
    + reflexivity.
Qed.

(* when no longer prefix of [rp] holds an entry, the node's own entry decides *)
Lemma deepest_here (n : node) rp :
  (forall k a b, rp = (k :: a) ++ b -> adata n (k :: a) = None) ->
  match node_data n with
  | Some e => exists a b, rp = a ++ b /\ adata n a = Some e /\
                          forall a' b', rp = a' ++ b' -> length a < length a' -> adata n a' = None
  | None => forall a b, rp = a ++ b -> adata n a = None
  end.
Proof.
  intros H. destruct (node_data n) as [e|] eqn:Hd.
  - exists [], rp. repeat split; [exact Hd|]. intros [|k a] b E L; [simpl in L; lia|exact (H _ _ _ E)].
  - intros [|k a] b E; [exact Hd|exact (H _ _ _ E)].
Qed.

Lemma deepest_spec : forall rp (n : node),
  match deepest n rp with
  | Some e => exists a b, rp = a ++ b /\ adata n a = Some e /\
                          forall a' b', rp = a' ++ b' -> length a < length a' -> adata n a' = None
  | None => forall a b, rp = a ++ b -> adata n a = None
  end.
Proof.
  induction rp as [|k r IH]; intros n; cbn [deepest].
  - apply deepest_here. discriminate.
  - destruct (f_get k (node_children n)) as [c|] eqn:Hg.
    + assert (Hc : forall a, adata n (k :: a) = adata c a) by (intros a; rewrite adata_cons, Hg; reflexivity).
      specialize (IH c). destruct (deepest c r) as [e|].
      * destruct IH as (a & b & -> & Ha & Hmax). exists (k :: a), b. rewrite Hc. repeat split; [exact Ha|].
        intros [|k2 a2] b' H L; [simpl in L; lia|]. injection H as <- H. rewrite Hc.
        apply (Hmax _ _ H). simpl in L. lia.
      * apply deepest_here. intros k2 a b H. injection H as <- H. rewrite Hc. eauto.
    + apply deepest_here. intros k2 a b H. injection H as <- H. rewrite adata_cons, Hg. reflexivity.
Qed.

End P.

Arguments walk {V}.
Arguments adata {V}.
Arguments deepest {V}.
