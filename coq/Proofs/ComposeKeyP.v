(* Composition, the key lemma: the query model (Model/Query.v) run on the octet-level Writer (w_iface) issues only
   operations with well-formed arguments that obey the Writer's hint contract; from any reachable state whose QNAME
   anchor stands for the question name, handle_non_axfr_query never panics and returns a reachable state.
   The hints: Qname only with the QNAME; MostRecentNameInRdata only with the CNAME target just written;
   MostRecentOwner only for the AAAA RRset right after the A RRset of the same owner; slot i of a vector only with
   the name parsed from the i-th RDATA of the RRset the vector was issued for; None everywhere else. *)
From QV Require Import Base.ListX Gen.ZoneConsts Gen.QueryConsts Model.NameWire Model.MsgWriter Model.ZoneTree
  Spec.ZoneLookupS Proofs.ZoneBaseP Proofs.ZoneInvP Proofs.ZoneTopP Model.Query Model.QueryW
  Proofs.MsgWriterP Proofs.MsgWriterScanP Proofs.MsgWriterNameP Proofs.MsgWriterInvP Proofs.MsgWriterOpP
  Proofs.MsgWriterStepP Proofs.QueryNameP Proofs.QueryWfP Proofs.QueryP
  Proofs.ComposeTraceP Proofs.ComposeWfP Proofs.ComposeNameP.
Local Open Scope nat_scope.

Definition prefix {A} (a b : list A) : Prop := exists k, b = a ++ k.
Lemma prefix_app {A} (a k : list A) : prefix a (a ++ k).
Proof. exists k. reflexivity. Qed.
Lemma prefix_refl {A} (a : list A) : prefix a a.
Proof. exists []. rewrite app_nil_r. reflexivity. Qed.
Lemma prefix_trans {A} (a b c : list A) : prefix a b -> prefix b c -> prefix a c.
Proof. intros [k ->] [k' ->]. exists (k ++ k'). rewrite app_assoc. reflexivity. Qed.
Lemma prefix_eq {A} (a b : list A) : b = a -> prefix a b.
Proof. intros ->. apply prefix_refl. Qed.
Lemma prefix_nth {A} (a b : list A) r x : prefix a b -> nth_error a r = Some x -> nth_error b r = Some x.
Proof.
  intros [k ->] H. rewrite nth_error_app1; auto. apply nth_error_Some. congruence.
Qed.

(* what every piece of the answering logic preserves: the QNAME ghost, and registers only grow *)
Definition Frame (d : dstate) (g : gn) (d' : dstate) (g' : gn) : Prop :=
  g_q g' = g_q g /\ prefix (d_regs d) (d_regs d') /\ prefix (g_regs g) (g_regs g').
Lemma Frame_refl d g : Frame d g d g.
Proof. split; [reflexivity|split; apply prefix_refl]. Qed.
Lemma Frame_trans d g d1 g1 d2 g2 : Frame d g d1 g1 -> Frame d1 g1 d2 g2 -> Frame d g d2 g2.
Proof. intros (A & B & C) (A' & B' & C'). split; [congruence|]. split; eapply prefix_trans; eauto. Qed.

Lemma Frame_rr d g o r w' regs' : prefix (d_regs d) regs' ->
  match o with OAddRr _ _ _ _ _ _ _ _ | OAddRrset _ _ _ _ _ _ _ _ => True | _ => False end ->
  Frame d g (mkD w' regs') (gstep d g o r).
Proof.
  intros Hp Ho. split; [|split; [exact Hp|]]; destruct o; try contradiction; destruct r; cbn [gstep g_q g_regs];
    try reflexivity; try apply prefix_app; apply prefix_refl.
Qed.

Lemma vec_issued_frame d g d' g' r v cts rds : Frame d g d' g' -> vec_issued d g r v cts rds -> vec_issued d' g' r v cts rds.
Proof.
  intros (_ & B & C) (X & Y & Z). split; [eapply prefix_nth; eauto|]. split; [eapply prefix_nth; eauto|exact Z].
Qed.

Lemma lookup_offset_In tab ty o : lookup_offset tab ty = Some o -> In (ty, o) tab.
Proof.
  induction tab as [|[t o'] tab IH]; cbn [lookup_offset]; [discriminate|].
  destruct (t =? ty)%N eqn:E; [|right; auto]. apply N.eqb_eq in E. intros H. inversion H; subst. left. reflexivity.
Qed.

(* the six types with additional-section processing: the offset of the table is where the one name of the
   RDATA stands (SRV outside class IN has no layout at all) *)
Lemma addl_cts c ty start : (c = 1 \/ c = 3)%N -> lookup_offset ADDITIONAL_TABLE ty = Some start ->
  component_types c ty = [] \/ one_name (component_types c ty) start.
Proof.
  intros Hc H. apply lookup_offset_In in H. unfold one_name.
  repeat (destruct H as [H|H]; [inversion H; subst; destruct Hc as [-> | ->]; cbn; auto 6|]). destruct H.
Qed.

Section Key.
Variable req : N -> N -> bytes -> bytes -> bool.
Variable apex : name.
Variable cls : N.
Variable R : list record.
Variable z : zone.
Hypothesis Hinv : Inv req apex cls z R.
(* [PR ty rd]: whatever else is known of the (type, RDATA) of every record of the zone; [Pop]: the
   predicate on operations it translates to (C01: both trivial; C02: RDATA validity) *)
Variable PR : N -> bytes -> Prop.
Variable Pop : wop -> Prop.
Definition Pz (ty : N) (rd : bytes) : Prop := good_rd rd /\ (ty < 65536)%N /\ PR ty rd.
Hypothesis HR : Forall (fun r => Pz (r_type r) (r_rdata r)) R.
Hypothesis Hapex : good_name apex.
Hypothesis Hclass : (cls < 65536)%N.
Hypothesis Hpop_rr : forall s hs owner ty ttl rd vec, PR ty rd -> Pop (OAddRr s hs owner ty (z_class z) ttl rd vec).
Hypothesis Hpop_rrset : forall s hs owner ty ttl rds vec, Forall (PR ty) rds -> Pop (OAddRrset s hs owner ty (z_class z) ttl rds vec).
Hypothesis Hpop_aa : forall b, Pop (OSetAa b).
Hypothesis Hpop_tc : forall b, Pop (OSetTc b).
Hypothesis Hpop_rc : forall rc, Pop (OSetRcode rc).
Hypothesis Hpop_clr : Pop OClearRrs.
Variable negttl : N -> N -> N.
Variable d0 : dstate.
Variable g0 : gn.

Notation St := (St Pop d0 g0).

Lemma Pz_split ty rds : Forall (Pz ty) rds -> Forall good_rd rds /\ Forall (PR ty) rds.
Proof. intros H. split; eapply Forall_impl; try exact H; intros a (A & B & C); auto. Qed.
Lemma Pz_ty ty rds : Forall (Pz ty) rds -> rds <> [] -> (ty < 65536)%N.
Proof. intros H Hne. destruct rds; [congruence|]. inversion H as [|? ? (A & B & C)]. exact B. Qed.

Lemma Hzc : z_class z = cls. Proof. destruct Hinv as (_ & H & _). exact H. Qed.
Lemma Hzn : zone_name z = apex. Proof. destruct Hinv as (H & _ & _). exact H. Qed.
Lemma zc16 : (z_class z < 65536)%N. Proof. rewrite Hzc. exact Hclass. Qed.

(* a state is promised on Err too: query.rs keeps using the Writer after a failed operation (error mapping,
   execute_allowing_truncation) *)
Definition RS (d : dstate) (g : gn) (r : res (wierr * writer) writer) : Prop :=
  match r with
  | Ok w' => exists d' g', St d' g' /\ d_w d' = w' /\ Frame d g d' g'
  | Err (_, w') => exists d' g', St d' g' /\ d_w d' = w' /\ Frame d g d' g'
  | Panic => False
  end.
Definition QS {A} (d : dstate) (g : gn) (q : res (perr * writer) (A * writer)) : Prop :=
  match q with
  | Ok (_, w') => exists d' g', St d' g' /\ d_w d' = w' /\ Frame d g d' g'
  | Err (_, w') => exists d' g', St d' g' /\ d_w d' = w' /\ Frame d g d' g'
  | Panic => False
  end.
Definition QSp {E A} (post : A -> dstate -> gn -> Prop) (d : dstate) (g : gn) (q : res (E * writer) (A * writer)) : Prop :=
  match q with
  | Ok (a, w') => exists d' g', St d' g' /\ d_w d' = w' /\ Frame d g d' g' /\ post a d' g'
  | Err (_, w') => exists d' g', St d' g' /\ d_w d' = w' /\ Frame d g d' g'
  | Panic => False
  end.

Lemma RS_here d g : St d g -> RS d g (Ok (d_w d)).
Proof. intros H. exists d, g. split; [exact H|]. split; [reflexivity|apply Frame_refl]. Qed.
Lemma QS_here {A} d g e : St d g -> @QS A d g (Err (e, d_w d)).
Proof. exact (RS_here d g). Qed.
Lemma QS_ok_here {A} d g (a : A) : St d g -> QS d g (Ok (a, d_w d)).
Proof. exact (RS_here d g). Qed.

Lemma RS_frame d g d1 g1 r : Frame d g d1 g1 -> RS d1 g1 r -> RS d g r.
Proof.
  intros F. destruct r as [w'|[e w']|]; cbn [RS]; auto; intros (d' & g' & H1 & H2 & H3);
    exists d', g'; (split; [exact H1|]); (split; [exact H2|]); eapply Frame_trans; eauto.
Qed.
Lemma QS_frame {A} d g d1 g1 (q : res (perr * writer) (A * writer)) : Frame d g d1 g1 -> QS d1 g1 q -> QS d g q.
Proof. intros F. destruct q as [[a w']|[e w']|]; [apply (RS_frame _ _ _ _ (Ok w') F)|apply (RS_frame _ _ _ _ (Err (WiOther, w')) F)|auto]. Qed.

Lemma QSp_QS {A} post d g (q : res (perr * writer) (A * writer)) : QSp post d g q -> QS d g q.
Proof. destruct q as [[a w']|[e w']|]; cbn [QSp QS]; auto. intros (d' & g' & H1 & H2 & H3 & _). eauto. Qed.

(* The shape every piece of the answering logic has: a piece that satisfies QS, then a continuation that
   satisfies QS from whatever state the piece has reached. *)
Lemma QSp_bind {A B} post d g (q : res (perr * writer) (A * writer)) (k : A -> writer -> res (perr * writer) (B * writer)) :
  QSp post d g q ->
  (forall a d1 g1, St d1 g1 -> Frame d g d1 g1 -> post a d1 g1 -> QS d1 g1 (k a (d_w d1))) ->
  QS d g (match q with Ok (a, w1) => k a w1 | Err e => Err e | Panic => Panic end).
Proof.
  intros Q Hk. destruct q as [[a w1]|[e w1]|]; cbn [QSp QS] in *; auto.
  destruct Q as (d1 & g1 & HS1 & <- & F1 & P1). exact (QS_frame _ _ _ _ _ F1 (Hk a d1 g1 HS1 F1 P1)).
Qed.
Lemma QS_bind {A B} d g (q : res (perr * writer) (A * writer)) (k : A -> writer -> res (perr * writer) (B * writer)) :
  QS d g q -> (forall a d1 g1, St d1 g1 -> Frame d g d1 g1 -> QS d1 g1 (k a (d_w d1))) ->
  QS d g (match q with Ok (a, w1) => k a w1 | Err e => Err e | Panic => Panic end).
Proof.
  intros Q Hk. apply (QSp_bind (fun _ _ _ => True)); [|auto].
  destruct q as [[a w1]|[e w1]|]; cbn [QSp QS] in *; auto. destruct Q as (d1 & g1 & H1 & H2 & H3). eauto 8.
Qed.

Lemma allow_QS d g r : RS d g r -> QS d g (allow_truncation r).
Proof. destruct r as [w'|[[|] w']|]; cbn; auto. Qed.
Lemma lift_add_QS d g r : RS d g r -> QS d g (lift_add r).
Proof. destruct r as [w'|[e w']|]; cbn; auto. Qed.
Lemma lift_addv_QSp post d g r : QSp post d g r -> QSp post d g (lift_addv r).
Proof. destruct r as [[v w']|[e w']|]; cbn; auto. Qed.

Lemma set_aa_QS d g b : St d g -> QS d g (lift_set (wi_set_aa w_iface b (d_w d))).
Proof.
  intros HS. destruct (St_set_aa Pop d0 g0 d g b HS (Hpop_aa b)) as (w' & -> & HS').
  exists (mkD w' (d_regs d)), g. split; [exact HS'|]. split; [reflexivity|exact (Frame_refl d g)].
Qed.
Lemma set_rcode_QS d g rc : St d g -> (rc < 16)%N -> QS d g (lift_set (wi_set_rcode w_iface rc (d_w d))).
Proof.
  intros HS Hrc. destruct (St_set_rcode Pop d0 g0 d g rc HS Hrc (Hpop_rc rc)) as (w' & -> & HS').
  exists (mkD w' (d_regs d)), g. split; [exact HS'|]. split; [reflexivity|exact (Frame_refl d g)].
Qed.
Lemma set_aa_then_QS d g (k : writer -> res (perr * writer) (unit * writer)) : St d g ->
  (forall d1 g1, St d1 g1 -> Frame d g d1 g1 -> QS d1 g1 (k (d_w d1))) ->
  QS d g (set_aa_then w_iface k (d_w d)).
Proof. intros HS Hk. apply (QS_bind d g _ (fun _ => k)); [apply set_aa_QS; exact HS|intros _; exact Hk]. Qed.

Lemma add_rr_QSp d g s h hs owner ty ttl rd : St d g -> hint_agrees (d_regs d) h hs ->
  hs_contract (d_regs d) g hs owner -> good_name owner -> Pz ty rd ->
  QSp (fun _ _ g1 => g_r g1 = lastn (rd_names (component_types (z_class z) ty) rd) (g_r g)) d g
      (lift_add (wi_add_rr w_iface s h owner ty (z_class z) ttl rd (d_w d))).
Proof.
  intros HS Hh Hc Gn (Grd & Hty & HP).
  pose proof (St_add_rr Pop d0 g0 d g s h hs owner ty (z_class z) ttl rd HS Hh Gn Grd Hty zc16
                (Hpop_rr _ _ _ _ _ _ _ HP) Hc) as X.
  pose proof (fun r w' => Frame_rr d g (OAddRr (sec_of s) hs owner ty (z_class z) ttl rd false) r w' _ (prefix_refl _) I) as F.
  destruct (wi_add_rr w_iface s h owner ty (z_class z) ttl rd (d_w d)) as [w1|[e w1]|]; cbn [lift_add QSp].
  - eexists _, _. split; [exact X|]. split; [reflexivity|]. split; [apply F|reflexivity].
  - destruct X as [e' X]. eexists _, _. split; [exact X|]. split; [reflexivity|apply F].
  - exact X.
Qed.

Lemma add_rrset_QSp d g s h hs owner ty ttl rds vec : St d g -> hint_agrees (d_regs d) h hs ->
  hs_contract (d_regs d) g hs owner -> good_name owner -> Forall (Pz ty) rds -> (ty < 65536)%N ->
  QSp (fun v d1 g1 => (rds <> [] -> g_o g1 = Some owner) /\
                      (vec = true -> vec_issued d1 g1 (length (d_regs d)) v (component_types (z_class z) ty) rds)) d g
      (wi_add_rrset w_iface s h owner ty (z_class z) ttl rds vec (d_w d)).
Proof.
  intros HS Hh Hc Gn HP Hty. destruct (Pz_split _ _ HP) as [Hrds HPR].
  pose proof (St_add_rrset Pop d0 g0 d g s h hs owner ty (z_class z) ttl rds vec HS Hh Gn Hrds Hty zc16
                (Hpop_rrset _ _ _ _ _ _ _ HPR) Hc) as X.
  pose proof (fun r w' k => Frame_rr d g (OAddRrset (sec_of s) hs owner ty (z_class z) ttl rds vec) r w' _ (prefix_app _ k) I) as F.
  destruct (wi_add_rrset w_iface s h owner ty (z_class z) ttl rds vec (d_w d)) as [[v w1]|[e w1]|]; cbn [QSp].
  - destruct X as [X Hv]. eexists _, _. split; [exact X|]. split; [reflexivity|]. split; [apply F|]. split.
    + cbn [gstep g_o]. destruct rds; [congruence|reflexivity].
    + intros ->. cbn [gstep]. split; [apply nth_error_mid|]. split; [|exact Hv].
      cbn [g_regs]. rewrite (St_regs_len _ _ _ _ _ HS). apply nth_error_mid.
  - destruct X as [e' X]. eexists _, _. split; [exact X|]. split; [reflexivity|apply F].
  - exact X.
Qed.

Lemma contract_same regs g hs n :
  match hs with HsQname => g_q g = Some n | HsOwner => g_o g = Some n | HsRdata => g_r g = Some n | _ => False end ->
  hs_contract regs g hs n.
Proof. destruct hs; try contradiction; intros E m Hm; rewrite E in Hm; inversion Hm; apply name_eq_refl. Qed.

Lemma addrs_S d g owner h hs sbc : St d g -> good_name owner -> hint_agrees (d_regs d) h hs ->
  hs_contract (d_regs d) g hs owner -> RS d g (add_additional_addresses w_iface z owner h sbc (d_w d)).
Proof.
  intros HS Hown Hh Hc. unfold add_additional_addresses.
  destruct (zone_lookup_addrs_refines req apex cls z R owner false sbc Hinv) as (r & Hz & Hs); [discriminate|].
  rewrite Hz. cbn [zl].
  pose proof (spec_addrs_good req apex cls R Pz HR _ _ _ _ Hs) as G.
  destruct r as [a aaaa sos|c ns| |]; try exact (RS_here d g HS).
  destruct G as [Ga Gb].
  (* the AAAA step, from any state *)
  assert (Haaaa : forall d1 g1 h1 hs1, St d1 g1 -> hint_agrees (d_regs d1) h1 hs1 -> hs_contract (d_regs d1) g1 hs1 owner ->
            RS d1 g1 (if (z_class z =? ZoneConsts.CLASS_IN)%N
                      then match aaaa with
                           | Some (ttl, rdatas) =>
                             match wi_add_rrset w_iface SAr h1 owner ZoneConsts.TYPE_AAAA ZoneConsts.CLASS_IN ttl rdatas false (d_w d1) with
                             | Ok (_, w2) => Ok w2 | Err e => Err e | Panic => Panic end
                           | None => Ok (d_w d1)
                           end
                      else Ok (d_w d1))).
  { intros d1 g1 h1 hs1 HS1 Hh1 Hc1.
    destruct (z_class z =? ZoneConsts.CLASS_IN)%N eqn:Ecl; [|exact (RS_here _ _ HS1)]. apply N.eqb_eq in Ecl.
    destruct aaaa as [[tb rb]|]; [|exact (RS_here _ _ HS1)].
    destruct (Gb _ eq_refl) as [GbP _]. rewrite <- Ecl.
    pose proof (add_rrset_QSp d1 g1 SAr h1 hs1 owner ZoneConsts.TYPE_AAAA tb rb false HS1 Hh1 Hc1 Hown GbP eq_refl) as X.
    destruct (wi_add_rrset _ _ _ _ _ _ _ _ _ _) as [[v w2]|[e w2]|]; [|exact X|exact X].
    destruct X as (d2 & g2 & A & B & C & _). exists d2, g2. auto. }
  destruct a as [[ta ra]|]; [|exact (Haaaa d g h hs HS Hh Hc)].
  destruct (Ga _ eq_refl) as [GaP Gane].
  pose proof (add_rrset_QSp d g SAr h hs owner ZoneConsts.TYPE_A ta ra false HS Hh Hc Hown GaP eq_refl) as X.
  destruct (wi_add_rrset _ _ _ _ _ _ _ _ _ _) as [[v w1]|[e w1]|]; [|exact X|exact X].
  destruct X as (d1 & g1 & HS1 & <- & F1 & Go & _). apply (RS_frame _ _ _ _ _ F1).
  apply (Haaaa d1 g1 QhOwner HsOwner HS1 eq_refl). apply contract_same. exact (Go Gane).
Qed.

Lemma vec_hint d g r v cts rds i nm : vec_issued d g r v cts rds ->
  (cts = [] \/ nth_error (rds_names cts rds) i = Some nm) ->
  exists hs, hint_agrees (d_regs d) (hint_from_vec (Some v) i) hs /\ hs_contract (d_regs d) g hs nm.
Proof.
  intros (X & Y & Z) [Hc|Hn].
  - rewrite (Z Hc). exists HsNone. split; [|exact I]. unfold hint_agrees, hint_from_vec. destruct i; reflexivity.
  - exists (HsReg r i). split.
    + unfold hint_agrees, hint_from_vec. cbn [resolve_hint]. rewrite X. destruct (nth_error v i) as [[p|]|]; reflexivity.
    + cbn [hs_contract]. intros v' p _ _. exists (map Some (rds_names cts rds)), nm. split; [exact Y|].
      split; [apply map_nth_error; exact Hn|apply name_eq_refl].
Qed.

Lemma vec_addrs_RS d g r v cts rds i nm sbc : St d g -> vec_issued d g r v cts rds ->
  (cts = [] \/ nth_error (rds_names cts rds) i = Some nm) -> good_name nm ->
  RS d g (add_additional_addresses w_iface z nm (hint_from_vec (Some v) i) sbc (d_w d)).
Proof.
  intros HS Hv Hn Gn. destruct (vec_hint d g r v cts rds i nm Hv Hn) as (hs & Hh & Hc).
  exact (addrs_S d g nm _ hs sbc HS Gn Hh Hc).
Qed.

Lemma additional_loop_S start cts r v : forall rest pre d g, St d g -> Forall good_rd rest ->
  vec_issued d g r v cts (pre ++ rest) ->
  (cts = [] \/ (one_name cts start /\ length (rds_names cts pre) = length pre)) ->
  QS d g (additional_loop w_iface z start rest (Some v) (length pre) (d_w d)).
Proof.
  induction rest as [|rd rest IH]; intros pre d g HS Hrds Hv Hcts; cbn [additional_loop]; [apply QS_ok_here; auto|].
  inversion Hrds as [|? ? [Hrd _] Hrest]; subst.
  pose proof (read_name_no_panic rd start) as NP.
  destruct (read_name_from_rdata rd start) as [nm|e|] eqn:Er; [|apply QS_here; auto|congruence].
  destruct (read_name_facts _ _ _ Hrd Er) as (_ & Gn & _).
  (* with one name for each RDATA so far, [nm] is name number [length pre] *)
  assert (Hpre : cts = [] \/ (nth_error (rds_names cts (pre ++ rd :: rest)) (length pre) = Some nm /\
                              one_name cts start /\ length (rds_names cts (pre ++ [rd])) = length (pre ++ [rd]))).
  { destruct Hcts as [Hc|[H1 Hl]]; [left; exact Hc|right].
    destruct (rds_names_nth cts start pre rd rest nm H1 Hrd Er Hl). auto. }
  assert (Hslot : cts = [] \/ nth_error (rds_names cts (pre ++ rd :: rest)) (length pre) = Some nm) by tauto.
  apply (QS_bind _ _ _ _ (allow_QS _ _ _ (vec_addrs_RS d g r v cts _ _ nm false HS Hv Hslot Gn))).
  intros _ d1 g1 HS1 F1. replace (S (length pre)) with (length (pre ++ [rd])) by (rewrite app_length; simpl; lia).
  apply IH; auto; [|tauto]. rewrite <- app_assoc. eapply vec_issued_frame; eauto.
Qed.

Lemma additional_S ty rs r v d g : St d g -> Forall good_rd (snd rs) ->
  vec_issued d g r v (component_types (z_class z) ty) (snd rs) ->
  QS d g (do_additional_section_processing w_iface z ty rs (Some v) (d_w d)).
Proof.
  intros HS Hrds Hv. unfold do_additional_section_processing.
  change ADDITIONAL_CLASSES with [1%N; 3%N]. cbn [existsb]. rewrite orb_false_r.
  destruct ((z_class z =? 1)%N || (z_class z =? 3)%N) eqn:Ec; cbn [negb]; [|apply QS_ok_here; auto].
  destruct (lookup_offset ADDITIONAL_TABLE ty) as [start|] eqn:Eo; [|apply QS_ok_here; auto].
  assert (Hc : (z_class z = 1 \/ z_class z = 3)%N).
  { apply orb_prop in Ec. destruct Ec as [E|E]; apply N.eqb_eq in E; auto. }
  apply (additional_loop_S start _ r v (snd rs) [] d g HS Hrds Hv).
  destruct (addl_cts _ _ _ Hc Eo) as [H|H]; [left; exact H|right; split; [exact H|reflexivity]].
Qed.

Lemma in_zone_apex' : in_zone apex apex = true.
Proof. exact (in_zone_apex apex). Qed.

Lemma negsoa_S d g : St d g -> QS d g (add_negative_caching_soa w_iface negttl z (d_w d)).
Proof.
  intros HS.
  destruct (zone_lookup_refines req apex cls z R apex 6 true false Hinv (fun _ => in_zone_apex')) as (r & Hz & Hs).
  pose proof (zone_soa_lookup z) as L. rewrite Hzn in L. change ZoneConsts.TYPE_SOA with 6%N in L.
  rewrite L in Hz. inversion Hz as [Hr]. clear Hz L.
  pose proof (spec_lookup_good req apex cls R Pz HR _ _ _ _ _ Hs) as G.
  unfold add_negative_caching_soa.
  destruct (zone_soa z) as [[ttl rds]|]; [|apply QS_here; auto].
  subst r. destruct G as [GP _].
  destruct rds as [|rd rest]; [apply QS_here; auto|].
  inversion GP as [|? ? HPrd _]; subst.
  pose proof (soa_minimum_spec rd) as Hm.
  destruct (read_soa_minimum rd) as [m|e|]; [|apply QS_here; auto|contradiction].
  apply (QSp_QS _ _ _ _ (add_rr_QSp d g SNs QhNone HsNone (zone_name z) ZoneConsts.TYPE_SOA (negttl ttl m) rd HS eq_refl I
                           (eq_ind_r good_name Hapex Hzn) HPrd)).
Qed.

Lemma referral_names_facts child : forall rds idx glues adds, Forall good_rd rds ->
  referral_names child rds idx = Ok (glues, adds) ->
  forall i nm, In (i, nm) (glues ++ adds) ->
    good_name nm /\ idx <= i /\ nth_error (rds_names [CtCompressible] rds) (i - idx) = Some nm.
Proof.
  induction rds as [|rd rds IH]; intros idx glues adds Hrds; cbn [referral_names].
  - intros H. inversion H; subst. intros i nm [].
  - inversion Hrds as [|? ? [Hrd _] Hrest]; subst.
    destruct (read_name_from_rdata rd 0) as [n|e|] eqn:Er; cbn [bind]; try discriminate.
    destruct (referral_names child rds (S idx)) as [[g1 a1]|e|] eqn:Ern; cbn [bind]; try discriminate.
    destruct (read_name_facts _ _ _ Hrd Er) as (_ & Gn & _).
    assert (H1 : rd_names [CtCompressible] rd = [n]) by (apply (rd_names_one _ 0 _ _ Hrd); [left; split; reflexivity|exact Er]).
    assert (Hcase : forall i nm, (i, nm) = (idx, n) \/ In (i, nm) (g1 ++ a1) ->
              good_name nm /\ idx <= i /\ nth_error (rds_names [CtCompressible] (rd :: rds)) (i - idx) = Some nm).
    { intros i nm [E|Hin].
      - inversion E; subst. split; [exact Gn|]. split; [lia|]. cbn [rds_names]. rewrite H1, Nat.sub_diag. reflexivity.
      - destruct (IH (S idx) g1 a1 Hrest Ern i nm Hin) as (A & B & C). split; [exact A|]. split; [lia|].
        cbn [rds_names]. rewrite H1. cbn [app]. replace (i - idx) with (S (i - S idx)) by lia. exact C. }
    destruct (eq_or_subdomain_of n child); intros H; inversion H; subst; intros i nm Hin; apply Hcase.
    + cbn [app] in Hin. destruct Hin as [E|Hin]; [left; auto|right; exact Hin].
    + apply in_app_or in Hin. destruct Hin as [Hin|[E|Hin]]; [right; apply in_or_app; auto|left; auto|right; apply in_or_app; auto].
Qed.

Lemma referral_names_no_panic child : forall rds idx, referral_names child rds idx <> Panic.
Proof.
  induction rds as [|rd rds IH]; intros idx; cbn [referral_names]; [discriminate|].
  pose proof (read_name_no_panic rd 0) as NP.
  destruct (read_name_from_rdata rd 0) as [n|e|]; cbn [bind]; try discriminate; try congruence.
  specialize (IH (S idx)). destruct (referral_names child rds (S idx)) as [[g1 a1]|e|]; cbn [bind]; try discriminate; try congruence.
  destruct (eq_or_subdomain_of n child); discriminate.
Qed.

(* the entries of the glue and additional lists: (slot of the vector, name read from that RDATA) *)
Definition slots_ok (rds : list bytes) (l : list (nat * zname)) : Prop :=
  Forall (fun p => good_name (snd p) /\ nth_error (rds_names [CtCompressible] rds) (fst p) = Some (snd p)) l.

Lemma glue_loop_S r v rds : forall l d g, St d g -> vec_issued d g r v [CtCompressible] rds -> slots_ok rds l ->
  QS d g (glue_loop w_iface z l v (d_w d)).
Proof.
  induction l as [|[idx n] l IH]; intros d g HS Hv Hl; cbn [glue_loop]; [apply QS_ok_here; auto|].
  inversion Hl as [|? ? [Gn Hn] Hl']; subst.
  apply (QS_bind _ _ _ _ (lift_add_QS _ _ _ (vec_addrs_RS d g r v _ rds idx n true HS Hv (or_intror Hn) Gn))).
  intros _ d1 g1 HS1 F1. apply IH; auto. eapply vec_issued_frame; eauto.
Qed.

Lemma optional_loop_S r v rds : forall l d g, St d g -> vec_issued d g r v [CtCompressible] rds -> slots_ok rds l ->
  QS d g (optional_loop w_iface z l v (d_w d)).
Proof.
  induction l as [|[idx n] l IH]; intros d g HS Hv Hl; cbn [optional_loop]; [apply QS_ok_here; auto|].
  inversion Hl as [|? ? [Gn Hn] Hl']; subst.
  apply (QS_bind _ _ _ _ (allow_QS _ _ _ (vec_addrs_RS d g r v _ rds idx n true HS Hv (or_intror Hn) Gn))).
  intros _ d1 g1 HS1 F1. apply IH; auto. eapply vec_issued_frame; eauto.
Qed.

Lemma referral_S child ns d g : St d g -> good_name child -> Forall (Pz 2%N) (snd ns) ->
  QS d g (do_referral w_iface z child ns (d_w d)).
Proof.
  intros HS Gc HP. unfold do_referral.
  apply (QSp_bind _ _ _ _ _ (lift_addv_QSp _ _ _ _
           (add_rrset_QSp d g SNs QhNone HsNone child ZoneConsts.TYPE_NS (fst ns) (snd ns) true HS eq_refl I Gc HP eq_refl))).
  intros v d1 g1 HS1 _ [_ Hv]. specialize (Hv eq_refl).
  change (component_types (z_class z) ZoneConsts.TYPE_NS) with [CtCompressible] in Hv.
  pose proof (referral_names_no_panic child (snd ns) 0) as NP.
  destruct (referral_names child (snd ns) 0) as [[glues adds]|e|] eqn:Ern; [|apply QS_here; auto|congruence].
  assert (Hall : slots_ok (snd ns) (glues ++ adds)).
  { apply Forall_forall. intros [i nm] Hin.
    destruct (referral_names_facts child (snd ns) 0 glues adds (proj1 (Pz_split _ _ HP)) Ern i nm Hin) as (A & _ & C).
    rewrite Nat.sub_0_r in C. auto. }
  apply Forall_app in Hall as [Hg Ha].
  apply (QS_bind _ _ _ _ (glue_loop_S _ v (snd ns) glues d1 g1 HS1 Hv Hg)).
  intros _ d2 g2 HS2 F2. apply (optional_loop_S (length (d_regs d)) v (snd ns) adds); auto. eapply vec_issued_frame; eauto.
Qed.

Lemma found_S h hs owner ty rs d g : St d g -> good_name owner -> single_good Pz ty rs ->
  hint_agrees (d_regs d) h hs -> hs_contract (d_regs d) g hs owner ->
  QS d g (add_found w_iface z h owner ty rs (d_w d)).
Proof.
  intros HS Gn [HP Hne] Hh Hc. unfold add_found.
  apply (QSp_bind _ _ _ _ _ (lift_addv_QSp _ _ _ _
           (add_rrset_QSp d g SAn h hs owner ty (fst rs) (snd rs) true HS Hh Hc Gn HP (Pz_ty _ _ HP Hne)))).
  intros v d1 g1 HS1 _ [_ Hv]. apply (additional_S ty rs (length (d_regs d)) v); auto. apply (Pz_split _ _ HP).
Qed.

Variable qname : zname.
Hypothesis Hqn : good_name qname.

Definition Gq (g : gn) : Prop := g_q g = Some qname.

Lemma Gq_frame d g d1 g1 : Frame d g d1 g1 -> Gq g -> Gq g1.
Proof. intros (E & _) H. unfold Gq. rewrite E. exact H. Qed.

(* the owner of the next CNAME record and its hint: the target of the previous one (then the most recent name in
   RDATA), or the QNAME *)
Lemma cname_owner regs g (os : list zname) : Gq g ->
  (forall o, last_opt os = Some o -> good_name o /\ g_r g = Some o) ->
  exists h hs (owner : zname),
    match @last_opt zname os with Some o => (QhRdata, o) | None => (QhQname, qname) end = (h, owner) /\
    good_name owner /\ hint_agrees regs h hs /\ hs_contract regs g hs owner.
Proof.
  intros HGq Hlast. destruct (@last_opt zname os) as [o|] eqn:El.
  - destruct (Hlast o eq_refl) as [Go Hgr]. exists QhRdata, HsRdata, o.
    split; [reflexivity|]. split; [exact Go|]. split; [reflexivity|apply contract_same; exact Hgr].
  - exists QhQname, HsQname, qname. split; [reflexivity|]. split; [exact Hqn|]. split; [reflexivity|apply contract_same; exact HGq].
Qed.

(* follow_cname_1 is called with fuel = 8 - (owners seen), 8 = PREVIOUS_OWNERS_CAP + 1: it never reaches fuel 0,
   where the model panics *)
Lemma cname_fuel (os : list zname) (cname : zname) fuel : length os + S fuel = 8 -> length os < 7 ->
  1 <= fuel /\ length (os ++ [cname]) + fuel = 8.
Proof. clear. rewrite app_length. cbn [length]. lia. Qed.

Lemma cname_S ty : forall fuel cn os d g, St d g -> Gq g -> Forall (Pz 5%N) (snd cn) ->
  1 <= fuel -> length os + fuel = 8 ->
  (forall o, last_opt os = Some o -> good_name o /\ g_r g = Some o) ->
  QS d g (follow_cname_1 w_iface negttl z fuel qname ty cn os (d_w d)).
Proof.
  induction fuel as [|fuel IH]; intros cn os d g HS HGq Hrds Hf Hlen Hlast; [lia|].
  cbn [follow_cname_1].
  destruct (snd cn) as [|rd rest] eqn:Ecn; [apply QS_here; auto|].
  inversion Hrds as [|? ? HPrd _]; subst. pose proof (proj1 (proj1 HPrd)) as Hrd.
  pose proof (name_from_all_no_panic rd) as NP.
  destruct (name_from_all rd) as [[[cname wire]|]|e|] eqn:En; try congruence; try (apply QS_here; auto; fail).
  destruct (name_from_all_facts _ _ _ Hrd En) as (-> & Hne & Gcn & _).
  destruct (zname_eqb cname qname || existsb (zname_eqb cname) os); [apply QS_here; auto|].
  destruct (cname_owner (d_regs d) g os HGq Hlast) as (h & hs & owner & -> & Gown & Hh & Hc).
  (* rd <> [] made visible, so that the model's [match cname_wire with [] => Panic] reduces *)
  destruct rd as [|b0 rd']; [congruence|]. set (rd := b0 :: rd') in *.
  apply (QSp_bind _ _ _ _ _ (add_rr_QSp d g SAn h hs owner ZoneConsts.TYPE_CNAME (fst cn) rd HS Hh Hc Gown HPrd)).
  intros _ d1 g1 HS1 F1 Hgr. pose proof (Gq_frame _ _ _ _ F1 HGq) as HGq1.
  rewrite (cname_rd_names (z_class z) rd cname rd Hrd En
           : rd_names (component_types (z_class z) ZoneConsts.TYPE_CNAME) rd = [cname]) in Hgr. cbn [lastn] in Hgr.
  unfold follow_cname_2_body.
  destruct (zone_lookup_refines req apex cls z R cname ty false false Hinv) as (r & Hz & Hs); [discriminate|].
  rewrite Hz. cbn [zl].
  pose proof (spec_lookup_good req apex cls R Pz HR _ _ _ _ _ Hs) as G.
  destruct r as [s sos|next sos|c ns|sos| |]; cbn [lookup_good] in G.
  - apply (found_S QhRdata HsRdata); auto; [reflexivity|]. apply contract_same. exact Hgr.
  - destruct G as [GP _].
    destruct (_ <? PREVIOUS_OWNERS_CAP) eqn:L; change PREVIOUS_OWNERS_CAP with 7 in L; [|apply QS_here; auto].
    apply Nat.ltb_lt in L.
    pose proof (cname_fuel os cname fuel Hlen L) as Hfu.
    apply IH; auto; try tauto.
    intros o Ho. rewrite last_opt_snoc in Ho. inversion Ho; subst. auto.
  - destruct G as [GP Gs]. apply referral_S; auto. eapply good_name_suffix; eauto.
  - apply negsoa_S; auto.
  - apply QS_bind; [apply set_rcode_QS; [exact HS1|reflexivity]|]. intros _ d2 g2 HS2 _. apply negsoa_S; auto.
  - apply QS_ok_here; auto.
Qed.

Lemma any_loop_S : forall rrsets n d g, St d g -> Gq g ->
  Forall (fun x => Forall (Pz (rs_type x)) (rs_rdatas x) /\ rs_rdatas x <> []) rrsets ->
  QS d g (any_loop w_iface z qname rrsets n (d_w d)).
Proof.
  induction rrsets as [|x rrsets IH]; intros n d g HS HGq Hall; cbn [any_loop]; [apply QS_ok_here; auto|].
  inversion Hall as [|? ? (HxP & Hxne) Hrest]; subst.
  apply (QSp_bind _ _ _ _ _ (lift_addv_QSp _ _ _ _
           (add_rrset_QSp d g SAn QhQname HsQname qname (rs_type x) (rs_ttl x) (rs_rdatas x) false HS eq_refl
              (contract_same _ g HsQname qname HGq) Hqn HxP (Pz_ty _ _ HxP Hxne)))).
  intros _ d1 g1 HS1 F1 _. apply IH; auto. exact (Gq_frame _ _ _ _ F1 HGq).
Qed.

Hypothesis Hzone : in_zone apex qname = true.

Lemma nxdomain_S d g : St d g -> QS d g (nxdomain w_iface negttl z (d_w d)).
Proof.
  intros HS. unfold nxdomain. apply QS_bind; [apply set_rcode_QS; [exact HS|reflexivity]|]. intros _ d1 g1 HS1 _.
  apply set_aa_then_QS; auto. intros d2 g2 HS2 _. apply negsoa_S; auto.
Qed.

Lemma answer_S ty d g : St d g -> Gq g -> QS d g (answer w_iface negttl z qname ty (d_w d)).
Proof.
  intros HS HGq. unfold answer.
  destruct (zone_lookup_refines req apex cls z R qname ty true false Hinv (fun _ => Hzone)) as (r & Hz & Hs).
  rewrite Hz. cbn [zl].
  pose proof (spec_lookup_good req apex cls R Pz HR _ _ _ _ _ Hs) as G.
  pose proof (spec_lookup_not_wrong req apex cls R qname ty true false Hzone) as Hnw.
  destruct r as [s sos|cn sos|c ns|sos| |]; cbn [lookup_good norm_lookup] in *.
  - apply set_aa_then_QS; auto. intros d1 g1 HS1 F1.
    apply (found_S QhQname HsQname); auto; [reflexivity|]. apply contract_same. exact (Gq_frame _ _ _ _ F1 HGq).
  - destruct G as [GP _]. unfold do_cname. apply QS_bind; [apply set_aa_QS; exact HS|]. intros _ d1 g1 HS1 F1.
    change (S PREVIOUS_OWNERS_CAP) with 8.
    apply (cname_S ty 8 cn []); auto; try (cbn; lia); [exact (Gq_frame _ _ _ _ F1 HGq)|].
    intros o Ho. discriminate.
  - destruct G as [GP Gs]. apply referral_S; auto. eapply good_name_suffix; eauto.
  - apply set_aa_then_QS; auto. intros d1 g1 HS1 _. apply negsoa_S; auto.
  - apply nxdomain_S; auto.
  - congruence.
Qed.

Lemma answer_any_S d g : St d g -> Gq g -> QS d g (answer_any w_iface negttl z qname (d_w d)).
Proof.
  intros HS HGq. unfold answer_any.
  destruct (zone_lookup_all_refines req apex cls z R qname true false Hinv (fun _ => Hzone)) as (r & Hz & Hs).
  rewrite Hz. cbn [zl].
  pose proof (spec_all_good req apex cls R Pz HR _ _ _ _ Hs) as G.
  pose proof (spec_lookup_all_not_wrong req apex cls R qname true false Hzone) as Hnw.
  destruct r as [rrsets sos|c ns| |]; cbn [all_good norm_all] in *.
  - apply set_aa_then_QS; auto. intros d1 g1 HS1 F1.
    apply (QS_bind _ _ _ _ (any_loop_S rrsets 0 d1 g1 HS1 (Gq_frame _ _ _ _ F1 HGq) G)).
    intros n d2 g2 HS2 _. destruct (n =? 0); [apply negsoa_S|apply QS_ok_here]; auto.
  - destruct G as [GP Gs]. apply referral_S; auto. eapply good_name_suffix; eauto.
  - apply nxdomain_S; auto.
  - congruence.
Qed.

Lemma finish_S (tcp : bool) d g (q : res (perr * writer) (unit * writer)) : QS d g q ->
  exists w' d' g',
    match q with
    | Panic => None
    | Ok (_, w1) => Some w1
    | Err (PServFail, w1) =>
      match wi_set_aa w_iface false w1 with
      | None => None
      | Some w2 => match wi_set_rcode w_iface RCODE_SERVFAIL w2 with
                   | None => None
                   | Some w3 => Some (wi_clear_rrs w_iface w3)
                   end
      end
    | Err (PTruncation, w1) =>
      let w2 := wi_clear_rrs w_iface w1 in
      if tcp then
        match wi_set_aa w_iface false w2 with
        | None => None
        | Some w3 => wi_set_rcode w_iface RCODE_SERVFAIL w3
        end
      else wi_set_tc w_iface true w2
    end = Some w' /\ St d' g' /\ d_w d' = w'.
Proof.
  intros Q. destruct q as [[u w1]|[e w1]|]; cbn [QS] in Q; [| |contradiction]; destruct Q as (d1 & g1 & HS1 & <- & _).
  { exists (d_w d1), d1, g1. auto. }
  (* the error mapping: clear_rrs and header setters, each from whatever state the one before it left *)
  pose proof (fun d g (H : St d g) => St_set_aa Pop d0 g0 d g false H (Hpop_aa false)) as AA.
  pose proof (fun d g (H : St d g) => St_set_rcode Pop d0 g0 d g RCODE_SERVFAIL H eq_refl (Hpop_rc _)) as RC.
  pose proof (fun d g (H : St d g) => St_clear Pop d0 g0 d g H Hpop_clr) as CL.
  destruct e.
  - destruct (AA _ _ HS1) as (w2 & -> & HS2). destruct (RC _ _ HS2) as (w3 & E3 & HS3). cbn [d_w d_regs] in E3, HS3. rewrite E3.
    eexists _, _, _. split; [reflexivity|]. split; [exact (CL _ _ HS3)|reflexivity].
  - cbv zeta. specialize (CL _ _ HS1). destruct tcp.
    + destruct (AA _ _ CL) as (w3 & E3 & HS3). cbn [d_w d_regs] in E3, HS3. rewrite E3.
      destruct (RC _ _ HS3) as (w4 & E4 & HS4). eexists _, _, _. split; [exact E4|]. split; [exact HS4|reflexivity].
    + destruct (St_set_tc Pop d0 g0 _ _ true CL (Hpop_tc true)) as (w3 & E3 & HS3).
      eexists _, _, _. split; [exact E3|]. split; [exact HS3|reflexivity].
Qed.

Theorem handle_S ty tcp d g : St d g -> Gq g ->
  exists w' d' g', handle_non_axfr_query w_iface negttl z qname ty tcp (d_w d) = Some w' /\ St d' g' /\ d_w d' = w'.
Proof.
  intros HS HGq. unfold handle_non_axfr_query. apply (finish_S tcp d g).
  destruct (ty =? QTYPE_ANY)%N; [apply answer_any_S|apply answer_S]; auto.
Qed.

End Key.
