(* Safety framework for the zone-file parser monad and facts about the Reader model:
   no operation panics or runs out of fuel, none grows the unconsumed input, and the
   loops of field_or_eol_skipping_impl consume at least one octet per iteration. *)
From QV Require Import Base.ListX Model.ZfReader Model.ZfParser Proofs.ZfStdP.

Lemma skipn_app_exact {A} (a b : list A) : skipn (length a) (a ++ b) = b.
Proof. apply ListX.skipn_app_exact. reflexivity. Qed.

Lemma firstn_app_exact {A} (a b : list A) : firstn (length a) (a ++ b) = a.
Proof. apply ListX.firstn_app_exact. reflexivity. Qed.

Lemma rev_fast_rev {A} (l : list A) : rev_fast l = rev l.
Proof. unfold rev_fast. rewrite rev_append_rev. apply app_nil_r. Qed.

(* the model-only fuel bound stored in the reader dominates the unconsumed input *)
Definition wfr (r : rd) : Prop := length (r_rest r) + 2 <= r_fuel r.

(* [strict]: at least one octet was consumed; a loop whose body is strict may call itself on the fuel that is
   left.  The fuel field is carried unchanged so that wfr holds again of the reader that comes back. *)
Definition okres {A} (strict : bool) (Q : A -> Prop) (r : rd) (x : res zerr (A * rd)) : Prop :=
  match x with
  | Ok (a, r') =>
    r_fuel r' = r_fuel r /\
    (if strict then length (r_rest r') < length (r_rest r) else length (r_rest r') <= length (r_rest r)) /\
    Q a
  | Err (ZErr _ _) => True
  | Err ZOutOfFuel => False
  | Panic => False
  end.

Definition safe {A} (strict : bool) (m : M A) (Q : A -> Prop) : Prop :=
  forall r, wfr r -> okres strict Q r (m r).

(* for the fuelled loops: the fuel argument exceeds the unconsumed input *)
Definition safeN {A} (n : nat) (m : M A) (Q : A -> Prop) : Prop :=
  forall r, wfr r -> length (r_rest r) < n -> okres false Q r (m r).

(* strictness may be dropped, never gained *)
Lemma okres_weaken_gen {A} s s' (Q1 Q2 : A -> Prop) r x : implb s' s = true ->
  okres s Q1 r x -> (forall a, Q1 a -> Q2 a) -> okres s' Q2 r x.
Proof.
  intros Hs H HQ. destruct x as [[a r']|[p k|]|]; simpl in *; auto.
  destruct H as (H1 & H2 & H3). split; [exact H1|]. split; [destruct s, s'; try discriminate; lia|]. auto.
Qed.

Lemma okres_weaken {A} s (Q1 Q2 : A -> Prop) r x :
  okres s Q1 r x -> (forall a, Q1 a -> Q2 a) -> okres false Q2 r x.
Proof. apply okres_weaken_gen. reflexivity. Qed.

Lemma safe_weaken_gen {A} s s' (m : M A) (Q1 Q2 : A -> Prop) : implb s' s = true ->
  safe s m Q1 -> (forall a, Q1 a -> Q2 a) -> safe s' m Q2.
Proof. intros Hs H HQ r Hr. exact (okres_weaken_gen s s' Q1 Q2 r _ Hs (H r Hr) HQ). Qed.

Lemma safe_weaken {A} s (m : M A) (Q1 Q2 : A -> Prop) :
  safe s m Q1 -> (forall a, Q1 a -> Q2 a) -> safe false m Q2.
Proof. apply safe_weaken_gen. reflexivity. Qed.

Lemma safe_weakenQ {A} s (m : M A) (Q1 Q2 : A -> Prop) :
  safe s m Q1 -> (forall a, Q1 a -> Q2 a) -> safe s m Q2.
Proof. apply safe_weaken_gen. destruct s; reflexivity. Qed.

Lemma safe_unstrict {A} (m : M A) Q : safe true m Q -> safe false m Q.
Proof. intros H. eapply safe_weaken; [exact H|auto]. Qed.

Lemma okres_bind {A B} s1 s2 (m : M A) (f : A -> M B) (Q1 : A -> Prop) (Q2 : B -> Prop) r :
  wfr r -> okres s1 Q1 r (m r) ->
  (forall a r', Q1 a -> wfr r' -> r_fuel r' = r_fuel r -> length (r_rest r') <= length (r_rest r) ->
                okres s2 Q2 r' (f a r')) ->
  okres (s1 || s2) Q2 r (bindM m f r).
Proof.
  intros Hr Hm Hf. unfold bindM. destruct (m r) as [[a r']|[p k|]|]; simpl in *; auto.
  destruct Hm as (H1 & H2 & H3).
  assert (Hle : length (r_rest r') <= length (r_rest r)) by (destruct s1; lia).
  assert (Hr' : wfr r') by (unfold wfr in *; lia).
  specialize (Hf a r' H3 Hr' H1 Hle).
  destruct (f a r') as [[b r'']|[p k|]|]; simpl in *; auto.
  destruct Hf as (G1 & G2 & G3). split; [congruence|]. split; [|exact G3].
  destruct s1, s2; simpl; lia.
Qed.

Lemma safe_bind_gen {A B} s1 s2 (m : M A) (f : A -> M B) (Q1 : A -> Prop) (Q2 : B -> Prop) :
  safe s1 m Q1 -> (forall a, Q1 a -> safe s2 (f a) Q2) -> safe (s1 || s2) (bindM m f) Q2.
Proof.
  intros Hm Hf r Hr. apply (okres_bind s1 s2 m f Q1 Q2 r Hr (Hm r Hr)).
  intros a r' Ha Hr' _ _. apply Hf; assumption.
Qed.

Lemma safe_bind {A B} (m : M A) (f : A -> M B) (Q1 : A -> Prop) (Q2 : B -> Prop) :
  safe false m Q1 -> (forall a, Q1 a -> safe false (f a) Q2) -> safe false (bindM m f) Q2.
Proof. exact (safe_bind_gen false false m f Q1 Q2). Qed.

Lemma safe_bind_tf {A B} (m : M A) (f : A -> M B) (Q1 : A -> Prop) (Q2 : B -> Prop) :
  safe true m Q1 -> (forall a, Q1 a -> safe false (f a) Q2) -> safe true (bindM m f) Q2.
Proof. exact (safe_bind_gen true false m f Q1 Q2). Qed.

Lemma safe_bind_ft {A B} (m : M A) (f : A -> M B) (Q1 : A -> Prop) (Q2 : B -> Prop) :
  safe false m Q1 -> (forall a, Q1 a -> safe true (f a) Q2) -> safe true (bindM m f) Q2.
Proof. exact (safe_bind_gen false true m f Q1 Q2). Qed.

Lemma safe_ret {A} (a : A) (Q : A -> Prop) : Q a -> safe false (ret a) Q.
Proof. intros H r Hr. simpl. auto. Qed.

Lemma safe_failM {A} s p k (Q : A -> Prop) : safe s (failM p k) Q.
Proof. intros r Hr. exact I. Qed.

Lemma safe_failHere {A} s k (Q : A -> Prop) : safe s (failHere k) Q.
Proof. intros r Hr. exact I. Qed.

Lemma safe_getpos : safe false getpos (fun _ => True).
Proof. intros r Hr. simpl. auto. Qed.

Lemma safe_lift {A} (f : rd -> A * rd) :
  (forall r, r_fuel (snd (f r)) = r_fuel r /\ length (r_rest (snd (f r))) <= length (r_rest r)) ->
  safe false (lift f) (fun _ => True).
Proof.
  intros H r Hr. unfold lift. specialize (H r). destruct (f r) as [a r']. simpl in *. tauto.
Qed.

Lemma safe_with_fuel {A} (f : nat -> M A) (Q : A -> Prop) :
  (forall n, safeN n (f n) Q) -> safe false (bindM get_fuel f) Q.
Proof.
  intros H r Hr. unfold bindM, get_fuel. apply H; [exact Hr|]. unfold wfr in Hr. lia.
Qed.

Lemma safeN_of_safe {A} n (m : M A) Q : safe false m Q -> safeN n m Q.
Proof. intros H r Hr _. apply H. exact Hr. Qed.

Lemma okres_trans {A} s (Q : A -> Prop) r r1 x :
  r_fuel r1 = r_fuel r -> length (r_rest r1) <= length (r_rest r) -> okres s Q r1 x -> okres s Q r x.
Proof.
  intros F L. destruct x as [[a r2]|[p k|]|]; simpl; auto. intros (G1 & G2 & G3).
  split; [congruence|]. split; [destruct s; lia|exact G3].
Qed.

Lemma safe_at {A} (m : M A) Q r : safe false m Q -> wfr r -> okres false Q r (m r).
Proof. intros H Hr. exact (H r Hr). Qed.

Lemma safeN_bind {A B} n (m : M A) (f : A -> M B) (Q1 : A -> Prop) (Q2 : B -> Prop) :
  safeN n m Q1 -> (forall a, Q1 a -> safe false (f a) Q2) -> safeN n (bindM m f) Q2.
Proof.
  intros Hm Hf r Hr Hn. apply (okres_bind false false m f Q1 Q2 r Hr (Hm r Hr Hn)).
  intros a r' Ha Hr' _ _. apply Hf; assumption.
Qed.

Lemma safeN_bind_r {A B} n (m : M A) (f : A -> M B) (Q1 : A -> Prop) (Q2 : B -> Prop) :
  safe false m Q1 -> (forall a, Q1 a -> safeN n (f a) Q2) -> safeN n (bindM m f) Q2.
Proof.
  intros Hm Hf r Hr Hn. apply (okres_bind false false m f Q1 Q2 r Hr (Hm r Hr)).
  intros a r' Ha Hr' _ Hle. apply Hf; [assumption|assumption|lia].
Qed.

(* a computation that is safe on inputs shorter than n, started strictly ahead of r *)
Lemma okres_ahead {B} (m : M B) (Q : B -> Prop) n r r' :
  wfr r -> length (r_rest r) < S n -> r_fuel r' = r_fuel r -> length (r_rest r') < length (r_rest r) ->
  safeN n m Q -> okres true Q r (m r').
Proof.
  intros Hr Hn Hf Hl Hm. assert (W : wfr r') by (unfold wfr in *; lia).
  specialize (Hm r' W ltac:(lia)). destruct (m r') as [[b r'']|[p k|]|]; simpl in *; auto.
  destruct Hm as (G1 & G2 & G3). split; [congruence|]. split; [lia|exact G3].
Qed.

Lemma safe_try_ok {A} (m : M A) (Q : A -> Prop) :
  safe false m Q -> safe false (try_ok m) (fun o => match o with Some a => Q a | None => True end).
Proof.
  intros H r Hr. specialize (H r Hr). unfold try_ok.
  destruct (m r) as [[a r']|[p k|]|]; simpl in *; auto.
Qed.

Lemma adv_fuel r n : r_fuel (adv r n) = r_fuel r. Proof. reflexivity. Qed.
Lemma adv_line_fuel r n : r_fuel (adv_line r n) = r_fuel r. Proof. reflexivity. Qed.
Lemma adv_rest r n : r_rest (adv r n) = skipn n (r_rest r). Proof. reflexivity. Qed.
Lemma adv_line_rest r n : r_rest (adv_line r n) = skipn n (r_rest r). Proof. reflexivity. Qed.
Lemma adv_len r n : length (r_rest (adv r n)) = length (r_rest r) - n.
Proof. rewrite adv_rest. apply skipn_length. Qed.
Lemma adv_line_len r n : length (r_rest (adv_line r n)) = length (r_rest r) - n.
Proof. rewrite adv_line_rest. apply skipn_length. Qed.
Lemma set_paren_rest r b : r_rest (set_paren r b) = r_rest r. Proof. reflexivity. Qed.

Lemma get_eol_at_0 l e : get_eol_at l 0 = Some e -> e <= length l /\ (l <> [] -> 1 <= e).
Proof.
  unfold get_eol_at. destruct l as [|c t]; simpl.
  - intros [= <-]. split; [lia|congruence].
  - destruct (c =? 10)%N.
    + intros [= <-]. split; [lia|lia].
    + destruct t as [|d t']; simpl; [discriminate|].
      destruct ((c =? 13)%N && (d =? 10)%N); [|discriminate].
      intros [= <-]. split; lia.
Qed.

Lemma get_eol_at_none l i : get_eol_at l i = None -> exists c, nth_error l i = Some c.
Proof.
  unfold get_eol_at. destruct (nth_error l i) as [c|]; [eauto|discriminate].
Qed.

Lemma at_field_end_at_total l i : exists b, at_field_end_at l i = Ok b.
Proof.
  unfold at_field_end_at. destruct (get_eol_at l i) eqn:E; [eauto|].
  destruct (get_eol_at_none l i E) as [c Hc]. rewrite Hc. eauto.
Qed.

Lemma at_field_end_false l : at_field_end_at l 0 = Ok false -> exists c t, l = c :: t.
Proof.
  unfold at_field_end_at. destruct (get_eol_at l 0) eqn:E; [discriminate|].
  destruct l as [|c t]; [discriminate|]. eauto.
Qed.

Lemma expect_field_impl_spec field cmp r :
  expect_field_impl field cmp r = Ok (false, r) \/
  (expect_field_impl field cmp r = Ok (true, adv r (length field)) /\ length field <= length (r_rest r)).
Proof.
  unfold expect_field_impl.
  destruct (length (firstn (length field) (r_rest r)) =? length field) eqn:E; [|auto].
  apply Nat.eqb_eq in E. rewrite firstn_length in E.
  destruct (cmp _ field); [|auto].
  destruct (at_field_end_at_total (r_rest r) (length field)) as [b Hb]. rewrite Hb. simpl.
  destruct b; [right|auto]. split; [reflexivity|lia].
Qed.

Lemma safe_expect_field_impl field cmp : safe false (expect_field_impl field cmp) (fun _ => True).
Proof.
  intros r Hr. destruct (expect_field_impl_spec field cmp r) as [H|[H Hl]]; rewrite H; unfold okres.
  - auto.
  - rewrite ?adv_len, ?skipn_length. split; [reflexivity|]. split; [lia|exact I].
Qed.

Lemma scan_field_spec : forall l len,
  match scan_field l len with
  | Ok n => (len <= n)%N /\ N.to_nat (n - len) <= length l
  | Err k => k = FieldTooLong
  | Panic => False
  end.
Proof.
  induction l as [|c t IH]; intros len.
  - simpl. split; [lia|]. rewrite N.sub_diag. simpl. lia.
  - cbn [scan_field]. destruct (at_field_end_at_total (c :: t) 0) as [b Hb]. rewrite Hb.
    destruct b.
    + split; [lia|]. rewrite N.sub_diag. simpl. lia.
    + destruct (MAX_READ_FIELD_SIZE <? len + 1)%N; [reflexivity|].
      specialize (IH (len + 1)%N). destruct (scan_field t (len + 1)) as [n|k|]; auto.
      destruct IH as [I1 I2]. split; [lia|]. simpl. lia.
Qed.

Lemma read_field_ok {T E} (parse : bytes -> T + E) (k : E -> zkind) r :
  match read_field parse k r with
  | Ok (v, r') => exists n, r' = adv r n /\ n <= length (r_rest r) /\ parse (firstn n (r_rest r)) = inl v
  | Err (ZErr _ _) => True
  | _ => False
  end.
Proof.
  unfold read_field. pose proof (scan_field_spec (r_rest r) 0) as Hs.
  destruct (scan_field (r_rest r) 0) as [n|kk|]; [|exact I|exact Hs].
  destruct (utf8_valid _); [|exact I].
  destruct (parse (firstn (N.to_nat n) (r_rest r))) eqn:Ep; [|exact I].
  exists (N.to_nat n). rewrite N.sub_0_r in Hs. split; [reflexivity|]. split; [apply Hs|exact Ep].
Qed.

Lemma safe_read_field {T E} (parse : bytes -> T + E) (k : E -> zkind) :
  safe false (read_field parse k) (fun v => exists s, parse s = inl v).
Proof.
  intros r Hr. pose proof (read_field_ok parse k r) as H.
  destruct (read_field parse k r) as [[v r']|[p kk|]|]; try exact H. destruct H as (n & -> & Hn & Hp).
  unfold okres. rewrite adv_len. split; [reflexivity|]. split; [lia|]. eauto.
Qed.

Lemma safe_read_field_strict {T E} (parse : bytes -> T + E) (k : E -> zkind) :
  (forall v, parse [] <> inl v) ->
  safe true (read_field parse k) (fun v => exists s, parse s = inl v).
Proof.
  intros Hnil r Hr. pose proof (read_field_ok parse k r) as H.
  destruct (read_field parse k r) as [[v r']|[p kk|]|]; try exact H. destruct H as (n & -> & Hn & Hp).
  destruct n as [|n]; [destruct (Hnil _ Hp)|].
  unfold okres. rewrite adv_len. split; [reflexivity|]. split; [lia|]. eauto.
Qed.

Lemma read_field_octet_spec r :
  read_field_octet r = Ok (None, r) \/
  exists c t, r_rest r = c :: t /\ read_field_octet r = Ok (Some c, adv r 1).
Proof.
  unfold read_field_octet. destruct (at_field_end_at_total (r_rest r) 0) as [b Hb]. rewrite Hb. simpl.
  destruct b; [auto|]. right. destruct (at_field_end_false _ Hb) as (c & t & Hl). rewrite Hl. eauto.
Qed.

Lemma safe_read_field_octet : safe false read_field_octet (fun _ => True).
Proof.
  intros r Hr. destruct (read_field_octet_spec r) as [H|(c & t & Hl & H)]; rewrite H; unfold okres.
  - auto.
  - rewrite ?adv_len, ?skipn_length. split; [reflexivity|]. split; [lia|exact I].
Qed.

(* the reader stands on field data: read_field_octet consumes an octet *)
Definition on_field (r : rd) : bool :=
  match at_field_end_at (r_rest r) 0 with Ok false => true | _ => false end.

Lemma field_octet_step {B} (f : option N -> M B) (Q : B -> Prop) n r :
  wfr r -> length (r_rest r) < S n ->
  safe false (f None) Q -> (forall c, safeN n (f (Some c)) Q) ->
  okres (on_field r) Q r (bindM read_field_octet f r).
Proof.
  intros Hr Hn HN HS. unfold bindM, on_field, read_field_octet.
  destruct (at_field_end_at_total (r_rest r) 0) as [[|] Hb]; rewrite Hb; cbn [bind]; [apply HN, Hr|].
  destruct (at_field_end_false _ Hb) as (c & t & Hl). rewrite Hl.
  apply (okres_ahead _ Q n r); auto using adv_fuel. rewrite adv_len, Hl. cbn. lia.
Qed.

Lemma field_octet_stepN {B} (f : option N -> M B) (Q : B -> Prop) n :
  safe false (f None) Q -> (forall c, safeN n (f (Some c)) Q) -> safeN (S n) (bindM read_field_octet f) Q.
Proof. intros HN HS r Hr Hn. eapply okres_weaken; [apply (field_octet_step f Q n r); assumption|auto]. Qed.

Lemma read_octet_le r : r_fuel (snd (read_octet r)) = r_fuel r /\
  length (r_rest (snd (read_octet r))) <= length (r_rest r).
Proof.
  unfold read_octet. destruct (r_rest r) as [|c t] eqn:E; simpl; [rewrite E; auto|].
  destruct (c =? 10)%N; simpl; rewrite E; simpl; auto.
Qed.

Lemma read_octet_some r c r' : read_octet r = (Some c, r') ->
  r_fuel r' = r_fuel r /\ length (r_rest r') < length (r_rest r).
Proof.
  unfold read_octet. destruct (r_rest r) as [|d t] eqn:E; [discriminate|].
  intros [= <- <-]. destruct (d =? 10)%N; simpl; rewrite E; simpl; auto.
Qed.

Lemma read_octet_step {B} (f : option N -> M B) (Q : B -> Prop) n r :
  wfr r -> length (r_rest r) < S n ->
  (forall r', wfr r' -> okres false Q r' (f None r')) ->
  (forall c, safeN n (f (Some c)) Q) ->
  okres false Q r (bindM (lift read_octet) f r).
Proof.
  intros Hr Hn HN HS. unfold bindM, lift. destruct (read_octet r) as [[c|] r'] eqn:E.
  - destruct (read_octet_some r c r' E) as [E1 E2].
    eapply okres_weaken; [apply (okres_ahead _ Q n r r'); auto|auto].
  - unfold read_octet in E. destruct (r_rest r) as [|d t]; [|discriminate]. inversion E; subst. apply HN, Hr.
Qed.

Lemma read2_le r : r_fuel (snd (read2 r)) = r_fuel r /\
  length (r_rest (snd (read2 r))) <= length (r_rest r).
Proof.
  unfold read2. destruct (r_rest r) as [|a [|b t]] eqn:E; simpl; try (rewrite E; auto). simpl. auto.
Qed.

Lemma count_ws_le l : count_ws l <= length l.
Proof. induction l as [|c t IH]; simpl; [lia|]. destruct (is_whitespace c); lia. Qed.

Lemma skip_whitespace_le r : r_fuel (snd (skip_whitespace r)) = r_fuel r /\
  length (r_rest (snd (skip_whitespace r))) <= length (r_rest r).
Proof. unfold skip_whitespace. simpl. rewrite skipn_length. split; [reflexivity|lia]. Qed.

Lemma skip_whitespace_cases r :
  (fst (skip_whitespace r) = true /\ length (r_rest (snd (skip_whitespace r))) < length (r_rest r)) \/
  (fst (skip_whitespace r) = false /\ r_rest (snd (skip_whitespace r)) = r_rest r).
Proof.
  unfold skip_whitespace. simpl. pose proof (count_ws_le (r_rest r)) as H.
  destruct (count_ws (r_rest r)) as [|n] eqn:E.
  - right. split; reflexivity.
  - left. split; [reflexivity|]. rewrite skipn_length. lia.
Qed.

Lemma count_ws_head l c t : skipn (count_ws l) l = c :: t -> is_whitespace c = false.
Proof.
  induction l as [|x l IH]; simpl; [discriminate|].
  destruct (is_whitespace x) eqn:E; simpl; [exact IH|]. intros [= <- _]. exact E.
Qed.

Lemma to_eol_spec : forall l, let '(n, e) := to_eol l in
  n + e <= length l /\ (get_eol_at l 0 = None -> 1 <= n).
Proof.
  induction l as [|c t IH].
  - simpl. split; [lia|discriminate].
  - cbn [to_eol]. destruct (get_eol_at (c :: t) 0) as [e|] eqn:E.
    + split; [|discriminate]. apply get_eol_at_0 in E. lia.
    + destruct (to_eol t) as [n e]. destruct IH as [I1 _]. split; [simpl; lia|lia].
Qed.

Lemma eol_skipping_le through r :
  r_fuel (eol_skipping_impl through r) = r_fuel r /\
  length (r_rest (eol_skipping_impl through r)) <= length (r_rest r) /\
  (get_eol_at (r_rest r) 0 = None -> length (r_rest (eol_skipping_impl through r)) < length (r_rest r)).
Proof.
  unfold eol_skipping_impl. pose proof (to_eol_spec (r_rest r)) as H.
  destruct (to_eol (r_rest r)) as [n e]. destruct H as [H1 H2].
  destruct ((0 <? e) && through).
  - rewrite adv_line_fuel, adv_fuel, adv_line_len, adv_len. split; [reflexivity|]. split; [lia|].
    intros Hn. specialize (H2 Hn). lia.
  - rewrite adv_fuel, adv_len. split; [reflexivity|]. split; [lia|].
    intros Hn. specialize (H2 Hn). lia.
Qed.

(* the outcome x of the loop started on r: fuel untouched, nothing grown; at a field, or (through_eol, on
   non-empty input) past at least one octet *)
Definition foe_post (through : bool) (r : rd) (x : res zerr (field_or_eol * rd)) : Prop :=
  match x with
  | Ok (f, r') =>
    r_fuel r' = r_fuel r /\ length (r_rest r') <= length (r_rest r) /\
    match f with
    | Field => at_field_end_at (r_rest r') 0 = Ok false
    | Eol => through = true -> r_rest r <> [] -> length (r_rest r') < length (r_rest r)
    end
  | Err (ZErr _ _) => True
  | Err ZOutOfFuel => False
  | Panic => False
  end.

(* the loop goes round from a reader r2 with less input than r *)
Lemma foe_post_step through r r2 x : r_fuel r2 = r_fuel r -> length (r_rest r2) < length (r_rest r) ->
  foe_post through r2 x -> foe_post through r x.
Proof.
  intros Hf Hl. destruct x as [[f r']|[p k|]|]; simpl; auto. intros (I1 & I2 & I3).
  split; [congruence|]. split; [lia|]. destruct f; [exact I3|]. intros _ _. lia.
Qed.

Lemma foe_spec : forall fuel through r, length (r_rest r) < fuel -> foe_post through r (foe_loop fuel through r).
Proof.
  induction fuel as [|fuel IH]; intros through r Hlen; [lia|].
  cbn [foe_loop].
  pose proof (skip_whitespace_le r) as [Wf Wl].
  pose proof (skip_whitespace_cases r) as Wc.
  set (r1 := snd (skip_whitespace r)) in *.
  assert (Loop : forall r2, r_fuel r2 = r_fuel r1 -> length (r_rest r2) < length (r_rest r1) ->
                 foe_post through r (foe_loop fuel through r2)).
  { intros r2 Hf Hl. apply (foe_post_step through r r2); [congruence|lia|apply IH; lia]. }
  destruct (get_eol_at (r_rest r1) 0) as [e|] eqn:E.
  - pose proof (get_eol_at_0 _ _ E) as [E1 E2].
    destruct (r_paren r1).
    + destruct (e =? 0) eqn:E0; [exact I|]. apply Nat.eqb_neq in E0.
      apply Loop; [apply adv_line_fuel|rewrite adv_line_len; lia].
    + unfold foe_post. destruct (through && (0 <? e)) eqn:T.
      * rewrite adv_line_fuel, adv_line_len. split; [exact Wf|]. split; [lia|].
        intros _ Hn. apply andb_true_iff in T. destruct T as [_ T]. apply Nat.ltb_lt in T. lia.
      * split; [exact Wf|]. split; [exact Wl|]. intros -> Hn. simpl in T.
        apply Nat.ltb_ge in T. destruct Wc as [[_ Hs]|[_ Hs]]; [exact Hs|].
        rewrite Hs in E2. specialize (E2 Hn). lia.
  - destruct (get_eol_at_none _ _ E) as [c Hc].
    destruct (r_rest r1) as [|o t] eqn:Er; [discriminate|]. rewrite <- Er in *.
    pose proof (eol_skipping_le true r1) as (S1 & S2 & S3).
    pose proof (eol_skipping_le false r1) as (T1 & T2 & T3). specialize (S3 E). specialize (T3 E).
    assert (Hpos : 1 <= length (r_rest r1)) by (rewrite Er; simpl; lia).
    destruct (o =? 59)%N eqn:Eq59.
    + destruct (r_paren r1); [apply Loop; [exact S1|exact S3]|].
      unfold foe_post. destruct through.
      * unfold skip_through_eol. split; [congruence|]. split; [lia|]. intros _ _. lia.
      * unfold skip_to_eol. split; [congruence|]. split; [lia|]. intros; discriminate.
    + destruct (o =? 40)%N eqn:Eq40.
      * destruct (r_paren r1); [exact I|]. apply Loop; [reflexivity|rewrite adv_len, set_paren_rest; lia].
      * destruct (o =? 41)%N eqn:Eq41.
        -- destruct (negb (r_paren r1)); [exact I|]. apply Loop; [reflexivity|rewrite adv_len, set_paren_rest; lia].
        -- split; [exact Wf|]. split; [lia|].
           unfold at_field_end_at. rewrite E, Er. cbn [nth_error]. unfold ends_field.
           rewrite (count_ws_head (r_rest r) o t Er), Eq59, Eq40, Eq41. reflexivity.
Qed.

Lemma foe_wfr through r : wfr r -> foe_post through r (foe_loop (foe_fuel r) through r).
Proof. intros Hr. apply foe_spec. unfold wfr, foe_fuel in *. lia. Qed.

Lemma through_spec r : wfr r -> foe_post true r (skip_to_next_field_or_through_eol r).
Proof. exact (foe_wfr true r). Qed.

Lemma safe_foe through : safe false (fun r => foe_loop (foe_fuel r) through r) (fun _ => True).
Proof.
  intros r Hr. pose proof (foe_wfr through r Hr) as H.
  destruct (foe_loop (foe_fuel r) through r) as [[f r']|[p k|]|]; simpl in *; auto. tauto.
Qed.

Lemma foe_at_field through r : wfr r ->
  match foe_loop (foe_fuel r) through r with
  | Ok (Field, r') => at_field_end_at (r_rest r') 0 = Ok false
  | _ => True
  end.
Proof.
  intros Hr. pose proof (foe_wfr through r Hr) as H.
  destruct (foe_loop (foe_fuel r) through r) as [[f r']|[p k|]|]; auto. destruct f; [apply H|exact I].
Qed.

Lemma safe_through : safe false skip_to_next_field_or_through_eol (fun _ => True).
Proof. exact (safe_foe true). Qed.
Lemma safe_to : safe false skip_to_next_field_or_to_eol (fun _ => True).
Proof. exact (safe_foe false). Qed.

Lemma safe_skip_to_next_field k : safe false (skip_to_next_field k) (fun _ => True).
Proof.
  intros r Hr. unfold skip_to_next_field. pose proof (safe_to r Hr) as H.
  destruct (skip_to_next_field_or_to_eol r) as [[f r']|[p kk|]|]; simpl in *; auto.
  destruct f; simpl; auto.
Qed.

Lemma safe_expect_eol : safe false expect_eol (fun _ => True).
Proof.
  intros r Hr. unfold expect_eol. pose proof (safe_through r Hr) as H.
  destruct (skip_to_next_field_or_through_eol r) as [[f r']|[p kk|]|]; simpl in *; auto.
  destruct f; simpl; auto.
Qed.
