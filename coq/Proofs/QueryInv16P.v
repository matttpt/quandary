(* Lifting an invariant of the Writer through the whole answering logic of Model/Query.v: if every
   operation of the Writer interface preserves P — in the state it returns on success AND in the
   state it leaves behind on failure — then so do answer and answer_any, whatever the zone and the
   question.  The interface's set_rcode only has to preserve the invariant for RCODEs that fit in 4 bits —
   what the Rust type Rcode guarantees and all the answering logic ever passes (NXDOMAIN, SERVFAIL); this is
   what invariants about the RCODE's octet (RA and Z bits) need.
   (Generic in the interface; instantiated for the octet-level Writer in QueryWP.v.) *)
From QV Require Import Base.ListX Gen.ZoneConsts Gen.QueryConsts Model.ZoneTree Model.Query.

Section Lift.
Context {W : Type}.
Variable wi : wiface W.
Variable negttl : N -> N -> N.
Variable z : zone.
Variable P : W -> Prop.

Definition RP (r : res (wierr * W) W) : Prop :=
  match r with Ok w' => P w' | Err (_, w') => P w' | Panic => True end.
Definition QP {A} (q : res (perr * W) (A * W)) : Prop :=
  match q with Ok (_, w') => P w' | Err (_, w') => P w' | Panic => True end.

Hypothesis Hrr : forall s h o ty c ttl rd w, P w -> RP (wi_add_rr wi s h o ty c ttl rd w).
Hypothesis Hrrset : forall s h o ty c ttl rds b w, P w ->
  match wi_add_rrset wi s h o ty c ttl rds b w with Ok (_, w') => P w' | Err (_, w') => P w' | Panic => True end.
Hypothesis Haa : forall b w w', P w -> wi_set_aa wi b w = Some w' -> P w'.
Hypothesis Hrc : forall c w w', (c < 16)%N -> P w -> wi_set_rcode wi c w = Some w' -> P w'.

(* the model sequences its steps by "match q with Ok (a, w1) => k a w1 | other => other" *)
Lemma QP_then {A B} (q : res (perr * W) (A * W)) (k : A -> W -> res (perr * W) (B * W)) :
  QP q -> (forall a w1, P w1 -> QP (k a w1)) ->
  QP (match q with Ok (a, w1) => k a w1 | Err e => Err e | Panic => Panic end).
Proof. destruct q as [[a w1]|[e w1]|]; cbn [QP]; auto. Qed.

Lemma rrset_P s h o ty c ttl rds b w : P w -> QP (lift_addv (wi_add_rrset wi s h o ty c ttl rds b w)).
Proof.
  intros Hw. generalize (Hrrset s h o ty c ttl rds b w Hw).
  destruct (wi_add_rrset wi s h o ty c ttl rds b w) as [[v w1]|[e w1]|]; cbn [lift_addv QP]; auto.
Qed.

Lemma addrs_P owner h sbc w : P w -> RP (add_additional_addresses wi z owner h sbc w).
Proof.
  intros Hw. unfold add_additional_addresses.
  destruct (zl (zone_lookup_addrs z owner false sbc)) as [[a aaaa sos|c ns| |]|]; cbn [RP]; auto.
  (* the AAAA step, from whatever state the A step left *)
  assert (H6 : forall h1 w1, P w1 ->
    RP (if (z_class z =? CLASS_IN)%N
        then match aaaa with
             | Some (ttl, rdatas) =>
               match wi_add_rrset wi SAr h1 owner TYPE_AAAA CLASS_IN ttl rdatas false w1 with
               | Ok (_, w2) => Ok w2 | Err e => Err e | Panic => Panic end
             | None => Ok w1
             end
        else Ok w1)).
  { intros h1 w1 H1. destruct (z_class z =? CLASS_IN)%N; [|exact H1]. destruct aaaa as [[tb rb]|]; [|exact H1].
    generalize (Hrrset SAr h1 owner TYPE_AAAA CLASS_IN tb rb false w1 H1).
    destruct (wi_add_rrset wi SAr h1 owner TYPE_AAAA CLASS_IN tb rb false w1) as [[v w2]|[e w2]|]; auto. }
  destruct a as [[ta ra]|]; [|apply H6; exact Hw].
  generalize (Hrrset SAr h owner TYPE_A (z_class z) ta ra false w Hw).
  destruct (wi_add_rrset wi SAr h owner TYPE_A (z_class z) ta ra false w) as [[v w1]|[e w1]|]; auto.
Qed.

Lemma allow_P r : RP r -> QP (allow_truncation r).
Proof. destruct r as [w'|[[|] w']|]; cbn; auto. Qed.
Lemma lift_add_P r : RP r -> QP (lift_add r).
Proof. destruct r as [w'|[e w']|]; cbn; auto. Qed.

Lemma additional_loop_P start : forall rds v idx w, P w -> QP (additional_loop wi z start rds v idx w).
Proof.
  induction rds as [|rd rds IH]; intros v idx w Hw; cbn [additional_loop QP]; auto.
  destruct (read_name_from_rdata rd start) as [n|e|]; cbn [QP fail]; auto.
  apply QP_then; [apply allow_P, addrs_P, Hw|]. intros _ w1. apply IH.
Qed.

Lemma additional_P ty s v w : P w -> QP (do_additional_section_processing wi z ty s v w).
Proof.
  intros Hw. unfold do_additional_section_processing.
  destruct (negb _); cbn [QP]; auto.
  destruct (lookup_offset ADDITIONAL_TABLE ty); cbn [QP]; auto. apply additional_loop_P; auto.
Qed.

Lemma negsoa_P w : P w -> QP (add_negative_caching_soa wi negttl z w).
Proof.
  intros Hw. unfold add_negative_caching_soa.
  destruct (zone_soa z) as [[ttl [|rd rest]]|]; cbn [QP fail]; auto.
  destruct (read_soa_minimum rd) as [m|e|]; cbn [QP fail]; auto.
  apply lift_add_P. apply Hrr; auto.
Qed.

Lemma glue_loop_P : forall l v w, P w -> QP (glue_loop wi z l v w).
Proof.
  induction l as [|[idx n] l IH]; intros v w Hw; cbn [glue_loop QP]; auto.
  apply QP_then; [apply lift_add_P, addrs_P, Hw|]. intros _ w1. apply IH.
Qed.
Lemma optional_loop_P : forall l v w, P w -> QP (optional_loop wi z l v w).
Proof.
  induction l as [|[idx n] l IH]; intros v w Hw; cbn [optional_loop QP]; auto.
  apply QP_then; [apply allow_P, addrs_P, Hw|]. intros _ w1. apply IH.
Qed.

Lemma referral_P child ns w : P w -> QP (do_referral wi z child ns w).
Proof.
  intros Hw. unfold do_referral. apply (QP_then (lift_addv _)); [apply rrset_P, Hw|]. intros v w1 H1.
  destruct (referral_names child (snd ns) 0) as [[g a]|e|]; cbn [QP fail]; auto.
  apply QP_then; [apply glue_loop_P, H1|]. intros _ w2. apply optional_loop_P.
Qed.

Lemma found_P h owner ty rs w : P w -> QP (add_found wi z h owner ty rs w).
Proof.
  intros Hw. unfold add_found. apply (QP_then (lift_addv _)); [apply rrset_P, Hw|]. intros v w1. apply additional_P.
Qed.

Lemma set_rcode_then {A} c w (k : W -> res (perr * W) (A * W)) : (c < 16)%N -> P w -> (forall w1, P w1 -> QP (k w1)) ->
  QP (match lift_set (wi_set_rcode wi c w) with Ok (_, w1) => k w1 | Err e => Err e | Panic => Panic end).
Proof.
  intros Hc Hw Hk. destruct (wi_set_rcode wi c w) as [w1|] eqn:E; cbn [lift_set QP]; auto.
  apply Hk. exact (Hrc c w w1 Hc Hw E).
Qed.

Lemma cname_P qname ty : forall fuel cn os w, P w -> QP (follow_cname_1 wi negttl z fuel qname ty cn os w).
Proof.
  induction fuel as [|fuel IH]; intros cn os w Hw; cbn [follow_cname_1 QP]; auto.
  destruct (snd cn) as [|rd rest]; cbn [QP fail]; auto.
  destruct (name_from_all rd) as [[[cname wire]|]|e|]; cbn [QP fail]; auto.
  destruct (_ || _); cbn [QP fail]; auto.
  destruct (match last_opt os with Some o => (QhRdata, o) | None => (QhQname, qname) end) as [h owner].
  destruct wire as [|b0 wire']; cbn [QP]; auto.
  apply QP_then; [apply lift_add_P, Hrr, Hw|]. intros _ w1 H1. unfold follow_cname_2_body.
  destruct (zl (zone_lookup z cname ty false false)) as [[s sos|next sos|c ns|sos| |]|]; cbn [QP]; auto.
  - apply found_P; auto.
  - destruct (length os <? PREVIOUS_OWNERS_CAP); cbn [QP fail]; auto.
  - apply referral_P; auto.
  - apply negsoa_P; auto.
  - apply set_rcode_then; [reflexivity|exact H1|exact negsoa_P].
Qed.

Lemma set_aa_then_P k w : P w -> (forall w1, P w1 -> QP (k w1)) -> QP (set_aa_then wi k w).
Proof.
  intros Hw Hk. unfold set_aa_then. destruct (wi_set_aa wi true w) as [w1|] eqn:E; cbn [lift_set QP]; auto.
  apply Hk. eapply Haa; eauto.
Qed.

Lemma nxdomain_P w : P w -> QP (nxdomain wi negttl z w).
Proof.
  intros Hw. apply set_rcode_then; [reflexivity|exact Hw|]. intros w1 H1. apply set_aa_then_P; [exact H1|exact negsoa_P].
Qed.

Theorem answer_P qname ty w : P w -> QP (answer wi negttl z qname ty w).
Proof.
  intros Hw. unfold answer.
  destruct (zl (zone_lookup z qname ty true false)) as [[s sos|cn sos|c ns|sos| |]|]; cbn [QP]; auto.
  - apply set_aa_then_P; auto. intros w1 H1. apply found_P; auto.
  - apply (set_aa_then_P (follow_cname_1 wi negttl z (S PREVIOUS_OWNERS_CAP) qname ty cn [])); [exact Hw|apply cname_P].
  - apply referral_P; auto.
  - apply set_aa_then_P; [exact Hw|exact negsoa_P].
  - apply nxdomain_P; auto.
Qed.

Lemma any_loop_P qname : forall rrsets n w, P w -> QP (any_loop wi z qname rrsets n w).
Proof.
  induction rrsets as [|r rrsets IH]; intros n w Hw; cbn [any_loop QP]; auto.
  apply (QP_then (lift_addv _)); [apply rrset_P, Hw|]. intros _ w1. apply IH.
Qed.

Theorem answer_any_P qname w : P w -> QP (answer_any wi negttl z qname w).
Proof.
  intros Hw. unfold answer_any.
  destruct (zl (zone_lookup_all z qname true false)) as [[rrsets sos|c ns| |]|]; cbn [QP]; auto.
  - apply set_aa_then_P; auto. intros w1 H1. apply QP_then; [apply any_loop_P, H1|]. intros n w2 H2.
    destruct (n =? 0); cbn [QP]; auto. apply negsoa_P; auto.
  - apply referral_P; auto.
  - apply nxdomain_P; auto.
Qed.

End Lift.
