(* The wire-name functions of Model/NameWire.v against the specification.  The parsing loops are shown to
   compute what the specification's executable decoder [sdecode] computes, by one induction on the fuel
   each; what they do on the relation [decodes] then follows from [sdecode] <-> [decodes] (NameWireSP). *)
From QV Require Import Base.ListX Model.NameWire Spec.NameWireS Spec.NameRepr.
From QV Require Export Proofs.NameWireSP.

Local Open Scope nat_scope.

Lemma consts_vals : max_label_len = 63%N /\ max_wire_len = 255 /\ max_n_labels = 128.
Proof. repeat split; reflexivity. Qed.

Fixpoint upto (n : nat) : list N :=
  match n with O => [] | S k => upto k ++ [N.of_nat k] end.

Lemma upto_In n x : (x < N.of_nat n)%N -> In x (upto n).
Proof.
  induction n as [|n IH]; intros H; [lia|].
  simpl. apply in_or_app.
  destruct (N.eq_dec x (N.of_nat n)) as [->|Hne]; [right; left; reflexivity|].
  left. apply IH. lia.
Qed.

Lemma is_pointer_octet_spec b : (b < 256)%N -> is_pointer_octet b = (192 <=? b)%N.
Proof.
  intros H.
  assert (A : forallb (fun b => Bool.eqb (is_pointer_octet b) (192 <=? b)%N) (upto 256) = true)
    by (vm_compute; reflexivity).
  rewrite forallb_forall in A. specialize (A b (upto_In 256 b H)).
  apply Bool.eqb_prop in A. exact A.
Qed.

Lemma is_pointer_octet_0 : is_pointer_octet 0 = false.
Proof. reflexivity. Qed.

Lemma pointer_value hi lo : (192 <= hi)%N -> (hi < 256)%N -> (lo < 256)%N ->
  N.land (hi * 256 + lo) 16383 = ((hi - 192) * 256 + lo)%N.
Proof.
  intros H1 H2 H3.
  change 16383%N with (N.ones 14). rewrite N.land_ones.
  change (2 ^ 14)%N with 16384%N.
  replace (hi * 256 + lo)%N with (((hi - 192) * 256 + lo) + 3 * 16384)%N by lia.
  rewrite N.mod_add by lia. apply N.mod_small. lia.
Qed.

Lemma push_offset_ok offs x : length offs < 128 ->
  push_offset offs x = Some (offs ++ [(N.of_nat x mod 256)%N]).
Proof.
  intros H. unfold push_offset. change max_n_labels with 128.
  destruct (Nat.leb_spec 128 (length offs)); [lia|reflexivity].
Qed.

Lemma slice_label b i len : nth_error b i = Some len -> i + 1 + N.to_nat len <= length b ->
  slice b i (i + 1 + N.to_nat len) = len :: slice b (i + 1) (i + 1 + N.to_nat len).
Proof. intros H Hb. rewrite (slice_cons b i len), Nat.add_1_r by (auto; lia). reflexivity.
Qed.

Lemma parse_pointer_spec b cs i hi : wf_bytes b -> nth_error b i = Some hi -> (192 <= hi)%N ->
  parse_pointer b cs i =
  match nth_error b (i + 1) with
  | Some lo => let t := N.to_nat ((hi - 192) * 256 + lo) in if cs <=? t then Err InvalidPointer else Ok t
  | None => Err UnexpectedEom
  end.
Proof.
  intros Hwf H Hh. unfold parse_pointer. rewrite H. destruct (nth_error b (i + 1)) as [lo|] eqn:Hlo.
  - rewrite (proj2 (Nat.ltb_lt _ _) (nth_error_Some_lt _ _ _ Hlo)), pointer_value; auto.
    + exact (nth_error_Forall _ _ _ _ Hwf H).
    + exact (nth_error_Forall _ _ _ _ Hwf Hlo).
  - apply nth_error_None in Hlo. rewrite (proj2 (Nat.ltb_ge _ _) Hlo). reflexivity.
Qed.

(* What the loops need of the bound 255.  The loop lemmas below are stated over [m] with [m = 255] and use the
   equation through these two facts only, so that no step carries the unary literal (every [lia] over it is
   slow at Qed). *)
Lemma bound_255 m : m = 255 ->
  (forall offs x, 2 * length offs <= m -> push_offset offs x = Some (offs ++ [(N.of_nat x mod 256)%N])) /\
  max_wire_len = m.
Proof. intros ->. split; [intros; apply push_offset_ok; lia|reflexivity]. Qed.

Lemma parse_pointer_cases b cs i :
  match parse_pointer b cs i with Ok t => t < cs | Err e => e <> OutOfFuel | Panic => False end.
Proof.
  unfold parse_pointer. destruct (Nat.ltb_spec (i + 1) (length b)); [|discriminate].
  destruct (nth_error b i) eqn:A; [|apply nth_error_None in A; lia].
  destruct (nth_error b (i + 1)) eqn:B; [|apply nth_error_None in B; lia].
  destruct (Nat.leb_spec cs (N.to_nat (N.land (n * 256 + n0) 16383))); [discriminate|assumption].
Qed.

(* Same fuel on both sides; the decoder's budget is what the wire buffer has left.  [2 * length offs <=
   length wire] (every label so far took two octets or more) keeps the offsets below their capacity. *)
Lemma pc_sdecode b m : wf_bytes b -> m = 255 -> forall fuel cs i first offs wire,
  2 * length offs <= length wire -> length wire <= m ->
  match sdecode fuel b cs i (m - length wire) with
  | Some (rest, e) =>
    pc_loop fuel b cs i first offs wire =
      Ok (mkName (offs ++ offs_of (length wire) rest) (wire ++ wire_of rest),
          match first with None => e - cs | Some x => x end)
  | None => forall r, pc_loop fuel b cs i first offs wire <> Ok r
  end.
Proof.
  intros Hwf Hm.
  destruct (bound_255 m Hm) as [Hpush Hext]. clear Hm.
  induction fuel as [|fuel IH]; intros cs i first offs wire Ho Hw; [discriminate|].
  cbn [sdecode pc_loop]. destruct (nth_error b i) as [len|] eqn:Hi; [|discriminate].
  rewrite (is_pointer_octet_spec len (nth_error_Forall _ _ _ _ Hwf Hi)), Hpush by lia.
  unfold try_extend. change max_label_len with 63%N. rewrite Hext.
  destruct (N.eqb_spec len 0) as [->|Hne]; [|destruct (N.leb_spec len 63)].
  - (* root label *)
    cbn [N.leb N.ltb N.compare N.to_nat].
    rewrite Nat.add_0_r, Nat.add_1_r, (slice_cons b i 0%N), slice_nil by (auto; lia). cbn [length].
    destruct (Nat.leb_spec 1 (m - length wire)), (Nat.ltb_spec m (length wire + 1)); try lia; [reflexivity|discriminate].
  - (* label *)
    destruct (N.leb_spec 192 len); [lia|]. destruct (N.ltb_spec 63 len); [lia|].
    replace (i + N.to_nat len + 1) with (i + 1 + N.to_nat len) by lia.
    destruct (Nat.leb_spec (length b) (i + 1 + N.to_nat len)).
    { destruct (_ && _); [rewrite sdecode_eom by lia|]; discriminate. }
    destruct (Nat.leb_spec (i + 1 + N.to_nat len) (length b)); [|lia]. cbn [andb].
    rewrite (slice_label b i len Hi) by lia. cbn [length]. rewrite slice_length_add by lia.
    destruct (Nat.leb_spec (1 + N.to_nat len) (m - length wire)),
             (Nat.ltb_spec m (length wire + S (N.to_nat len))); try lia; [|discriminate].
    set (l := slice b (i + 1) (i + 1 + N.to_nat len)).
    assert (Hl : length (wire ++ len :: l) = length wire + 1 + N.to_nat len)
      by (rewrite app_length; cbn [length]; unfold l; rewrite slice_length_add; lia).
    specialize (IH cs (i + 1 + N.to_nat len) first (offs ++ [(N.of_nat (length wire) mod 256)%N]) (wire ++ len :: l)).
    rewrite Hl, app_length in IH. cbn [length] in IH.
    replace (m - (length wire + 1 + N.to_nat len)) with (m - length wire - (1 + N.to_nat len)) in IH by lia.
    destruct (sdecode fuel b cs _ _) as [[r e']|]; [|apply IH; lia]. rewrite IH by lia.
    rewrite wire_of_cons, <- !app_assoc. cbn [offs_of app]. subst l. rewrite slice_length_add, N2Nat.id by lia.
    reflexivity.
  - (* pointer *)
    destruct (N.leb_spec 192 len) as [H192|]; [|destruct (N.ltb_spec 63 len); [discriminate|lia]].
    rewrite (parse_pointer_spec b cs i len Hwf Hi H192).
    destruct (nth_error b (i + 1)) as [lo|]; [|discriminate]. cbv zeta.
    destruct (Nat.ltb_spec (N.to_nat ((len - 192) * 256 + lo)) cs),
             (Nat.leb_spec cs (N.to_nat ((len - 192) * 256 + lo))); try lia; [|discriminate].
    cbn [bind]. specialize (IH (N.to_nat ((len - 192) * 256 + lo)) (N.to_nat ((len - 192) * 256 + lo))
      (match first with None => Some (i + 2 - cs) | Some x => Some x end) offs wire Ho Hw).
    destruct (sdecode fuel b _ _ _) as [[r e']|]; [|exact IH]. rewrite IH. destruct first; reflexivity.
Qed.

Lemma pc_total b m : m = 255 ->
  forall fuel cs i first offs wire,
    2 * length offs <= length wire -> length wire <= m ->
    S m - length wire + cs < fuel ->
    pc_loop fuel b cs i first offs wire <> Panic /\
    pc_loop fuel b cs i first offs wire <> Err OutOfFuel.
Proof.
  intros Hm.
  destruct (bound_255 m Hm) as [Hpush Hext]. clear Hm.
  induction fuel as [|fuel IH]; intros cs i first offs wire Ho Hw Hf; [lia|].
  cbn [pc_loop]. destruct (nth_error b i) as [len|]; [|split; discriminate].
  destruct (is_pointer_octet len).
  - pose proof (parse_pointer_cases b cs i) as P.
    destruct (parse_pointer b cs i) as [t|e|]; cbn [bind]; [apply IH; lia|split; congruence|easy].
  - destruct (max_label_len <? len)%N; [split; discriminate|].
    rewrite Hpush by lia. unfold try_extend. rewrite Hext.
    destruct (len =? 0)%N eqn:E3; [destruct (m <? _); split; discriminate|]. apply N.eqb_neq in E3.
    destruct (Nat.leb_spec (length b) (i + N.to_nat len + 1)); [split; discriminate|].
    destruct (Nat.ltb_spec m (length wire + length (slice b i (i + N.to_nat len + 1)))) as [|Hlen];
      [split; discriminate|]. rewrite slice_length in Hlen by lia.
    apply IH; rewrite ?app_length, ?slice_length; cbn [length]; lia.
Qed.

(* pc_fuel: each step either adds an octet to the wire buffer (256 at most) or follows a pointer, and a
   pointer lowers the chunk start, which begins at [start]. *)
Lemma pc_fuel_gt start : 256 + start < pc_fuel start.
Proof. exact (Nat.lt_succ_diag_r (256 + start)). Qed.

Lemma parse_compressed_sdecode b start : wf_bytes b ->
  match spec_decode_name b start with
  | Some (ls, l) => parse_compressed_name b start = Ok (name_of ls, l)
  | None => forall r, parse_compressed_name b start <> Ok r
  end.
Proof.
  intros Hwf. unfold spec_decode_name, parse_compressed_name. change (S (256 + start)) with (pc_fuel start).
  pose proof (pc_sdecode b 255 Hwf eq_refl (pc_fuel start) start start None [] [] (Nat.le_0_l _) (Nat.le_0_l _)) as H.
  cbn [length app Nat.sub] in H. destruct (sdecode _ b start start 255) as [[ls e]|]; exact H.
Qed.

Theorem parse_compressed_iff b start nm l : wf_bytes b ->
  (parse_compressed_name b start = Ok (nm, l) <->
   exists ls, decodes_name b start ls l /\ nm = name_of ls).
Proof.
  intros Hwf. pose proof (parse_compressed_sdecode b start Hwf) as H. split.
  - intros E. destruct (spec_decode_name b start) as [[ls l']|] eqn:S; [|destruct (H _ E)].
    rewrite H in E. injection E as <- <-. exists ls. split; [apply spec_decode_name_iff; exact S|reflexivity].
  - intros (ls & D & ->). apply spec_decode_name_iff in D. rewrite D in H. exact H.
Qed.

Theorem parse_compressed_total b start :
  parse_compressed_name b start <> Panic /\ parse_compressed_name b start <> Err OutOfFuel.
Proof. apply (pc_total b 255 eq_refl); [apply Nat.le_0_l..|apply pc_fuel_gt]. Qed.

Theorem parse_compressed_err b start : wf_bytes b ->
  ~ (exists ls l, decodes_name b start ls l) ->
  exists e, parse_compressed_name b start = Err e /\ e <> OutOfFuel.
Proof.
  intros Hwf Hn. destruct (parse_compressed_total b start) as [Hp Hf].
  destruct (parse_compressed_name b start) as [[nm l]|e|] eqn:E.
  - exfalso. apply Hn. apply (parse_compressed_iff b start nm l Hwf) in E.
    destruct E as (ls & D & _). eauto.
  - exists e. split; auto. intros ->. apply Hf. reflexivity.
  - congruence.
Qed.

Lemma parse_ok_bound b c nm l : wf_bytes b ->
  parse_compressed_name b c = Ok (nm, l) -> c + l <= length b /\ 0 < l.
Proof.
  intros Hwf H. apply (parse_compressed_iff b c nm l Hwf) in H.
  destruct H as (ls & (e & D & -> & _) & _).
  pose proof (decodes_end_le _ _ _ _ _ D). lia.
Qed.

(* the pre-fix code panicked exactly when start is out of range *)
Theorem prefix_panics_iff b start :
  parse_compressed_name_prefix b start = Panic <-> length b <= start.
Proof.
  unfold parse_compressed_name_prefix. destruct (nth_error b start) eqn:E.
  - apply nth_error_Some_lt in E. destruct (parse_compressed_total b start) as [Hp _]. split; [tauto|lia].
  - apply nth_error_None in E. tauto.
Qed.

Definition rejects {A} (r : res name_err A) : Prop :=
  match r with Err e => e <> OutOfFuel | _ => False end.

(* With no earlier offset to point to, a length octet above 63 is refused by both sides, so no
   well-formedness is needed; and the failures are errors, given fuel for 256 octets.  As in pc_sdecode,
   [2 * length offs <= i] keeps the offsets below their capacity: a label takes two octets or more. *)
Lemma unc_sdecode b m : m = 255 -> forall fuel i offs, 2 * length offs <= i -> i <= m -> S m - i < fuel ->
  match sdecode fuel b 0 i (m - i) with
  | Some (rest, e) => unc_loop fuel b i offs = Ok (e, offs ++ offs_of i rest)
  | None => rejects (unc_loop fuel b i offs)
  end.
Proof.
  intros Hm.
  destruct (bound_255 m Hm) as [Hpush Hext]. clear Hm.
  induction fuel as [|fuel IH]; intros i offs Ho Hi Hf; [lia|].
  cbn [sdecode unc_loop]. destruct (nth_error b i) as [len|] eqn:E; [|discriminate].
  rewrite Hpush by lia. change max_label_len with 63%N. rewrite Hext.
  destruct (N.eqb_spec len 0) as [->|Hne]; [|destruct (N.leb_spec len 63)].
  - cbn [N.ltb N.compare N.to_nat]. rewrite Nat.add_0_r.
    destruct (Nat.leb_spec 1 (m - i)), (Nat.ltb_spec m (i + 1)); try lia; [reflexivity|discriminate].
  - destruct (N.ltb_spec 63 len); [lia|].
    replace (i + N.to_nat len + 1) with (i + 1 + N.to_nat len) by lia.
    destruct (Nat.ltb_spec m (i + 1 + N.to_nat len)).
    { destruct (Nat.leb_spec (1 + N.to_nat len) (m - i)); [lia|]. rewrite andb_false_r. discriminate. }
    destruct (Nat.leb_spec (1 + N.to_nat len) (m - i)); [|lia].
    specialize (IH (i + 1 + N.to_nat len) (offs ++ [(N.of_nat i mod 256)%N])). rewrite app_length in IH.
    replace (m - (i + 1 + N.to_nat len)) with (m - i - (1 + N.to_nat len)) in IH by lia.
    destruct (Nat.leb_spec (i + 1 + N.to_nat len) (length b)); cbn [andb].
    + destruct (sdecode fuel b 0 _ _) as [[r e']|]; [|apply IH; cbn [length]; lia].
      rewrite IH by (cbn [length]; lia). rewrite <- app_assoc. cbn [offs_of app].
      rewrite slice_length_add by lia. reflexivity.
    + rewrite sdecode_eom in IH by lia. apply IH; cbn [length]; lia.
  - destruct (N.ltb_spec 63 len); [|lia]. destruct (192 <=? len)%N; [|discriminate].
    destruct (nth_error b (i + 1)); discriminate.
Qed.

Lemma val_unc b : forall fuel i offs, 2 * length offs <= i -> i <= 255 ->
  val_loop fuel b i = map_ok fst (unc_loop fuel b i offs).
Proof.
  induction fuel as [|fuel IH]; intros i offs Ho Hi; [reflexivity|].
  cbn [unc_loop val_loop]. destruct (nth_error b i) as [len|]; [|reflexivity].
  destruct (max_label_len <? len)%N; [reflexivity|].
  rewrite push_offset_ok by lia. change max_wire_len with 255.
  destruct (Nat.ltb_spec 255 (i + N.to_nat len + 1)); [reflexivity|].
  destruct (len =? 0)%N eqn:E3; [reflexivity|]. apply N.eqb_neq in E3.
  apply IH; [rewrite app_length; cbn [length]; lia|lia].
Qed.

(* unc_fuel: one step per label, and each label moves the offset on, up to 256 *)
Lemma unc_fuel_gt : 256 - 0 < unc_fuel.
Proof. exact (Nat.lt_succ_diag_r 256). Qed.

Lemma unc_loop_top b :
  match sdecode unc_fuel b 0 0 255 with
  | Some (rest, e) => unc_loop unc_fuel b 0 [] = Ok (e, offs_of 0 rest)
  | None => rejects (unc_loop unc_fuel b 0 [])
  end.
Proof. exact (unc_sdecode b 255 eq_refl unc_fuel 0 [] (Nat.le_0_l _) (Nat.le_0_l _) unc_fuel_gt). Qed.

(* holds of every buffer: an octet above 255 is refused as a length by both sides *)
Lemma parse_uncompressed_iff_any b all nm l :
  parse_uncompressed_name b all = Ok (nm, l) <->
  exists ls, decodes_uncompressed b ls l /\ nm = name_of ls /\ (all = true -> l = length b).
Proof.
  unfold parse_uncompressed_name, decodes_uncompressed. pose proof (unc_loop_top b) as H. split.
  - destruct (sdecode unc_fuel b 0 0 255) as [[ls e]|] eqn:S;
      [rewrite H|destruct (unc_loop unc_fuel b 0 []); [destruct H|discriminate..]].
    apply sdecode_sound in S as [D Hw]. destruct (decodes_nc_end _ _ _ _ _ D eq_refl) as [_ Hs].
    pose proof (decodes_end_le _ _ _ _ _ D) as [_ Hle]. cbn [bind].
    destruct all; cbn [andb]; [destruct (Nat.ltb_spec e (length b)); [discriminate|]|];
      intros [= <- <-]; exists ls; rewrite <- slice_0, Hs; repeat split; auto; try discriminate; lia.
  - intros (ls & (D & Hw) & -> & Hall). destruct (decodes_nc_end _ _ _ _ _ D eq_refl) as [_ Hs].
    rewrite (sdecode_complete b _ _ _ _ D) in H by (unfold unc_fuel; change max_wire_len with 255; lia).
    rewrite H. cbn [bind]. rewrite <- slice_0, Hs.
    destruct all; cbn [andb]; [|reflexivity]. rewrite Hall, Nat.ltb_irrefl by reflexivity. reflexivity.
Qed.

Theorem parse_uncompressed_iff b all nm l : wf_bytes b ->
  (parse_uncompressed_name b all = Ok (nm, l) <->
   exists ls, decodes_uncompressed b ls l /\ nm = name_of ls /\ (all = true -> l = length b)).
Proof. intros _. apply parse_uncompressed_iff_any. Qed.

Theorem parse_uncompressed_total b all :
  parse_uncompressed_name b all <> Panic /\ parse_uncompressed_name b all <> Err OutOfFuel.
Proof.
  unfold parse_uncompressed_name. pose proof (unc_loop_top b) as H.
  destruct (sdecode unc_fuel b 0 0 255) as [[ls e]|].
  - rewrite H. cbn [bind]. destruct (all && _); split; discriminate.
  - destruct (unc_loop unc_fuel b 0 []) as [|e|]; cbn [bind]; [destruct H|split; congruence|destruct H].
Qed.

Theorem validate_agrees b all :
  validate_uncompressed_name b all = map_ok snd (parse_uncompressed_name b all).
Proof.
  unfold validate_uncompressed_name, parse_uncompressed_name.
  rewrite (val_unc b unc_fuel 0 []) by apply Nat.le_0_l.
  destruct (unc_loop unc_fuel b 0 []) as [[e offs]|e|]; cbn [bind map_ok fst]; try reflexivity.
  destruct (all && (e <? length b)); reflexivity.
Qed.

(* Skipping stops at the first pointer, so it follows only the first chunk of the derivation.  The caller
   passes the tail slice [skipn start b], while [decodes] speaks of offsets in the whole message. *)
Lemma skip_complete b m : wf_bytes b -> m = 255 ->
  forall cs i rest e, decodes b cs i rest e ->
  forall start fuel, start <= i -> (i - start) + wire_len rest <= m -> S m - (i - start) < fuel ->
    skip_loop fuel (skipn start b) (i - start) = Ok (e - start).
Proof.
  intros Hwf Hm cs i rest e D. destruct (bound_255 m Hm) as [_ Hext]. clear Hm.
  induction D as [cs i H | cs i len rest e H Hp Hl Hb Hd IH | cs i hi lo rest e' H Hh Hlo Ht Hd IH];
    intros start fuel Hs Hw Hf; (destruct fuel as [|fuel]; [lia|]); cbn [skip_loop];
    rewrite nth_error_skipn; replace (start + (i - start)) with i by lia; rewrite H;
    rewrite (is_pointer_octet_spec _ (nth_error_Forall _ _ _ _ Hwf H));
    unfold skip_fin; change max_label_len with 63%N; rewrite Hext.
  - cbn [N.leb N.ltb N.eqb N.compare]. change (wire_len []) with 1 in Hw. destruct (Nat.ltb_spec m (i - start + 1)); [lia|]. f_equal. lia.
  - rewrite wire_len_cons, slice_length_add in Hw by lia. pose proof (wire_len_pos rest).
    destruct (N.leb_spec 192 len); [lia|]. destruct (N.ltb_spec 63 len); [lia|].
    destruct (N.eqb_spec len 0); [lia|].
    destruct (Nat.ltb_spec m (i - start + 1 + N.to_nat len)); [lia|].
    replace (i - start + 1 + N.to_nat len) with (i + 1 + N.to_nat len - start) by lia.
    apply IH; lia.
  - pose proof (wire_len_pos rest).
    destruct (N.leb_spec 192 hi); [|lia]. destruct (Nat.ltb_spec m (i - start + 1)); [lia|]. f_equal. lia.
Qed.

Theorem skip_agrees b start nm l : wf_bytes b ->
  parse_compressed_name b start = Ok (nm, l) ->
  skip_compressed_name (skipn start b) = Ok l.
Proof.
  intros Hwf H. apply (parse_compressed_iff b start nm l Hwf) in H.
  destruct H as (ls & (e & D & -> & Hw) & _).
  pose proof (skip_complete b 255 Hwf eq_refl _ _ _ _ D start unc_fuel) as S.
  rewrite Nat.sub_diag in S. apply S; [lia..|apply unc_fuel_gt].
Qed.

Lemma skip_total b : forall fuel i, 256 - i < fuel ->
  skip_loop fuel b i <> Panic /\ skip_loop fuel b i <> Err OutOfFuel.
Proof.
  induction fuel as [|fuel IH]; intros i Hf; [lia|]. cbn [skip_loop].
  destruct (nth_error b i) as [len|]; [|split; discriminate].
  unfold skip_fin.
  destruct (is_pointer_octet len); [destruct (max_wire_len <? i + 1); split; discriminate|].
  destruct (max_label_len <? len)%N; [split; discriminate|].
  destruct (len =? 0)%N; [destruct (max_wire_len <? i + 1); split; discriminate|].
  change max_wire_len with 255.
  destruct (Nat.ltb_spec 255 (i + 1 + N.to_nat len)); [split; discriminate|].
  apply IH. lia.
Qed.

Theorem skip_compressed_total b :
  skip_compressed_name b <> Panic /\ skip_compressed_name b <> Err OutOfFuel.
Proof. apply skip_total, unc_fuel_gt. Qed.

Lemma skip_loop_gt f b o l : skip_loop f b o = Ok l -> o < l.
Proof.
  revert o; induction f as [|f IH]; intros o Q; [discriminate|]. cbn [skip_loop] in Q.
  destruct (nth_error b o) as [y|]; [|discriminate]. unfold skip_fin in Q.
  destruct (is_pointer_octet y); [destruct (max_wire_len <? o + 1); inversion Q; lia|].
  destruct (max_label_len <? y)%N; [discriminate|].
  destruct (y =? 0)%N; [destruct (max_wire_len <? o + 1); inversion Q; lia|].
  destruct (max_wire_len <? o + 1 + N.to_nat y); [discriminate|].
  apply IH in Q. lia.
Qed.
