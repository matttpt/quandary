(* C04 clause (iii) for answers that end Ok: a run of query answering in which every Writer operation succeeds (the
   strict interface), whose finished body fits the space a, is the same run under limit l and available a, and finish
   gives the same octets.  Combines Proofs/WriterMonoP.v (the Writer) with Proofs/QuerySimP.v (the answering logic). *)
From QV Require Import Base.ListX Gen.Consts Model.MsgWriter Model.ZoneTree Model.Query Model.QueryW
  Proofs.MsgWriterP Proofs.MsgWriterNameP Proofs.MsgWriterInvP Proofs.MsgWriterHdrP Proofs.WriterMonoP Proofs.QuerySimP.
Local Open Scope nat_scope.

(* the octet-level interface with every failure of an add turned into a panic *)
Definition w_strict : wiface writer :=
  mkWi writer
    (fun s h o ty c ttl rd w => match wi_add_rr w_iface s h o ty c ttl rd w with Err _ => Panic | x => x end)
    (fun s h o ty c ttl rds b w => match wi_add_rrset w_iface s h o ty c ttl rds b w with Err _ => Panic | x => x end)
    (wi_set_aa w_iface) (wi_set_rcode w_iface) (wi_set_tc w_iface) (wi_clear_rrs w_iface).

Lemma strict_rr_ok s h o ty c ttl rd w w' : wi_add_rr w_strict s h o ty c ttl rd w = Ok w' ->
  exists v, add_section_rr (sec_of s) (hint_of h) o ty c (ttl_from ttl) rd None w = Ok (v, w').
Proof.
  cbn [wi_add_rr w_strict w_iface].
  destruct (add_section_rr (sec_of s) (hint_of h) o ty c (ttl_from ttl) rd None w) as [[v w1]|[e w1]|]; try discriminate.
  intros H; inversion H; subst. eauto.
Qed.
Lemma strict_rrset_ok s h o ty c ttl rds b w v w' : wi_add_rrset w_strict s h o ty c ttl rds b w = Ok (v, w') ->
  exists v0, add_section_rrset (sec_of s) (hint_of h) o ty c (ttl_from ttl) rds (if b then Some [] else None) w = Ok (v0, w') /\
             v = match v0 with Some l => l | None => [] end.
Proof.
  cbn [wi_add_rrset w_strict w_iface].
  destruct (add_section_rrset (sec_of s) (hint_of h) o ty c (ttl_from ttl) rds (if b then Some [] else None) w) as [[v0 w1]|[e w1]|]; try discriminate.
  intros H; inversion H; subst. eauto.
Qed.

Lemma w_modify_lower l a w i f : w_modify (lower l a w) i f =
  match w_modify w i f with Ok w' => Ok (lower l a w') | Err e => Err e | Panic => Panic end.
Proof.
  unfold w_modify, w_write. change (w_buf (lower l a w)) with (w_buf w).
  destruct (nth_error (w_buf w) (N.to_nat i)); [|reflexivity]. destruct (buf_write _ _ _); reflexivity.
Qed.
Lemma w_modify_fields w i f w' : w_modify w i f = Ok w' ->
  w_cursor w' = w_cursor w /\ w_limit w' = w_limit w /\ w_avail w' = w_avail w.
Proof. intros H. destruct (w_modify_inv _ _ _ _ H) as (x & b' & _ & _ & ->). auto. Qed.

Lemma strict_rr_noerr s h o ty c ttl rd w e : wi_add_rr w_strict s h o ty c ttl rd w <> Err e.
Proof. cbn [wi_add_rr w_strict]. destruct (wi_add_rr w_iface s h o ty c ttl rd w); discriminate. Qed.
Lemma strict_rrset_noerr s h o ty c ttl rds b w e : wi_add_rrset w_strict s h o ty c ttl rds b w <> Err e.
Proof. cbn [wi_add_rrset w_strict]. destruct (wi_add_rrset w_iface s h o ty c ttl rds b w); discriminate. Qed.

(* A run on the strict interface that ends Ok, in a state satisfying G, is matched operation by operation by the ordinary
   interface on the states transported along T, when T commutes with the Writer operations below G. *)
Section Transport.
Variable T : writer -> writer.
Variable G : writer -> Prop.
Definition commutes {A} (f : writer -> M A) : Prop :=
  forall w u w', f w = Ok (u, w') -> G w' -> G w /\ f (T w) = Ok (u, T w').
Hypothesis T_rr : forall s h o ty c ttl rd v, commutes (add_section_rr s h o ty c ttl rd v).
Hypothesis T_rrset : forall s h o ty c ttl rds v, commutes (add_section_rrset s h o ty c ttl rds v).
Hypothesis T_modify : forall w i f w', w_modify w i f = Ok w' -> G w' -> G w /\ w_modify (T w) i f = Ok (T w').
Hypothesis T_upper : forall w, G (clear_upper w) -> G w /\ clear_upper (T w) = T (clear_upper w).

Lemma tr_rr s h o ty c ttl rd :
  simR (fun w1 w2 => w2 = T w1) G (wi_add_rr w_strict s h o ty c ttl rd) (wi_add_rr w_iface s h o ty c ttl rd).
Proof.
  intros w1 w1' H HG. apply strict_rr_ok in H as (v & H). destruct (T_rr _ _ _ _ _ _ _ _ _ _ _ H HG) as [G0 E].
  split; [exact G0|]. intros w2 ->. exists (T w1'). split; [|reflexivity]. cbn [wi_add_rr w_iface]. rewrite E. reflexivity.
Qed.
Lemma tr_rrset s h o ty c ttl rds b :
  simQ (fun w1 w2 => w2 = T w1) G (wi_add_rrset w_strict s h o ty c ttl rds b) (wi_add_rrset w_iface s h o ty c ttl rds b).
Proof.
  intros w1 v w1' H HG. apply strict_rrset_ok in H as (v0 & H & ->). destruct (T_rrset _ _ _ _ _ _ _ _ _ _ _ H HG) as [G0 E].
  split; [exact G0|]. intros w2 ->. exists (T w1'). split; [|reflexivity]. cbn [wi_add_rrset w_iface]. rewrite E. reflexivity.
Qed.
Lemma tr_aa b : simO (fun w1 w2 => w2 = T w1) G (wi_set_aa w_strict b) (wi_set_aa w_iface b).
Proof.
  intros w1 w1'. cbn [wi_set_aa w_strict w_iface]. unfold set_aa, w_set_flag.
  destruct (w_modify w1 AA_BYTE (set_bit AA_MASK b)) as [w1a|e|] eqn:E; try discriminate.
  intros H HG; injection H as <-. destruct (T_modify _ _ _ _ E HG) as [G0 E']. split; [exact G0|].
  intros w2 ->. rewrite E'. exists (T w1a). auto.
Qed.
Lemma tr_rc c : simO (fun w1 w2 => w2 = T w1) G (wi_set_rcode w_strict c) (wi_set_rcode w_iface c).
Proof.
  intros w1 w1'. cbn [wi_set_rcode w_strict w_iface]. unfold set_rcode.
  destruct (w_modify w1 RCODE_BYTE _) as [w1a|e|] eqn:E; cbn [bind]; try discriminate.
  intros H HG; injection H as <-. destruct (T_upper _ HG) as [Ga U]. destruct (T_modify _ _ _ _ E Ga) as [G0 E'].
  split; [exact G0|]. intros w2 ->. rewrite E'. cbn [bind]. rewrite U. exists (T (clear_upper w1a)). auto.
Qed.

Theorem transported_answer negttl z qname ty w u w' :
  answer w_strict negttl z qname ty w = Ok (u, w') -> G w' -> answer w_iface negttl z qname ty (T w) = Ok (u, T w').
Proof.
  intros H HG.
  destruct (sim_answer w_strict w_iface negttl z _ G tr_rr tr_rrset tr_aa tr_rc strict_rrset_noerr qname ty w u w' H HG) as [_ S].
  destruct (S (T w) eq_refl) as (w2' & E & ->). exact E.
Qed.
Theorem transported_answer_any negttl z qname w u w' :
  answer_any w_strict negttl z qname w = Ok (u, w') -> G w' -> answer_any w_iface negttl z qname (T w) = Ok (u, T w').
Proof.
  intros H HG.
  destruct (sim_answer_any w_strict w_iface negttl z _ G tr_rr tr_rrset tr_aa tr_rc strict_rrset_noerr qname w u w' H HG) as [_ S].
  destruct (S (T w) eq_refl) as (w2' & E & ->). exact E.
Qed.
End Transport.

Section Lowered.
Variables l a : nat.

Lemma mono_commutes {A} (f : writer -> M A) : mono l a f -> commutes (lower l a) (fun w => w_cursor w <= a) f.
Proof. intros Hm w u w' H HG. destruct (Hm _ _ _ H) as [A1 A2]. split; [lia|exact (A2 HG)]. Qed.
Lemma low_modify w i f w' : w_modify w i f = Ok w' -> w_cursor w' <= a ->
  w_cursor w <= a /\ w_modify (lower l a w) i f = Ok (lower l a w').
Proof. intros E HG. rewrite <- (proj1 (w_modify_fields _ _ _ _ E)). split; [exact HG|]. rewrite w_modify_lower, E. reflexivity. Qed.
Lemma low_upper w : w_cursor (clear_upper w) <= a -> w_cursor w <= a /\ clear_upper (lower l a w) = lower l a (clear_upper w).
Proof. unfold clear_upper. change (w_edns (lower l a w)) with (w_edns w). destruct (w_edns w); auto. Qed.

Theorem lowered_answer negttl z qname ty w u w' :
  answer w_strict negttl z qname ty w = Ok (u, w') -> w_cursor w' <= a ->
  answer w_iface negttl z qname ty (lower l a w) = Ok (u, lower l a w').
Proof. exact (transported_answer (lower l a) (fun w => w_cursor w <= a)
    (fun s h o ty c ttl rd v => mono_commutes _ (mono_section_rr l a s h o ty c ttl rd v))
    (fun s h o ty c ttl rds v => mono_commutes _ (mono_section_rrset l a s h o ty c ttl rds v))
    low_modify low_upper negttl z qname ty w u w'). Qed.
Theorem lowered_answer_any negttl z qname w u w' :
  answer_any w_strict negttl z qname w = Ok (u, w') -> w_cursor w' <= a ->
  answer_any w_iface negttl z qname (lower l a w) = Ok (u, lower l a w').
Proof. exact (transported_answer_any (lower l a) (fun w => w_cursor w <= a)
    (fun s h o ty c ttl rd v => mono_commutes _ (mono_section_rr l a s h o ty c ttl rd v))
    (fun s h o ty c ttl rds v => mono_commutes _ (mono_section_rrset l a s h o ty c ttl rds v))
    low_modify low_upper negttl z qname w u w'). Qed.
End Lowered.

(* a run on the strict interface that ends Ok is a run on the ordinary interface: T the identity *)
Theorem strict_answer negttl z qname ty w u w' :
  answer w_strict negttl z qname ty w = Ok (u, w') -> answer w_iface negttl z qname ty w = Ok (u, w').
Proof.
  intros H. refine (transported_answer (fun w => w) (fun _ => True) _ _ _ _ negttl z qname ty w u w' H I); unfold commutes; auto.
Qed.
Theorem strict_answer_any negttl z qname w u w' :
  answer_any w_strict negttl z qname w = Ok (u, w') -> answer_any w_iface negttl z qname w = Ok (u, w').
Proof.
  intros H. refine (transported_answer_any (fun w => w) (fun _ => True) _ _ _ _ negttl z qname w u w' H I); unfold commutes; auto.
Qed.

Lemma w_write_lower l a w pos d : w_write (lower l a w) pos d =
  match w_write w pos d with Ok w' => Ok (lower l a w') | Err e => Err e | Panic => Panic end.
Proof. unfold w_write. change (w_buf (lower l a w)) with (w_buf w). destruct (buf_write _ _ _); reflexivity. Qed.

Theorem finish_lower l a w len b : finish w = Ok (len, b) -> w_tsig w = None -> w_cursor w <= w_avail w ->
  len <= a + (if w_edns w then opt_record_size else 0) ->
  finish (lower l a w) = Ok (len, b).
Proof.
  unfold finish, finish_gen. intros H Ht Hcav Hlen.
  change (w_qd (lower l a w)) with (w_qd w).
  rewrite w_write_lower.
  destruct (w_write w (N.to_nat QDCOUNT_START) (be16 (w_qd w))) as [w1|e|] eqn:E1; cbn [bind] in *; try discriminate.
  change (w_an (lower l a w1)) with (w_an w1). rewrite w_write_lower.
  destruct (w_write w1 (N.to_nat ANCOUNT_START) (be16 (w_an w1))) as [w2|e|] eqn:E2; cbn [bind] in *; try discriminate.
  change (w_ns (lower l a w2)) with (w_ns w2). rewrite w_write_lower.
  destruct (w_write w2 (N.to_nat NSCOUNT_START) (be16 (w_ns w2))) as [w3|e|] eqn:E3; cbn [bind] in *; try discriminate.
  change (w_ar (lower l a w3)) with (w_ar w3). rewrite w_write_lower.
  destruct (w_write w3 (N.to_nat ARCOUNT_START) (be16 (w_ar w3))) as [w4|e|] eqn:E4; cbn [bind] in *; try discriminate.
  assert (K : w_edns w4 = w_edns w /\ w_tsig w4 = w_tsig w /\ w_cursor w4 = w_cursor w /\ w_avail w4 = w_avail w).
  { apply w_write_inv in E1 as (b1 & _ & ->). apply w_write_inv in E2 as (b2 & _ & ->).
    apply w_write_inv in E3 as (b3 & _ & ->). apply w_write_inv in E4 as (b4 & _ & ->).
    repeat split. }
  destruct K as (Ke & Kt & Kc & Ka). change (w_edns (lower l a w4)) with (w_edns w4). rewrite Ke in *.
  destruct (w_edns w) as [ed|].
  - change (set_avail (lower l a w4) (w_avail (lower l a w4) + opt_record_size))
      with (lower l (a + opt_record_size) (set_avail w4 (w_avail w4 + opt_record_size))).
    destruct (add_rr HNone [] TYPE_OPT (e_udp ed) (e_upper ed * 16777216)%N [] None
                (set_avail w4 (w_avail w4 + opt_record_size))) as [[v w5]|[e w5]|] eqn:E5; cbn [unwrap_w bind] in H; try discriminate.
    destruct (mono_add_rr l (a + opt_record_size) _ _ _ _ _ _ _ _ _ _ E5) as [_ L5].
    assert (T5 : w_tsig w5 = None).
    { assert (Hp : pre 0 (set_avail w4 (w_avail w4 + opt_record_size)))
        by (split; cbn [w_cursor w_avail set_avail set_limit_avail]; lia).
      pose proof (frame_add_rr 0 HNone [] TYPE_OPT (e_udp ed) (e_upper ed * 16777216)%N [] None _ Hp) as F.
      rewrite E5 in F. cbn [frame] in F. rewrite (x_tsig _ _ _ F). cbn. congruence. }
    rewrite T5 in H. inversion H; subst.
    rewrite L5 by exact Hlen. cbn [unwrap_w bind]. change (w_tsig (lower l (a + opt_record_size) w5)) with (w_tsig w5).
    rewrite T5. reflexivity.
  - cbn [bind] in *. change (w_tsig (lower l a w4)) with (w_tsig w4). rewrite Kt, Ht in *. cbn [bind] in *.
    inversion H; subst. reflexivity.
Qed.

(* clause (iii) for answers that end Ok: TCP-side run strict and Ok, the finished message fits the lowered
   space => the UDP-side run is the same run and the finished octets are identical *)
Theorem udp_same_as_tcp negttl z qname qtype l a wt wt' len b :
  (if (qtype =? QTYPE_ANY)%N then answer_any w_strict negttl z qname wt else answer w_strict negttl z qname qtype wt) = Ok (tt, wt') ->
  finish wt' = Ok (len, b) -> w_tsig wt' = None -> w_cursor wt' <= w_avail wt' ->
  w_cursor wt' <= a -> len <= a + (if w_edns wt' then opt_record_size else 0) ->
  handle_non_axfr_query w_iface negttl z qname qtype true wt = Some wt' /\
  exists wu', handle_non_axfr_query w_iface negttl z qname qtype false (lower l a wt) = Some wu' /\
              finish wu' = Ok (len, b).
Proof.
  intros H Hf Ht Hcav Hc Hlen. unfold handle_non_axfr_query. destruct (qtype =? QTYPE_ANY)%N.
  - rewrite (strict_answer_any _ _ _ _ _ _ H). rewrite (lowered_answer_any l a _ _ _ _ _ _ H Hc).
    split; [reflexivity|]. exists (lower l a wt'). split; [reflexivity|]. apply finish_lower; assumption.
  - rewrite (strict_answer _ _ _ _ _ _ _ H). rewrite (lowered_answer l a _ _ _ _ _ _ _ H Hc).
    split; [reflexivity|]. exists (lower l a wt'). split; [reflexivity|]. apply finish_lower; assumption.
Qed.

Lemma lower_lower l a l' a' w : lower l a (lower l' a' w) = lower l a w.
Proof. reflexivity. Qed.
Lemma lower_self w : lower (w_limit w) (w_avail w) w = w.
Proof. destruct w; reflexivity. Qed.

Lemma add_question_facts qn qt qc w u w' : Inv_n w -> add_question qn qt qc w = Ok (u, w') ->
  Inv_n w' /\ w_avail w' = w_avail w /\ w_limit w' = w_limit w.
Proof.
  intros Hi E. pose proof (inv_pre _ Hi) as Hp.
  assert (Hi' : Inv_n w').
  { pose proof (step_good_all (mkD w []) (OAddQuestion qn qt qc) Hi) as G. cbn [step d_w] in G. rewrite E in G. exact G. }
  split; [exact Hi'|]. unfold add_question in E. destruct (w_section w); try discriminate.
  destruct (checked_add16 (w_qd w) 1) as [nq|]; [|discriminate].
  match type of E with context [with_rollback ?f _] =>
    pose proof (rollback_spec f w Hi (question_body_frame _ qn qt qc w Hp)) as R;
    destruct (with_rollback f w) as [[[] w1]|[e w1]|] end; cbn [bind] in E; try discriminate.
  injection E as _ Hw. subst w'. cbn. split; [exact (x_av _ _ _ R)|exact (x_lim _ _ _ R)].
Qed.

Lemma udp_le_tcp : udp_limit_w <= tcp_limit_w.
Proof.
  unfold udp_limit_w, tcp_limit_w. apply Nat.compare_le_iff. rewrite <- N2Nat.inj_compare. discriminate.
Qed.

Theorem prepare_lower buf id rd qname qtype qclass edns limit wt wu :
  prepare_w buf true id rd qname qtype qclass edns limit = Some wt ->
  prepare_w buf false id rd qname qtype qclass edns limit = Some wu ->
  wu = lower (w_limit wu) (w_avail wu) wt.
Proof.
  unfold prepare_w. intros HT HU.
  destruct (writer_new buf tcp_limit_w) as [t0|e|] eqn:T0; try discriminate.
  destruct (writer_new buf udp_limit_w) as [u0|e|] eqn:U0; try discriminate.
  pose proof (writer_new_inv _ _ _ U0) as IU0.
  assert (R0 : u0 = lower (w_limit u0) (w_avail u0) t0 /\ w_avail u0 <= w_avail t0 /\
               w_limit t0 = w_avail t0).
  { unfold writer_new in T0, U0.
    set (Lt := Nat.min tcp_limit_w (length buf)) in *. set (Lu := Nat.min udp_limit_w (length buf)) in *.
    destruct (Lt <? header_size); [discriminate|]. destruct (Lu <? header_size); [discriminate|].
    destruct (length buf <? header_size); [discriminate|]. inversion T0; inversion U0; subst.
    cbn [w_limit w_avail]. split; [reflexivity|]. split; [|reflexivity].
    unfold Lu, Lt. apply Nat.min_le_compat_r. exact udp_le_tcp. }
  destruct R0 as (R0 & O0 & Lt0).
  destruct (set_id id t0) as [t1|e|] eqn:T1; cbn [bind] in HT; try discriminate.
  destruct (set_qr true t1) as [t2|e|] eqn:T2; cbn [bind] in HT; try discriminate.
  destruct (set_opcode 0 t2) as [t3|e|] eqn:T3; cbn [bind] in HT; try discriminate.
  destruct (set_rd rd t3) as [t4|e|] eqn:T4; try discriminate.
  destruct (set_id id u0) as [u1|e|] eqn:U1; cbn [bind] in HU; try discriminate.
  destruct (set_qr true u1) as [u2|e|] eqn:U2; cbn [bind] in HU; try discriminate.
  destruct (set_opcode 0 u2) as [u3|e|] eqn:U3; cbn [bind] in HU; try discriminate.
  destruct (set_rd rd u3) as [u4|e|] eqn:U4; try discriminate.
  set (l := w_limit u0) in *. set (a := w_avail u0) in *.
  assert (R1 : u1 = lower l a t1).
  { unfold set_id in *. rewrite R0, w_write_lower, T1 in U1. inversion U1. reflexivity. }
  assert (R2 : u2 = lower l a t2).
  { unfold set_qr, w_set_flag in *. rewrite R1, w_modify_lower, T2 in U2. inversion U2. reflexivity. }
  assert (R3 : u3 = lower l a t3).
  { unfold set_opcode in *. rewrite R2, w_modify_lower, T3 in U3. inversion U3. reflexivity. }
  assert (R4 : u4 = lower l a t4).
  { unfold set_rd, w_set_flag in *. rewrite R3, w_modify_lower, T4 in U4. inversion U4. reflexivity. }
  assert (F4 : w_limit t4 = w_limit t0 /\ w_avail t4 = w_avail t0).
  { unfold set_id in T1. apply w_write_inv in T1 as (b1 & _ & ->).
    destruct (w_modify_fields _ _ _ _ T2) as (_ & A2 & B2). destruct (w_modify_fields _ _ _ _ T3) as (_ & A3 & B3).
    destruct (w_modify_fields _ _ _ _ T4) as (_ & A4 & B4). cbn in *. split; congruence. }
  assert (IU4 : Inv_n u4).
  { unfold set_id in U1. pose proof (inv_w_write _ _ _ _ IU0 U1) as I1.
    pose proof (inv_w_modify _ _ _ _ I1 U2) as I2. pose proof (inv_w_modify _ _ _ _ I2 U3) as I3.
    exact (inv_w_modify _ _ _ _ I3 U4). }
  destruct (add_question qname qtype qclass t4) as [[ut t5]|e|] eqn:T5; try discriminate.
  destruct (add_question qname qtype qclass u4) as [[uu u5]|e|] eqn:U5; try discriminate.
  destruct (add_question_facts _ _ _ _ _ _ IU4 U5) as (IU5 & AV5 & LI5).
  assert (R5 : u5 = lower (w_limit u5) (w_avail u5) t5).
  { destruct (mono_add_question (w_limit t4) (w_avail t4) _ _ _ _ _ _ U5) as [_ L5].
    assert (Hfit : w_cursor u5 <= w_avail t4).
    { destruct IU5 as [_ _ h3 _ _]. rewrite AV5, R4 in h3. cbn in h3. destruct F4 as [_ F4]. rewrite F4. unfold a in h3. lia. }
    specialize (L5 Hfit). rewrite R4, lower_lower, lower_self, T5 in L5. injection L5 as _ E5.
    rewrite E5, lower_lower. symmetry. apply lower_self. }
  destruct edns as [size|].
  - destruct (set_edns size t5) as [[ue t6]|e|] eqn:T6; try discriminate.
    destruct (set_edns size u5) as [[ue2 u6]|e|] eqn:U6; try discriminate.
    assert (R6 : u6 = lower (w_limit u6) (w_avail u6) t6).
    { unfold set_edns in T6, U6. rewrite R5 in U6.
      change (w_edns (lower (w_limit u5) (w_avail u5) t5)) with (w_edns t5) in U6.
      change (w_ar (lower (w_limit u5) (w_avail u5) t5)) with (w_ar t5) in U6.
      destruct (w_edns t5); [discriminate|]. destruct (_ <? _) in T6; [discriminate|]. destruct (_ <? _) in U6; [discriminate|].
      destruct (checked_add16 (w_ar t5) 1); [|discriminate]. injection T6 as _ <-. injection U6 as _ <-. reflexivity. }
    injection HT as <-.
    destruct (MsgWriter.set_limit limit u6) as [u7|e|] eqn:U7; try discriminate. injection HU as <-.
    unfold MsgWriter.set_limit in U7. rewrite R6 in U7.
    destruct (w_limit (lower (w_limit u6) (w_avail u6) t6) <=? limit).
    + destruct (_ <? _) in U7; [discriminate|]. injection U7 as <-. reflexivity.
    + destruct (_ <? _) in U7; [discriminate|]. destruct (_ <? _) in U7; [discriminate|]. destruct (_ <? _) in U7; [discriminate|].
      injection U7 as <-. reflexivity.
  - injection HT as <-. injection HU as <-. exact R5.
Qed.

Theorem respond_udp_identical negttl buf id rd qname qtype qclass edns limit z wt wu wt' len b :
  prepare_w buf true id rd qname qtype qclass edns limit = Some wt ->
  prepare_w buf false id rd qname qtype qclass edns limit = Some wu ->
  (if (qtype =? QTYPE_ANY)%N then answer_any w_strict negttl z qname wt else answer w_strict negttl z qname qtype wt) = Ok (tt, wt') ->
  finish wt' = Ok (len, b) -> w_tsig wt' = None -> w_cursor wt' <= w_avail wt' ->
  w_cursor wt' <= w_avail wu -> len <= w_avail wu + (if w_edns wt' then opt_record_size else 0) ->
  respond_w negttl buf true id rd qname qtype qclass edns limit z = Some (len, b) /\
  respond_w negttl buf false id rd qname qtype qclass edns limit z = Some (len, b).
Proof.
  intros HT HU Ha Hf Ht Hcav Hc Hlen. unfold respond_w. rewrite HT, HU.
  pose proof (prepare_lower _ _ _ _ _ _ _ _ _ _ HT HU) as Hl.
  destruct (udp_same_as_tcp negttl z qname qtype (w_limit wu) (w_avail wu) wt wt' len b Ha Hf Ht Hcav Hc Hlen)
    as (E1 & wu' & E2 & E3).
  rewrite E1, Hf. split; [reflexivity|]. rewrite Hl, E2, E3. reflexivity.
Qed.
