(* The abstract Writer of the server model (Model/Server.v: cursor / limit / available / ARCOUNT with
   the Writer's arithmetic) AGREES with the Writer model of C12 (Model/MsgWriter.v) at the moment query
   answering starts: for a request that passes the pre-processing as a clean QUERY with its question and
   without TSIG, [QueryW.prepare_w] — run with the id, RD, question, EDNS size and limit the server model
   computed, on a buffer of the configured size — succeeds and yields a writer with exactly the server
   model's cursor, limit, available space and ARCOUNT.  This is the glue the server-level runner relies
   on when it hands [w_limit] / the EDNS size to [respond_w] (SERVER.md: "sizes exact because only the
   uncompressed question has been written").  Cursor, limit, available space and ARCOUNT are the fields Server.resp
   tracks; [length buf = c_buflen cfg] makes the two initial limits the same minimum. *)
From QV Require Import Base.ListX Model.NameWire Model.Reader Model.RdataLite Model.Server
  Spec.NameWireS Spec.NameRepr Spec.ReaderS Spec.RdataFormatS Proofs.NameWireP Proofs.ReaderP Proofs.RdNameP Proofs.ServerP Proofs.ServerNumP.
From QV Require Import Gen.Consts Model.MsgWriter Proofs.MsgWriterP Proofs.MsgWriterNameP Proofs.MsgWriterInvP
  Model.ZoneTree Model.Query Proofs.QueryNameP Model.QueryW Proofs.QueryWP.
Local Open Scope nat_scope.

Lemma set_buf_twice w b b' : set_buf (set_buf w b) b' = set_buf w b'.
Proof. reflexivity. Qed.

Lemma w_write_ok w pos d : pos + length d <= length (w_buf w) ->
  exists b', w_write w pos d = Ok (set_buf w b') /\ length b' = length (w_buf w).
Proof.
  intros H. unfold w_write. destruct (buf_write_some (w_buf w) pos d H) as [b' E]. rewrite E.
  exists b'. split; [reflexivity|]. eapply buf_write_length; eauto.
Qed.

Lemma w_modify_ok w i f : N.to_nat i < length (w_buf w) ->
  exists b', w_modify w i f = Ok (set_buf w b') /\ length b' = length (w_buf w).
Proof.
  intros H. unfold w_modify. destruct (nth_error (w_buf w) (N.to_nat i)) eqn:E; [|apply nth_error_None in E; lia].
  apply w_write_ok. simpl. lia.
Qed.

(* the first question on a fresh writer succeeds when it fits; what it leaves is QueryWP.fresh_add_question *)
Lemma fresh_add_question_ok buf0 lim qname qtype qclass b4 :
  let w4 := set_buf (mkW buf0 header_size lim lim header_size SecQuestion 0 0 0 0 None None None Standard None None) b4 in
  lim <= length b4 -> 12 + length (nm_wire qname) + 4 <= lim ->
  exists w5, add_question qname qtype qclass w4 = Ok (tt, w5) /\
    w_cursor w5 = 12 + length (nm_wire qname) + 4 /\ w_limit w5 = lim /\ w_avail w5 = lim /\
    w_ar w5 = 0%N /\ w_edns w5 = None /\ length (w_buf w5) = length b4.
Proof.
  intros w4 Hb Hfit.
  assert (S : exists w5, add_question qname qtype qclass w4 = Ok (tt, w5)).
  { unfold add_question. cbn [w_section w4 set_buf w_qd].
    change (checked_add16 0 1) with (Some 1%N). cbv iota. unfold with_rollback.
    assert (Hname : write_unhinted_name qname w4 = write_uncompressed_name qname w4).
    { unfold write_unhinted_name. cbn [w_mode w4 set_buf]. destruct (2 <? length (nm_wire qname)); reflexivity. }
    rewrite Hname. unfold write_uncompressed_name, try_push_u16. change header_size with 12 in *.
    destruct (try_push_fits (nm_wire qname) w4) as [wa Pa]; [cbn; lia..|].
    rewrite Pa. cbn [bind]. destruct (try_push_ok _ _ _ _ Pa) as (ba & Ba & -> & _).
    pose proof (buf_write_length _ _ _ _ Ba) as La. cbn [w_qd set_cursor set_buf w4]. change (0 =? 0)%N with true. cbv iota.
    match goal with |- context [try_push (be16 qtype) ?x] => destruct (try_push_fits (be16 qtype) x) as [wb Pb] end;
      [cbn in La |- *; lia..|].
    rewrite Pb. cbn [bind]. destruct (try_push_ok _ _ _ _ Pb) as (bb & Bb & -> & _).
    pose proof (buf_write_length _ _ _ _ Bb) as Lb.
    match goal with |- context [try_push (be16 qclass) ?x] => destruct (try_push_fits (be16 qclass) x) as [wc Pc] end;
      [cbn in La, Lb |- *; lia..|].
    rewrite Pc. cbn [bind]. eauto. }
  destruct S as (w5 & E5). exists w5. split; [exact E5|].
  destruct (fresh_add_question _ _ _ _ _ _ _ _ E5) as (b5 & qn & -> & L5 & _).
  cbn. rewrite !app_length. cbn. repeat split; first [reflexivity|lia|exact L5].
Qed.

Lemma prepare_w_numbers (buf : bytes) (tcp : bool) id rd qname qtype qclass (edns : option N) limit :
  let L0 := Nat.min (if tcp then tcp_limit_w else udp_limit_w) (length buf) in
  let n := length (nm_wire qname) in
  12 + n + 4 + (match edns with Some _ => 11 | None => 0 end) <= L0 ->
  (forall sz, edns = Some sz -> tcp = false -> L0 <= limit /\ limit <= length buf) ->
  exists w, prepare_w buf tcp id rd qname qtype qclass edns limit = Some w /\
    w_cursor w = 12 + n + 4 /\
    match edns with
    | None => w_limit w = L0 /\ w_avail w = L0 /\ w_ar w = 0%N
    | Some _ => w_limit w = (if tcp then L0 else limit) /\ w_avail w = (if tcp then L0 else limit) - 11 /\ w_ar w = 1%N
    end.
Proof.
  intros L0 n Hfit Hlim. unfold prepare_w.
  assert (H12 : 12 <= L0) by lia. assert (Hb12 : 12 <= length buf) by (unfold L0 in H12; lia).
  unfold writer_new. fold L0. change header_size with 12.
  destruct (L0 <? 12) eqn:X1; [apply Nat.ltb_lt in X1; lia|].
  destruct (length buf <? 12) eqn:X2; [apply Nat.ltb_lt in X2; lia|].
  set (buf0 := repeat 0%N 12 ++ skipn 12 buf).
  assert (Lb0 : length buf0 = length buf) by (unfold buf0; rewrite app_length, repeat_length, skipn_length; lia).
  set (W0 := mkW buf0 12 L0 L0 12 SecQuestion 0 0 0 0 None None None Standard None None).
  destruct (w_write_ok W0 (N.to_nat ID_START) (be16 id)) as (b1 & E1 & L1); [cbn; lia|].
  unfold set_id. rewrite E1. cbn [bind].
  destruct (w_modify_ok (set_buf W0 b1) QR_BYTE (set_bit QR_MASK true)) as (b2 & E2 & L2); [cbn [w_buf set_buf]; change (N.to_nat QR_BYTE) with 2; cbn in L1; lia|].
  unfold set_qr, w_set_flag. rewrite E2. cbn [bind]. rewrite set_buf_twice.
  destruct (w_modify_ok (set_buf W0 b2) OPCODE_BYTE (fun x => N.lor (N.land x (255 - OPCODE_MASK)) ((0 * 2 ^ OPCODE_SHIFT) mod 256)))
    as (b3 & E3 & L3); [cbn [w_buf set_buf] in *; change (N.to_nat OPCODE_BYTE) with 2; cbn in L1; lia|].
  unfold set_opcode. rewrite E3. cbn [bind]. rewrite set_buf_twice.
  destruct (w_modify_ok (set_buf W0 b3) RD_BYTE (set_bit RD_MASK rd)) as (b4 & E4 & L4); [cbn [w_buf set_buf] in *; change (N.to_nat RD_BYTE) with 2; cbn in L1; lia|].
  unfold set_rd, w_set_flag. rewrite E4. rewrite set_buf_twice.
  cbn [w_buf set_buf W0] in L1, L2, L3, L4.
  assert (Lb4 : length b4 = length buf) by congruence.
  destruct (fresh_add_question_ok buf0 L0 qname qtype qclass b4) as (w5 & E5 & C5 & Li5 & A5 & R5 & Ed5 & Lb5);
    [unfold L0; lia|fold n; lia|].
  change header_size with 12 in E5. fold W0 in E5. rewrite E5.
  destruct edns as [size|].
  - unfold set_edns. rewrite Ed5. change opt_record_size with 11.
    destruct (w_avail w5 <? w_cursor w5 + 11) eqn:Y; [apply Nat.ltb_lt in Y; fold n in C5; lia|].
    rewrite R5. change (checked_add16 0 1) with (Some 1%N). cbv iota.
    match goal with |- context [set_edns_f ?a ?b] => set (w6 := set_edns_f a b) end.
    destruct tcp.
    + exists w6. split; [reflexivity|]. unfold w6.
      cbn [w_cursor w_limit w_avail w_ar set_edns_f set_avail set_limit_avail set_counts].
      rewrite C5, Li5, A5. repeat split.
    + destruct (Hlim size eq_refl eq_refl) as [Hl1 Hl2].
      unfold MsgWriter.set_limit.
      assert (F6 : w_limit w6 = L0 /\ w_avail w6 = L0 - 11 /\ w_cursor w6 = 12 + n + 4 /\ length (w_buf w6) = length buf /\ w_ar w6 = 1%N).
      { unfold w6. cbn [w_cursor w_limit w_avail w_ar w_buf set_edns_f set_avail set_limit_avail set_counts].
        rewrite C5, Li5, A5. repeat split. congruence. }
      destruct F6 as (F1 & F2 & F3 & F4 & F5). rewrite F1, F4.
      destruct (L0 <=? limit) eqn:Z; [|apply Nat.leb_gt in Z; lia].
      destruct (Nat.min limit (length buf) <? L0) eqn:Z2; [apply Nat.ltb_lt in Z2; lia|].
      eexists. split; [reflexivity|]. cbn [w_cursor w_limit w_avail w_ar set_limit_avail].
      rewrite F2, F3, F5. repeat split; try lia.
  - exists w5. split; [reflexivity|]. fold n in C5. repeat split; assumption.
Qed.

Theorem prepare_w_agrees verify cfg req w0 q buf : wf_cfg cfg -> wf_bytes req ->
  prescan verify cfg req = Ok (PClean OPCODE_QUERY w0) -> Server.w_tsig w0 = None -> Server.w_question w0 = Some q ->
  length buf = c_buflen cfg ->
  exists w, prepare_w buf (match c_transport cfg with Tcp => true | Udp => false end)
                      (Server.w_id w0) (Server.w_rd w0) (labels_of (Reader.q_name q)) (Reader.q_type q) (Reader.q_class q)
                      (option_map fst (Server.w_edns w0)) (Server.w_limit w0) = Some w /\
    MsgWriter.w_cursor w = Server.w_cursor w0 /\ MsgWriter.w_limit w = Server.w_limit w0 /\
    MsgWriter.w_avail w = Server.w_avail w0 /\ MsgWriter.w_ar w = Server.w_arcount w0.
Proof.
  intros Hcfg Hwf H Hts Hq Hbuf. pose proof Hcfg as (H512 & H64k & Hbl).
  destruct (clean_query_numbers verify cfg req _ w0 q Hcfg Hwf H Hts Hq) as ((seen & I) & Hc & Hb & Hwire & HL).
  cbv zeta in HL. destruct HL as [HLn HLt].
  destruct I as (A & B & C & D & E & F & G & Har & J).
  destruct (prescan_facts verify cfg req Hcfg Hwf) as (p & Ep & Fp). rewrite H in Ep. inv Ep.
  destruct Fp as ((H12 & _ & _ & QE & _) & _). unfold question_echo in QE. rewrite Hq in QE.
  destruct QE as [QE|(_ & r1 & q' & RQ & QE)]; [discriminate|]. inv QE.
  pose proof (read_question_facts (r0_of req) (r0_inv req Hwf H12)) as (_ & _ & _ & Fq).
  rewrite RQ in Fq. cbn [fst snd] in Fq. destruct (Fq q' eq_refl) as (ls & Dq & Nm & _).
  assert (Hv : Forall RdataFormatS.valid_label ls).
  { inversion Dq as [ls' l qt qc DN _ _]; subst. destruct DN as (e & De & _). eapply RdNameP.decodes_labels_valid; eauto. }
  rewrite Nm in *. rewrite (QueryNameP.labels_of_name_of ls Hv).
  change (n_wire (NameRepr.name_of ls)) with (nm_wire ls) in *.
  set (tcp := match c_transport cfg with Tcp => true | Udp => false end).
  assert (HL0 : Nat.min (if tcp then tcp_limit_w else udp_limit_w) (length buf) =
                Nat.min (match c_transport cfg with Tcp => tcp_limit | Udp => udp_limit end) (c_buflen cfg)).
  { rewrite Hbuf. unfold tcp. destruct (c_transport cfg); reflexivity. }
  assert (H512' : 512 <= Nat.min (if tcp then tcp_limit_w else udp_limit_w) (length buf)).
  { rewrite HL0. unfold tcp_limit, udp_limit in *. destruct (c_transport cfg); lia. }
  destruct (prepare_w_numbers buf tcp (Server.w_id w0) (Server.w_rd w0) ls (Reader.q_type q') (Reader.q_class q')
              (option_map fst (Server.w_edns w0)) (Server.w_limit w0)) as (w & Ew & Cw & Nw).
  { destruct (option_map fst (Server.w_edns w0)); lia. }
  { intros sz Hs Ht. unfold tcp in Ht. destruct (c_transport cfg) eqn:Tr; [discriminate|].
    rewrite HL0. unfold udp_limit. rewrite Hbuf, <- Hb. lia. }
  exists w. split; [exact Ew|]. split; [rewrite Cw, Hc; reflexivity|].
  unfold reserved in G. destruct (Server.w_edns w0) as [[sz up]|] eqn:Ed; cbn [option_map fst] in Nw.
  - destruct Nw as (N1 & N2 & N3). rewrite N1, N2, N3, Har.
    assert (X : (if tcp then Nat.min (if tcp then tcp_limit_w else udp_limit_w) (length buf) else Server.w_limit w0) = Server.w_limit w0).
    { unfold tcp in *. destruct (c_transport cfg) eqn:Tr; [|reflexivity]. rewrite HL0. symmetry. apply HLt. reflexivity. }
    rewrite X. repeat split; lia.
  - destruct Nw as (N1 & N2 & N3). pose proof (HLn eq_refl) as HLn'. rewrite N1, N2, N3, Har, HL0. repeat split; lia.
Qed.
