(* Composition (C04, clause (ii) on the finished octets): the decoder finds TC set only over UDP, and then nothing
   but the OPT in the response.  TC is touched by one operation of the whole run, the set_tc(true) of the UDP
   Truncation arm: the query phase runs under a predicate that excludes OSetTc, the operations of the error arms
   are appended explicitly ([handle_ending]).  [respond_decode]: preparation, finish and decoding of respond_w. *)
From QV Require Import Base.ListX Gen.Consts Model.NameWire Model.MsgWriter Model.ZoneTree
  Spec.ZoneLookupS Proofs.ZoneInvP Model.Query Model.QueryW
  Spec.NameWireS Spec.MsgWriterS Spec.MsgWriterAbsS Spec.RdataFormatS Spec.RespS
  Proofs.MsgWriterP Proofs.MsgWriterScanP Proofs.MsgWriterNameP Proofs.MsgWriterInvP Proofs.MsgWriterOpP
  Proofs.MsgWriterStepP Proofs.MsgWriterDecP Proofs.MsgWriterHdrP Proofs.MsgWriterRtP
  Proofs.ComposeTraceP Proofs.ComposeWfP Proofs.ComposeNameP Proofs.ComposeKeyP Proofs.ComposeTopP Proofs.ComposeRdataP
  Proofs.ComposeRespP.
From QV Require Proofs.ZoneTopP Proofs.QueryTopP.
Local Open Scope nat_scope.

(* everything the server does to a response except touching TC, TSIG, the compression mode, templates *)
Definition Pop_q (o : wop) : Prop :=
  match o with
  | OSetTc _ | OSetMode _ | OSetTsig _ _ _ _ _ _ _ | OUpdateTime _ | OTemplate _ | OTemplateSubsequent => False
  | _ => True
  end.
(* ... and the one operation that sets TC: the answering logic is proved under Pop_q and weakened to Pop_t, under
   which the finished run with the appended set_tc(true) is decoded *)
Definition Pop_t (o : wop) : Prop :=
  match o with
  | OSetMode _ | OSetTsig _ _ _ _ _ _ _ | OUpdateTime _ | OTemplate _ | OTemplateSubsequent => False
  | _ => True
  end.

Lemma Pop_q_t o : Pop_q o -> Pop_t o.
Proof. destruct o; cbn; auto. Qed.

Lemma hreplay_inv (P : wop -> Prop) (I : ahdr -> Prop) : (forall H o r, I H -> P o -> I (hstep H o r)) ->
  forall ops outs H, Forall P ops -> I H -> I (hreplay H ops outs).
Proof.
  intros Hs. induction ops as [|o ops IH]; intros outs H Hf G; [exact G|].
  destruct outs as [|r outs]; [exact G|]. inversion Hf; subst. cbn [hreplay]. apply IH; auto.
Qed.

Definition Good_q (H : ahdr) : Prop := h_tc H = false /\ h_tsig H = None.
Lemma Good_q_replay ops outs H : Forall Pop_q ops -> Good_q H -> Good_q (hreplay H ops outs).
Proof.
  apply (hreplay_inv Pop_q Good_q). clear. intros H o r [A B] P.
  destruct o; cbn [Pop_q] in P; try contradiction; destruct r; cbn [hstep]; split; assumption.
Qed.
Lemma tsig_t_replay ops outs H : Forall Pop_t ops -> h_tsig H = None -> h_tsig (hreplay H ops outs) = None.
Proof.
  apply (hreplay_inv Pop_t (fun H => h_tsig H = None)). clear. intros H o r A P.
  destruct o; cbn [Pop_t] in P; try contradiction; destruct r; cbn [hstep]; assumption.
Qed.

(* what the error arms append to the trace of the answering logic *)
Definition ending_ops (tcp : bool) (e : perr) : list wop :=
  match e with
  | PServFail => [OSetAa false; OSetRcode RCODE_SERVFAIL; OClearRrs]
  | PTruncation => OClearRrs :: (if tcp then [OSetAa false; OSetRcode RCODE_SERVFAIL] else [OSetTc true])
  end.

Lemma handle_ending d0 g0 negttl z qname qtype tcp w e ops outs d g :
  (if (qtype =? QTYPE_ANY)%N then answer_any w_iface negttl z qname w else answer w_iface negttl z qname qtype w) = Err (e, d_w d) ->
  Traced Pop_t d0 g0 ops outs d g ->
  exists d' g', handle_non_axfr_query w_iface negttl z qname qtype tcp w = Some (d_w d') /\
    Traced Pop_t d0 g0 (ops ++ ending_ops tcp e) (outs ++ map (fun _ => RUnit) (ending_ops tcp e)) d' g'.
Proof.
  intros Eq HT. unfold handle_non_axfr_query. rewrite Eq. destruct e; cbn [ending_ops map].
  - destruct (Traced_set_aa _ _ _ _ _ _ _ false HT I) as (w2 & E2 & HT2). rewrite E2.
    destruct (Traced_set_rcode _ _ _ _ _ _ _ RCODE_SERVFAIL HT2 eq_refl I) as (w3 & E3 & HT3). cbn [d_w d_regs] in E3, HT3. rewrite E3.
    pose proof (Traced_clear _ _ _ _ _ _ _ HT3 I) as HT4. rewrite <- !app_assoc in HT4.
    eexists (mkD _ _), _. split; [reflexivity|exact HT4].
  - pose proof (Traced_clear _ _ _ _ _ _ _ HT I) as HT2. cbv zeta. destruct tcp.
    + destruct (Traced_set_aa _ _ _ _ _ _ _ false HT2 I) as (w3 & E3 & HT3). cbn [d_w d_regs] in E3, HT3. rewrite E3.
      destruct (Traced_set_rcode _ _ _ _ _ _ _ RCODE_SERVFAIL HT3 eq_refl I) as (w4 & E4 & HT4). cbn [d_w d_regs] in E4, HT4.
      rewrite <- !app_assoc in HT4. eexists (mkD _ _), _. split; [exact E4|exact HT4].
    + destruct (Traced_set_tc _ _ _ _ _ _ _ true HT2 I) as (w3 & E3 & HT3). cbn [d_w d_regs] in E3, HT3.
      rewrite <- !app_assoc in HT3. eexists (mkD _ _), _. split; [exact E3|exact HT3].
Qed.

Section Prepared.
Variable buf : bytes.
Variable tcp : bool.
Variable id : N.
Variable rd : bool.
Variable qname : wname.
Variables qtype qclass : N.
Variable edns : option N.
Variable limit : nat.

Definition pre_amsg : amsg := mkAM Standard [mkAQ qname Standard qtype qclass] [] [] [].
Definition pre_hdr : ahdr :=
  mkAH id true 0 false false rd false 0 (match edns with Some s => Some (s, 0%N) | None => None end) None.

Lemma pre_replay :
  let ops := pre_ops tcp id rd qname qtype qclass edns limit in
  areplay am0 ops (map (fun _ => RUnit) ops) = pre_amsg /\ hreplay ah0 ops (map (fun _ => RUnit) ops) = pre_hdr.
Proof. unfold pre_ops, pre_hdr. destruct edns as [size|]; [destruct tcp|]; split; reflexivity. Qed.

(* the preparation succeeds; whatever contract-obeying run continues it and ends in the Writer that
   handle_non_axfr_query hands back, respond_w finishes it, and the decoder reads back the replay of that run from
   the prepared message and header *)
Lemma respond_decode negttl z :
  512 <= length buf -> good_name qname ->
  (id < 65536)%N -> (qtype < 65536)%N -> (qclass < 65536)%N -> (forall s, edns = Some s -> (s < 65536)%N) ->
  exists w L, prepare_w buf tcp id rd qname qtype qclass edns limit = Some w /\
    AInv (mkD w []) (g_prepared qname) L /\
    forall ops outs d' g', Traced Pop_t (mkD w []) (g_prepared qname) ops outs d' g' ->
      handle_non_axfr_query w_iface negttl z qname qtype tcp w = Some (d_w d') ->
      exists len b m, respond_w negttl buf tcp id rd qname qtype qclass edns limit z = Some (len, b) /\
        decode_msg (firstn len b) = Some m /\
        hdr_rel (hreplay pre_hdr ops outs) m /\
        Forall2 (rr_rel xparts) (am_an (areplay pre_amsg ops outs)) (m_an m) /\
        Forall2 (rr_rel xparts) (am_ns (areplay pre_amsg ops outs)) (m_ns m) /\
        Forall2 (rr_rel xparts) (am_ar (areplay pre_amsg ops outs) ++
                                 pseudo_of (am_mode (areplay pre_amsg ops outs)) (hreplay pre_hdr ops outs)) (m_ar m).
Proof.
  intros Hb Gq Hid Hqt Hqc Hed.
  assert (Hhdr : forall o, match o with
    | OSetId _ | OSetQr true | OSetOpcode _ | OSetRd _ | OAddQuestion _ _ _ | OSetEdns _ | OSetLimit _ => Pop_t o
    | _ => True end).
  { intros o. destruct o; try exact I. destruct b; exact I. }
  destruct (prepared_Traced Pop_t Hhdr buf tcp id rd qname qtype qclass edns limit Hb Gq Hid Hqt Hqc Hed) as (w & w0 & Ew & E0 & Tpre).
  pose proof Tpre as (Lp & _ & Hip).
  exists w, Lp. split; [exact Ew|]. split; [exact Hip|]. intros ops outs d' g' HT Eh.
  destruct pre_replay as [EA EH]. rewrite <- EA, <- EH, <- areplay_app, <- hreplay_app by (rewrite map_length; reflexivity).
  destruct (run_decode Pop_t buf _ w0 _ _ d' g' E0 (Traced_trans _ _ _ _ _ _ _ _ _ _ _ Tpre HT)) as (len & b & m & Ef & H).
  exists len, b, m. split; [unfold respond_w; rewrite Ew, Eh, Ef; reflexivity|exact H].
Qed.

End Prepared.

Lemma accepted_Pz apex cls recs : Forall (fun r => good_rd (r_rdata r) /\ (r_type r < 65536)%N) recs ->
  Forall (fun r => Pz (fun _ _ => True) (r_type r) (r_rdata r)) (accepted apex cls recs).
Proof.
  intros Hrecs. apply Forall_forall. intros r Hr. apply QueryTopP.accepted_In in Hr. rewrite Forall_forall in Hrecs.
  destruct (Hrecs r Hr) as [A B]. split; [exact A|split; [exact B|exact I]].
Qed.

Section Tc.
Variable reqf : N -> N -> bytes -> bytes -> bool.
Variable apex : name.
Variable cls : N.
Variable R : list record.
Variable z : zone.
Hypothesis Hinv : Inv reqf apex cls z R.
Hypothesis Hapex : good_name apex.
Hypothesis Hclass : (cls < 65536)%N.
Hypothesis HR : Forall (fun r => Pz (fun _ _ => True) (r_type r) (r_rdata r)) R.
Variable negttl : N -> N -> N.

Lemma answering_q qname qtype w L q : good_name qname -> in_zone apex qname = true -> AInv (mkD w []) (g_prepared qname) L ->
  (if (qtype =? QTYPE_ANY)%N then answer_any w_iface negttl z qname w else answer w_iface negttl z qname qtype w) = q ->
  QS Pop_q (mkD w []) (g_prepared qname) (mkD w []) (g_prepared qname) q.
Proof.
  (* the four [I]s: Pop_q admits every add_rr, add_rrset, set_aa and set_rcode *)
  intros Gq Hz Hi <-. pose proof (Traced_St _ _ _ _ _ _ _ (Traced_nil Pop_q _ _ L Hi)) as Sp.
  destruct (qtype =? QTYPE_ANY)%N.
  - apply (answer_any_S reqf apex cls R z Hinv (fun _ _ => True) Pop_q HR Hapex Hclass
             (fun _ _ _ _ _ _ _ _ => I) (fun _ _ _ _ _ _ _ _ => I) (fun _ => I) (fun _ => I) negttl _ _ qname Gq Hz
             (mkD w []) (g_prepared qname) Sp eq_refl).
  - apply (answer_S reqf apex cls R z Hinv (fun _ _ => True) Pop_q HR Hapex Hclass
             (fun _ _ _ _ _ _ _ _ => I) (fun _ _ _ _ _ _ _ _ => I) (fun _ => I) (fun _ => I) negttl _ _ qname Gq Hz
             qtype (mkD w []) (g_prepared qname) Sp eq_refl).
Qed.

Theorem respond_w_tc buf tcp id rd qname qtype qclass edns limit :
  512 <= length buf -> good_name qname -> in_zone apex qname = true ->
  (id < 65536)%N -> (qtype < 65536)%N -> (qclass < 65536)%N -> (forall s, edns = Some s -> (s < 65536)%N) ->
  exists len b m, respond_w negttl buf tcp id rd qname qtype qclass edns limit z = Some (len, b) /\
    decode_msg (firstn len b) = Some m /\
    (tcp = true -> tc_bit m = false) /\
    (tc_bit m = true -> m_an m = [] /\ m_ns m = [] /\ forallb is_pseudo (m_ar m) = true).
Proof.
  intros Hb Gq Hz Hid Hqt Hqc Hed.
  destruct (respond_decode buf tcp id rd qname qtype qclass edns limit negttl z Hb Gq Hid Hqt Hqc Hed) as (w & Lp & Ew & Hip & Dec).
  (* whatever run finishes the response: what its replayed TC and TSIG settings mean for the decoded message *)
  assert (Fin : forall ops outs d' g', Traced Pop_t (mkD w []) (g_prepared qname) ops outs d' g' ->
            handle_non_axfr_query w_iface negttl z qname qtype tcp w = Some (d_w d') ->
            let A := areplay (pre_amsg qname qtype qclass) ops outs in
            let H := hreplay (pre_hdr id rd edns) ops outs in
            h_tsig H = None ->
            (h_tc H = true -> tcp = false /\ am_an A = [] /\ am_ns A = [] /\ am_ar A = []) ->
            exists len b m, respond_w negttl buf tcp id rd qname qtype qclass edns limit z = Some (len, b) /\
              decode_msg (firstn len b) = Some m /\ (tcp = true -> tc_bit m = false) /\
              (tc_bit m = true -> m_an m = [] /\ m_ns m = [] /\ forallb is_pseudo (m_ar m) = true)).
  { intros ops outs d' g' HT Eh A H Hts Htc.
    destruct (Dec ops outs d' g' HT Eh) as (len & b & m & Er & Em & Hh & Han & Hns & Har). fold A H in Hh, Han, Hns, Har.
    exists len, b, m. split; [exact Er|]. split; [exact Em|].
    assert (Etc : tc_bit m = h_tc H) by (unfold tc_bit; apply Hh). rewrite Etc.
    split; intros Ht.
    - destruct (h_tc H); [|reflexivity]. destruct (Htc eq_refl) as [X _]. congruence.
    - destruct (Htc Ht) as (_ & A1 & A2 & A3). rewrite A1 in Han. rewrite A2 in Hns. rewrite A3 in Har.
      inversion Han; subst. inversion Hns; subst. split; [reflexivity|]. split; [reflexivity|].
      exact (pseudo_all_pseudo _ _ _ Hts Har). }
  destruct (if (qtype =? QTYPE_ANY)%N then answer_any w_iface negttl z qname w else answer w_iface negttl z qname qtype w)
    as [[u w1]|[e w1]|] eqn:Eq; pose proof (answering_q qname qtype w Lp _ Gq Hz Hip Eq) as Q; cbn [QS] in Q; try contradiction;
    (* in both arms: the trace of the answering logic, under Pop_q, so TC is clear and there is no TSIG after it *)
    destruct Q as (d1 & g1 & HS1 & <- & _); apply St_Traced in HS1 as (ops1 & outs1 & HT1);
    pose proof (Traced_len _ _ _ _ _ _ _ HT1) as Hl1;
    destruct (Good_q_replay ops1 outs1 (pre_hdr id rd edns) (Traced_Forall _ _ _ _ _ _ _ HT1) (conj eq_refl eq_refl)) as [G1 G2];
    apply (Traced_weaken _ _ _ _ _ _ _ _ Pop_q_t) in HT1.
  - apply (Fin _ _ _ _ HT1); [unfold handle_non_axfr_query; rewrite Eq; reflexivity|exact G2|congruence].
  - (* an error arm: TC only by the set_tc(true) over UDP, which follows clear_rrs *)
    destruct (handle_ending _ _ negttl z qname qtype tcp w e _ _ _ _ Eq HT1) as (d' & g' & Eh & HT').
    apply (Fin _ _ _ _ HT' Eh); cbv zeta; rewrite ?hreplay_app, ?areplay_app by exact Hl1.
    + destruct e, tcp; exact G2.
    + destruct e, tcp; cbn [ending_ops map hreplay hstep areplay astep h_tc am_an am_ns am_ar]; auto; congruence.
Qed.

(* the response always decodes; when the answering logic succeeded it is the abstract message of that run
   (any run that ends in the Writer handed back), followed by at most the OPT pseudo-record *)
Lemma respond_w_ok buf tcp id rd qname qtype qclass edns limit :
  512 <= length buf -> good_name qname -> in_zone apex qname = true ->
  (id < 65536)%N -> (qtype < 65536)%N -> (qclass < 65536)%N -> (forall s, edns = Some s -> (s < 65536)%N) ->
  exists w L len b m, prepare_w buf tcp id rd qname qtype qclass edns limit = Some w /\
    AInv (mkD w []) (g_prepared qname) L /\
    respond_w negttl buf tcp id rd qname qtype qclass edns limit z = Some (len, b) /\
    decode_msg (firstn len b) = Some m /\
    forall u d' g' A,
      (if (qtype =? QTYPE_ANY)%N then answer_any w_iface negttl z qname w else answer w_iface negttl z qname qtype w) = Ok (u, d_w d') ->
      StA Pop_t (mkD w []) (g_prepared qname) (pre_amsg qname qtype qclass) d' g' A ->
      Forall2 (rr_rel xparts) (am_an A) (m_an m) /\ Forall2 (rr_rel xparts) (am_ns A) (m_ns m) /\
      exists ds dP, m_ar m = ds ++ dP /\ Forall2 (rr_rel xparts) (am_ar A) ds /\ forallb is_pseudo dP = true.
Proof.
  intros Hb Gq Hz Hid Hqt Hqc Hed.
  destruct (respond_decode buf tcp id rd qname qtype qclass edns limit negttl z Hb Gq Hid Hqt Hqc Hed) as (w & L & Ew & Hi & Dec).
  destruct (respond_w_tc buf tcp id rd qname qtype qclass edns limit Hb Gq Hz Hid Hqt Hqc Hed) as (len & b & m & Er & Em & _).
  exists w, L, len, b, m. split; [exact Ew|]. split; [exact Hi|]. split; [exact Er|]. split; [exact Em|].
  intros u d' g' A Eq (ops & outs & HT & ->).
  destruct (Dec ops outs d' g' HT) as (len' & b' & m' & Er' & Em' & _ & Han & Hns & Har);
    [unfold handle_non_axfr_query; rewrite Eq; reflexivity|].
  rewrite Er in Er'. inversion Er'; subst len' b'. rewrite Em in Em'. inversion Em'; subst m'.
  split; [exact Han|]. split; [exact Hns|].
  apply Forall2_app_inv_l in Har as (ds & dP & Hds & HdP & Ear). exists ds, dP. split; [exact Ear|]. split; [exact Hds|].
  apply (pseudo_all_pseudo _ _ _ (tsig_t_replay ops outs (pre_hdr id rd edns) (Traced_Forall _ _ _ _ _ _ _ HT) eq_refl) HdP).
Qed.

End Tc.

Theorem respond_w_tc_build reqf apex cls wide recs z negttl buf tcp id rd qname qtype qclass edns limit :
  (forall c t a b d, reqf c t a b = true -> reqf c t b d = true -> reqf c t a d = true) ->
  zone_build reqf (zone_new apex cls wide) recs = Some z ->
  Forall (fun r => good_rd (r_rdata r) /\ (r_type r < 65536)%N) recs -> good_name apex -> (cls < 65536)%N ->
  512 <= length buf -> good_name qname -> in_zone apex qname = true ->
  (id < 65536)%N -> (qtype < 65536)%N -> (qclass < 65536)%N -> (forall s, edns = Some s -> (s < 65536)%N) ->
  exists len b m, respond_w negttl buf tcp id rd qname qtype qclass edns limit z = Some (len, b) /\
    decode_msg (firstn len b) = Some m /\
    (tcp = true -> tc_bit m = false) /\
    (tc_bit m = true -> m_an m = [] /\ m_ns m = [] /\ forallb is_pseudo (m_ar m) = true).
Proof.
  intros Ht Hb Hrecs Ga Hc.
  exact (respond_w_tc reqf apex cls (accepted apex cls recs) z (ZoneTopP.build_inv reqf Ht apex cls wide recs z Hb) Ga Hc
           (accepted_Pz apex cls recs Hrecs) negttl buf tcp id rd qname qtype qclass edns limit).
Qed.
