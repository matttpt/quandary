(* C12 message-level round trip: the RFC 1035 decoder applied to the finished message returns the
   questions and records of the abstract message denoted by the operations that succeeded. *)
From QV Require Import Base.ListX Model.MsgWriter Spec.NameRepr Spec.MsgWriterS Spec.MsgWriterAbsS
     Proofs.NameWireP Proofs.MsgWriterP Proofs.MsgWriterScanP Proofs.MsgWriterNameP Proofs.MsgWriterInvP
     Proofs.MsgWriterClosP Proofs.MsgWriterNameSP Proofs.MsgWriterLayP Proofs.MsgWriterOpP
     Proofs.MsgWriterStepP Proofs.MsgWriterMsgP Proofs.MsgWriterDecP Proofs.MsgWriterHdrP Proofs.MsgWriterGetP.

Local Open Scope nat_scope.

(* sizes a Rust caller cannot violate (Name <= 255 octets, u16 type/class, Rdata <= 65535 octets) *)
Definition op_wf2 (o : wop) : Prop :=
  match o with
  | OAddQuestion n qt qc => length (nm_wire n) <= 255 /\ (qt < 65536)%N /\ (qc < 65536)%N
  | OAddRr _ _ n ty cl _ rd _ =>
    length (nm_wire n) <= 255 /\ (ty < 65536)%N /\ (cl < 65536)%N /\ (N.of_nat (length rd) < 65536)%N
  | OAddRrset _ _ n ty cl _ rds _ =>
    length (nm_wire n) <= 255 /\ (ty < 65536)%N /\ (cl < 65536)%N /\
    Forall (fun rd => (N.of_nat (length rd) < 65536)%N) rds
  | _ => True
  end.

Record amsg_wf (A : amsg) : Prop := mkAW {
  aw_q : Forall aq_wf (am_qs A); aw_a : Forall arr_wf (am_an A);
  aw_n : Forall arr_wf (am_ns A); aw_r : Forall arr_wf (am_ar A) }.

Lemma ttl_rfc_lt raw : (ttl_rfc raw < 4294967296)%N.
Proof. unfold ttl_rfc. destruct (raw <=? 2147483647)%N eqn:E; [apply N.leb_le in E|]; lia. Qed.

Lemma add_rrs_wf A s l : amsg_wf A -> Forall arr_wf l -> amsg_wf (add_rrs A s l).
Proof. intros [] Hl. destruct s; constructor; simpl; auto; apply Forall_app; auto. Qed.

Lemma astep_wf A o r : amsg_wf A -> op_wf o -> op_wf2 o -> amsg_wf (astep A o r).
Proof.
  intros HA Hw H2. pose proof HA as [Hq Ha Hn Hr].
  destruct o; simpl in *; try exact HA; try (constructor; auto; fail); destruct r; try exact HA.
  - constructor; simpl; auto. apply Forall_app. split; auto. constructor; auto.
    destruct H2 as [K1 [K2 K3]]. repeat split; auto; apply Hw.
  - apply add_rrs_wf; auto. constructor; auto. destruct Hw as [W1 W2]. destruct H2 as [K1 [K2 [K3 K4]]].
    repeat split; auto; try apply W1. apply ttl_rfc_lt.
  - apply add_rrs_wf; auto. destruct Hw as [W1 W2]. destruct H2 as [K1 [K2 [K3 K4]]].
    rewrite Forall_forall in *. intros a Ha'. apply in_map_iff in Ha' as [rd [<- Hin]].
    repeat split; simpl; auto; try apply W1. apply ttl_rfc_lt.
  - constructor; simpl; auto.
  - constructor; simpl; auto.
  - constructor; simpl; auto.
Qed.

Lemma areplay_wf : forall ops rs A, amsg_wf A -> Forall op_wf ops -> Forall op_wf2 ops ->
  amsg_wf (areplay A ops rs).
Proof.
  induction ops as [|o rest IH]; intros rs A HA Hw H2; simpl; auto.
  destruct rs as [|r rs']; auto. inversion Hw; subst. inversion H2; subst.
  apply IH; auto. apply astep_wf; auto.
Qed.

Lemma am0_wf : amsg_wf am0.
Proof. constructor; constructor. Qed.

Lemma rrs_at_split b L : forall rs1 rs2 pos e, rrs_at b L (rs1 ++ rs2) pos e ->
  exists m, rrs_at b L rs1 pos m /\ rrs_at b L rs2 m e.
Proof.
  induction rs1 as [|r rest IH]; intros rs2 pos e H; simpl in *.
  - exists pos. auto.
  - destruct H as [H1 [H2 [H3 H4]]]. destruct (IH _ _ _ H4) as [m [K1 K2]].
    exists m. split; auto. split; auto. split; auto. split; auto.
    pose proof (rrs_le _ _ _ _ _ K1). pose proof (rrs_le _ _ _ _ _ K2). lia.
Qed.

Lemma pseudo_wf w : (forall t, w_tsig w = Some t -> tsig_wf t) ->
  (forall e, w_edns w = Some e -> (e_udp e < 65536 /\ e_upper e < 256)%N) -> Forall arr_wf (pseudo w).
Proof.
  intros Ht He. unfold pseudo. apply Forall_app. split.
  - destruct (w_edns w) as [e|] eqn:E; [|constructor]. destruct (He e eq_refl) as [K1 K2].
    constructor; [|constructor]. unfold arr_wf; simpl. repeat split; auto; try lia; try constructor.
    cbv. lia.
  - destruct (w_tsig w) as [t|] eqn:E; [|constructor].
    pose proof (Ht t eq_refl) as Twf. pose proof (octets_rdata t Twf) as Oct.
    pose proof (tsig_rdata_length t Twf) as Tl.
    destruct Twf as [T1 [T2 [T3 [T4 [T5 [T6 [T7 [T8 [T9 T10]]]]]]]]].
    constructor; [|constructor]. unfold arr_wf; simpl. repeat split; auto; try apply T1; try (cbv; lia).
    rewrite T5 in Tl. unfold tsig_unsigned_len in Tl. destruct (t_error t =? badtime)%N; lia.
Qed.

Lemma pseudo_length w : N.of_nat (length (pseudo w)) = (b2N (osome (w_edns w)) + b2N (osome (w_tsig w)))%N.
Proof. unfold pseudo. destruct (w_edns w); destruct (w_tsig w); reflexivity. Qed.

Lemma get16_slice8 (b : bytes) v1 v2 v3 v4 : slice b 4 12 = be16 v1 ++ be16 v2 ++ be16 v3 ++ be16 v4 ->
  12 <= length b -> (v1 < 65536 -> v2 < 65536 -> v3 < 65536 -> v4 < 65536 ->
  get16 b 4 = Some v1 /\ get16 b 6 = Some v2 /\ get16 b 8 = Some v3 /\ get16 b 10 = Some v4)%N.
Proof.
  intros Hs Hl B1 B2 B3 B4.
  repeat split; apply get16_be16; auto.
  - rewrite (slice_sub b 4 12 4 (4 + 2) _ Hs) by lia. reflexivity.
  - rewrite (slice_sub b 4 12 6 (6 + 2) _ Hs) by lia. reflexivity.
  - rewrite (slice_sub b 4 12 8 (8 + 2) _ Hs) by lia. reflexivity.
  - rewrite (slice_sub b 4 12 10 (10 + 2) _ Hs) by lia. reflexivity.
Qed.

(* the pointer-rule checker of the specification (judge13's core) accepts the decoded message, for
   expected items whose "no compression at all" flag is that of the mode they were written in *)
Definition qflag (e : aitem) (a : aq) : Prop := a_nocomp e = nocomp_of (aq_mode a).
Definition rflag (e : aitem) (a : arr) : Prop := a_nocomp e = nocomp_of (ar_mode a).

Definition ptr_ok (bm : bytes) (m : dmsg) (Aq : list aq) (Aa An Ar : list arr) : Prop :=
  forall eq ea en er, Forall2 qflag eq Aq -> Forall2 rflag ea Aa -> Forall2 rflag en An -> Forall2 rflag er Ar ->
    exists st, (let* st := check_qs bm [] eq (m_qs m) in
                let* st := check_rrs bm st ea (m_an m) in
                let* st := check_rrs bm st en (m_ns m) in
                check_rrs bm st er (m_ar m)) = Ok st.

Lemma Forall2_wfL rs al : Forall2 rr_desc2 rs al -> Forall arr_wf al -> Forall rr_wfL rs.
Proof.
  induction 1 as [|r a rs al Hd _ IH]; intros Hw; constructor; inversion Hw; subst; auto.
  eapply rr_wfL_of; eauto.
Qed.

Lemma Forall2_rplain es al rs : Forall2 rflag es al -> Forall2 rr_desc2 rs al ->
  Forall2 (fun a r => a_nocomp a = true -> rr_plain r) es rs.
Proof.
  intros H. revert rs. induction H as [|e a es al He _ IH]; intros rs Hd; inversion Hd as [|r ? rs' ? [_ Hp] Hd']; subst;
    constructor; auto.
  intros Hn. apply Hp. unfold rflag in He. rewrite He in Hn. destruct (ar_mode a); simpl in Hn; congruence.
Qed.

Lemma Forall2_qplain es al qs : Forall2 qflag es al -> Forall2 q_desc qs al ->
  Forall2 (fun a q => a_nocomp a = true -> nc_sh (lq_name q) = None) es qs.
Proof.
  intros H. revert qs. induction H as [|e a es al He _ IH]; intros qs Hd; inversion Hd as [|q ? qs' ? [_ Hp] Hd']; subst;
    constructor; auto.
  intros Hn. apply Hp. unfold qflag in He. rewrite He in Hn. destruct (aq_mode a); simpl in Hn; congruence.
Qed.

Lemma ptr_chain bm (L : nat -> Prop) yq r1 r2 r3 rs m1 m2 len dq d1 d2 d3 Aq Aa An Ar :
  qs_at bm L yq header_size rs -> rrs_at bm L r1 rs m1 -> rrs_at bm L r2 m1 m2 -> rrs_at bm L r3 m2 len ->
  len <= length bm ->
  (forall s, L s <-> In s (qs_starts yq ++ rrs_starts (r1 ++ r2 ++ r3))) ->
  Forall2 (fun q d => dq_pos d = nc_pos (lq_name q)) yq dq ->
  Forall2 rlink r1 d1 -> Forall2 rlink r2 d2 -> Forall2 rlink r3 d3 ->
  Forall (fun q => wf_name (nc_name (lq_name q))) yq -> Forall rr_wfL r1 -> Forall rr_wfL r2 -> Forall rr_wfL r3 ->
  Forall2 q_desc yq Aq -> Forall2 rr_desc2 r1 Aa -> Forall2 rr_desc2 r2 An -> Forall2 rr_desc2 r3 Ar ->
  forall id f2 f3, ptr_ok bm (mkDM id f2 f3 dq d1 d2 d3) Aq Aa An Ar.
Proof.
  intros Hq H1 H2 H3 Hlen Ht Lq L1 L2 L3 Wq W1 W2 W3 Dq D1 D2 D3 id f2 f3 eq ea en er Fq Fa Fn Fr.
  pose proof (Forall2_qplain _ _ _ Fq Dq) as Pq. pose proof (Forall2_rplain _ _ _ Fa D1) as P1.
  pose proof (Forall2_rplain _ _ _ Fn D2) as P2. pose proof (Forall2_rplain _ _ _ Fr D3) as P3.
  pose proof (qs_le _ _ _ _ _ Hq). pose proof (rrs_le _ _ _ _ _ H1). pose proof (rrs_le _ _ _ _ _ H2).
  pose proof (rrs_le _ _ _ _ _ H3).
  cbn [m_qs m_an m_ns m_ar].
  rewrite (check_qs_ok bm L yq dq eq [] (rrs_starts (r1 ++ r2 ++ r3)) header_size rs); auto; try lia.
  2:{ intros s Hs. apply Ht in Hs. exact Hs. }
  2:{ intros s []. }
  2:{ intros s Hs. rewrite !rrs_starts_app, !in_app_iff in Hs. destruct Hs as [K|[K|K]].
      - apply (rrs_starts_bound _ _ _ _ _ _ H1) in K; lia.
      - apply (rrs_starts_bound _ _ _ _ _ _ H2) in K; lia.
      - apply (rrs_starts_bound _ _ _ _ _ _ H3) in K; lia. }
  cbn [bind app].
  rewrite (check_rrs_ok bm L r1 d1 ea (qs_starts yq) (rrs_starts (r2 ++ r3)) rs m1); auto; try lia.
  2:{ intros s Hs. apply Ht in Hs. rewrite !rrs_starts_app, !in_app_iff in *. tauto. }
  2:{ intros s Hs. apply (qs_starts_bound _ _ _ _ _ _ Hq) in Hs; lia. }
  2:{ intros s Hs. rewrite !rrs_starts_app, !in_app_iff in Hs. destruct Hs as [K|K].
      - apply (rrs_starts_bound _ _ _ _ _ _ H2) in K; lia.
      - apply (rrs_starts_bound _ _ _ _ _ _ H3) in K; lia. }
  cbn [bind].
  rewrite (check_rrs_ok bm L r2 d2 en (qs_starts yq ++ rrs_starts r1) (rrs_starts r3) m1 m2); auto; try lia.
  2:{ intros s Hs. apply Ht in Hs. rewrite !rrs_starts_app, !in_app_iff in *. tauto. }
  2:{ intros s Hs. rewrite in_app_iff in Hs. destruct Hs as [K|K].
      - apply (qs_starts_bound _ _ _ _ _ _ Hq) in K; lia.
      - apply (rrs_starts_bound _ _ _ _ _ _ H1) in K; lia. }
  2:{ intros s K. apply (rrs_starts_bound _ _ _ _ _ _ H3) in K; lia. }
  cbn [bind].
  rewrite (check_rrs_ok bm L r3 d3 er ((qs_starts yq ++ rrs_starts r1) ++ rrs_starts r2) [] m2 len); auto; try lia.
  - eauto.
  - intros s Hs. apply Ht in Hs. rewrite !rrs_starts_app, !in_app_iff in *. tauto.
  - intros s Hs. rewrite !in_app_iff in Hs. destruct Hs as [[K|K]|K].
    + apply (qs_starts_bound _ _ _ _ _ _ Hq) in K; lia.
    + apply (rrs_starts_bound _ _ _ _ _ _ H1) in K; lia.
    + apply (rrs_starts_bound _ _ _ _ _ _ H2) in K; lia.
  - intros s [].
Qed.

Lemma get16_some (b : bytes) i : i + 2 <= length b -> exists v, get16 b i = Some v.
Proof.
  intros H. unfold get16.
  destruct (nth_error b i) eqn:E1; [|apply nth_error_None in E1; lia].
  destruct (nth_error b (i + 1)) eqn:E2; [|apply nth_error_None in E2; lia]. eauto.
Qed.

Lemma nth_some (b : bytes) i : i < length b -> exists v, nth_error b i = Some v.
Proof. intros H. destruct (nth_error b i) eqn:E; eauto. apply nth_error_None in E. lia. Qed.

(* any finished buffer given by its layout and the descriptions of its chunks decodes, under the RFC 1035
   decoder, to what the layout stands for ([ps]: records after those of [A], e.g. the pseudo-records), and
   passes the pointer-rule checker *)
Lemma layout_decodes_ptr (wF : writer) (LF : nat -> Prop) yF rs (A : amsg) ps qd an ns ar :
  NInv wF (length (w_buf wF)) LF ->
  PLay (w_buf wF) LF yF rs (w_cursor wF) ->
  Forall2 q_desc (y_qs yF) (am_qs A) ->
  Forall2 rr_desc2 (y_rrs yF) (am_an A ++ am_ns A ++ am_ar A ++ ps) ->
  amsg_wf A -> Forall arr_wf ps ->
  slice (w_buf wF) 4 12 = be16 qd ++ be16 an ++ be16 ns ++ be16 ar ->
  qd = N.of_nat (length (am_qs A)) -> an = N.of_nat (length (am_an A)) -> ns = N.of_nat (length (am_ns A)) ->
  ar = N.of_nat (length (am_ar A ++ ps)) ->
  (qd <= 65535 /\ an <= 65535 /\ ns <= 65535 /\ ar <= 65535)%N ->
  exists m,
    (decode_msg (firstn (w_cursor wF) (w_buf wF)) = Some m /\
     Forall2 q_rel (am_qs A) (m_qs m) /\
     Forall2 (rr_rel xparts) (am_an A) (m_an m) /\ Forall2 (rr_rel xparts) (am_ns A) (m_ns m) /\
     Forall2 (rr_rel xparts) (am_ar A ++ ps) (m_ar m) /\
     get16 (firstn (w_cursor wF) (w_buf wF)) 0 = Some (m_id m) /\
     nth_error (firstn (w_cursor wF) (w_buf wF)) 2 = Some (m_flags2 m) /\
     nth_error (firstn (w_cursor wF) (w_buf wF)) 3 = Some (m_flags3 m) /\ 12 <= w_cursor wF) /\
    ptr_ok (firstn (w_cursor wF) (w_buf wF)) m (am_qs A) (am_an A) (am_ns A) (am_ar A ++ ps).
Proof.
  intros HiF PF Fq Fr HA Wp Hdr Eqd Ean Ens Ear [Bq [Ba [Bn Br]]].
  pose proof (ni_nb _ _ _ HiF) as [Nb1 Nb2].
  pose proof (ni_closed _ _ _ HiF) as Hcl. pose proof (ni_sdec _ _ _ HiF) as Hsd.
  set (b := w_buf wF) in *. set (len := w_cursor wF) in *.
  assert (Hlb : len <= length b) by lia.
  set (bm := firstn len b).
  assert (Hlen : length bm = len) by (unfold bm; rewrite firstn_length; lia).
  assert (Ag : agree len b bm).
  { unfold agree, bm. rewrite firstn_firstn. f_equal. lia. }
  assert (R : ragree header_size len (length b) b bm) by (apply agree_ragree; auto).
  assert (Hsd' : sdec bm len LF) by (apply (sdec_transfer b header_size len (length b) LF bm len Hcl R); [lia|exact Hsd]).
  destruct PF as [P1 P2 P3].
  pose proof (qs_le _ _ _ _ _ P1) as Hq12. pose proof (rrs_le _ _ _ _ _ P2) as Hrl.
  pose proof wconsts as [Hhs _].
  assert (P1' : qs_at bm LF (y_qs yF) header_size rs).
  { apply (qs_transfer b header_size len (length b) LF bm Hcl R); [unfold okr; lia|lia|exact P1]. }
  assert (P2' : rrs_at bm LF (y_rrs yF) rs len).
  { apply (rrs_transfer b header_size len (length b) LF bm Hcl R); [unfold okr; lia|lia|exact P2]. }
  destruct HA as [Wq Wa Wn Wr].
  assert (Hdr' : slice bm 4 12 = be16 qd ++ be16 an ++ be16 ns ++ be16 ar).
  { unfold bm. rewrite slice_firstn by lia. exact Hdr. }
  destruct (get16_slice8 bm _ _ _ _ Hdr' ltac:(lia) ltac:(lia) ltac:(lia) ltac:(lia) ltac:(lia))
    as [G4 [G6 [G8 G10]]].
  destruct (get16_some bm 0 ltac:(lia)) as [vid Gid].
  destruct (nth_some bm 2 ltac:(lia)) as [f2 Gf2]. destruct (nth_some bm 3 ltac:(lia)) as [f3 Gf3].
  pose proof (Forall2_len _ _ _ Fq) as Lq.
  assert (Fq' : Forall2 (fun q a => nc_name (lq_name q) = aq_name a /\ nc_cp (lq_name q) = aq_exact a /\
                                    lq_ty q = aq_ty a /\ lq_cl q = aq_cl a) (y_qs yF) (am_qs A)).
  { clear - Fq. induction Fq as [|q a qs al [Hd _] _ IH]; constructor; auto. }
  destruct (qs_decode bm len LF Hsd' (y_qs yF) (am_qs A) header_size
              rs P1' Fq' Wq ltac:(lia)) as [qds [Eq [Rq Lkq]]].
  apply Forall2_app_inv_r in Fr as [rs1 [rest1 [F1 [Fr Ey1]]]].
  apply Forall2_app_inv_r in Fr as [rs2 [rs3 [F2 [F3 Ey2]]]].
  rewrite Ey1, Ey2 in P2'.
  destruct (rrs_at_split _ _ _ _ _ _ P2') as [m1 [Q1 Q23]].
  destruct (rrs_at_split _ _ _ _ _ _ Q23) as [m2 [Q2 Q3]].
  pose proof (rrs_le _ _ _ _ _ Q1). pose proof (rrs_le _ _ _ _ _ Q2). pose proof (rrs_le _ _ _ _ _ Q3).
  assert (Wps : Forall arr_wf (am_ar A ++ ps)) by (apply Forall_app; split; auto).
  destruct (rrs_decode bm len LF Hsd' rs1 (am_an A) _ _ Q1 F1 Wa ltac:(lia)) as [d1 [E1 [R1 Lk1]]].
  destruct (rrs_decode bm len LF Hsd' rs2 (am_ns A) _ _ Q2 F2 Wn ltac:(lia)) as [d2 [E2 [R2 Lk2]]].
  destruct (rrs_decode bm len LF Hsd' rs3 _ _ _ Q3 F3 Wps ltac:(lia)) as [d3 [E3 [R3 Lk3]]].
  pose proof (Forall2_len _ _ _ F1) as L1. pose proof (Forall2_len _ _ _ F2) as L2.
  pose proof (Forall2_len _ _ _ F3) as L3.
  exists (mkDM vid f2 f3 qds d1 d2 d3). split; [split;
    [|cbn [m_qs m_an m_ns m_ar m_id m_flags2 m_flags3]; repeat split; auto; try lia]|].
  - unfold decode_msg. rewrite Gid, Gf2, Gf3, G4, G6, G8, G10.
    replace (N.to_nat qd) with (length (y_qs yF)) by lia.
    change 12 with header_size. rewrite Eq.
    replace (N.to_nat an) with (length rs1) by lia. rewrite E1.
    replace (N.to_nat ns) with (length rs2) by lia. rewrite E2.
    replace (N.to_nat ar) with (length rs3) by lia. rewrite E3.
    rewrite Hlen, Nat.eqb_refl. reflexivity.
  - apply (ptr_chain bm LF (y_qs yF) rs1 rs2 rs3 rs m1 m2 len); auto; try lia.
    + intros s. rewrite P3, Ey1, Ey2. reflexivity.
    + clear - Fq Wq. induction Fq as [|q a qs al [[D1 _] _] _ IH]; constructor; inversion Wq; subst.
      * rewrite D1. apply H1.
      * apply IH; auto.
    + eapply Forall2_wfL; eauto.
    + eapply Forall2_wfL; eauto.
    + eapply Forall2_wfL; eauto.
Qed.

Lemma layout_decodes (wF : writer) (LF : nat -> Prop) yF rs (A : amsg) ps qd an ns ar :
  NInv wF (length (w_buf wF)) LF ->
  PLay (w_buf wF) LF yF rs (w_cursor wF) ->
  Forall2 q_desc (y_qs yF) (am_qs A) ->
  Forall2 rr_desc2 (y_rrs yF) (am_an A ++ am_ns A ++ am_ar A ++ ps) ->
  amsg_wf A -> Forall arr_wf ps ->
  slice (w_buf wF) 4 12 = be16 qd ++ be16 an ++ be16 ns ++ be16 ar ->
  qd = N.of_nat (length (am_qs A)) -> an = N.of_nat (length (am_an A)) -> ns = N.of_nat (length (am_ns A)) ->
  ar = N.of_nat (length (am_ar A ++ ps)) ->
  (qd <= 65535 /\ an <= 65535 /\ ns <= 65535 /\ ar <= 65535)%N ->
  exists m, decode_msg (firstn (w_cursor wF) (w_buf wF)) = Some m /\
    Forall2 q_rel (am_qs A) (m_qs m) /\
    Forall2 (rr_rel xparts) (am_an A) (m_an m) /\ Forall2 (rr_rel xparts) (am_ns A) (m_ns m) /\
    Forall2 (rr_rel xparts) (am_ar A ++ ps) (m_ar m) /\
    get16 (firstn (w_cursor wF) (w_buf wF)) 0 = Some (m_id m) /\
    nth_error (firstn (w_cursor wF) (w_buf wF)) 2 = Some (m_flags2 m) /\
    nth_error (firstn (w_cursor wF) (w_buf wF)) 3 = Some (m_flags3 m) /\ 12 <= w_cursor wF.
Proof.
  intros HiF PF Fq Fr HA Wp Hdr Eqd Ean Ens Ear Hb.
  destruct (layout_decodes_ptr wF LF yF rs A ps qd an ns ar HiF PF Fq Fr HA Wp Hdr Eqd Ean Ens Ear Hb) as [m [H _]].
  exists m. exact H.
Qed.

Theorem roundtrip buf limit w0 ops : writer_new buf limit = Ok w0 ->
  run_contract (mkD w0 []) g0 ops -> Forall op_wf ops -> Forall op_wf2 ops ->
  exists rr, run_writer buf limit ops = Ok rr /\
    match rr_final rr with
    | Some (len, b) =>
      exists d m, run (mkD w0 []) ops = Ok (d, rr_outcomes rr, true) /\
        decode_msg (firstn len b) = Some m /\
        Forall2 q_rel (am_qs (areplay am0 ops (rr_outcomes rr))) (m_qs m) /\
        Forall2 (rr_rel xparts) (am_an (areplay am0 ops (rr_outcomes rr))) (m_an m) /\
        Forall2 (rr_rel xparts) (am_ns (areplay am0 ops (rr_outcomes rr))) (m_ns m) /\
        Forall2 (rr_rel xparts) (am_ar (areplay am0 ops (rr_outcomes rr)) ++ pseudo (d_w d)) (m_ar m) /\
        get16 (firstn len b) 0 = Some (m_id m) /\ nth_error (firstn len b) 2 = Some (m_flags2 m) /\
        nth_error (firstn len b) 3 = Some (m_flags3 m) /\ agree 4 (w_buf (d_w d)) b /\ 12 <= len /\
        am_mode (areplay am0 ops (rr_outcomes rr)) = w_mode (d_w d) /\
        ptr_ok (firstn len b) m (am_qs (areplay am0 ops (rr_outcomes rr))) (am_an (areplay am0 ops (rr_outcomes rr)))
               (am_ns (areplay am0 ops (rr_outcomes rr))) (am_ar (areplay am0 ops (rr_outcomes rr)) ++ pseudo (d_w d))
    | None => True
    end.
Proof.
  intros H0 Hc Hw1 Hw2.
  destruct (run_writer_layout buf limit w0 ops H0 Hc) as [rr [E HR]].
  exists rr. split; auto.
  destruct (rr_final rr) as [[len b]|]; auto.
  destruct HR as [d [wF [LF [yF [Hrun [Hts [-> [-> [HiF [PF [Fq [Fr [FF [Hdr HA4]]]]]]]]]]]]]].
  destruct FF as [_ _ Fmode Cq Ca Cn Cr Hbd Fe _].
  destruct (layout_decodes_ptr wF LF yF (w_rr_start (d_w d)) _ (pseudo (d_w d)) _ _ _ _ HiF PF Fq Fr
              (areplay_wf ops (rr_outcomes rr) am0 am0_wf Hw1 Hw2) (pseudo_wf _ Hts Fe) Hdr Cq Ca Cn)
    as [m [[Ed [Rq [Ra [Rn [Rr [Gid [G2 [G3 Hl]]]]]]]] Hptr]]; auto.
  { rewrite Cr, app_length, Nat2N.inj_add, pseudo_length. lia. }
  exists d, m. auto 15.
Qed.

Lemma pseudo_eq w H : HInv w H -> pseudo w = pseudo_of (w_mode w) H.
Proof.
  intros [_ _ _ _ _ He Ht]. unfold pseudo, pseudo_of. rewrite He. f_equal.
  - destruct (h_edns H) as [[u up]|]; reflexivity.
  - destruct (w_tsig w) as [t|]; destruct (h_tsig H) as [a|]; try contradiction; auto.
    destruct Ht as [T1 [T2 [T3 [T4 [T5 [T6 T7]]]]]].
    unfold tsig_unsigned_rdata, tsig_rdata_of. rewrite T1, T2, T3, T4, T5, T6, T7. reflexivity.
Qed.

Theorem roundtrip_full buf limit w0 ops : writer_new buf limit = Ok w0 ->
  run_contract (mkD w0 []) g0 ops -> Forall op_wf ops -> Forall op_wf2 ops -> Forall op_wf3 ops ->
  exists rr, run_writer buf limit ops = Ok rr /\
    match rr_final rr with
    | Some (len, b) =>
      exists m, decode_msg (firstn len b) = Some m /\
        hdr_rel (hreplay ah0 ops (rr_outcomes rr)) m /\
        Forall2 q_rel (am_qs (areplay am0 ops (rr_outcomes rr))) (m_qs m) /\
        Forall2 (rr_rel xparts) (am_an (areplay am0 ops (rr_outcomes rr))) (m_an m) /\
        Forall2 (rr_rel xparts) (am_ns (areplay am0 ops (rr_outcomes rr))) (m_ns m) /\
        Forall2 (rr_rel xparts)
          (am_ar (areplay am0 ops (rr_outcomes rr)) ++
           pseudo_of (am_mode (areplay am0 ops (rr_outcomes rr))) (hreplay ah0 ops (rr_outcomes rr)))
          (m_ar m) /\
        ptr_ok (firstn len b) m (am_qs (areplay am0 ops (rr_outcomes rr))) (am_an (areplay am0 ops (rr_outcomes rr)))
          (am_ns (areplay am0 ops (rr_outcomes rr)))
          (am_ar (areplay am0 ops (rr_outcomes rr)) ++
           pseudo_of (am_mode (areplay am0 ops (rr_outcomes rr))) (hreplay ah0 ops (rr_outcomes rr)))
    | None => True
    end.
Proof.
  intros H0 Hc Hw1 Hw2 Hw3.
  destruct (roundtrip buf limit w0 ops H0 Hc Hw1 Hw2) as [rr [E HR]].
  exists rr. split; auto.
  destruct (rr_final rr) as [[len b]|]; auto.
  destruct HR as [d [m [Hrun [Ed [Rq [Ra [Rn [Rr [Gid [G2 [G3 [Ag [Hl [Hmode Hptr]]]]]]]]]]]]]].
  pose proof (hrun ops (mkD w0 []) ah0 d (rr_outcomes rr) true (writer_new_inv _ _ _ H0) (HInv_new _ _ _ H0) Hw3 Hrun) as Hi.
  cbn [d_w] in Hi. set (H := hreplay ah0 ops (rr_outcomes rr)) in *.
  exists m. split; auto. split.
  - destruct Hi as [Hlen Hid Hb [x2 [E2 [B2 F2]]] [x3 [E3 [B3 F3]]] _ _].
    assert (Hm_id : m_id m = h_id H).
    { assert (K : get16 (firstn len b) 0 = Some (h_id H)).
      { apply get16_be16; auto. change (0 + 2) with 2. rewrite slice_firstn by lia.
        rewrite (agree_slice 4 _ _ 0 2 Ag) by lia. exact Hid. }
      rewrite K in Gid. inversion Gid; auto. }
    assert (Hm2 : m_flags2 m = x2).
    { rewrite nth_error_firstn_lt in G2 by lia. rewrite (agree_nth 4 _ _ 2 Ag) in G2 by lia. congruence. }
    assert (Hm3 : m_flags3 m = x3).
    { rewrite nth_error_firstn_lt in G3 by lia. rewrite (agree_nth 4 _ _ 3 Ag) in G3 by lia. congruence. }
    unfold hdr_rel. rewrite Hm_id, Hm2, Hm3. unfold dec2 in F2. unfold dec3 in F3.
    inversion F2. inversion F3. repeat split; auto.
  - split; auto. split; auto. split; auto.
    rewrite Hmode. rewrite <- (pseudo_eq _ _ Hi). split; [exact Rr|exact Hptr].
Qed.

(* C13 through the specification's own checker: the decoded finished message passes the pointer rules
   (every pointer met leads strictly before its name to a label start collected from the names decoded
   before it; no pointer in uncompressible RDATA names; no pointer at all in items written with
   compression disabled) *)
Theorem pointer_rules buf limit w0 ops : writer_new buf limit = Ok w0 ->
  run_contract (mkD w0 []) g0 ops -> Forall op_wf ops -> Forall op_wf2 ops -> Forall op_wf3 ops ->
  exists rr, run_writer buf limit ops = Ok rr /\
    match rr_final rr with
    | Some (len, b) =>
      exists m, decode_msg (firstn len b) = Some m /\
        ptr_ok (firstn len b) m (am_qs (areplay am0 ops (rr_outcomes rr))) (am_an (areplay am0 ops (rr_outcomes rr)))
          (am_ns (areplay am0 ops (rr_outcomes rr)))
          (am_ar (areplay am0 ops (rr_outcomes rr)) ++
           pseudo_of (am_mode (areplay am0 ops (rr_outcomes rr))) (hreplay ah0 ops (rr_outcomes rr)))
    | None => True
    end.
Proof.
  intros H0 Hc Hw1 Hw2 Hw3.
  destruct (roundtrip_full buf limit w0 ops H0 Hc Hw1 Hw2 Hw3) as [rr [E HR]].
  exists rr. split; auto.
  destruct (rr_final rr) as [[len b]|]; auto.
  destruct HR as [m [Ed [_ [_ [_ [_ [_ Hptr]]]]]]]. eauto.
Qed.

Theorem getters_run buf limit w0 ops d outs : writer_new buf limit = Ok w0 ->
  run_contract (mkD w0 []) g0 ops -> Forall op_wf3 ops ->
  run (mkD w0 []) ops = Ok (d, outs, true) ->
  let A := areplay am0 ops outs in let H := hreplay ah0 ops outs in
  getters (d_w d) =
    Ok (expected_get H (N.of_nat (length (am_qs A))) (N.of_nat (length (am_an A))) (N.of_nat (length (am_ns A)))
          (N.of_nat (length (am_ar A)) + (if h_edns H then 1 else 0) + (if h_tsig H then 1 else 0))%N).
Proof.
  intros H0 Hc Hw3 Hrun A H.
  destruct (run_ok2 ops _ _ _ _ _ (AInv_new _ _ _ H0) (LInv_new _ _ _ H0) Hc)
    as [d' [outs' [alive' [g [y [L [E [Hi [_ HF]]]]]]]]].
  rewrite Hrun in E. inversion E; subst d' outs' alive'. fold A in HF.
  pose proof (hrun ops (mkD w0 []) ah0 d outs true (writer_new_inv _ _ _ H0) (HInv_new _ _ _ H0) Hw3 Hrun) as Hh.
  cbn [d_w] in Hh. fold H in Hh.
  destruct HF as [_ _ _ Cq Ca Cn Cr _ Fe _].
  rewrite (getters_spec (d_w d) H Hh); [|intros e Ee; apply (Fe e Ee)].
  rewrite Cq, Ca, Cn, Cr.
  destruct Hh as [_ _ _ _ _ He Ht].
  assert (K1 : b2N (osome (w_edns (d_w d))) = (if h_edns H then 1 else 0)%N).
  { rewrite He. destruct (h_edns H) as [[u up]|]; reflexivity. }
  assert (K2 : b2N (osome (w_tsig (d_w d))) = (if h_tsig H then 1 else 0)%N).
  { destruct (w_tsig (d_w d)); destruct (h_tsig H); try contradiction; reflexivity. }
  rewrite K1, K2. reflexivity.
Qed.
