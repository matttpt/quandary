(* The SIGNED TSIG-bearing response decodes - under the independent RFC 1035 decoder of Spec/MsgWriterS.v - to a
   well-formed response (Spec/RespS.v: wf_response) whose additional section is (OPT iff EDNS) followed by the TSIG
   record RFC 8945 prescribes, MAC included (Spec/TsigSignS.v: signed_tsig_response).

   layout_decode (Proofs/MsgWriterRtP.v: layout_decodes) is C12's round trip for ANY finished buffer given by its
   layout, not only for the result of MsgWriter.finish: finish_signed_ok2 yields such a buffer. *)
From QV Require Import Base.ListX Gen.Consts Model.NameWire Model.Reader Model.RdataLite Model.Server Model.ServerW Model.ServerWT
  Model.MsgWriter Model.ZoneTree Model.Query Model.QueryW
  Spec.NameWireS Spec.NameRepr Spec.MsgWriterS Spec.MsgWriterAbsS Spec.RdataFormatS Spec.RespS Spec.TsigRespS Spec.TsigSignS
  Proofs.NameWireP Proofs.MsgWriterP Proofs.MsgWriterScanP Proofs.MsgWriterNameP Proofs.MsgWriterInvP Proofs.MsgWriterClosP
  Proofs.MsgWriterNameSP Proofs.MsgWriterOpP
  Proofs.MsgWriterLayP Proofs.MsgWriterStepP Proofs.MsgWriterMsgP Proofs.MsgWriterDecP Proofs.MsgWriterHdrP Proofs.MsgWriterGetP
  Proofs.MsgWriterRtP Proofs.RdataFormatSP
  Proofs.ComposeTraceP Proofs.ComposeTopP Proofs.ComposeRespP Proofs.ComposeSerP Proofs.ComposeTsigP Proofs.ComposeTsigWfP
  Proofs.SignFinishP Proofs.SignSerP.
From QV Require Model.TsigMsg.
Local Open Scope nat_scope.

Lemma layout_decode (wF : writer) (LF : nat -> Prop) yF rs (A : amsg) ps qd an ns ar :
  NInv wF (length (w_buf wF)) LF ->
  PLay (w_buf wF) LF yF rs (MsgWriter.w_cursor wF) ->
  Forall2 q_desc (y_qs yF) (am_qs A) ->
  Forall2 rr_desc2 (y_rrs yF) (am_an A ++ am_ns A ++ am_ar A ++ ps) ->
  amsg_wf A -> Forall arr_wf ps ->
  slice (w_buf wF) 4 12 = MsgWriter.be16 qd ++ MsgWriter.be16 an ++ MsgWriter.be16 ns ++ MsgWriter.be16 ar ->
  qd = N.of_nat (length (am_qs A)) -> an = N.of_nat (length (am_an A)) -> ns = N.of_nat (length (am_ns A)) ->
  ar = N.of_nat (length (am_ar A ++ ps)) ->
  (qd <= 65535 /\ an <= 65535 /\ ns <= 65535 /\ ar <= 65535)%N ->
  exists m, decode_msg (firstn (MsgWriter.w_cursor wF) (w_buf wF)) = Some m /\
    Forall2 q_rel (am_qs A) (m_qs m) /\
    Forall2 (rr_rel xparts) (am_an A) (m_an m) /\ Forall2 (rr_rel xparts) (am_ns A) (m_ns m) /\
    Forall2 (rr_rel xparts) (am_ar A ++ ps) (m_ar m) /\
    get16 (firstn (MsgWriter.w_cursor wF) (w_buf wF)) 0 = Some (m_id m) /\
    nth_error (firstn (MsgWriter.w_cursor wF) (w_buf wF)) 2 = Some (m_flags2 m) /\
    nth_error (firstn (MsgWriter.w_cursor wF) (w_buf wF)) 3 = Some (m_flags3 m) /\ 12 <= MsgWriter.w_cursor wF.
Proof. exact (layout_decodes wF LF yF rs A ps qd an ns ar). Qed.

Definition rdata_signed_s (alg time : bytes) (fudge : N) (mac : bytes) (origid error : N) (other : bytes) : bytes :=
  alg ++ time ++ be16s fudge ++ be16s (N.of_nat (length mac)) ++ mac ++ be16s origid ++ be16s error ++
  be16s (N.of_nat (length other)) ++ other.

Lemma serialize_eq alg time fudge mac origid error other :
  (N.of_nat (length mac) < 65536)%N -> (N.of_nat (length other) < 65536)%N ->
  TsigMsg.serialize_tsig_unchecked alg time fudge mac origid error other = rdata_signed_s alg time fudge mac origid error other.
Proof.
  intros H1 H2. unfold TsigMsg.serialize_tsig_unchecked, rdata_signed_s, TsigMsg.len_u16.
  rewrite !N.mod_small by lia. reflexivity.
Qed.

Lemma wf_be16s v : wf_bytes (be16s v).
Proof. unfold be16s. repeat constructor; unfold is_octet; apply N.mod_lt; discriminate. Qed.

(* RFC 8945 4.2: the RDATA of a signed TSIG record is generated by the TSIG grammar *)
Lemma signed_rdata_valid (alg : wname) time fudge mac origid error other :
  good_name alg -> Forall wf_bytes alg -> length time = 6 -> wf_bytes time -> wf_bytes mac -> length mac <= 32 ->
  wf_bytes other -> length other <= 6 ->
  wf_bytes (rdata_signed_s (nm_wire alg) time fudge mac origid error other) /\
  spec_valid 255 250 (rdata_signed_s (nm_wire alg) time fudge mac origid error other) = true.
Proof.
  intros [[Hl Hn] Hw] Hb Ht Htb Hmb Hml Hob Hol.
  assert (Hwf : wf_bytes (rdata_signed_s (nm_wire alg) time fudge mac origid error other)).
  { unfold rdata_signed_s. apply wf_bytes_app; [apply (wf_nm_wire alg); assumption|].
    repeat (apply wf_bytes_app; [first [assumption|apply wf_be16s]|]). assumption. }
  split; [exact Hwf|]. apply (spec_valid_iff 255 250 _ Hwf).
  change (grammar 255 250) with [FName; FBytes 6; FBytes 2; FBlob16; FBytes 2; FBytes 2; FBlob16].
  unfold rdata_signed_s. change (nm_wire alg) with (wire_of alg).
  apply m_name.
  { split; [|exact Hw]. eapply Forall_impl; [|exact Hl]. intros l [X Y]. split; assumption. }
  apply m_bytes; [exact Ht|]. apply (m_bytes 2 (be16s fudge)); [reflexivity|].
  assert (Em : be16s (N.of_nat (length mac)) ++ mac ++ be16s origid ++ be16s error ++ be16s (N.of_nat (length other)) ++ other
               = blob16 mac ++ (be16s origid ++ be16s error ++ be16s (N.of_nat (length other)) ++ other)).
  { unfold blob16, be16s, RdataFormatS.be16. rewrite (N.mod_small (N.of_nat (length mac) / 256) 256) by (apply N.div_lt_upper_bound; lia).
    rewrite <- app_assoc. reflexivity. }
  rewrite Em. apply m_blob16; [unfold valid_blob16; lia|].
  apply (m_bytes 2 (be16s origid)); [reflexivity|]. apply (m_bytes 2 (be16s error)); [reflexivity|].
  assert (Eo : be16s (N.of_nat (length other)) ++ other = blob16 other ++ []).
  { rewrite app_nil_r. unfold blob16, be16s, RdataFormatS.be16. rewrite (N.mod_small (N.of_nat (length other) / 256) 256); [reflexivity|].
    apply N.div_lt_upper_bound; lia. }
  rewrite Eo. apply m_blob16; [unfold valid_blob16; lia|constructor].
Qed.

Section FD.
Variable hmac : TsigMsg.alg -> bytes -> bytes -> bytes.
Hypothesis hmac_len : forall a k d, length (hmac a k d) = TsigMsg.output_size a.
Hypothesis hmac_wf : forall a k d, wf_bytes (hmac a k d).

(* finish_signed_ok2 followed by layout_decode: the finished octets decode to the records the layout [y] describes by
   [A], followed by the pseudo-records (OPT iff EDNS, TSIG); octet 2 of the header is as it was *)
Theorem finish_signed_decodes dh g y A L tu a secret rmac :
  AInv dh g L -> LInv dh y A L -> amsg_wf A -> MsgWriter.w_tsig (d_w dh) = Some tu ->
  length (nm_wire (t_alg tu)) = length (TsigMsg.alg_name a) -> (N.of_nat (length rmac) <= 65535)%N ->
  MsgWriter.w_limit (d_w dh) + TsigMsg.output_size a <= length (w_buf (d_w dh)) ->
  exists len b m c5 mac rdata,
    finish_signed hmac a secret rmac
      (real_of (d_w dh) (signed_of tu (TsigMsg.output_size a)) (MsgWriter.w_limit (d_w dh) + TsigMsg.output_size a))
      = Ok (len, b) /\
    len <= MsgWriter.w_limit (d_w dh) + TsigMsg.output_size a /\
    decode_msg (firstn len b) = Some m /\
    Forall2 q_rel (am_qs A) (m_qs m) /\
    Forall2 (rr_rel xparts) (am_an A) (m_an m) /\ Forall2 (rr_rel xparts) (am_ns A) (m_ns m) /\
    Forall2 (rr_rel xparts) (am_ar A ++ pseudo_signed (d_w dh) (t_key tu) rdata) (m_ar m) /\
    nth_error (w_buf (d_w dh)) 2 = Some (m_flags2 m) /\
    c5 <= len /\
    TsigMsg.sign hmac (prep_of tu) (firstn c5 (firstn len b)) (TsigMsg.SResponse rmac) a secret = Ok (rdata, mac) /\
    length mac = TsigMsg.output_size a /\ wf_bytes mac /\
    rdata = TsigMsg.serialize_tsig_unchecked (TsigMsg.alg_name a) (t_time tu) (t_fudge tu) mac (t_origid tu) (t_error tu)
              (if (t_error tu =? 18)%N then t_server_time tu else []).
Proof.
  intros Hi HL HA Etu Hal Hrm Hlb.
  destruct (finish_signed_ok2 hmac hmac_len hmac_wf dh g y A L tu a secret rmac Hi HL Etu Hal Hrm Hlb)
    as (wF & LF & rsP & c5 & rdata & mac & EF & HiF & PF & DF & Hdr & HA4 & Hcl & Hc5 & Hsg & Hml & Hrd).
  destruct HL as [_ [Fq Fr Fm Cq Ca Cn Cr Fb Fe Fs]].
  destruct (a_ts _ _ _ Hi _ Etu) as (T1 & T2 & T3 & T4 & T5 & T6 & T7 & T8 & T9 & T10).
  assert (Hmacw : wf_bytes mac).
  { unfold TsigMsg.sign in Hsg. destruct (TsigMsg.sign_digest _ _ _ _) as [dg|e|]; cbn [bind] in Hsg; try discriminate.
    destruct (TsigMsg.serialize_rdata _ _ _) as [r|e|]; cbn [bind] in Hsg; try discriminate. inversion Hsg; subst. apply hmac_wf. }
  set (other := if (t_error tu =? 18)%N then t_server_time tu else []) in *.
  assert (Hoth : wf_bytes other /\ length other <= 6).
  { unfold other. destruct (t_error tu =? 18)%N; [split; [exact T8|lia]|split; [constructor|simpl; lia]]. }
  destruct Hoth as [Hob Hol].
  assert (Hrdw : wf_bytes rdata) by (rewrite Hrd; apply ser_unchecked_wf; auto; apply sf_alg_name_wf).
  assert (Hrdl : (N.of_nat (length rdata) < 65536)%N).
  { rewrite Hrd, ser_unchecked_len, T3, Hml. pose proof (sf_alg_name_len a). pose proof (sf_output_size_le a). lia. }
  set (ps := pseudo_signed (d_w dh) (t_key tu) rdata) in *.
  assert (Wp : Forall arr_wf ps).
  { unfold ps, pseudo_signed. apply Forall_app. split.
    - destruct (MsgWriter.w_edns (d_w dh)) as [e|] eqn:Ee; [|constructor]. destruct (Fe e eq_refl) as [K1 K2].
      constructor; [|constructor]. unfold arr_wf; simpl. repeat split; auto; try lia; try constructor. cbv. lia.
    - constructor; [|constructor]. unfold arr_wf; simpl. repeat split; auto; try apply T1; try (cbv; lia). }
  destruct (layout_decode wF LF (mkLay (y_qs y) (y_rrs y ++ rsP)) (w_rr_start (d_w dh)) A ps
              (w_qd (d_w dh)) (w_an (d_w dh)) (w_ns (d_w dh)) (w_ar (d_w dh)) HiF PF Fq)
    as (m & Em & Rq & Ra & Rn & Rr & _ & G2 & _ & H12); try assumption.
  { cbn [y_rrs]. rewrite !app_assoc. apply Forall2_app; [rewrite <- !app_assoc; exact Fr|exact DF]. }
  { rewrite Cr, Etu, app_length. unfold ps, pseudo_signed. rewrite app_length. destruct (MsgWriter.w_edns (d_w dh)); simpl; lia. }
  exists (MsgWriter.w_cursor wF), (w_buf wF), m, c5, mac, rdata.
  split; [exact EF|]. split; [exact Hcl|]. split; [exact Em|]. split; [exact Rq|]. split; [exact Ra|]. split; [exact Rn|].
  split; [exact Rr|].
  split. { rewrite nth_error_firstn_lt in G2 by lia. rewrite (agree_nth 4 _ _ 2 HA4) in G2 by lia. exact G2. }
  split; [exact Hc5|]. split; [rewrite firstn_firstn, Nat.min_l by exact Hc5; exact Hsg|]. auto.
Qed.

End FD.

Section SD.
Variable hmac : TsigMsg.alg -> bytes -> bytes -> bytes.
Hypothesis hmac_len : forall a k d, length (hmac a k d) = TsigMsg.output_size a.
Hypothesis hmac_wf : forall a k d, wf_bytes (hmac a k d).
Variable buf : bytes.
Hypothesis Hb : 512 <= length buf.
Variable w : resp.
Hypothesis Hq : forall q, Server.w_question w = Some q ->
  good_name (labels_of (Reader.q_name q)) /\ (Reader.q_type q < 65536)%N /\ (Reader.q_class q < 65536)%N.
Variable tcp : bool.
Variable t : tsig_out.
Variable f : tsig_fields.
Hypothesis Hf : fields_ok t f.
Variable a : Server.tsig_alg.
Variable secret rmac : bytes.
Hypothesis Hrm : (N.of_nat (length rmac) <= 65535)%N.
Hypothesis Halg : nm_wire (nm_lower (tf_alg f)) = TsigMsg.alg_name (tsig_alg_of a).
Hypothesis Hlim : Server.w_edns w <> None -> tcp = false -> first_limit tcp buf <= Server.w_limit w.
Hypothesis Hfit : wcur w + (length (nm_wire (tf_key f)) + length (nm_wire (tf_alg f)) + 26 +
                            (if (tf_error f =? 18)%N then 6 else 0) + alg_output_size a) + wres w <= wlim buf w tcp.

Definition other_of : bytes := if (tf_error f =? 18)%N then tf_stime f else [].

(* the inner expression of ServerWT.ser_tsig for TsigMode::Response *)
Theorem ser_signed_wf :
  exists w1 w2 len b c5 mac rd,
    ser_prepare buf tcp w = Some w1 /\
    set_tsig_signed (alg_output_size a) (nm_lower (tf_alg f)) (nm_lower (tf_key f)) (tf_time f) TSIG_FUDGE (tf_origid f)
                    (tf_error f) (tf_stime f) w1 = Ok (tt, w2) /\
    finish_signed hmac (tsig_alg_of a) secret rmac w2 = Ok (len, b) /\ len <= wlim buf w tcp /\
    wf_response (firstn len b) = true /\
    signed_tsig_response (firstn len b) (match Server.w_edns w with Some _ => true | None => false end)
      (tf_key f) (nm_lower (tf_alg f)) (tf_time f) TSIG_FUDGE mac (tf_origid f) (tf_error f) other_of /\
    length mac = alg_output_size a /\ c5 <= len /\
    TsigMsg.sign hmac (TsigMsg.mkPrepared (nm_wire (nm_lower (tf_key f))) (tf_time f) TSIG_FUDGE (tf_origid f) (tf_error f) (tf_stime f))
                 (firstn c5 (firstn len b)) (TsigMsg.SResponse rmac) (tsig_alg_of a) secret = Ok (rd, mac).
Proof.
  destruct (ser_signed_run buf Hb w Hq tcp t f Hf a Hlim Hfit)
    as (w1 & w2 & w0 & dh & y & L & g & E1 & ES & E0 & Hrun & F1 & F2 & F3 & Hi & HL & Etu & -> & Elim & Hlb).
  set (ops := sig_ops buf w tcp f a) in *. set (outs := sig_outs buf w tcp f a) in *.
  destruct (sig_replay buf w tcp f a) as (A1 & A2 & A3 & A4 & A5 & A8). fold ops outs in A1, A2, A3, A4, A5, A8.
  destruct (finish_signed_decodes hmac hmac_len hmac_wf dh g y _ L _ (tsig_alg_of a) secret rmac Hi HL
              (areplay_wf _ _ _ am0_wf F1 F2) Etu)
    as (len & b & m & c5 & mac & rdata & EF & Hcl & Em & _ & Ra & Rn & Rr & G2 & Hc5 & Hsg & Hml & Hmacw & Hrd);
    [cbn [tu t_alg]; rewrite Halg; reflexivity|exact Hrm|rewrite sg_osz; fold (osz a); lia|].
  rewrite sg_osz in EF, Hcl, Hml. fold (osz a) in EF, Hcl. rewrite Elim in Hcl.
  cbn [tu t_key t_time t_fudge t_origid MsgWriter.t_error t_server_time prep_of] in Hsg, Hrd, Rr. fold other_of in Hrd.
  rewrite A1 in Ra. rewrite A2 in Rn. rewrite A3 in Rr. cbn [app] in Rr. inversion Ra. inversion Rn.
  destruct HL as [_ HFl]. pose proof (f_mode _ _ _ HFl) as Hmode. rewrite A4 in Hmode.
  destruct (a_ts _ _ _ Hi _ Etu) as (T1 & _ & T3 & T4 & _ & _ & _ & T8 & _).
  cbn [tu t_key t_time t_server_time] in T1, T3, T4, T8.
  assert (Hoth : wf_bytes other_of /\ length other_of <= 6).
  { unfold other_of. destruct (tf_error f =? 18)%N; [split; [exact T8|lia]|split; [constructor|simpl; lia]]. }
  destruct Hoth as [Hob Hol].
  assert (Hmacl : length mac <= 32) by (rewrite Hml; destruct a; simpl; lia).
  assert (Erd : rdata = rdata_signed_s (nm_wire (nm_lower (tf_alg f))) (tf_time f) TSIG_FUDGE mac (tf_origid f) (tf_error f) other_of).
  { rewrite Hrd, Halg. apply serialize_eq; lia. }
  destruct Hf as [Ga Gab Gk [Tt1 Tt2] _ _ _ _ _].
  destruct (signed_rdata_valid (nm_lower (tf_alg f)) (tf_time f) TSIG_FUDGE mac (tf_origid f) (tf_error f) other_of) as (_ & Vv);
    auto using good_name_lower, wf_bytes_lower.
  rewrite <- Erd in Vv.
  (* QR, from the header the run left *)
  pose proof (hrun ops (mkD w0 []) ah0 dh outs true (writer_new_inv _ _ _ E0) (HInv_new _ _ _ E0) F3 Hrun) as Hh.
  assert (Hqr : qr_bit m = true).
  { destruct (hi_f2 _ _ Hh) as (x2 & E2 & _ & Fx2). rewrite E2 in G2. inversion G2; subst x2.
    unfold qr_bit. unfold dec2 in Fx2. inversion Fx2 as [[Q _]]. congruence. }
  assert (Hedns : MsgWriter.w_edns (d_w dh) = None <-> Server.w_edns w = None).
  { rewrite (hi_edns _ _ Hh), <- A8. destruct (h_edns (hreplay ah0 ops outs)) as [[u up]|]; split; intros X; try discriminate X; auto. }
  unfold pseudo_signed in Rr. apply Forall2_app_inv_l in Rr as (ps & ts1 & Rp & Rt & Ear).
  apply Forall2_one_l in Rt as (ts & -> & Rt). rewrite <- Hmode in Rt.
  destruct (tsig_rr_decoded _ _ _ Rt) as (Rok & Et & Hn & Hty & Hcl' & Httl & Eps); [|exact Vv|].
  { rewrite Erd. unfold rdata_signed_s. rewrite !app_length, Tt1. lia. }
  assert (Hps : length ps <= 1 /\ Forall (fun d => rr_rdata_ok d = true /\ is_tsig d = false) ps /\
                if (match Server.w_edns w with Some _ => true | None => false end)
                then exists o, ps = [o] /\ dr_type o = 41%N else ps = []).
  { destruct (MsgWriter.w_edns (d_w dh)) as [e|] eqn:Ee.
    - apply Forall2_one_l in Rp as (d1 & -> & Hd1).
      destruct (opt_decoded _ _ _ _ Hd1) as (O1 & _ & O3).
      destruct (Server.w_edns w); [|destruct Hedns as [_ X]; discriminate (X eq_refl)].
      split; [simpl; lia|]. split; [repeat constructor; auto|]. exists d1. split; [reflexivity|apply Hd1].
    - inversion Rp. destruct (Server.w_edns w); [destruct Hedns as [X _]; discriminate (X eq_refl)|].
      split; [simpl; lia|]. split; constructor. }
  destruct Hps as (Lps & Fps & Eps').
  exists w1, (real_of (d_w dh) (signed_of (tu f) (osz a)) (MsgWriter.w_limit (d_w dh) + osz a)), len, b, c5, mac, rdata.
  split; [exact E1|]. split; [exact ES|]. split; [exact EF|]. split; [exact Hcl|].
  split; [unfold wf_response; rewrite Em; apply (wf_decoded_tsig m ps ts); auto|].
  split; [|auto].
  exists m, ps, ts. split; [exact Em|]. repeat split; auto. rewrite Eps, Erd. reflexivity.
Qed.

End SD.
