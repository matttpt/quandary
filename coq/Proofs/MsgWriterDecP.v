(* The RFC 1035 decoder of Spec/MsgWriterS.v run on a buffer with a given layout returns what the
   layout stands for. *)
From QV Require Import Base.ListX Model.MsgWriter Spec.NameRepr Spec.MsgWriterS Spec.MsgWriterAbsS
     Proofs.NameWireP Proofs.NameWireSP Proofs.MsgWriterP Proofs.MsgWriterScanP Proofs.MsgWriterNameP
     Proofs.MsgWriterClosP Proofs.MsgWriterNameSP Proofs.MsgWriterLayP Proofs.MsgWriterOpP Proofs.MsgWriterStepP.

Local Open Scope nat_scope.

Lemma get16_be16 (b : bytes) i v : slice b i (i + 2) = be16 v -> (v < 65536)%N -> get16 b i = Some v.
Proof.
  intros Hs Hv. unfold be16 in Hs. apply slice_head in Hs as [H1 [Hs _]].
  apply slice_head in Hs as [H2 _]. unfold get16. replace (i + 1) with (S i) by lia. rewrite H1, H2.
  f_equal.
  assert (E : (v / 256 < 256)%N) by (apply N.div_lt_upper_bound; lia).
  rewrite (N.mod_small (v / 256) 256 E).
  pose proof (N.div_mod v 256 ltac:(lia)). lia.
Qed.

Lemma be32_digits v : (v < 4294967296)%N ->
  exists a b c d, (a < 256 /\ b < 256 /\ c < 256 /\ d < 256)%N /\ be32 v = [a; b; c; d] /\
                  v = ((a * 256 + b) * 65536 + (c * 256 + d))%N.
Proof.
  intros Hv.
  pose proof (N.div_mod v 16777216 ltac:(lia)) as D1. pose proof (N.mod_lt v 16777216 ltac:(lia)) as R1.
  set (a := (v / 16777216)%N) in *. set (r1 := (v mod 16777216)%N) in *.
  pose proof (N.div_mod r1 65536 ltac:(lia)) as D2. pose proof (N.mod_lt r1 65536 ltac:(lia)) as R2.
  set (b := (r1 / 65536)%N) in *. set (r2 := (r1 mod 65536)%N) in *.
  pose proof (N.div_mod r2 256 ltac:(lia)) as D3. pose proof (N.mod_lt r2 256 ltac:(lia)) as R3.
  set (c := (r2 / 256)%N) in *. set (d := (r2 mod 256)%N) in *.
  assert (Ha : (a < 256)%N) by (unfold a; apply N.div_lt_upper_bound; lia).
  assert (Hb : (b < 256)%N) by (unfold b; apply N.div_lt_upper_bound; lia).
  assert (Hc : (c < 256)%N) by (unfold c; apply N.div_lt_upper_bound; lia).
  exists a, b, c, d. split; [auto|]. split; [|lia].
  unfold be32. fold a.
  assert (E2 : (v / 65536 = a * 256 + b)%N) by (symmetry; apply (N.div_unique _ _ _ r2); lia).
  assert (E3 : (v / 256 = (a * 256 + b) * 256 + c)%N) by (symmetry; apply (N.div_unique _ _ _ d); lia).
  assert (E4 : (v mod 256 = d)%N) by (symmetry; apply (N.mod_unique _ _ ((a * 256 + b) * 256 + c)%N); lia).
  rewrite E2, E3, E4.
  f_equal; [apply N.mod_small; auto|]. f_equal; [symmetry; apply (N.mod_unique _ _ a); lia|].
  f_equal. symmetry. apply (N.mod_unique _ _ (a * 256 + b)%N); lia.
Qed.

Lemma get32_be32 (b : bytes) i v : slice b i (i + 4) = be32 v -> (v < 4294967296)%N -> get32 b i = Some v.
Proof.
  intros Hs Hv. destruct (be32_digits v Hv) as [a [b0 [c [d [[Ha [Hb [Hc Hd]]] [E Ev]]]]]].
  rewrite E in Hs. apply slice_head in Hs as [H1 [Hs _]]. apply slice_head in Hs as [H2 [Hs _]].
  apply slice_head in Hs as [H3 [Hs _]]. apply slice_head in Hs as [H4 _].
  unfold get32, get16. replace (i + 1) with (S i) by lia. replace (i + 2) with (S (S i)) by lia.
  replace (S (S i) + 1) with (S (S (S i))) by lia. rewrite H1, H2, H3, H4. f_equal. lia.
Qed.

Lemma slice_sub (b : bytes) a e a' e' x : slice b a e = x -> a <= a' -> a' <= e' -> e' <= e -> e <= length b ->
  slice b a' e' = slice x (a' - a) (e' - a).
Proof.
  intros <- H1 H2 H3 H4. unfold slice.
  rewrite skipn_firstn_comm. rewrite skipn_plus. replace (a + (a' - a)) with a' by lia.
  rewrite firstn_firstn. f_equal. lia.
Qed.

Lemma get16_in (b : bytes) p e x k v : slice b p e = x -> slice x k (k + 2) = be16 v -> (v < 65536)%N ->
  p + k + 2 <= e -> e <= length b -> get16 b (p + k) = Some v.
Proof.
  intros Hs Hx Hv H1 H2. apply get16_be16; auto.
  rewrite (slice_sub b p e (p + k) (p + k + 2) _ Hs) by lia.
  replace (p + k - p) with k by lia. replace (p + k + 2 - p) with (k + 2) by lia. exact Hx.
Qed.

Lemma get32_in (b : bytes) p e x k v : slice b p e = x -> slice x k (k + 4) = be32 v -> (v < 4294967296)%N ->
  p + k + 4 <= e -> e <= length b -> get32 b (p + k) = Some v.
Proof.
  intros Hs Hx Hv H1 H2. apply get32_be32; auto.
  rewrite (slice_sub b p e (p + k) (p + k + 4) _ Hs) by lia.
  replace (p + k - p) with k by lia. replace (p + k + 4 - p) with (k + 4) by lia. exact Hx.
Qed.

Lemma lab_eq_len cp a b : lab_eq cp a b -> length a = length b.
Proof.
  destruct cp; intros H.
  - apply bytes_eqb_eq in H. subst; auto.
  - apply lab_eq_false_iff in H. rewrite <- (map_length lower a), H, map_length. reflexivity.
Qed.

Lemma name_eq_lwire_len cp a b : name_eq cp a b -> length (nm_lwire a) = length (nm_lwire b).
Proof.
  induction 1 as [|x y a b H _ IH]; auto. rewrite !nm_lwire_cons. simpl. rewrite !app_length.
  rewrite (lab_eq_len _ _ _ H). lia.
Qed.

Lemma name_eq_rel cp a b : name_eq cp a b -> name_rel cp a b.
Proof.
  unfold name_rel. destruct cp; intros H.
  - apply name_eq_exact; auto.
  - induction H as [|x y a b H _ IH]; auto. simpl. f_equal; auto. apply lab_eq_false_iff; auto.
Qed.

Lemma name_eq_wf cp a b : name_eq cp a b -> Forall wf_label a -> Forall wf_label b.
Proof.
  induction 1 as [|x y a b H _ IH]; intros Hw; auto. inversion Hw; subst. constructor; auto.
  unfold wf_label in *. rewrite <- (lab_eq_len _ _ _ H). auto.
Qed.

Lemma decodes_plain b cs pos n e : Forall wf_label n -> slice b pos e = nm_wire n -> e <= length b ->
  pos <= e -> decodes b cs pos n e.
Proof.
  intros Hwf Hs He Hpe.
  assert (Hl : length (slice b pos e) = e - pos) by (apply slice_length; lia).
  rewrite Hs, nm_wire_length in Hl. unfold nm_wire in Hs.
  destruct (slice_app_l b pos (pos + length (nm_lwire n)) e _ _ Hs eq_refl ltac:(lia) He) as [S1 S2].
  apply slice_head in S2 as [Hz _].
  rewrite <- (app_nil_r n). apply decodes_labels; auto; try lia.
  replace e with (pos + length (nm_lwire n) + 1) by lia. constructor. exact Hz.
Qed.

Lemma chunk_decode b c L ch : sdec b c L -> chunk_ok b L ch ->
  nc_end ch <= length b -> wf_name (nc_name ch) -> length (nm_wire (nc_name ch)) <= 255 ->
  exists n', spec_decode_name b (nc_pos ch) = Some (n', nc_end ch - nc_pos ch) /\
             name_rel (nc_cp ch) (nc_name ch) n'.
Proof.
  intros Hsd [Hlt Hsh] He [Hwf _] H255.
  destruct (nc_sh ch) as [[k pp]|]; simpl in Hsh.
  - destruct Hsh as [Hk [Hs [HL [Hpp [H0 [Hpm [m' [Hm' Hme]]]]]]]].
    destruct (Hsd pp HL) as [m [em [Hm Hdm]]].
    pose proof (name_at_fun _ _ _ _ Hm' _ _ Hm). subst m'.
    assert (Hl : length (slice b (nc_pos ch) (nc_end ch)) = nc_end ch - nc_pos ch) by (apply slice_length; lia).
    rewrite Hs, app_length in Hl. simpl in Hl.
    destruct (slice_app_l b (nc_pos ch) (nc_pos ch + length (nm_lwire (firstn k (nc_name ch)))) (nc_end ch) _ _ Hs
                eq_refl ltac:(lia) He) as [S1 S2].
    destruct (ptr_word_bytes pp Hpm) as [hi [lo' [Eb [Ehi Et]]]].
    assert (Hhi : (hi < 256)%N) by (unfold be16 in Eb; inversion Eb; apply N.mod_lt; lia).
    rewrite Eb in S2. apply slice_head in S2 as [Z1 [S3 _]]. apply slice_head in S3 as [Z2 _].
    destruct (spec_target hi lo' Ehi Hhi) as [H192 Etspec].
    assert (Hwk : Forall wf_label (firstn k (nc_name ch))).
    { rewrite Forall_forall in *. intros x Hx. apply Hwf. eapply In_firstn; eauto. }
    assert (D : decodes b (nc_pos ch) (nc_pos ch) (firstn k (nc_name ch) ++ m) (nc_end ch)).
    { apply decodes_labels; auto; try lia.
      replace (nc_end ch) with (nc_pos ch + length (nm_lwire (firstn k (nc_name ch))) + 2) by lia.
      eapply dec_ptr; eauto.
      - replace (nc_pos ch + length (nm_lwire (firstn k (nc_name ch))) + 1)
          with (S (nc_pos ch + length (nm_lwire (firstn k (nc_name ch))))) by lia. exact Z2.
      - rewrite Etspec, Et. lia.
      - rewrite Etspec, Et. exact Hdm. }
    assert (Hne : name_eq (nc_cp ch) (nc_name ch) (firstn k (nc_name ch) ++ m)).
    { rewrite <- (firstn_skipn k (nc_name ch)) at 1. apply Forall2_app; [apply name_eq_refl|exact Hme]. }
    exists (firstn k (nc_name ch) ++ m). split; [|apply name_eq_rel; auto].
    apply spec_decode_name_iff. exists (nc_end ch). split; [exact D|]. split; [reflexivity|].
    change (wire_len (firstn k (nc_name ch) ++ m)) with (length (nm_wire (firstn k (nc_name ch) ++ m))).
    rewrite nm_wire_length, <- (name_eq_lwire_len _ _ _ Hne), <- nm_wire_length. exact H255.
  - assert (D : decodes b (nc_pos ch) (nc_pos ch) (nc_name ch) (nc_end ch))
      by (apply decodes_plain; auto; lia).
    exists (nc_name ch). split; [|apply name_eq_rel, name_eq_refl].
    apply spec_decode_name_iff. exists (nc_end ch). split; [exact D|]. split; [reflexivity|exact H255].
Qed.

Lemma uchunk_decode b L ch : chunk_ok b L ch -> nc_sh ch = None -> nc_end ch <= length b ->
  wf_name (nc_name ch) -> length (nm_wire (nc_name ch)) <= 255 ->
  dec_uname b (nc_pos ch) = Some (nc_name ch, nc_end ch - nc_pos ch).
Proof.
  intros [Hlt Hsh] Hn He [Hwf _] H255. rewrite Hn in Hsh. simpl in Hsh.
  assert (D : decodes b 0 (nc_pos ch) (nc_name ch) (nc_end ch)) by (apply decodes_plain; auto; lia).
  unfold dec_uname. rewrite (sdecode_complete b _ _ _ _ D); [reflexivity|exact H255|lia].
Qed.

Definition sf_of (ct : ctype) : sfield :=
  match ct with CtCompressible => FCName | CtUncompressible => FUName | CtFixed k => FBytes k end.

(* the component table regenerated from the Rust source agrees with the RFC layout of the specification *)
Lemma layout_table cl ty : layout cl ty = map sf_of (component_types cl ty).
Proof.
  assert (Hcl : forall a : N, (a =? cl)%N = (cl =? a)%N) by (intros; apply N.eqb_sym).
  destruct (N.eq_dec ty 2) as [->|N2]; [reflexivity|].
  destruct (N.eq_dec ty 3) as [->|N3]; [reflexivity|].
  destruct (N.eq_dec ty 4) as [->|N4]; [reflexivity|].
  destruct (N.eq_dec ty 5) as [->|N5]; [reflexivity|].
  destruct (N.eq_dec ty 7) as [->|N7]; [reflexivity|].
  destruct (N.eq_dec ty 8) as [->|N8]; [reflexivity|].
  destruct (N.eq_dec ty 9) as [->|N9]; [reflexivity|].
  destruct (N.eq_dec ty 12) as [->|N12]; [reflexivity|].
  destruct (N.eq_dec ty 6) as [->|N6]; [reflexivity|].
  destruct (N.eq_dec ty 14) as [->|N14]; [reflexivity|].
  destruct (N.eq_dec ty 15) as [->|N15]; [reflexivity|].
  destruct (N.eq_dec ty 1) as [->|N1].
  { destruct (N.eq_dec cl 3) as [->|Hc3]; [reflexivity|].
    assert (Ec : (cl =? 3)%N = false) by (apply N.eqb_neq; auto).
    assert (Ec' : (3 =? cl)%N = false) by (apply N.eqb_neq; auto).
    unfold layout, component_types, COMPONENT_TABLE, mem_N, one_name_types. cbn [existsb lookup_ctypes].
    rewrite Ec, Ec'. reflexivity. }
  destruct (N.eq_dec ty 33) as [->|N33].
  { destruct (N.eq_dec cl 1) as [->|Hc1]; [reflexivity|].
    assert (Ec : (cl =? 1)%N = false) by (apply N.eqb_neq; auto).
    assert (Ec' : (1 =? cl)%N = false) by (apply N.eqb_neq; auto).
    unfold layout, component_types, COMPONENT_TABLE, mem_N, one_name_types. cbn [existsb lookup_ctypes].
    rewrite Ec, Ec'. reflexivity. }
  assert (E : forall a : N, a <> ty -> (a =? ty)%N = false) by (intros a Ha; apply N.eqb_neq; auto).
  assert (E' : forall a : N, ty <> a -> (ty =? a)%N = false) by (intros a Ha; apply N.eqb_neq; auto).
  unfold layout, component_types, COMPONENT_TABLE, mem_N, one_name_types. cbn [existsb lookup_ctypes].
  rewrite !E by congruence. rewrite !E' by congruence. reflexivity.
Qed.

Definition lpart_rel (p : lpart) (r : rpart) : Prop :=
  match p, r with
  | LPName ch comp, PName n' pos c => name_rel (nc_cp ch) (nc_name ch) n' /\ c = comp /\ pos = nc_pos ch
  | LPRaw _ d, PRaw d' => d' = d
  | _, _ => False
  end.

Definition part_wf (p : lpart) : Prop :=
  match p with LPName ch _ => wf_name (nc_name ch) /\ length (nm_wire (nc_name ch)) <= 255 | _ => True end.

Lemma parts_decode b c L : sdec b c L ->
  forall cts ps pos e, parts_shape cts ps -> parts_at b L ps pos e -> Forall part_wf ps -> e <= length b ->
  exists dps, dec_parts false (map sf_of cts) b pos e = Some dps /\ Forall2 lpart_rel ps dps.
Proof.
  intros Hsd. induction cts as [|ct rest IH]; intros ps pos e Hsh Hat Hwf He.
  - simpl in *. destruct ps as [|[ch comp|p d] [|? ?]]; try contradiction.
    + simpl in Hat. subst. rewrite Nat.eqb_refl. exists []. split; auto.
    + simpl in Hat. destruct Hat as [-> [_ [Hs [Hle <-]]]].
      assert (length d <> 0) by (destruct d; [congruence|simpl; lia]).
      destruct (pos =? pos + length d) eqn:E1; [apply Nat.eqb_eq in E1; lia|].
      destruct (pos <? pos + length d) eqn:E2; [|apply Nat.ltb_ge in E2; lia].
      exists [PRaw (slice b pos (pos + length d))]. split; [reflexivity|]. constructor; [simpl; exact Hs|constructor].
  - destruct ct as [| |k]; simpl in Hsh.
    + destruct ps as [|[ch comp|p d] ps']; try contradiction. destruct Hsh as [-> Hsh].
      simpl in Hat. destruct Hat as [Hp [Hch [_ [Hle Hat]]]]. inversion Hwf as [|? ? HW Hwf']; subst. destruct HW as [W1 W2].
      pose proof (parts_le _ _ _ _ _ Hat) as Hpe.
      destruct (chunk_decode b c L ch Hsd Hch ltac:(lia) W1 W2) as [n' [E Hr]].
      cbn [map sf_of dec_parts andb negb is_comp]. unfold dec_cname. rewrite E.
      pose proof (proj1 Hch) as Hlt.
      replace (nc_pos ch + (nc_end ch - nc_pos ch)) with (nc_end ch) by lia.
      destruct (nc_end ch <=? e) eqn:E1; [|apply Nat.leb_gt in E1; lia].
      destruct (IH ps' (nc_end ch) e Hsh Hat Hwf' He) as [dps [E2 F2]]. rewrite E2.
      eexists. split; [reflexivity|]. constructor; auto. simpl. auto.
    + destruct ps as [|[ch comp|p d] ps']; try contradiction. destruct Hsh as [-> Hsh].
      simpl in Hat. destruct Hat as [Hp [Hch [Hn [Hle Hat]]]]. inversion Hwf as [|? ? HW Hwf']; subst. destruct HW as [W1 W2].
      pose proof (parts_le _ _ _ _ _ Hat) as Hpe.
      cbn [map sf_of dec_parts andb negb is_comp].
      rewrite (uchunk_decode b L ch Hch (Hn eq_refl) ltac:(lia) W1 W2).
      pose proof (proj1 Hch) as Hlt.
      replace (nc_pos ch + (nc_end ch - nc_pos ch)) with (nc_end ch) by lia.
      destruct (nc_end ch <=? e) eqn:E1; [|apply Nat.leb_gt in E1; lia].
      destruct (IH ps' (nc_end ch) e Hsh Hat Hwf' He) as [dps [E2 F2]]. rewrite E2.
      eexists. split; [reflexivity|]. constructor; auto. simpl. split; [apply name_eq_rel, name_eq_refl|auto].
    + destruct ps as [|[ch comp|p d] ps']; try contradiction. destruct Hsh as [Hk Hsh].
      simpl in Hat. destruct Hat as [-> [_ [Hs [Hle Hat]]]]. inversion Hwf as [|? ? _ Hwf']; subst.
      cbn [map sf_of dec_parts].
      destruct (pos + length d <=? e) eqn:E1; [|apply Nat.leb_gt in E1; lia].
      destruct (IH ps' (pos + length d) e Hsh Hat Hwf' He) as [dps [E2 F2]]. rewrite E2.
      eexists. split; [reflexivity|]. constructor; auto.
Qed.

Definition xp (p : apart) : xpart := match p with APName n c => XName n c | APRaw d => XRaw d end.
Definition xparts (a : arr) : list xpart :=
  map xp (rd_parts (component_types (ar_cl a) (ar_ty a)) (ar_rd a)).

Definition arr_wf (a : arr) : Prop :=
  wf_name (ar_owner a) /\ length (nm_wire (ar_owner a)) <= 255 /\ (ar_ty a < 65536)%N /\
  (ar_cl a < 65536)%N /\ (ar_ttl a < 4294967296)%N /\ (N.of_nat (length (ar_rd a)) < 65536)%N /\ wf_bytes (ar_rd a).
Definition aq_wf (a : aq) : Prop :=
  wf_name (aq_name a) /\ length (nm_wire (aq_name a)) <= 255 /\ (aq_ty a < 65536)%N /\ (aq_cl a < 65536)%N.

Lemma parse_unc_255 rd nm len : wf_bytes rd -> parse_uncompressed_name rd false = Ok (nm, len) -> len <= 255.
Proof.
  intros Hwf H. apply (parse_uncompressed_iff rd false nm len Hwf) in H as [ls [[D Hw] _]].
  destruct (decodes_nc_end _ _ _ _ _ D eq_refl) as [He _]. lia.
Qed.

Definition apart_wf (p : apart) : Prop :=
  match p with APName n _ => wf_name n /\ length (nm_wire n) <= 255 | APRaw _ => True end.

Lemma rd_parts_wf : forall cts rd, wf_bytes rd -> Forall apart_wf (rd_parts cts rd).
Proof.
  induction cts as [|ct rest IH]; intros rd Hwf; simpl.
  - destruct (length rd =? 0); repeat constructor.
  - assert (Hn : Forall apart_wf
               match parse_uncompressed_name rd false with
               | Ok (nm, len) => APName (labels_of_name nm) (is_comp ct) :: rd_parts rest (skipn len rd)
               | _ => []
               end).
    { destruct (parse_uncompressed_name rd false) as [[nm len]|e|] eqn:E; try constructor.
      - destruct (parse_unc_name rd nm len Hwf E) as [W1 [W2 _]]. pose proof (parse_unc_255 rd nm len Hwf E).
        simpl. split; auto. lia.
      - apply IH. apply wf_skipn; auto. }
    destruct ct as [| |k]; auto.
    destruct (length rd <? k); constructor; [exact I|]. apply IH. apply wf_skipn; auto.
Qed.

Lemma parts_wf_of ps aps : map part_abs ps = aps -> Forall apart_wf aps -> Forall part_wf ps.
Proof.
  intros <-. induction ps as [|[ch comp|p d] r IH]; simpl; intros H; constructor; inversion H; subst; auto.
Qed.

Lemma parts_rel_of cp ps dps : Forall (part_cp cp) ps -> Forall2 lpart_rel ps dps ->
  Forall2 (part_rel cp) (map xp (map part_abs ps)) dps.
Proof.
  intros Hcp H. induction H as [|p d ps dps Hr _ IH]; simpl; [constructor|].
  inversion Hcp as [|? ? Hc1 Hc2]; subst. constructor; auto.
  destruct p as [ch comp|q dd]; destruct d as [n' pos c|dd']; simpl in *; try contradiction.
  - destruct Hr as [R1 [R2 _]]. subst. auto.
  - auto.
Qed.

Lemma rr_decode b c L r a : sdec b c L -> rr_at b L r -> rr_desc2 r a ->
  arr_wf a -> lr_end r <= length b ->
  exists d, rr_rel xparts a d /\ (dr_pos d = nc_pos (lr_owner r) /\ Forall2 lpart_rel (lr_parts r) (dr_parts d)) /\
    forall n, dec_rrs (S n) b (nc_pos (lr_owner r)) =
              match dec_rrs n b (lr_end r) with Some (rs, e') => Some (d :: rs, e') | None => None end.
Proof.
  intros Hsd [Ho [Hf [Hle Hp]]] [[D1 [D2 [D3 [D4 [D5 [D6 [D7 [D8 D9]]]]]]]] _] [W1 [W2 [W3 [W4 [W5 [W6 W7]]]]]] He.
  pose proof (proj1 Ho) as Hlt.
  rewrite <- D1 in W1, W2.
  destruct (chunk_decode b c L (lr_owner r) Hsd Ho ltac:(lia) W1 W2) as [n' [E Hr]].
  set (p := nc_end (lr_owner r)) in *.
  assert (Hrd : (N.of_nat (lr_end r - (p + 10)) < 65536)%N) by lia.
  unfold rr_fixed in Hf. fold p in Hf.
  pose proof (get16_in b p (p + 10) _ 0 (lr_ty r) Hf eq_refl ltac:(rewrite D3; auto) ltac:(lia) ltac:(lia)) as F1.
  pose proof (get16_in b p (p + 10) _ 2 (lr_cl r) Hf eq_refl ltac:(rewrite D4; auto) ltac:(lia) ltac:(lia)) as F2.
  pose proof (get32_in b p (p + 10) _ 4 (lr_ttl r) Hf eq_refl ltac:(rewrite D5; auto) ltac:(lia) ltac:(lia)) as F3.
  pose proof (get16_in b p (p + 10) _ 8 (N.of_nat (lr_end r - (p + 10)) mod 65536) Hf eq_refl
                ltac:(apply N.mod_lt; lia) ltac:(lia) ltac:(lia)) as F4.
  rewrite Nat.add_0_r in F1. rewrite N.mod_small in F4 by lia.
  assert (Hpw : Forall part_wf (lr_parts r)).
  { eapply parts_wf_of; [exact D6|]. apply rd_parts_wf. exact W7. }
  destruct (parts_decode b c L Hsd _ _ _ _ D8 Hp Hpw He) as [dps [Ep Fp]].
  exists (mkDRR n' (nc_pos (lr_owner r)) (lr_ty r) (lr_cl r) (lr_ttl r) dps). split; [|split; [split; [reflexivity|exact Fp]|]].
  - unfold rr_rel. simpl. rewrite <- D1, <- D2. split; [exact Hr|]. repeat split; auto.
    unfold xparts. rewrite <- D6. apply parts_rel_of; auto. rewrite D2. exact D7.
  - intros n. cbn [dec_rrs]. unfold dec_cname. rewrite E.
    replace (nc_pos (lr_owner r) + (p - nc_pos (lr_owner r))) with p by lia.
    rewrite F1, F2, F3, F4. rewrite Nat2N.id.
    replace (p + 10 + (lr_end r - (p + 10))) with (lr_end r) by lia.
    destruct (lr_end r <=? length b) eqn:E1; [|apply Nat.leb_gt in E1; lia].
    rewrite layout_table, D4, D3. rewrite Ep. reflexivity.
Qed.

Lemma rrs_decode b c L : sdec b c L ->
  forall rs al pos e, rrs_at b L rs pos e -> Forall2 rr_desc2 rs al -> Forall arr_wf al -> e <= length b ->
  exists ds, dec_rrs (length rs) b pos = Some (ds, e) /\ Forall2 (rr_rel xparts) al ds /\
             Forall2 (fun r d => dr_pos d = nc_pos (lr_owner r) /\ Forall2 lpart_rel (lr_parts r) (dr_parts d)) rs ds.
Proof.
  intros Hsd. induction rs as [|r rest IH]; intros al pos e Hat Hd Hw He.
  - inversion Hd; subst. simpl in Hat. subst. exists []. split; auto.
  - inversion Hd as [|? a ? al' Hda Hd']; subst. inversion Hw; subst.
    simpl in Hat. destruct Hat as [Hp [Hr [Hle Hat]]].
    destruct (rr_decode b c L r a Hsd Hr Hda ltac:(auto) ltac:(lia)) as [d [Rd [Lk Ed]]].
    destruct (IH al' (lr_end r) e Hat Hd' ltac:(auto) He) as [ds [E [F Lks]]].
    exists (d :: ds). split; [|split; constructor; auto].
    change (length (r :: rest)) with (S (length rest)). rewrite <- Hp, Ed, E. reflexivity.
Qed.

Lemma qs_decode b c L : sdec b c L ->
  forall qs al pos e, qs_at b L qs pos e ->
  Forall2 (fun q a => nc_name (lq_name q) = aq_name a /\ nc_cp (lq_name q) = aq_exact a /\
                      lq_ty q = aq_ty a /\ lq_cl q = aq_cl a) qs al ->
  Forall aq_wf al -> e <= length b ->
  exists ds, dec_questions (length qs) b pos = Some (ds, e) /\ Forall2 q_rel al ds /\
             Forall2 (fun q d => dq_pos d = nc_pos (lq_name q)) qs ds.
Proof.
  intros Hsd. induction qs as [|q rest IH]; intros al pos e Hat Hd Hw He.
  - inversion Hd; subst. simpl in Hat. subst. exists []. split; auto.
  - inversion Hd as [|? a ? al' [D1 [D2 [D3 D4]]] Hd']; subst. inversion Hw as [|? ? [W1 [W2 [W3 W4]]] Hw']; subst.
    simpl in Hat. destruct Hat as [Hp [[Ho Hf] [Hle Hat]]].
    pose proof (proj1 Ho) as Hlt. pose proof (qs_le _ _ _ _ _ Hat) as Hqe.
    rewrite <- D1 in W1, W2.
    destruct (chunk_decode b c L (lq_name q) Hsd Ho ltac:(lia) W1 W2) as [n' [E Hr]].
    set (p := nc_end (lq_name q)) in *.
    pose proof (get16_in b p (p + 4) _ 0 (lq_ty q) Hf eq_refl ltac:(rewrite D3; auto) ltac:(lia) ltac:(lia)) as F1.
    pose proof (get16_in b p (p + 4) _ 2 (lq_cl q) Hf eq_refl ltac:(rewrite D4; auto) ltac:(lia) ltac:(lia)) as F2.
    rewrite Nat.add_0_r in F1.
    destruct (IH al' (p + 4) e Hat Hd' Hw' He) as [ds [E2 [F Lks]]].
    exists (mkDQ n' (nc_pos (lq_name q)) (lq_ty q) (lq_cl q) :: ds). split; [|split; [|constructor; auto]].
    + change (length (q :: rest)) with (S (length rest)). cbn [dec_questions]. unfold dec_cname.
      rewrite <- Hp, E.
      replace (nc_pos (lq_name q) + (p - nc_pos (lq_name q))) with p by lia.
      rewrite F1, F2, E2. reflexivity.
    + constructor; auto. unfold q_rel. simpl. rewrite <- D1, <- D2. auto.
Qed.

Lemma chunk_scan_labels b : forall ls fuel i acc, Forall wf_label ls ->
  slice b i (i + length (nm_lwire ls)) = nm_lwire ls -> i + length (nm_lwire ls) <= length b ->
  length ls <= fuel ->
  chunk_scan fuel b i acc = chunk_scan (fuel - length ls) b (i + length (nm_lwire ls)) (acc ++ lstarts i ls).
Proof.
  induction ls as [|l r IH]; intros fuel i acc Hwf Hs Hlen Hf.
  - simpl. rewrite Nat.add_0_r, Nat.sub_0_r, app_nil_r. reflexivity.
  - inversion Hwf as [|? ? [Hl1 Hl63] Hwf']; subst.
    rewrite nm_lwire_cons in *. simpl length in *. rewrite app_length in *.
    destruct (lwire_tail b i l r Hs Hlen) as [Hnth [Hsl Hsr]].
    destruct fuel as [|f]; [lia|]. cbn [chunk_scan]. rewrite Hnth.
    destruct (N.of_nat (length l) =? 0)%N eqn:E0; [apply N.eqb_eq in E0; lia|].
    destruct (N.of_nat (length l) <=? 63)%N eqn:E1; [|apply N.leb_gt in E1; lia].
    rewrite Nat2N.id. rewrite (IH f (i + 1 + length l) (acc ++ [i])); auto; try lia.
    simpl. rewrite <- app_assoc. simpl.
    replace (i + 1 + length l + length (nm_lwire r)) with (i + S (length l + length (nm_lwire r))) by lia.
    reflexivity.
Qed.

Definition shape_term (pos : nat) (n : wname) (sh : shape) : option (nat * nat) :=
  match sh with None => None | Some (k, pp) => Some (pos + length (nm_lwire (firstn k n)), pp) end.

Lemma chunk_scan_shape cp n b L pos e sh acc : shape_at cp n b L pos e sh -> wf_name n -> e <= length b ->
  pos <= e -> chunk_scan 130 b pos acc = Some (acc ++ own_starts pos n sh, shape_term pos n sh).
Proof.
  intros Hsh [Hwf Hn127] He Hpe.
  assert (Hl : length (slice b pos e) = e - pos) by (apply slice_length; lia).
  destruct sh as [[k pp]|]; simpl in Hsh; cbn [own_starts shape_term].
  - destruct Hsh as [Hk [Hs [_ [_ [_ [Hpm _]]]]]].
    rewrite Hs, app_length in Hl. simpl in Hl.
    destruct (slice_app_l b pos (pos + length (nm_lwire (firstn k n))) e _ _ Hs eq_refl ltac:(lia) He) as [S1 S2].
    destruct (ptr_word_bytes pp Hpm) as [hi [lo' [Eb [Ehi Et]]]].
    assert (Hhi : (hi < 256)%N) by (unfold be16 in Eb; inversion Eb; apply N.mod_lt; lia).
    rewrite Eb in S2. apply slice_head in S2 as [Z1 [S3 _]]. apply slice_head in S3 as [Z2 _].
    destruct (spec_target hi lo' Ehi Hhi) as [H192 Etspec].
    assert (Hwk : Forall wf_label (firstn k n)).
    { rewrite Forall_forall in *. intros x Hx. apply Hwf. eapply In_firstn; eauto. }
    assert (Hlk : length (firstn k n) <= 127) by (rewrite firstn_length; lia).
    rewrite (chunk_scan_labels b (firstn k n) 130 pos acc Hwk S1 ltac:(lia) ltac:(lia)).
    destruct (130 - length (firstn k n)) as [|f] eqn:Ef; [lia|]. cbn [chunk_scan]. rewrite Z1.
    destruct (hi =? 0)%N eqn:E0; [apply N.eqb_eq in E0; lia|].
    destruct (hi <=? 63)%N eqn:E1; [apply N.leb_le in E1; lia|].
    destruct (192 <=? hi)%N eqn:E2; [|apply N.leb_gt in E2; lia].
    replace (pos + length (nm_lwire (firstn k n)) + 1) with (S (pos + length (nm_lwire (firstn k n)))) by lia.
    rewrite Z2, Etspec, Et. reflexivity.
  - rewrite Hsh, nm_wire_length in Hl. unfold nm_wire in Hsh.
    destruct (slice_app_l b pos (pos + length (nm_lwire n)) e _ _ Hsh eq_refl ltac:(lia) He) as [S1 S2].
    apply slice_head in S2 as [Hz _].
    rewrite (chunk_scan_labels b n 130 pos acc Hwf S1 ltac:(lia) ltac:(lia)).
    destruct (130 - length n) as [|f] eqn:Ef; [lia|]. cbn [chunk_scan]. rewrite Hz.
    change (0 =? 0)%N with true. cbv iota. rewrite <- app_assoc. reflexivity.
Qed.

Lemma mem_nat_in x l : In x l -> mem_nat x l = true.
Proof. intros H. unfold mem_nat. apply existsb_exists. exists x. split; auto. apply Nat.eqb_refl. Qed.

(* a chunk passes the checker when its pointer target is among the starts collected so far *)
Lemma check_name_ok b L ch (nocomp : bool) starts : chunk_ok b L ch -> wf_name (nc_name ch) ->
  nc_end ch <= length b -> (nocomp = true -> nc_sh ch = None) ->
  (forall s, L s -> s < nc_pos ch -> In s starts) ->
  check_name b nocomp starts (nc_pos ch) = Ok (starts ++ chunk_starts ch).
Proof.
  intros [Hlt Hsh] Hwf He Hno Hst. unfold check_name.
  rewrite (chunk_scan_shape _ _ _ _ _ _ _ [] Hsh Hwf He ltac:(lia)). cbn [app].
  unfold chunk_starts. destruct (nc_sh ch) as [[k pp]|] eqn:Esh; cbn [shape_term]; auto.
  destruct nocomp; [specialize (Hno eq_refl); discriminate|].
  simpl in Hsh. destruct Hsh as [_ [_ [HL [Hpp _]]]].
  destruct (pp <? nc_pos ch) eqn:E1; [|apply Nat.ltb_ge in E1; lia].
  rewrite (mem_nat_in pp starts (Hst pp HL Hpp)). reflexivity.
Qed.

Lemma check_parts_ok b L (nocomp : bool) (P R : list nat) : forall ps dps pos e, parts_at b L ps pos e -> e <= length b ->
  Forall2 lpart_rel ps dps -> Forall part_wf ps -> (nocomp = true -> Forall part_plain ps) ->
  (forall s, L s -> In s (P ++ parts_starts ps ++ R)) -> (forall s, In s P -> s < pos) ->
  (forall s, In s R -> e <= s) ->
  check_parts b nocomp P dps = Ok (P ++ parts_starts ps).
Proof.
  intros ps. revert P. induction ps as [|[ch comp|p d] r IH]; intros P dps pos e Hat He Hrel Hwf Hpl HL HP HR.
  - inversion Hrel; subst. simpl. rewrite app_nil_r. reflexivity.
  - inversion Hrel as [|? dp ? dps' Hr Hrel']; subst. inversion Hwf as [|? ? HW Hwf']; subst. destruct HW as [W1 W2].
    destruct dp as [n' pos' c|]; simpl in Hr; [|contradiction]. destruct Hr as [_ [-> ->]].
    simpl in Hat. destruct Hat as [Hp [Hch [Hn [Hle Hat]]]]. pose proof (proj1 Hch) as Hlt.
    pose proof (parts_le _ _ _ _ _ Hat) as Hpe.
    cbn [check_parts].
    rewrite (check_name_ok b L ch (nocomp || negb comp) P Hch W1 ltac:(lia)).
    + cbn [bind]. simpl parts_starts. rewrite app_assoc.
      apply (IH (P ++ chunk_starts ch) dps' (nc_end ch) e); auto.
      * intros Hn'. specialize (Hpl Hn'). inversion Hpl; auto.
      * intros s Hs. specialize (HL s Hs). simpl in HL. rewrite <- !app_assoc. rewrite <- app_assoc in HL. exact HL.
      * intros s Hs. apply in_app_iff in Hs as [Hs|Hs]; [apply HP in Hs; lia|].
        apply (chunk_starts_bound b L ch s Hch) in Hs; lia.
    + intros Hc. apply orb_true_iff in Hc as [Hc|Hc].
      * specialize (Hpl Hc). inversion Hpl; auto.
      * apply Hn. destruct comp; [discriminate|reflexivity].
    + intros s Hs Hlt'. specialize (HL s Hs). simpl in HL. rewrite !in_app_iff in HL.
      destruct HL as [K|[[K|K]|K]]; auto.
      * apply (chunk_starts_bound b L ch s Hch) in K; lia.
      * apply (parts_starts_bound _ _ _ _ _ _ Hat He) in K. lia.
      * apply HR in K. lia.
  - inversion Hrel as [|? dp ? dps' Hr Hrel']; subst. inversion Hwf as [|? ? _ Hwf']; subst.
    destruct dp as [|d']; simpl in Hr; [contradiction|]. subst d'.
    simpl in Hat. destruct Hat as [-> [_ [Hs [Hle Hat]]]].
    cbn [check_parts]. simpl parts_starts.
    apply (IH P dps' (pos + length d) e); auto.
    + intros Hn'. specialize (Hpl Hn'). inversion Hpl; auto.
    + intros s Hs'. apply HP in Hs'. lia.
Qed.

Definition rr_wfL (r : lrr) : Prop := wf_name (nc_name (lr_owner r)) /\ Forall part_wf (lr_parts r).

Lemma rr_wfL_of r a : rr_desc2 r a -> arr_wf a -> rr_wfL r.
Proof.
  intros [[D1 [D2 [D3 [D4 [D5 [D6 [D7 [D8 D9]]]]]]]] _] [W1 [W2 [W3 [W4 [W5 [W6 W7]]]]]]. split.
  - rewrite D1. exact W1.
  - eapply parts_wf_of; [exact D6|]. apply rd_parts_wf. exact W7.
Qed.

Definition rlink (r : lrr) (d : drr) : Prop :=
  dr_pos d = nc_pos (lr_owner r) /\ Forall2 lpart_rel (lr_parts r) (dr_parts d).

Lemma check_rrs_ok b L : forall rs ds es (P R : list nat) pos e, rrs_at b L rs pos e -> e <= length b ->
  Forall2 rlink rs ds -> Forall rr_wfL rs -> Forall2 (fun a r => a_nocomp a = true -> rr_plain r) es rs ->
  (forall s, L s -> In s (P ++ rrs_starts rs ++ R)) -> (forall s, In s P -> s < pos) ->
  (forall s, In s R -> e <= s) ->
  check_rrs b P es ds = Ok (P ++ rrs_starts rs).
Proof.
  induction rs as [|r rest IH]; intros ds es P R pos e Hat He Hlk Hwf Hes HL HP HR.
  - inversion Hlk; subst. destruct es; simpl; rewrite app_nil_r; reflexivity.
  - inversion Hlk as [|? d ? ds' [Lp Lparts] Hlk']; subst. inversion Hwf as [|? ? [W1 W2] Hwf']; subst.
    inversion Hes as [|a ? es' ? Ha Hes']; subst.
    simpl in Hat. destruct Hat as [Hp [Hr [Hle Hat]]]. pose proof Hr as [Ho [Hf [Hle2 Hparts]]].
    pose proof (proj1 Ho) as Hlt. pose proof (rrs_le _ _ _ _ _ Hat) as Hre.
    cbn [check_rrs]. rewrite Lp.
    rewrite (check_name_ok b L (lr_owner r) (a_nocomp a) P Ho W1 ltac:(lia)); [|intros Hn; apply (Ha Hn)|].
    2:{ intros s Hs Hlt'. specialize (HL s Hs). rewrite !in_app_iff in HL. destruct HL as [K|[K|K]]; auto.
        - apply (rrs_starts_bound b L (r :: rest) pos e s) in K; [lia| |lia].
          simpl. split; auto.
        - apply HR in K. lia. }
    cbn [bind].
    assert (Hplp : a_nocomp a = true -> Forall part_plain (lr_parts r)) by (intros Hn; apply (Ha Hn)).
    rewrite (check_parts_ok b L (a_nocomp a) (P ++ chunk_starts (lr_owner r)) (rrs_starts rest ++ R) (lr_parts r) (dr_parts d)
               (nc_end (lr_owner r) + 10) (lr_end r)); auto; try lia.
    + cbn [bind].
      assert (Eq : P ++ rrs_starts (r :: rest) =
                   ((P ++ chunk_starts (lr_owner r)) ++ parts_starts (lr_parts r)) ++ rrs_starts rest).
      { unfold rrs_starts. simpl. unfold rr_starts. rewrite <- !app_assoc. reflexivity. }
      rewrite Eq.
      apply (IH ds' es' ((P ++ chunk_starts (lr_owner r)) ++ parts_starts (lr_parts r)) R (lr_end r) e); auto.
      * intros s Hs. specialize (HL s Hs). unfold rrs_starts in HL. simpl in HL. unfold rr_starts in HL.
        rewrite !in_app_iff in *. tauto.
      * intros s Hs. rewrite !in_app_iff in Hs. destruct Hs as [[Hs|Hs]|Hs].
        -- apply HP in Hs. lia.
        -- apply (chunk_starts_bound b L _ s Ho) in Hs; lia.
        -- apply (parts_starts_bound _ _ _ _ _ _ Hparts) in Hs; lia.
    + intros s Hs. specialize (HL s Hs). unfold rrs_starts in HL. simpl in HL. unfold rr_starts in HL.
      rewrite !in_app_iff in *. tauto.
    + intros s Hs. rewrite in_app_iff in Hs. destruct Hs as [Hs|Hs]; [apply HP in Hs; lia|].
      apply (chunk_starts_bound b L _ s Ho) in Hs; lia.
    + intros s Hs. rewrite in_app_iff in Hs. destruct Hs as [Hs|Hs].
      * apply (rrs_starts_bound _ _ _ _ _ _ Hat He) in Hs. lia.
      * apply HR in Hs. lia.
Qed.

Lemma check_qs_ok b L : forall qs ds es (P R : list nat) pos e, qs_at b L qs pos e -> e <= length b ->
  Forall2 (fun q d => dq_pos d = nc_pos (lq_name q)) qs ds -> Forall (fun q => wf_name (nc_name (lq_name q))) qs ->
  Forall2 (fun a q => a_nocomp a = true -> nc_sh (lq_name q) = None) es qs ->
  (forall s, L s -> In s (P ++ qs_starts qs ++ R)) -> (forall s, In s P -> s < pos) ->
  (forall s, In s R -> e <= s) ->
  check_qs b P es ds = Ok (P ++ qs_starts qs).
Proof.
  induction qs as [|q rest IH]; intros ds es P R pos e Hat He Hlk Hwf Hes HL HP HR.
  - inversion Hlk; subst. destruct es; simpl; rewrite app_nil_r; reflexivity.
  - inversion Hlk as [|? d ? ds' Lp Hlk']; subst. inversion Hwf as [|? ? W1 Hwf']; subst.
    inversion Hes as [|a ? es' ? Ha Hes']; subst.
    simpl in Hat. destruct Hat as [Hp [[Ho Hf] [Hle Hat]]].
    pose proof (proj1 Ho) as Hlt. pose proof (qs_le _ _ _ _ _ Hat) as Hre.
    cbn [check_qs]. rewrite Lp.
    rewrite (check_name_ok b L (lq_name q) (a_nocomp a) P Ho W1 ltac:(lia)); [|exact Ha|].
    2:{ intros s Hs Hlt'. specialize (HL s Hs). rewrite !in_app_iff in HL. destruct HL as [K|[K|K]]; auto.
        - apply (qs_starts_bound b L (q :: rest) pos e s) in K; [lia| |lia].
          simpl. split; auto. split; [split; auto|auto].
        - apply HR in K. lia. }
    cbn [bind].
    assert (Eq : P ++ qs_starts (q :: rest) = (P ++ chunk_starts (lq_name q)) ++ qs_starts rest).
    { unfold qs_starts. simpl. rewrite <- !app_assoc. reflexivity. }
    rewrite Eq.
    apply (IH ds' es' (P ++ chunk_starts (lq_name q)) R (nc_end (lq_name q) + 4) e); auto.
    + intros s Hs. specialize (HL s Hs). unfold qs_starts in HL. simpl in HL.
      rewrite !in_app_iff in *. tauto.
    + intros s Hs. rewrite in_app_iff in Hs. destruct Hs as [Hs|Hs]; [apply HP in Hs; lia|].
      apply (chunk_starts_bound b L _ s Ho) in Hs; lia.
Qed.
