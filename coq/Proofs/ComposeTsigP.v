(* Composition: the octets of a response that carries a TSIG record (Model/ServerWT.v), preliminaries.
   Names and fields of the TSIG settings the pre-scan hands over are what the Writer
   demands of its caller (valid Names, 6-octet times, 16-bit numbers); the numbers of the Writer after
   ServerW.ser_prepare (cursor = header + question, available + OPT reservation = limit, limit as replayed). *)
From QV Require Import Base.ListX Gen.Consts Model.NameWire Model.Reader Model.RdataLite Model.Server Model.ServerW Model.ServerWT
  Model.MsgWriter Model.ZoneTree Model.Query Model.QueryW
  Spec.NameWireS Spec.NameRepr Proofs.NameWireP Proofs.ServerP Proofs.ServerTsigP
  Proofs.MsgWriterP Proofs.MsgWriterScanP Proofs.MsgWriterNameP Proofs.MsgWriterInvP Proofs.MsgWriterNameSP Proofs.MsgWriterOpP
  Proofs.MsgWriterStepP Proofs.QueryDispatchP
  Proofs.ComposeTraceP Proofs.ComposeNameP Proofs.ComposeTopP Proofs.ComposeSerP.
From QV Require Proofs.RdNameP Proofs.ServerEchoP.
Local Open Scope nat_scope.

(* [w] is the uncompressed wire form of a valid Name whose octets are < 256 *)
Definition wire_name_ok (w : bytes) : Prop :=
  let ls := Server.wire_labels w in w = nm_wire ls /\ good_name ls /\ Forall wf_bytes ls.

Lemma server_wire_labels_ok ls : Forall wf_label ls -> Server.wire_labels (nm_wire ls) = ls.
Proof.
  intros H. unfold Server.wire_labels. rewrite wire_labels_same, q_wire_labels_eq. apply wire_labels_ok; [exact H|].
  pose proof (lwire_len_ge ls H). rewrite nm_wire_length. lia.
Qed.

Lemma wno_intro ls : good_name ls -> Forall wf_bytes ls -> wire_name_ok (nm_wire ls).
Proof.
  intros G W. unfold wire_name_ok. cbv zeta. rewrite (server_wire_labels_ok ls (proj1 (proj1 G))). auto.
Qed.

Lemma lower_len_octet x : (x <= 63)%N -> lower x = x.
Proof.
  intros H. unfold lower. destruct ((65 <=? x)%N && (x <=? 90)%N) eqn:E; [|reflexivity].
  apply andb_true_iff in E. destruct E as [E _]. apply N.leb_le in E. lia.
Qed.

Lemma map_lower_nm_wire ls : Forall wf_label ls -> map lower (nm_wire ls) = nm_wire (nm_lower ls).
Proof.
  intros H. unfold nm_wire. rewrite map_app. cbn [map]. replace (lower 0) with 0%N by reflexivity. f_equal.
  induction H as [|l r [H1 H63] _ IH]; [reflexivity|].
  cbn [nm_lower map nm_lwire flat_map]. rewrite map_app. cbn [map]. rewrite map_length.
  rewrite lower_len_octet by lia. f_equal. f_equal. exact IH.
Qed.

Lemma good_name_lower ls : good_name ls -> good_name (nm_lower ls).
Proof. intros [A B]. split; [apply wf_name_lower; exact A|rewrite wire_lower_length; exact B]. Qed.

Lemma wno_lower w : wire_name_ok w -> wire_name_ok (lower_wire w).
Proof.
  intros (E & G & W). unfold lower_wire. rewrite E. rewrite (map_lower_nm_wire _ (proj1 (proj1 G))).
  apply wno_intro; [apply good_name_lower; exact G|apply wf_bytes_lower; exact W].
Qed.

Lemma wno_parse_compressed b c nm l : wf_bytes b -> parse_compressed_name b c = Ok (nm, l) -> wire_name_ok (n_wire nm).
Proof.
  intros Hwf H. apply (parse_compressed_iff b c nm l Hwf) in H as (ls & (e & D & _ & Hw) & ->).
  cbn [name_of n_wire]. change (wire_of ls) with (nm_wire ls).
  pose proof (RdNameP.decodes_labels_valid _ _ _ _ _ D : Forall wf_label ls) as Hl.
  apply wno_intro; [|eapply RdNameP.decodes_labels_wf; eauto].
  split; [split; [exact Hl|]|].
  - pose proof (lwire_len_ge ls Hl) as Hge. assert (Hwl : length (nm_wire ls) = wire_len ls) by reflexivity.
    rewrite nm_wire_length in Hwl. lia.
  - exact Hw.
Qed.

Lemma labels_of_name_wf rd nm len : wf_bytes rd -> parse_uncompressed_name rd false = Ok (nm, len) ->
  Forall wf_bytes (labels_of_name nm) /\ n_wire nm = nm_wire (labels_of_name nm) /\ n_wire nm = firstn len rd.
Proof.
  intros Hwf H.
  assert (Hf : n_wire nm = firstn len rd).
  { unfold parse_uncompressed_name in H. destruct (unc_loop unc_fuel rd 0 []) as [[o offs]|e|]; cbn [bind] in H; try discriminate.
    cbn [andb] in H. inversion H; subst. reflexivity. }
  apply (parse_uncompressed_iff rd false nm len Hwf) in H as [ls [[D Hw] [-> _]]].
  pose proof (decodes_unc_labels _ _ _ _ _ D eq_refl) as Hl.
  rewrite (labels_of_name_of ls Hl). split; [eapply RdNameP.decodes_labels_wf; eauto|]. split; [reflexivity|exact Hf].
Qed.

Lemma wno_validated rd al : wf_bytes rd -> validate_uncompressed_name rd false = Ok al -> wire_name_ok (firstn al rd).
Proof.
  intros Hwf V. rewrite validate_agrees in V.
  destruct (parse_uncompressed_name rd false) as [[nm len]|e|] eqn:P; cbn [map_ok snd] in V; try discriminate.
  inversion V; subst len. destruct (parse_unc_good rd nm al Hwf P) as (G & _).
  destruct (labels_of_name_wf rd nm al Hwf P) as (W & E1 & E2). rewrite <- E2, E1. apply wno_intro; assumption.
Qed.

Lemma wno_alg a : wire_name_ok (alg_name_wire a).
Proof.
  destruct a.
  - change (alg_name_wire Server.HmacSha1) with (nm_wire [[104;109;97;99;45;115;104;97;49]%N]).
    apply wno_intro.
    + split; [split; [repeat constructor; simpl; lia|simpl; lia]|simpl; lia].
    + repeat constructor; unfold is_octet; lia.
  - change (alg_name_wire Server.HmacSha256) with (nm_wire [[104;109;97;99;45;115;104;97;50;53;54]%N]).
    apply wno_intro.
    + split; [split; [repeat constructor; simpl; lia|simpl; lia]|simpl; lia].
    + repeat constructor; unfold is_octet; lia.
Qed.

Lemma wno_lower_idem w : wire_name_ok w -> nm_lower (Server.wire_labels (lower_wire w)) = Server.wire_labels (lower_wire w).
Proof.
  intros (E & G & W). unfold lower_wire. rewrite E, (map_lower_nm_wire _ (proj1 (proj1 G))).
  rewrite server_wire_labels_ok by (apply wf_name_lower; exact (proj1 G)).
  unfold nm_lower. rewrite map_map. apply map_ext. intros l. rewrite map_map. apply map_ext. exact lower_idem.
Qed.

Lemma be48_ok n : length (TsigMsg.be48 n) = 6 /\ wf_bytes (TsigMsg.be48 n).
Proof.
  split; [reflexivity|]. unfold TsigMsg.be48. repeat constructor; unfold is_octet; apply N.mod_lt; discriminate.
Qed.

Lemma now_octets now : (now < 281474976710656)%N -> TsigMsg.time_signed_of_unix now = Some (TsigMsg.be48 now).
Proof. intros H. unfold TsigMsg.time_signed_of_unix. rewrite N.div_small by exact H. reflexivity. Qed.

Lemma get16_some rd a : a + 2 <= length rd -> exists v, get16 rd a = Some v.
Proof.
  intros H. unfold get16. destruct (nth_error rd a) eqn:A; [|apply nth_error_None in A; lia].
  destruct (nth_error rd (a + 1)) eqn:B; [eauto|apply nth_error_None in B; lia].
Qed.
Lemma get16_lt rd a v : wf_bytes rd -> get16 rd a = Some v -> (v < 65536)%N.
Proof. exact (ServerEchoP.sbe16_lt rd a v). Qed.

(* the layout validate_as_tsig checked *)
Lemma validated_tsig rd : RdataLite.validate_as_tsig rd = Ok tt ->
  exists al ms ol, validate_uncompressed_name rd false = Ok al /\ tsig_alg_len rd = al /\
    get16 rd (al + 8) = Some ms /\ al + N.to_nat ms + N.to_nat ol + 16 = length rd.
Proof.
  unfold RdataLite.validate_as_tsig. destruct (validate_uncompressed_name rd false) as [al|e|] eqn:V; try discriminate.
  destruct (get16 rd (al + 8)) as [ms|] eqn:G1; [|discriminate].
  destruct (get16 rd (al + N.to_nat ms + 14)) as [ol|] eqn:G2; [|discriminate].
  destruct (_ =? _) eqn:E; [|discriminate]. intros _. apply Nat.eqb_eq in E.
  exists al, ms, ol. split; [reflexivity|]. split; [apply tsig_alg_len_val; exact V|]. split; [exact G1|exact E].
Qed.

(* fo_klen / fo_alen are equalities of lengths: the pre-scan reserved space by the wire forms it held
   (t_key_wire, mode_alg_wire), set_tsig checks the reservation on the wire lengths of the names it is given *)
Record fields_ok (t : tsig_out) (f : tsig_fields) : Prop := mkFO {
  fo_alg : good_name (tf_alg f); fo_algb : Forall wf_bytes (tf_alg f);
  fo_key : good_name (tf_key f);
  fo_time : length (tf_time f) = 6 /\ wf_bytes (tf_time f);
  fo_stime : length (tf_stime f) = 6 /\ wf_bytes (tf_stime f);
  fo_klen : length (nm_wire (tf_key f)) = length (t_key_wire t);
  fo_alen : length (nm_wire (tf_alg f)) = length (mode_alg_wire (t_mode t));
  fo_err : tf_error f = Server.t_error t;
  fo_oid : (tf_origid f < 65536)%N }.

Lemma mode_alg_ok verify t : tsig_src verify t -> wire_name_ok (mode_alg_wire (t_mode t)).
Proof.
  intros (Wrd & Vrd & _ & M). destruct (validated_tsig _ Vrd) as (al & ms & ol & V & Eal & _).
  destruct (t_mode t) as [aw|a sec mac]; cbn [mode_alg_wire].
  - destruct M as ([-> | (a & ->)] & _); [|apply wno_alg]. rewrite Eal. apply wno_lower. apply wno_validated; assumption.
  - apply wno_alg.
Qed.

Lemma tsig_fields_total verify now t : (now < 281474976710656)%N -> tsig_src verify t ->
  exists f, tsig_fields_of now t = Some f /\ fields_ok t f.
Proof.
  intros Hnow S. pose proof (mode_alg_ok verify t S) as Halg. destruct S as (Wrd & Vrd & (b & c & nm & l & Wb & Pk & Ek) & M).
  destruct (validated_tsig _ Vrd) as (al & ms & ol & V & Eal & G1 & L).
  unfold tsig_fields_of. rewrite (now_octets now Hnow).
  unfold req_origid. rewrite Eal, G1.
  destruct (get16_some (t_request_rdata t) (al + N.to_nat ms + 10)) as [oid Go]; [lia|]. rewrite Go.
  assert (Ht : exists time, (if (Server.t_error t =? XRC_BADTIME)%N then req_time (t_request_rdata t) else Some (TsigMsg.be48 now)) = Some time /\
                 length time = 6 /\ wf_bytes time).
  { destruct (Server.t_error t =? XRC_BADTIME)%N.
    - unfold req_time. rewrite Eal. destruct (al + 6 <=? length (t_request_rdata t)) eqn:X; [|apply Nat.leb_gt in X; lia].
      eexists. split; [reflexivity|]. split; [rewrite slice_length; lia|apply wf_bytes_slice; exact Wrd].
    - eexists. split; [reflexivity|]. apply be48_ok. }
  destruct Ht as (time & -> & Ht1 & Ht2). eexists. split; [reflexivity|].
  assert (Hk : wire_name_ok (t_key_wire t)) by (rewrite Ek; apply wno_lower; exact (wno_parse_compressed b c nm l Wb Pk)).
  destruct Hk as (Ek1 & Gk & Wk). destruct Halg as (Ea1 & Ga & Wa).
  constructor; cbn [tf_alg tf_key tf_time tf_stime tf_error tf_origid]; auto.
  - apply be48_ok.
  - rewrite <- Ek1. reflexivity.
  - rewrite <- Ea1. reflexivity.
  - exact (get16_lt _ _ _ Wrd Go).
Qed.

Section SerT.
Variable buf : bytes.
Hypothesis Hb : 512 <= length buf.
Variable w : resp.
Hypothesis Hq : forall q, Server.w_question w = Some q ->
  good_name (labels_of (Reader.q_name q)) /\ (Reader.q_type q < 65536)%N /\ (Reader.q_class q < 65536)%N.

Definition wcur : nat :=
  match Server.w_question w with
  | Some q => 12 + length (nm_wire (labels_of (Reader.q_name q))) + 2 + 2
  | None => 12
  end.
Definition wres : nat := match Server.w_edns w with Some _ => 11 | None => 0 end.
Definition wlim (tcp : bool) : nat :=
  match Server.w_edns w with
  | Some _ => if tcp then first_limit tcp buf else Nat.min (Server.w_limit w) (length buf)
  | None => first_limit tcp buf
  end.

Lemma ser_prepare_shape tcp : (Server.w_edns w <> None -> tcp = false -> first_limit tcp buf <= Server.w_limit w) ->
  exists w1, ser_prepare buf tcp w = Some w1 /\
    MsgWriter.w_cursor w1 = wcur /\ MsgWriter.w_tsig w1 = None /\
    w_ar w1 = (match Server.w_edns w with Some _ => 1 | None => 0 end)%N /\
    MsgWriter.w_avail w1 + wres = MsgWriter.w_limit w1 /\ MsgWriter.w_limit w1 = wlim tcp.
Proof.
  intros Hlim. pose proof (first_limit_ge tcp buf Hb) as HL.
  destruct (ser_prepare_head buf Hb w Hq tcp) as (b7 & c & qd & pr & Ec & Hc & L7 & ->). fold wcur in Ec. subst c.
  unfold ser_tail, wlim, wres. set (lim := first_limit tcp buf) in *.
  assert (HLb : lim <= length buf) by (unfold lim, first_limit; lia).
  destruct (Server.w_edns w) as [[size upper]|].
  - rewrite set_edns_hq by lia.
    assert (Hx : forall b' lim' av', 12 <= length b' ->
              exists b'', MsgWriter.set_extended_rcode (upper mod 256 * 16 + Server.w_rcode w mod 16) (he_state b' wcur lim' av' qd pr (MsgWriter.mkEdns (size mod 65536) 0)) =
                          Ok (tt, he_state b'' wcur lim' av' qd pr (MsgWriter.mkEdns (size mod 65536) (((upper mod 256 * 16 + Server.w_rcode w mod 16) / 16) mod 256)))).
    { intros b' lim' av' Hb'.
      assert (Hraw : (upper mod 256 * 16 + Server.w_rcode w mod 16 <= 4095)%N).
      { pose proof (N.mod_lt upper 256 ltac:(discriminate)). pose proof (N.mod_lt (Server.w_rcode w) 16 ltac:(discriminate)). lia. }
      destruct (xrcode_he b' wcur lim' av' qd pr (MsgWriter.mkEdns (size mod 65536) 0) _ Hraw Hb') as (b'' & E & _).
      exists b''. exact E. }
    destruct tcp.
    + destruct (Hx b7 lim (lim - 11)) as (b8 & ->); [lia|]. eexists. split; [reflexivity|].
      cbn [he_state MsgWriter.w_cursor MsgWriter.w_tsig w_ar MsgWriter.w_avail MsgWriter.w_limit]. repeat split; try reflexivity; lia.
    + assert (Hl : lim <= Server.w_limit w) by (apply Hlim; [discriminate|reflexivity]).
      unfold MsgWriter.set_limit. cbn [he_state MsgWriter.w_limit w_buf MsgWriter.w_avail MsgWriter.w_cursor].
      destruct (lim <=? Server.w_limit w) eqn:X1; [|apply Nat.leb_gt in X1; lia].
      destruct (Nat.min (Server.w_limit w) (length b7) <? lim) eqn:X2; [apply Nat.ltb_lt in X2; lia|].
      change (set_limit_avail (he_state b7 wcur lim (lim - 11) qd pr (MsgWriter.mkEdns (size mod 65536) 0))
                (Nat.min (Server.w_limit w) (length b7)) (lim - 11 + (Nat.min (Server.w_limit w) (length b7) - lim)))
        with (he_state b7 wcur (Nat.min (Server.w_limit w) (length b7)) (lim - 11 + (Nat.min (Server.w_limit w) (length b7) - lim)) qd pr (MsgWriter.mkEdns (size mod 65536) 0)).
      destruct (Hx b7 (Nat.min (Server.w_limit w) (length b7)) (lim - 11 + (Nat.min (Server.w_limit w) (length b7) - lim))) as (b8 & ->); [lia|].
      eexists. split; [reflexivity|].
      cbn [he_state MsgWriter.w_cursor MsgWriter.w_tsig w_ar MsgWriter.w_avail MsgWriter.w_limit].
      assert (length b7 = length buf) by lia. repeat split; try reflexivity; lia.
  - destruct (set_rcode_hq b7 wcur lim qd pr (Server.w_rcode w mod 16)) as (b8 & -> & _); [lia|]. eexists. split; [reflexivity|].
    cbn [hq_state MsgWriter.w_cursor MsgWriter.w_tsig w_ar MsgWriter.w_avail MsgWriter.w_limit]. repeat split; try reflexivity; lia.
Qed.

End SerT.
