(* The physical layout of what the writer has put into the buffer (ghost): name chunks with their
   shape, RDATA parts, records, questions; stability of the layout under writes outside the
   readable region. *)
From QV Require Import Base.ListX Model.MsgWriter Spec.NameWireS Proofs.NameWireP Proofs.MsgWriterP
     Proofs.MsgWriterScanP Proofs.MsgWriterNameP Proofs.MsgWriterClosP Proofs.MsgWriterNameSP.

Local Open Scope nat_scope.

Record nchunk := mkNC { nc_pos : nat; nc_end : nat; nc_name : wname; nc_cp : bool; nc_sh : shape }.

Definition chunk_ok (b : bytes) (L : nat -> Prop) (ch : nchunk) : Prop :=
  nc_pos ch < nc_end ch /\ shape_at (nc_cp ch) (nc_name ch) b L (nc_pos ch) (nc_end ch) (nc_sh ch).

Definition chunk_starts (ch : nchunk) : list nat := own_starts (nc_pos ch) (nc_name ch) (nc_sh ch).

Inductive lpart := LPName (ch : nchunk) (comp : bool) | LPRaw (pos : nat) (data : bytes).

Fixpoint parts_at (b : bytes) (L : nat -> Prop) (ps : list lpart) (pos e : nat) : Prop :=
  match ps with
  | [] => pos = e
  | LPRaw p data :: r => p = pos /\ True /\ slice b pos (pos + length data) = data /\
                         pos + length data <= e /\ parts_at b L r (pos + length data) e
  | LPName ch comp :: r => nc_pos ch = pos /\ chunk_ok b L ch /\ (comp = false -> nc_sh ch = None) /\
                           nc_end ch <= e /\ parts_at b L r (nc_end ch) e
  end.

Fixpoint parts_starts (ps : list lpart) : list nat :=
  match ps with
  | [] => []
  | LPRaw _ _ :: r => parts_starts r
  | LPName ch _ :: r => chunk_starts ch ++ parts_starts r
  end.

Record lrr := mkLR { lr_owner : nchunk; lr_ty : N; lr_cl : N; lr_ttl : N; lr_parts : list lpart; lr_end : nat }.

Definition rr_fixed (r : lrr) : bytes :=
  be16 (lr_ty r) ++ be16 (lr_cl r) ++ be32 (lr_ttl r) ++
  be16 (N.of_nat (lr_end r - (nc_end (lr_owner r) + 10)) mod 65536).

Definition rr_at (b : bytes) (L : nat -> Prop) (r : lrr) : Prop :=
  chunk_ok b L (lr_owner r) /\
  slice b (nc_end (lr_owner r)) (nc_end (lr_owner r) + 10) = rr_fixed r /\
  nc_end (lr_owner r) + 10 <= lr_end r /\
  parts_at b L (lr_parts r) (nc_end (lr_owner r) + 10) (lr_end r).

Definition rr_starts (r : lrr) : list nat := chunk_starts (lr_owner r) ++ parts_starts (lr_parts r).

Fixpoint rrs_at (b : bytes) (L : nat -> Prop) (rs : list lrr) (pos e : nat) : Prop :=
  match rs with
  | [] => pos = e
  | r :: rest => nc_pos (lr_owner r) = pos /\ rr_at b L r /\ lr_end r <= e /\ rrs_at b L rest (lr_end r) e
  end.

Definition rrs_starts (rs : list lrr) : list nat := flat_map rr_starts rs.

Record lq := mkLQ { lq_name : nchunk; lq_ty : N; lq_cl : N }.

Definition q_at (b : bytes) (L : nat -> Prop) (q : lq) : Prop :=
  chunk_ok b L (lq_name q) /\
  slice b (nc_end (lq_name q)) (nc_end (lq_name q) + 4) = be16 (lq_ty q) ++ be16 (lq_cl q).

Fixpoint qs_at (b : bytes) (L : nat -> Prop) (qs : list lq) (pos e : nat) : Prop :=
  match qs with
  | [] => pos = e
  | q :: rest => nc_pos (lq_name q) = pos /\ q_at b L q /\ nc_end (lq_name q) + 4 <= e /\
                 qs_at b L rest (nc_end (lq_name q) + 4) e
  end.

Definition qs_starts (qs : list lq) : list nat := flat_map (fun q => chunk_starts (lq_name q)) qs.

Lemma parts_le b L : forall ps pos e, parts_at b L ps pos e -> pos <= e.
Proof.
  induction ps as [|[ch comp|p data] r IH]; intros pos e; simpl.
  - lia.
  - intros [H1 [[H2 _] [_ [H4 H5]]]]. lia.
  - intros [H1 [H2 [H3 [H4 H5]]]]. lia.
Qed.

Lemma rrs_le b L : forall rs pos e, rrs_at b L rs pos e -> pos <= e.
Proof.
  induction rs as [|r rest IH]; intros pos e; simpl; [lia|].
  intros [H1 [[[H2 _] [_ [H3 _]]] [H4 H5]]]. apply IH in H5. lia.
Qed.

Lemma qs_le b L : forall qs pos e, qs_at b L qs pos e -> pos <= e.
Proof.
  induction qs as [|q rest IH]; intros pos e; simpl; [lia|].
  intros [H1 [[[H2 _] _] [H4 H5]]]. apply IH in H5. lia.
Qed.

(* A layout read in b is a layout in b' as soon as b' holds the same octets on the regions [ok] allows and the
   names decoded from members of L decode in b' as well.  Instances below: a larger L (b' = b); writes outside
   the readable region of a closed L; appends above the layout. *)
Section Into.
Variables (b b' : bytes) (L L' : nat -> Prop) (ok : nat -> nat -> Prop).
Hypothesis HL : forall s, L s -> L' s.
Hypothesis Hsub : forall a e a' e', ok a e -> a <= a' -> e' <= e -> ok a' e'.
Hypothesis Hsl : forall a e, ok a e -> slice b' a e = slice b a e.
Hypothesis Hnm : forall cp n pos e pp, ok pos e -> pos <= e -> L pp ->
  named cp n b pos pp -> named cp n b' pos pp.

Lemma shape_into cp n pos e sh : ok pos e -> pos <= e ->
  shape_at cp n b L pos e sh -> shape_at cp n b' L' pos e sh.
Proof using HL Hsl Hnm.
  intros O Hpe. destruct sh as [[k pp]|]; simpl; rewrite (Hsl _ _ O); auto.
  intros (H1 & H2 & H3 & H4 & H5 & H6 & H7). eauto 10.
Qed.

Lemma chunk_into ch : ok (nc_pos ch) (nc_end ch) -> chunk_ok b L ch -> chunk_ok b' L' ch.
Proof using HL Hsl Hnm. intros O [H1 H2]. split; auto. apply shape_into; auto. lia. Qed.

Lemma parts_into : forall ps pos e, ok pos e -> parts_at b L ps pos e -> parts_at b' L' ps pos e.
Proof using HL Hsub Hsl Hnm.
  induction ps as [|[ch comp|p data] r IH]; intros pos e O; simpl; auto.
  - intros (H1 & H2 & H3 & H4 & H5). pose proof (proj1 H2). pose proof (parts_le _ _ _ _ _ H5).
    split; auto. split; [apply chunk_into; auto; eapply Hsub; eauto; lia|].
    do 2 (split; auto). apply IH; auto. eapply Hsub; eauto; lia.
  - intros (H1 & H2 & H3 & H4 & H5). pose proof (parts_le _ _ _ _ _ H5).
    rewrite Hsl by (eapply Hsub; eauto; lia).
    do 4 (split; auto). apply IH; auto. eapply Hsub; eauto; lia.
Qed.

Lemma rr_into r : ok (nc_pos (lr_owner r)) (lr_end r) -> rr_at b L r -> rr_at b' L' r.
Proof using HL Hsub Hsl Hnm.
  intros O (H1 & H2 & H3 & H4). pose proof (proj1 H1).
  split; [apply chunk_into; auto; eapply Hsub; eauto; lia|].
  split; [rewrite Hsl; auto; eapply Hsub; eauto; lia|].
  split; auto. apply parts_into; auto. eapply Hsub; eauto; lia.
Qed.

Lemma rrs_into : forall rs pos e, ok pos e -> rrs_at b L rs pos e -> rrs_at b' L' rs pos e.
Proof using HL Hsub Hsl Hnm.
  induction rs as [|r rest IH]; intros pos e O; simpl; auto.
  intros (H1 & H2 & H3 & H4). pose proof (rrs_le _ _ _ _ _ H4). pose proof H2 as ((K1 & _) & _ & K3 & _).
  split; auto. split; [apply rr_into; auto; eapply Hsub; eauto; lia|].
  split; auto. apply IH; auto. eapply Hsub; eauto; lia.
Qed.

Lemma qs_into : forall qs pos e, ok pos e -> qs_at b L qs pos e -> qs_at b' L' qs pos e.
Proof using HL Hsub Hsl Hnm.
  induction qs as [|q rest IH]; intros pos e O; simpl; auto.
  intros (H1 & (H2 & H2') & H3 & H4). pose proof (qs_le _ _ _ _ _ H4). pose proof (proj1 H2).
  split; auto. split; [split; [apply chunk_into; auto|rewrite Hsl; auto]; eapply Hsub; eauto; lia|].
  split; auto. apply IH; auto. eapply Hsub; eauto; lia.
Qed.
End Into.

Lemma shape_mono cp n b (L L' : nat -> Prop) pos e sh : (forall s, L s -> L' s) ->
  shape_at cp n b L pos e sh -> shape_at cp n b L' pos e sh.
Proof.
  intros HL. destruct sh as [[k pp]|]; simpl; auto. intros [H1 [H2 [H3 H4]]]. auto.
Qed.

Section Mono.
Variables (b : bytes) (L L' : nat -> Prop).
Hypothesis HL : forall s, L s -> L' s.
Lemma chunk_mono ch : chunk_ok b L ch -> chunk_ok b L' ch.
Proof using HL. apply (chunk_into b b L L' (fun _ _ => True)); cbv beta; auto. Qed.
Lemma rr_mono r : rr_at b L r -> rr_at b L' r.
Proof using HL. apply (rr_into b b L L' (fun _ _ => True)); cbv beta; auto. Qed.
Lemma rrs_mono : forall rs pos e, rrs_at b L rs pos e -> rrs_at b L' rs pos e.
Proof using HL. intros rs pos e. apply (rrs_into b b L L' (fun _ _ => True)); cbv beta; auto. Qed.
Lemma qs_mono : forall qs pos e, qs_at b L qs pos e -> qs_at b L' qs pos e.
Proof using HL. intros qs pos e. apply (qs_into b b L L' (fun _ _ => True)); cbv beta; auto. Qed.
End Mono.

Lemma okr_sub lo c h a e a' e' : okr lo c h a e -> a <= a' -> e' <= e -> okr lo c h a' e'.
Proof. unfold okr. lia. Qed.

(* writes outside the readable region of a closed L; a completed record has no hole: every octet of it lies
   in [lo, c) *)
Section Transfer.
Variables (b : bytes) (lo c h : nat) (L : nat -> Prop) (b' : bytes).
Hypothesis Hc : closed b lo c h L.
Hypothesis R : ragree lo c h b b'.
Let ok (a e : nat) := okr lo c h a e /\ e <= length b.

Lemma ok_sub a e a' e' : ok a e -> a <= a' -> e' <= e -> ok a' e'.
Proof. intros [O He]. split; [eapply okr_sub; eauto|lia]. Qed.

Lemma ok_slice a e : ok a e -> slice b' a e = slice b a e.
Proof using R.
  intros [O He]. destruct (Nat.le_gt_cases a e); [eapply ragree_slice; eauto|].
  unfold slice. replace (e - a) with 0 by lia. reflexivity.
Qed.

Lemma ok_named cp n pos (e : nat) pp : ok pos e -> pos <= e -> L pp -> named cp n b pos pp -> named cp n b' pos pp.
Proof using Hc R.
  intros _ _ Hp [m [H1 H2]]. exists m. split; auto. eapply name_at_transfer; eauto. left; auto.
Qed.

Lemma chunk_transfer ch : okr lo c h (nc_pos ch) (nc_end ch) -> nc_end ch <= length b ->
  chunk_ok b L ch -> chunk_ok b' L ch.
Proof using Hc R. intros O He. apply (chunk_into b b' L L ok (fun _ H => H) ok_slice ok_named). split; auto. Qed.

Lemma parts_transfer : forall ps pos e, okr lo c h pos e -> e <= length b ->
  parts_at b L ps pos e -> parts_at b' L ps pos e.
Proof using Hc R.
  intros ps pos e O He. apply (parts_into b b' L L ok (fun _ H => H) ok_sub ok_slice ok_named). split; auto.
Qed.

Lemma rrs_transfer : forall rs pos e, okr lo c h pos e -> e <= length b ->
  rrs_at b L rs pos e -> rrs_at b' L rs pos e.
Proof using Hc R.
  intros rs pos e O He. apply (rrs_into b b' L L ok (fun _ H => H) ok_sub ok_slice ok_named). split; auto.
Qed.

Lemma qs_transfer : forall qs pos e, okr lo c h pos e -> e <= length b ->
  qs_at b L qs pos e -> qs_at b' L qs pos e.
Proof using Hc R.
  intros qs pos e O He. apply (qs_into b b' L L ok (fun _ H => H) ok_sub ok_slice ok_named). split; auto.
Qed.
End Transfer.

Section Append.
Variables (b : bytes) (c : nat) (L : nat -> Prop) (b' : bytes).
Hypothesis Ag : agree c b b'.
Let ok (_ e : nat) := e <= c.

Lemma below_sub a e a' e' : ok a e -> a <= a' -> e' <= e -> ok a' e'.
Proof. unfold ok. lia. Qed.

Lemma below_named cp n pos e pp : ok pos e -> pos <= e -> L pp -> named cp n b pos pp -> named cp n b' pos pp.
Proof using Ag.
  intros O Hpe _ [m [H1 H2]]. exists m. split; auto.
  eapply name_at_stable; [exact H1|eapply agree_le; [exact Ag|unfold ok in O; lia]|lia].
Qed.

Lemma below_slice a e : ok a e -> slice b' a e = slice b a e.
Proof using Ag. apply agree_slice, Ag. Qed.

Lemma chunk_append ch : nc_end ch <= c -> chunk_ok b L ch -> chunk_ok b' L ch.
Proof using Ag. apply (chunk_into b b' L L ok (fun _ H => H) below_slice below_named). Qed.

Lemma rr_append r : lr_end r <= c -> rr_at b L r -> rr_at b' L r.
Proof using Ag.
  apply (rr_into b b' L L ok (fun _ H => H) below_sub below_slice below_named).
Qed.

Lemma rrs_append : forall rs pos e, e <= c -> rrs_at b L rs pos e -> rrs_at b' L rs pos e.
Proof using Ag.
  intros rs pos e. apply (rrs_into b b' L L ok (fun _ H => H) below_sub below_slice below_named).
Qed.

Lemma qs_append : forall qs pos e, e <= c -> qs_at b L qs pos e -> qs_at b' L qs pos e.
Proof using Ag.
  intros qs pos e. apply (qs_into b b' L L ok (fun _ H => H) below_sub below_slice below_named).
Qed.
End Append.

Lemma own_starts_bound cp n b L pos e sh s : shape_at cp n b L pos e sh -> e <= length b -> pos <= e ->
  In s (own_starts pos n sh) -> pos <= s /\ s < e.
Proof.
  intros Hsh He Hpe. assert (Hl : length (slice b pos e) = e - pos) by (apply slice_length; lia).
  destruct sh as [[k pp]|]; simpl in *.
  - destruct Hsh as [_ [Hs _]]. rewrite Hs, app_length in Hl. simpl in Hl.
    intros Hin. apply lstarts_bound in Hin. lia.
  - rewrite Hsh, nm_wire_length in Hl. rewrite in_app_iff. simpl.
    intros [Hin|[<-|[]]]; [apply lstarts_bound in Hin|]; lia.
Qed.

Inductive apart := APName (n : wname) (comp : bool) | APRaw (data : bytes).
Definition part_abs (p : lpart) : apart :=
  match p with LPName ch comp => APName (nc_name ch) comp | LPRaw _ d => APRaw d end.

Definition is_comp (ct : ctype) : bool := match ct with CtCompressible => true | _ => false end.

Fixpoint rd_parts (cts : list ctype) (rd : bytes) : list apart :=
  match cts with
  | [] => if length rd =? 0 then [] else [APRaw rd]
  | CtFixed k :: r => if length rd <? k then [] else APRaw (firstn k rd) :: rd_parts r (skipn k rd)
  | ct :: r => match parse_uncompressed_name rd false with
               | Ok (nm, len) => APName (labels_of_name nm) (is_comp ct) :: rd_parts r (skipn len rd)
               | _ => []
               end
  end.

Definition part_cp (cp : bool) (p : lpart) : Prop :=
  match p with LPName ch _ => nc_cp ch = cp | LPRaw _ _ => True end.

Lemma agree_slice' c b b' a e : agree c b b' -> e <= c -> slice b' a e = slice b a e.
Proof. apply agree_slice. Qed.

Lemma rrs_at_app b L : forall rs1 rs2 pos m e, rrs_at b L rs1 pos m -> rrs_at b L rs2 m e ->
  rrs_at b L (rs1 ++ rs2) pos e.
Proof.
  induction rs1 as [|r rest IH]; intros rs2 pos m e H1 H2; simpl in *.
  - subst. exact H2.
  - destruct H1 as [K1 [K2 [K3 K4]]]. split; auto. split; auto.
    pose proof (rrs_le _ _ _ _ _ H2). split; [lia|]. eapply IH; eauto.
Qed.

Lemma rrs_starts_app rs1 rs2 : rrs_starts (rs1 ++ rs2) = rrs_starts rs1 ++ rrs_starts rs2.
Proof. unfold rrs_starts. apply flat_map_app. Qed.

Lemma chunk_starts_bound b L ch s : chunk_ok b L ch -> nc_end ch <= length b ->
  In s (chunk_starts ch) -> nc_pos ch <= s /\ s < nc_end ch.
Proof. intros [H1 H2] He. eapply own_starts_bound; eauto. lia. Qed.

Lemma parts_starts_bound b L : forall ps pos e s, parts_at b L ps pos e -> e <= length b ->
  In s (parts_starts ps) -> pos <= s /\ s < e.
Proof.
  induction ps as [|[ch comp|p data] r IH]; intros pos e s; simpl; [tauto| |].
  - intros [H1 [H2 [H3 [H4 H5]]]] He. rewrite in_app_iff. intros [K|K].
    + apply (chunk_starts_bound b L ch s H2) in K; lia.
    + apply (IH _ _ _ H5 He) in K. pose proof (proj1 H2). lia.
  - intros [H1 [H2 [H3 [H4 H5]]]] He K. apply (IH _ _ _ H5 He) in K. lia.
Qed.

Lemma rr_starts_bound b L r s : rr_at b L r -> lr_end r <= length b ->
  In s (rr_starts r) -> nc_pos (lr_owner r) <= s /\ s < lr_end r.
Proof.
  intros [H1 [H2 [H3 H4]]] He. unfold rr_starts. rewrite in_app_iff. intros [K|K].
  - apply (chunk_starts_bound b L _ s H1) in K; lia.
  - apply (parts_starts_bound _ _ _ _ _ _ H4 He) in K. pose proof (proj1 H1). lia.
Qed.

Lemma rrs_starts_bound b L : forall rs pos e s, rrs_at b L rs pos e -> e <= length b ->
  In s (rrs_starts rs) -> pos <= s /\ s < e.
Proof.
  induction rs as [|r rest IH]; intros pos e s; simpl; [tauto|].
  intros [H1 [H2 [H3 H4]]] He. rewrite in_app_iff. intros [K|K].
  - apply (rr_starts_bound b L r s H2) in K; lia.
  - apply (IH _ _ _ H4 He) in K. destruct H2 as [[K1 _] [_ [K3 _]]]. lia.
Qed.

Lemma qs_starts_bound b L : forall qs pos e s, qs_at b L qs pos e -> e <= length b ->
  In s (qs_starts qs) -> pos <= s /\ s < e.
Proof.
  induction qs as [|q rest IH]; intros pos e s; simpl; [tauto|].
  intros [H1 [[H2 H2'] [H3 H4]]] He. rewrite in_app_iff. intros [K|K].
  - apply (chunk_starts_bound b L _ s H2) in K; lia.
  - apply (IH _ _ _ H4 He) in K. pose proof (proj1 H2). lia.
Qed.

(* the questions only point into the questions *)
Lemma qs_restrict b (L : nat -> Prop) rs : forall qs pos e, qs_at b L qs pos e -> e <= rs ->
  qs_at b (fun s => L s /\ s < rs) qs pos e.
Proof.
  induction qs as [|q rest IH]; intros pos e; simpl; auto.
  intros [H1 [[[H2 H2s] H2'] [H3 H4]]] He. pose proof (qs_le _ _ _ _ _ H4).
  split; auto. split; [split; auto; split; auto|auto].
  destruct (nc_sh (lq_name q)) as [[k pp]|]; simpl in *; auto.
  destruct H2s as [K1 [K2 [K3 [K4 K5]]]]. repeat split; auto; try apply K5. lia.
Qed.

Lemma qs_at_app b L : forall qs1 qs2 pos m e, qs_at b L qs1 pos m -> qs_at b L qs2 m e ->
  qs_at b L (qs1 ++ qs2) pos e.
Proof.
  induction qs1 as [|q rest IH]; intros qs2 pos m e H1 H2; simpl in *.
  - subst. exact H2.
  - destruct H1 as [K1 [K2 [K3 K4]]]. split; auto. split; auto.
    pose proof (qs_le _ _ _ _ _ H2). split; [lia|]. eapply IH; eauto.
Qed.

Lemma qs_starts_app q1 q2 : qs_starts (q1 ++ q2) = qs_starts q1 ++ qs_starts q2.
Proof. unfold qs_starts. apply flat_map_app. Qed.

(* the parts follow the component types: one part per component, then the rest as raw octets *)
Fixpoint parts_shape (cts : list ctype) (ps : list lpart) : Prop :=
  match cts with
  | [] => match ps with [] => True | [LPRaw _ d] => d <> [] | _ => False end
  | CtFixed k :: r => match ps with LPRaw _ d :: ps' => length d = k /\ parts_shape r ps' | _ => False end
  | ct :: r => match ps with LPName _ comp :: ps' => comp = is_comp ct /\ parts_shape r ps' | _ => False end
  end.

(* items written with compression disabled: every chunk is the plain wire form *)
Definition part_plain (p : lpart) : Prop := match p with LPName ch _ => nc_sh ch = None | LPRaw _ _ => True end.
Definition rr_plain (r : lrr) : Prop := nc_sh (lr_owner r) = None /\ Forall part_plain (lr_parts r).
