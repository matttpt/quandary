(* Name facts used by the RDATA proofs: the generative description of an
   uncompressed name (wire_of ls with valid labels) against the C14 decoding
   relation, and what the model's name entry points (uname, vname, pname over the parsers
   of Model/NameWire.v) return in terms of the executable spec decoder. *)
From QV Require Import Base.ListX Model.NameWire Spec.NameWireS Spec.NameRepr
  Proofs.NameWireP Proofs.NameWireSP Model.RdataM Spec.RdataFormatS.
Local Open Scope nat_scope.

Lemma decodes_labels_valid b cs i ls e : decodes b cs i ls e -> Forall valid_label ls.
Proof.
  induction 1 as [cs i H | cs i len rest e H Hp Hl Hb Hd IH | cs i hi lo rest e' H Hh Hlo Ht Hd IH]; auto.
  constructor; auto. unfold valid_label. rewrite slice_length by lia. lia.
Qed.

(* the encoding of a valid name decodes to that name, wherever it sits; [cs], the start of the
   label sequence that bounds pointer targets, is arbitrary: no pointer is followed *)
Lemma decodes_of_wire ls : Forall valid_label ls -> forall pre post cs,
  decodes (pre ++ wire_of ls ++ post) cs (length pre) ls (length pre + wire_len ls).
Proof.
  induction ls as [|l ls IH]; intros Hv pre post cs.
  - change (wire_of []) with [0%N]. unfold wire_len. simpl length.
    apply dec_root. simpl. apply nth_error_mid.
  - inversion Hv as [|? ? [Hl1 Hl2] Hv']; subst.
    rewrite wire_len_cons, wire_of_cons.
    set (b := pre ++ (N.of_nat (length l) :: l ++ wire_of ls) ++ post).
    assert (Hb : b = (pre ++ N.of_nat (length l) :: l) ++ wire_of ls ++ post).
    { unfold b. rewrite <- !app_assoc. simpl. rewrite <- app_assoc. reflexivity. }
    assert (Hsl : slice b (length pre + 1) (length pre + 1 + N.to_nat (N.of_nat (length l))) = l).
    { rewrite Nat2N.id. unfold b.
      replace (pre ++ (N.of_nat (length l) :: l ++ wire_of ls) ++ post)
        with ((pre ++ [N.of_nat (length l)]) ++ l ++ (wire_of ls ++ post))
        by (rewrite <- !app_assoc; simpl; rewrite <- app_assoc; reflexivity).
      apply slice_app_mid; rewrite app_length; simpl; lia. }
    rewrite <- Hsl at 1.
    apply dec_label.
    + unfold b. simpl. apply nth_error_mid.
    + lia.
    + lia.
    + rewrite Nat2N.id. unfold b. rewrite !app_length. simpl. rewrite app_length. lia.
    + rewrite Nat2N.id. rewrite Hb.
      specialize (IH Hv' (pre ++ N.of_nat (length l) :: l) post cs).
      rewrite app_length in IH. simpl length in IH.
      replace (length pre + 1 + length l) with (length pre + S (length l)) by lia.
      replace (length pre + (1 + length l + wire_len ls)) with (length pre + S (length l) + wire_len ls) by lia.
      exact IH.
Qed.

Lemma wire_of_nonnil ls : wire_of ls <> [].
Proof. unfold wire_of. destruct (lwire ls); discriminate. Qed.

Lemma wire_of_inj : forall a b, wire_of a = wire_of b -> a = b.
Proof.
  induction a as [|l a IH]; intros [|l' b] H.
  - reflexivity.
  - exfalso. rewrite wire_of_cons in H. change (wire_of []) with [0%N] in H.
    inversion H as [[H0 H1]]. destruct l'; [|discriminate]. simpl in H1.
    symmetry in H1. exact (wire_of_nonnil b H1).
  - exfalso. rewrite wire_of_cons in H. change (wire_of []) with [0%N] in H.
    inversion H as [[H0 H1]]. destruct l; [|discriminate]. simpl in H1. exact (wire_of_nonnil a H1).
  - rewrite !wire_of_cons in H. inversion H as [[H0 H1]]. apply Nat2N.inj in H0.
    assert (E : l = l').
    { rewrite <- (firstn_app_exact l (wire_of a) (length l) eq_refl).
      rewrite <- (firstn_app_exact l' (wire_of b) (length l) H0). rewrite H1. reflexivity. }
    subst l'. apply app_inv_head in H1. f_equal. apply IH. exact H1.
Qed.

Lemma wf_label_octet (l : label) : length l <= 63 -> is_octet (N.of_nat (length l)).
Proof. unfold is_octet. lia. Qed.

Lemma wf_wire_of ls : Forall valid_label ls -> Forall wf_bytes ls -> wf_bytes (wire_of ls).
Proof.
  induction ls as [|l ls IH]; intros Hv Hw.
  - repeat constructor.
  - inversion Hv as [|? ? [H1 H2] Hv']; inversion Hw; subst. rewrite wire_of_cons.
    constructor; [apply wf_label_octet; lia|]. apply Forall_app. split; [assumption|apply IH; assumption].
Qed.

Lemma decodes_labels_wf b cs i ls e : wf_bytes b -> decodes b cs i ls e -> Forall wf_bytes ls.
Proof.
  intros Hwf. induction 1; auto. constructor; auto. apply Forall_slice. exact Hwf.
Qed.

Lemma decodes_unc_gen b ls l :
  decodes_uncompressed b ls l <->
  valid_name ls /\ l = wire_len ls /\ b = wire_of ls ++ skipn l b.
Proof.
  unfold decodes_uncompressed, valid_name. split.
  - intros [D Hw]. destruct (decodes_nc_end _ _ _ _ _ D eq_refl) as [Hl Hs]. simpl in Hl.
    split; [split; [eapply decodes_labels_valid; eauto|exact Hw]|]. split; [exact Hl|].
    rewrite slice_0 in Hs. rewrite <- Hs. symmetry. apply firstn_skipn.
  - intros ((Hv & Hw) & -> & Hb). split; [|exact Hw].
    rewrite Hb. apply (decodes_of_wire ls Hv [] (skipn (wire_len ls) b) 0).
Qed.

Lemma decodes_name0_unc b ls l : decodes_name b 0 ls l <-> decodes_uncompressed b ls l.
Proof.
  unfold decodes_name, decodes_uncompressed. split.
  - intros (e & D & -> & Hw). rewrite Nat.sub_0_r. auto.
  - intros [D Hw]. exists l. rewrite Nat.sub_0_r. auto.
Qed.

Lemma sname_Some r l : sname r = Some l <-> exists ls, decodes_uncompressed r ls l.
Proof.
  unfold sname. split.
  - destruct (spec_decode_name r 0) as [[ls l']|] eqn:E; [|discriminate].
    intros H; inversion H; subst. exists ls. apply decodes_name0_unc, spec_decode_name_iff. exact E.
  - intros [ls D]. apply decodes_name0_unc, spec_decode_name_iff in D. rewrite D. reflexivity.
Qed.

Lemma decode_bounds b s ls l : spec_decode_name b s = Some (ls, l) ->
  1 <= l /\ s + l <= length b /\ wire_len ls <= 255.
Proof.
  intros H. apply spec_decode_name_iff in H. destruct H as (e & D & -> & Hw).
  apply decodes_end_le in D. lia.
Qed.

Lemma decode0_facts a ls n : spec_decode_name a 0 = Some (ls, n) ->
  valid_name ls /\ n = wire_len ls /\ a = wire_of ls ++ skipn n a /\ 1 <= n /\ n <= length a.
Proof.
  intros H. destruct (decode_bounds a 0 ls n H) as (H1 & H2 & _).
  apply spec_decode_name_iff, decodes_name0_unc, decodes_unc_gen in H.
  destruct H as (Hv & Hn & Ha). auto.
Qed.

Lemma decode0_of_wire ls rest : valid_name ls ->
  spec_decode_name (wire_of ls ++ rest) 0 = Some (ls, wire_len ls).
Proof.
  intros [Hv Hw]. apply spec_decode_name_iff. exists (wire_len ls). split; [|split; [lia|exact Hw]].
  exact (decodes_of_wire ls Hv [] rest 0).
Qed.

(* a total parser that succeeds exactly on what the spec decoder decodes returns what it returns *)
Lemma parse_vs_spec (f : res name_err (name * nat)) (s : option (list label * nat)) :
  f <> Panic -> f <> Err OutOfFuel ->
  (forall nm l, f = Ok (nm, l) <-> exists ls, s = Some (ls, l) /\ nm = name_of ls) ->
  match f with
  | Ok (nm, l) => exists ls, s = Some (ls, l) /\ nm = name_of ls
  | Err e => s = None /\ e <> OutOfFuel
  | Panic => False
  end.
Proof.
  intros Hp Hf H. destruct f as [[nm l]|e|]; [apply H; reflexivity| |congruence].
  split; [|congruence]. destruct s as [[ls l]|]; [|reflexivity].
  discriminate (proj2 (H (name_of ls) l) (ex_intro _ ls (conj eq_refl eq_refl))).
Qed.

(* parse_uncompressed_name, validate_uncompressed_name, vname and uname need no hypothesis on the
   octets (NameWireP.parse_uncompressed_iff_any); the compressed parser does *)
Lemma parse_unc_spec r :
  match parse_uncompressed_name r false with
  | Ok (nm, n) => exists ls, spec_decode_name r 0 = Some (ls, n) /\ nm = name_of ls
  | Err e => spec_decode_name r 0 = None /\ e <> OutOfFuel
  | Panic => False
  end.
Proof.
  apply parse_vs_spec; try apply parse_uncompressed_total.
  intros nm l. rewrite parse_uncompressed_iff_any.
  split; intros (ls & D & E); exists ls.
  - split; [apply spec_decode_name_iff, decodes_name0_unc, D|apply E].
  - apply spec_decode_name_iff, decodes_name0_unc in D. split; [exact D|]. split; [exact E|discriminate].
Qed.

Lemma uname_spec r :
  match uname r with
  | Ok (nm, len) => exists ls, spec_decode_name r 0 = Some (ls, len) /\ nm = name_of ls
  | Err e => spec_decode_name r 0 = None /\ e <> ROutOfFuel /\ e <> InvalidName OutOfFuel
  | Panic => False
  end.
Proof.
  unfold uname. pose proof (parse_unc_spec r) as H.
  destruct (parse_uncompressed_name r false) as [[nm n]|e|]; cbn [map_err]; [exact H| |exact H].
  destruct H as [H1 H2]. repeat split; congruence.
Qed.

Lemma pname_spec buf s : wf_bytes buf ->
  match pname buf s with
  | Ok (nm, l) => exists ls, spec_decode_name buf s = Some (ls, l) /\ nm = name_of ls
  | Err e => spec_decode_name buf s = None /\ e <> ROutOfFuel /\ e <> InvalidName OutOfFuel
  | Panic => False
  end.
Proof.
  intros Hwf. unfold pname.
  assert (H : match parse_compressed_name buf s with
              | Ok (nm, l) => exists ls, spec_decode_name buf s = Some (ls, l) /\ nm = name_of ls
              | Err e => spec_decode_name buf s = None /\ e <> OutOfFuel
              | Panic => False
              end).
  { apply parse_vs_spec; try apply parse_compressed_total.
    intros nm l. rewrite (parse_compressed_iff buf s nm l Hwf).
    split; intros (ls & D & E); exists ls; (split; [apply spec_decode_name_iff, D|exact E]). }
  destruct (parse_compressed_name buf s) as [[nm l]|e|]; cbn [map_err]; [exact H| |exact H].
  destruct H as [H1 H2]. repeat split; congruence.
Qed.

Lemma vun_spec r :
  match validate_uncompressed_name r false with
  | Ok n => sname r = Some n /\ 1 <= n /\ n <= length r
  | Err e => sname r = None /\ e <> OutOfFuel
  | Panic => False
  end.
Proof.
  rewrite validate_agrees. pose proof (parse_unc_spec r) as H. unfold sname.
  destruct (parse_uncompressed_name r false) as [[nm n]|e|]; cbn [map_ok snd]; [| |exact H].
  - destruct H as (ls & D & _). rewrite D. apply decode0_facts in D. intuition.
  - destruct H as [-> H]. auto.
Qed.

Lemma vun_all r :
  validate_uncompressed_name r true =
  match validate_uncompressed_name r false with
  | Ok n => if n <? length r then Err ExtraData else Ok n
  | x => x
  end.
Proof.
  unfold validate_uncompressed_name.
  destruct (val_loop unc_fuel r 0) as [n|e|]; cbn [bind andb]; reflexivity.
Qed.

Lemma vname_spec r :
  match vname r false with
  | Ok n => sname r = Some n /\ 1 <= n /\ n <= length r
  | Err e => sname r = None /\ e <> ROutOfFuel /\ e <> InvalidName OutOfFuel
  | Panic => False
  end.
Proof.
  unfold vname. pose proof (vun_spec r) as H.
  destruct (validate_uncompressed_name r false) as [n|e|]; cbn [map_err]; auto.
  destruct H as [H1 H2]. repeat split; auto; congruence.
Qed.

Lemma vname_all r :
  match vname r true with
  | Ok n => sname r = Some n /\ n = length r /\ 1 <= n
  | Err e => (sname r = None \/ exists n, sname r = Some n /\ n < length r) /\
             e <> ROutOfFuel /\ e <> InvalidName OutOfFuel
  | Panic => False
  end.
Proof.
  unfold vname. rewrite vun_all. pose proof (vun_spec r) as H.
  destruct (validate_uncompressed_name r false) as [n|e|]; cbn [map_err]; auto.
  - destruct H as (H1 & H2 & H3). destruct (Nat.ltb_spec n (length r)); cbn [map_err].
    + split; [right; eauto|]. split; congruence.
    + repeat split; auto; lia.
  - destruct H as [H1 H2]. split; [left; auto|]. split; congruence.
Qed.

Lemma decodes_name_valid b s ls l : decodes_name b s ls l -> valid_name ls.
Proof. intros (e & D & _ & Hw). split; [eapply decodes_labels_valid; eauto|exact Hw]. Qed.

Lemma decodes_name_wf b s ls l : wf_bytes b -> decodes_name b s ls l -> wf_bytes (wire_of ls).
Proof.
  intros Hwf (e & D & _ & Hw). apply wf_wire_of.
  - eapply decodes_labels_valid; eauto.
  - eapply decodes_labels_wf; eauto.
Qed.

Lemma not_fuel {A} (x : res rd_err A) :
  match x with
  | Ok _ => True
  | Err e => e <> ROutOfFuel /\ e <> InvalidName OutOfFuel
  | Panic => False
  end ->
  x <> Panic /\ x <> Err ROutOfFuel /\ x <> Err (InvalidName OutOfFuel).
Proof. destruct x; [intros _|intros [H1 H2]|intros []]; repeat split; congruence. Qed.

