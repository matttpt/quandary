(* Components written into a message read back as the RDATA (C18), or, when names are written
   as encodings that decode to the same labels MODULO ASCII CASE (what a case-insensitive
   compressing writer produces when it points at an earlier name spelled in another case), as
   an RDATA that Rdata::equals the original (C18 meets C19). *)
From QV Require Import Base.ListX Model.NameWire Spec.NameWireS Spec.NameRepr Proofs.NameWireP
  Proofs.NameWireSP Model.RdataM Spec.RdataFormatS Spec.RdataCompS Spec.RdataEqS Proofs.RdNameP
  Proofs.RdataFormatSP Proofs.RdataVP Proofs.RdataRP Proofs.RdataWP Proofs.RdNameEqP Proofs.RdataEqSP
  Proofs.RdataEqP Proofs.RdataEqFullP Proofs.RdataCompP Proofs.RdataCompRP.
Local Open Scope nat_scope.

Inductive laid_out_ci (msg : bytes) (e : nat) : nat -> list component -> Prop :=
| loc_nil : laid_out_ci msg e e []
| loc_name pos cb nm ls0 ls l rest :
    n_wire nm = wire_of ls0 -> labels_ci_eqb ls0 ls = true ->
    decodes_name (firstn e msg) pos ls l ->
    laid_out_ci msg e (pos + l) rest ->
    laid_out_ci msg e pos (CName cb nm :: rest)
| loc_other pos b rest :
    pos + length b <= e -> slice msg pos (pos + length b) = b ->
    laid_out_ci msg e (pos + length b) rest ->
    laid_out_ci msg e pos (COther b :: rest).

Lemma laid_out_is_ci msg e pos comps : laid_out msg e pos comps -> laid_out_ci msg e pos comps.
Proof.
  induction 1 as [|pos cb nm ls l rest Hw D LO IH|pos b rest Hle Hsl LO IH].
  - constructor.
  - exact (loc_name _ _ pos cb nm ls ls l rest Hw (labels_ci_refl ls) D IH).
  - apply loc_other; auto.
Qed.

(* as lo_peel: the COther rules of laid_out and laid_out_ci coincide *)
Lemma loc_peel msg e pos x comps comps' : peel x comps comps' -> laid_out_ci msg e pos comps ->
  pos + length x <= e /\ slice msg pos (pos + length x) = x /\ laid_out_ci msg e (pos + length x) comps'.
Proof.
  intros [->|(b & tl & -> & ->)] LO; inversion LO as [| |pos' b' rest Hle Hsl LO' E1 E2]; subst; [auto|].
  destruct (slice_app_split _ _ _ _ Hsl) as [H1 H2]. rewrite app_length, Nat.add_assoc in *.
  split; [lia|]. split; [exact H1|]. apply loc_other; assumption.
Qed.

(* the octets read back: equal to the RDATA field by field, names modulo case; the RDATA
   itself when every name is laid out exactly (third clause: it is what lets components_read_back
   follow from this induction too) *)
Lemma laid_out_ci_cmatches cb msg e : forall g types r comps pos,
  simple g = true -> map ck_of types = layout_of cb g -> smatch g r = true ->
  comp_collect types r = Ok comps -> laid_out_ci msg e pos comps ->
  exists r', cmatches msg e pos g r' /\ ci_fields g r r' = true /\
             (laid_out msg e pos comps -> r' = r).
Proof.
  induction g as [|f g IH]; intros types r comps pos Sg L M C LO.
  - cbn [layout_of] in L. destruct types; [|discriminate].
    rewrite smatch_nil in M. destruct r; [|discriminate].
    rewrite comp_collect_nil in C. injection C as <-. inversion LO; subst.
    exists []. repeat split. constructor.
  - destruct (existsb is_FName (f :: g)) eqn:X.
    2: { (* no name left: nothing, or one remainder component *)
      exists r. split; [|split; [apply ci_fields_refl; exact M|reflexivity]].
      cbn [layout_of] in L. rewrite X in L. destruct types; [|discriminate].
      rewrite comp_collect_nil in C. injection C as <-.
      destruct r as [|x r']; inversion LO as [| |pos' b rest Hle Hsl LO' E1 E2]; subst.
      - apply nameless_cmatches; auto. apply slice_nil.
      - inversion LO'; subst. apply nameless_cmatches; auto. }
    pose proof (simple_tail _ _ Sg) as Sg'. destruct f; try discriminate.
    + (* a name: the message holds some encoding of it, possibly in another case *)
      cbn [layout_of] in L. rewrite X in L.
      destruct types as [|ty types']; [discriminate|]. cbn [map] in L. injection L as Hty Hrest.
      rewrite (comp_collect_name ty cb) in C by exact Hty.
      destruct (name_step_inv _ _ _ _ C) as (ls' & tl & D0 & C' & ->).
      destruct (decode0_facts _ _ _ D0) as (_ & _ & Hr & _).
      rewrite smatch_name in M. unfold sname in M. rewrite D0 in M.
      inversion LO as [|pos' cb' nm' ls0 ls l rest Hw Lci D LO' E1 E2|]; subst.
      cbn [name_of n_wire] in Hw. apply wire_of_inj in Hw. subst ls0.
      destruct (IH types' _ tl (pos + l) Sg' Hrest M C' LO') as (r'' & CM & CI & EX).
      exists (wire_of ls ++ r''). split; [apply cm_name with (l := l); assumption|]. split.
      * rewrite ci_fields_name, D0, (decode0_of_wire ls r'' (decodes_name_valid _ _ _ _ D)), Lci.
        rewrite skipn_app_exact by reflexivity. exact CI.
      * intros LOx. inversion LOx as [|pos' cb' nm' ls1 l1 rest Hw1 D1 LO1 E1 E2|]; subst.
        apply spec_decode_name_iff in D, D1. rewrite D in D1. injection D1 as <- <-.
        cbn [name_of n_wire] in Hw1. rewrite (EX LO1), <- Hw1. symmetry. exact Hr.
    +
      rewrite smatch_bytes in M. apply andb_true_iff in M. destruct M as [K M]. apply Nat.leb_le in K.
      destruct (fixed_step cb n g types r comps X L C) as (types' & comps' & L' & C' & P).
      destruct (loc_peel _ _ _ _ _ _ P LO) as (Hle & Hsl & LO'). rewrite firstn_length_le in * by exact K.
      destruct (IH types' _ comps' (pos + n) Sg' L' M C' LO') as (r'' & CM & CI & EX).
      exists (slice msg pos (pos + n) ++ r''). split; [apply cm_bytes; assumption|]. split.
      * rewrite ci_fields_bytes, Hsl.
        rewrite firstn_app_exact, skipn_app_exact by (symmetry; apply firstn_length_le, K).
        rewrite octets_eqb_refl. exact CI.
      * intros LOx. destruct (lo_peel _ _ _ _ _ _ P LOx) as (_ & _ & LO1).
        rewrite firstn_length_le in LO1 by exact K. rewrite (EX LO1), Hsl. apply firstn_skipn.
Qed.

(* stated as d = d && p inside, so that the enumeration closes every case by reflexivity *)
Theorem decompressed_ci c t : decompressed c t = true -> ci_type c t = true.
Proof.
  assert (E : decompressed c t = decompressed c t && ci_type c t)
    by (unfold decompressed, ci_type, grammar, one_of; cbn [existsb]; case_types c t).
  rewrite E. intros H. apply andb_true_iff in H. apply H.
Qed.

(* what Rdata::read returns over a lay-out of the components of a valid RDATA *)
Lemma read_back c t msg cur e r comps :
  wf_bytes msg -> wf_bytes r -> cur <= e -> e <= length msg -> (N.of_nat (e - cur) < 65536)%N ->
  matches (grammar c t) r ->
  components c t r = Ok comps -> laid_out_ci msg e cur comps ->
  exists r', read c t msg cur (N.of_nat (e - cur)) = Ok r' /\ spec_equals c t r r' = true /\
             (laid_out msg e cur comps -> r' = r).
Proof.
  intros Hm Hr Hce He Hlen M0 C LO.
  assert (R : forall r', read_spec c t msg cur (N.of_nat (e - cur)) r' <->
                e <= length msg /\ if decompressed c t then cmatches msg e cur (grammar c t) r'
                                   else r' = slice msg cur e /\ matches (grammar c t) r').
  { intros r'. unfold read_spec. cbv zeta. rewrite Nat2N.id. replace (cur + (e - cur)) with e by lia. tauto. }
  pose proof (proj2 (smatch_iff _ _ Hr) M0) as M. unfold components in C.
  pose proof (dispatch_components c t) as D. unfold spec_layout in D.
  destruct (decompressed c t) eqn:Dc.
  - pose proof Dc as Dc'. rewrite decompressed_simple in Dc'. apply andb_true_iff in Dc'.
    destruct (laid_out_ci_cmatches (compressible_type t) msg e (grammar c t)
                (lookup components_arms components_default c t) r comps cur
                (proj2 Dc') D M C LO) as (r' & CM & CI & EX).
    exists r'. split; [apply (read_iff _ _ _ _ _ _ Hm Hlen), R; auto|]. split; [|exact EX].
    unfold spec_equals, spec_valid. rewrite (decompressed_ci c t Dc), M. cbn [andb].
    rewrite (proj2 (smatch_iff _ _ (cmatches_wf msg e Hm _ _ _ CM)) (cmatches_matches msg e He _ _ _ CM)).
    exact CI.
  - exists r. split; [|split; [apply spec_equals_refl|reflexivity]].
    apply (read_iff _ _ _ _ _ _ Hm Hlen), R. split; [exact He|]. split; [|exact M0].
    destruct (lookup components_arms components_default c t); [|discriminate].
    rewrite comp_collect_nil in C. injection C as <-.
    destruct r as [|x r0]; inversion LO as [| |pos' b rest Hle Hsl LO' E1 E2]; subst.
    + symmetry. apply slice_nil.
    + inversion LO'; subst. symmetry. exact Hsl.
Qed.

Theorem components_read_back c t msg cur e r comps :
  wf_bytes msg -> wf_bytes r -> cur <= e -> e <= length msg -> (N.of_nat (e - cur) < 65536)%N ->
  matches (grammar c t) r ->
  components c t r = Ok comps -> laid_out msg e cur comps ->
  read c t msg cur (N.of_nat (e - cur)) = Ok r.
Proof.
  intros Hm Hr Hce He Hlen M C LO.
  destruct (read_back c t msg cur e r comps Hm Hr Hce He Hlen M C (laid_out_is_ci _ _ _ _ LO))
    as (r' & R & _ & E).
  rewrite <- (E LO). exact R.
Qed.

Theorem components_read_back_ci c t msg cur e r comps :
  wf_bytes msg -> wf_bytes r -> cur <= e -> e <= length msg -> (N.of_nat (e - cur) < 65536)%N ->
  matches (grammar c t) r ->
  components c t r = Ok comps -> laid_out_ci msg e cur comps ->
  exists r', read c t msg cur (N.of_nat (e - cur)) = Ok r' /\
             spec_equals c t r r' = true /\ equals c t r r' = Ok true.
Proof.
  intros Hm Hr Hce He Hlen M C LO.
  destruct (read_back c t msg cur e r comps Hm Hr Hce He Hlen M C LO) as (r' & R & E & _).
  exists r'. split; [exact R|]. split; [exact E|].
  rewrite (equals_char c t r r' Hr); [rewrite E; reflexivity|].
  apply (read_valid c t msg cur _ r' Hm Hlen R).
Qed.

Theorem read_uncompressed c t pre r post :
  wf_bytes (pre ++ r ++ post) -> (N.of_nat (length r) < 65536)%N ->
  matches (grammar c t) r ->
  read c t (pre ++ r ++ post) (length pre) (N.of_nat (length r)) = Ok r.
Proof.
  intros Hwf Hlen M. destruct (proj1 (wf_app _ _) Hwf) as [_ H1]. destruct (proj1 (wf_app _ _) H1) as [Hr _].
  destruct (components_valid_total c t r Hr M) as [comps C].
  replace (length r) with (length pre + length r - length pre) in * by lia.
  apply (components_read_back c t _ _ _ r comps); auto; try lia.
  - rewrite !app_length. lia.
  - replace (length pre + length r - length pre) with (length r) by lia.
    apply (laid_out_uncompressed c t); assumption.
Qed.
