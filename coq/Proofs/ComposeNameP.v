(* Composition: names.  The names query answering reads out of RDATA (Model/Query.v) are the
   names the Writer finds in the same RDATA when it serialises it (rd_names, Proofs/MsgWriterOpP.v);
   they are valid Names; a suffix (modulo ASCII case) of a valid Name is a valid Name. *)
From QV Require Import Base.ListX Model.NameWire Spec.NameWireS Spec.NameRepr Proofs.NameWireP
  Model.MsgWriter Model.ZoneTree Spec.ZoneLookupS Proofs.ZoneBaseP Model.Query Model.QueryW
  Proofs.MsgWriterP Proofs.MsgWriterScanP Proofs.MsgWriterNameP Proofs.MsgWriterInvP Proofs.MsgWriterNameSP
  Proofs.MsgWriterOpP Proofs.MsgWriterStepP Proofs.ComposeTraceP Proofs.ComposeWfP.
Local Open Scope nat_scope.

Lemma q_wire_labels_eq : forall fuel w, q_wire_labels fuel w = wire_labels fuel w.
Proof.
  induction fuel as [|f IH]; intros w; [reflexivity|]. cbn [q_wire_labels wire_labels].
  destruct w as [|l r]; [reflexivity|]. destruct (l =? 0)%N; [reflexivity|]. rewrite IH. reflexivity.
Qed.
Lemma labels_of_eq nm : labels_of nm = labels_of_name nm.
Proof. unfold labels_of, labels_of_name. apply q_wire_labels_eq. Qed.

Lemma labels_of_name_of ls : Forall wf_label ls -> labels_of_name (name_of ls) = ls.
Proof.
  intros Hl. unfold labels_of_name, name_of. cbn [n_wire]. change (wire_of ls) with (nm_wire ls).
  pose proof (lwire_len_ge ls Hl) as Hge. rewrite wire_labels_ok; auto. rewrite nm_wire_length. lia.
Qed.

Lemma parse_unc_good rd nm len : wf_bytes rd -> parse_uncompressed_name rd false = Ok (nm, len) ->
  good_name (labels_of_name nm) /\ length (nm_wire (labels_of_name nm)) = len /\ len <= length rd /\ 1 <= len.
Proof.
  intros Hwf H. pose proof (parse_unc_name rd nm len Hwf H) as (A & B & C).
  apply (parse_uncompressed_iff rd false nm len Hwf) in H as [ls [[D Hw] [-> _]]].
  pose proof (decodes_unc_labels _ _ _ _ _ D eq_refl) as Hl.
  pose proof (labels_of_name_of ls Hl) as Hls. pose proof (lwire_len_ge ls Hl) as Hge.
  rewrite Hls in *. split; [split; [exact A|]|].
  - assert (Hwl : length (nm_wire ls) = wire_len ls) by reflexivity. lia.
  - split; [exact B|]. split; [exact C|]. rewrite <- B, nm_wire_length. lia.
Qed.

Lemma parse_all_false rd nm off : parse_uncompressed_name rd true = Ok (nm, off) ->
  parse_uncompressed_name rd false = Ok (nm, off) /\ length rd <= off.
Proof.
  unfold parse_uncompressed_name. destruct (unc_loop unc_fuel rd 0 []) as [[o offs]|e|]; cbn [bind]; try discriminate.
  cbn [andb]. destruct (o <? length rd) eqn:E; [discriminate|]. intros H. split; [exact H|].
  inversion H; subst. apply Nat.ltb_ge in E. exact E.
Qed.

Lemma read_name_facts rd start nm : wf_bytes rd -> read_name_from_rdata rd start = Ok nm ->
  start <= length rd /\ good_name nm /\
  exists nm0 len, parse_uncompressed_name (skipn start rd) false = Ok (nm0, len) /\ nm = labels_of_name nm0.
Proof.
  intros Hwf. unfold read_name_from_rdata. destruct (length rd <? start) eqn:E; [discriminate|]. apply Nat.ltb_ge in E.
  unfold name_from_all. destruct (parse_uncompressed_name (skipn start rd) true) as [[nm0 off]|e|] eqn:Ep; try discriminate.
  intros H. inversion H; subst nm. clear H. destruct (parse_all_false _ _ _ Ep) as [Ep' _].
  assert (Hwf' : wf_bytes (skipn start rd)) by (apply wf_skipn; exact Hwf).
  destruct (parse_unc_good _ _ _ Hwf' Ep') as (G & _). rewrite labels_of_eq.
  split; [exact E|]. split; [exact G|]. exists nm0, off. split; [exact Ep'|reflexivity].
Qed.

Lemma read_name_no_panic rd start : read_name_from_rdata rd start <> Panic.
Proof.
  unfold read_name_from_rdata. destruct (length rd <? start); [discriminate|]. unfold name_from_all.
  pose proof (parse_uncompressed_total (skipn start rd) true) as [NP _].
  destruct (parse_uncompressed_name (skipn start rd) true) as [[nm0 off]|e|]; try discriminate. congruence.
Qed.

(* name_from_all: the target of a CNAME and its wire form, which is the whole RDATA *)
Lemma name_from_all_facts rd cname wire : wf_bytes rd -> name_from_all rd = Ok (Some (cname, wire)) ->
  wire = rd /\ rd <> [] /\ good_name cname /\
  exists nm0 len, parse_uncompressed_name rd false = Ok (nm0, len) /\ cname = labels_of_name nm0.
Proof.
  intros Hwf. unfold name_from_all. destruct (parse_uncompressed_name rd true) as [[nm0 off]|e|] eqn:Ep; try discriminate.
  intros H. inversion H; subst. clear H. destruct (parse_all_false _ _ _ Ep) as [Ep' Hlen].
  destruct (parse_unc_good _ _ _ Hwf Ep') as (G & Hl & Hle & H1). rewrite labels_of_eq.
  assert (Hoff : off = length rd) by lia.
  assert (Hw : n_wire nm0 = rd).
  { unfold parse_uncompressed_name in Ep'. destruct (unc_loop unc_fuel rd 0 []) as [[o offs]|e|]; cbn [bind] in Ep'; try discriminate.
    cbn [andb] in Ep'. inversion Ep' as [[Hnm Ho]]. cbn [n_wire]. subst o. rewrite Hoff. apply firstn_all. }
  split; [exact Hw|]. split; [destruct rd; [simpl in Hle; lia|discriminate]|]. split; [exact G|].
  exists nm0, off. split; [exact Ep'|reflexivity].
Qed.

Lemma name_from_all_no_panic rd : name_from_all rd <> Panic.
Proof.
  unfold name_from_all. pose proof (parse_uncompressed_total rd true) as [NP _].
  destruct (parse_uncompressed_name rd true) as [[nm0 off]|e|]; try discriminate. congruence.
Qed.

(* RDATA layouts with exactly one name, at offset [start] *)
Definition one_name (cts : list ctype) (start : nat) : Prop :=
  (cts = [CtCompressible] /\ start = 0) \/ cts = [CtFixed start; CtCompressible] \/ cts = [CtFixed start; CtUncompressible].

Lemma rd_names_one cts start rd nm : wf_bytes rd -> one_name cts start -> read_name_from_rdata rd start = Ok nm ->
  rd_names cts rd = [nm].
Proof.
  intros Hwf H1 Hr. destruct (read_name_facts _ _ _ Hwf Hr) as (Hs & _ & nm0 & len & Ep & ->).
  destruct H1 as [[-> ->]|[->| ->]]; cbn [rd_names].
  - cbn [skipn] in Ep. rewrite Ep. reflexivity.
  - destruct (length rd <? start) eqn:E; [apply Nat.ltb_lt in E; lia|]. rewrite Ep. reflexivity.
  - destruct (length rd <? start) eqn:E; [apply Nat.ltb_lt in E; lia|]. rewrite Ep. reflexivity.
Qed.

Lemma rds_names_app cts a b : rds_names cts (a ++ b) = rds_names cts a ++ rds_names cts b.
Proof. induction a as [|x a IH]; simpl; auto. rewrite IH, app_assoc. reflexivity. Qed.

Lemma rds_names_nth cts start pre rd rest nm : one_name cts start -> wf_bytes rd -> read_name_from_rdata rd start = Ok nm ->
  length (rds_names cts pre) = length pre ->
  nth_error (rds_names cts (pre ++ rd :: rest)) (length pre) = Some nm /\
  length (rds_names cts (pre ++ [rd])) = length (pre ++ [rd]).
Proof.
  intros H1 Hrd Er Hl. rewrite !rds_names_app. cbn [rds_names]. rewrite (rd_names_one _ _ _ _ Hrd H1 Er). split.
  - rewrite nth_error_app2 by lia. rewrite Hl, Nat.sub_diag. reflexivity.
  - rewrite !app_length. cbn [length]. lia.
Qed.

(* the CNAME record just written leaves its target as the most recent name in RDATA *)
Lemma cname_rd_names cls rd cname wire : wf_bytes rd -> name_from_all rd = Ok (Some (cname, wire)) ->
  rd_names (component_types cls TYPE_CNAME) wire = [cname].
Proof.
  intros Hwf H. destruct (name_from_all_facts _ _ _ Hwf H) as (-> & _ & _ & nm0 & len & Ep & ->).
  change (component_types cls TYPE_CNAME) with [CtCompressible]. cbn [rd_names]. rewrite Ep. reflexivity.
Qed.

Lemma lwire_length_map (a b : list bytes) : map (@length N) a = map (@length N) b ->
  length (nm_lwire a) = length (nm_lwire b).
Proof.
  revert b. induction a as [|x a IH]; intros [|y b] H; simpl in *; try discriminate; auto.
  inversion H. rewrite !app_length. rewrite (IH b); auto.
Qed.

Lemma lwire_skipn_le k (l : list bytes) : length (nm_lwire (skipn k l)) <= length (nm_lwire l).
Proof.
  revert l. induction k as [|k IH]; intros l; [simpl; lia|]. destruct l as [|x l]; [simpl; lia|].
  cbn [skipn]. specialize (IH l). unfold nm_lwire in *. cbn [flat_map]. rewrite app_length. lia.
Qed.

Lemma lengths_lc (n : list bytes) : map (@length N) (lc n) = map (@length N) n.
Proof. unfold lc. rewrite map_map. apply map_ext. intros a. apply map_length. Qed.

Lemma lengths_labels : forall a b : list bytes, map (@length N) a = map (@length N) b ->
  Forall wf_label a -> Forall wf_label b.
Proof.
  induction a as [|x a IH]; intros [|y b] H Hl; simpl in *; try discriminate; constructor.
  - inversion H. inversion Hl; subst. unfold wf_label in *. lia.
  - inversion H. inversion Hl; subst. eapply IH; eauto.
Qed.

Lemma wf_name_lengths a b : map (@length N) a = map (@length N) b -> wf_name b -> wf_name a.
Proof.
  intros H [Hl Hn]. split.
  - exact (lengths_labels b a (eq_sym H) Hl).
  - assert (E : length a = length b) by (rewrite <- (map_length (@length N) a), H, map_length; reflexivity).
    exact (eq_ind_r (fun n => n <= 127) Hn E).
Qed.

Lemma good_name_suffix c qn : suffix_ci c qn -> good_name qn -> good_name c.
Proof.
  intros [k Hk] [Hw Hl].
  assert (Hm : map (@length N) c = map (@length N) (skipn k qn)).
  { rewrite <- lengths_lc, Hk, <- lc_skipn, lengths_lc. reflexivity. }
  split.
  - apply (wf_name_lengths _ _ Hm). destruct Hw as [A B]. split; [apply Forall_skipn; exact A|].
    pose proof (skipn_length k qn) as E. unfold ZoneTree.name, ZoneTree.label, wname, bytes in *. lia.
  - rewrite nm_wire_length in *. rewrite (lwire_length_map _ _ Hm). pose proof (lwire_skipn_le k qn).
    unfold ZoneTree.name, ZoneTree.label, wname, bytes in *. lia.
Qed.
