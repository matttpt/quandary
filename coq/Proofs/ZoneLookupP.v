(* lookup_impl on a tree satisfying the abstraction invariant computes the RFC 1034/4592
   specification on the flat record list. *)
From QV Require Import Base.Res Base.Octets Base.ListX Gen.ZoneConsts Model.ZoneTree Spec.ZoneLookupS
  Proofs.ZoneBaseP Proofs.ZoneRrsetP Proofs.ZoneViewP Proofs.ZoneInvP.

Lemma last_cons_default {A} (x : A) l d d' : last (x :: l) d = last (x :: l) d'.
Proof.
  revert x; induction l as [|y l IH]; intros x; simpl; auto.
  apply IH.
Qed.

(* the names strictly below [skipn level n] on the way to [n], topmost first *)
Definition tailc (n : name) (level : nat) : list name :=
  map (fun k => skipn k n) (rev (seq 0 level)).

Lemma tailc_S n l : tailc n (S l) = skipn l n :: tailc n l.
Proof. unfold tailc. rewrite seq_S, rev_app_distr. reflexivity. Qed.

Lemma tailc_In n level m : In m (tailc n level) -> exists k, k < level /\ m = skipn k n.
Proof.
  unfold tailc. intros H. apply in_map_iff in H. destruct H as (k & E & Hin).
  apply in_rev in Hin. apply in_seq in Hin. exists k. split; [lia|auto].
Qed.

Lemma skipn_suffix (n : name) k l : k <= l -> is_suffixb (skipn l n) (skipn k n) = true.
Proof.
  intros H. apply is_suffixb_iff. exists (firstn (l - k) (skipn k n)).
  replace (skipn l n) with (skipn (l - k) (skipn k n)).
  - symmetry. apply firstn_skipn.
  - rewrite skipn_plus. f_equal. lia.
Qed.

Lemma lower_asterisk : map lower ASTERISK_LABEL = [42%N].
Proof. reflexivity. Qed.

Section Lookup.
Variable req : N -> N -> bytes -> bytes -> bool.
Variable apex : name.
Variable cls : N.
Variable R : list record.

Notation ex := (exists_name apex R).
Notation cut := (is_cut req apex cls R).

Lemma exists_name_up m m' : ex m' = true -> is_suffixb m m' = true ->
  length (lc apex) <= length m -> ex m = true.
Proof.
  unfold exists_name. intros H S L. apply orb_true_iff in H. destruct H as [H|H].
  - apply name_eqb_eq in H. subst m'. rewrite (is_suffixb_same_length _ _ S L), name_eqb_refl. reflexivity.
  - apply orb_true_iff. right. apply existsb_exists in H. destruct H as (r & Hin & Hs).
    apply existsb_exists. exists r. split; auto. eapply is_suffixb_trans; eauto.
Qed.

Lemma rrset_exists m ty rs : spec_rrset req cls R m ty = Some rs -> ex m = true.
Proof.
  intros H. destruct (ex m) eqn:E; auto.
  rewrite (no_records_if_absent req apex cls R m ty E) in H. discriminate.
Qed.

Lemma cut_exists m : cut m = true -> ex m = true.
Proof.
  unfold is_cut. intros H. apply andb_true_iff in H. destruct H as [_ H].
  destruct (spec_rrset req cls R m 2) eqn:E; [|discriminate]. eapply rrset_exists; eauto.
Qed.

Lemma cut_below m : length (lc apex) < length m ->
  cut m = match spec_rrset req cls R m 2 with Some _ => true | None => false end.
Proof.
  intros L. unfold is_cut.
  assert (name_eqb m (lc apex) = false).
  { apply name_eqb_neq. intros E. subst m. lia. }
  rewrite H. reflexivity.
Qed.

(* the specification, generalised to a walk that has reached the name skipn level n, which exists
   (it stands for the apex as the closest encloser of last resort); at level = length n - length apex this
   is spec_lookup_base by computation *)
Definition spec_tail (n : name) (level : nat) : spec_base :=
  if ex n then SData n None
  else
    let ce := last (filter ex (skipn level n :: tailc n level)) (skipn level n) in
    let w := [42%N] :: ce in
    if ex w then SData w (Some w) else SNxDomain.

(* [chk]: the referral check at the name reached is still to come (lookup_impl's negb at_apex) *)
Definition spec_from (n : name) (level : nat) (chk sbc : bool) : spec_base :=
  match (if sbc then None else find cut ((if chk then [skipn level n] else []) ++ tailc n level)) with
  | Some c => SReferral c
  | None => spec_tail n level
  end.

Lemma spec_from_split n level chk sbc :
  spec_from n level chk sbc =
    if chk && negb sbc && cut (skipn level n) then SReferral (skipn level n) else spec_from n level false sbc.
Proof.
  unfold spec_from. destruct chk, sbc; simpl; auto.
  destruct (cut (skipn level n)); reflexivity.
Qed.

Lemma spec_from_0 n sbc : ex n = true -> spec_from n 0 false sbc = SData n None.
Proof.
  intros E. unfold spec_from, spec_tail. simpl. rewrite E. destruct sbc; reflexivity.
Qed.

Lemma spec_from_child n l sbc : ex (skipn (S l) n) = true -> ex (skipn l n) = true ->
  spec_from n (S l) false sbc = spec_from n l true sbc.
Proof.
  intros E1 E2. unfold spec_from, spec_tail. rewrite tailc_S. cbn [app].
  destruct (if sbc then None else find cut (skipn l n :: tailc n l)); auto.
  destruct (ex n); auto.
  cbn [filter]. rewrite E1, E2.
  replace (last (skipn (S l) n :: skipn l n :: filter ex (tailc n l)) (skipn (S l) n))
    with (last (skipn l n :: filter ex (tailc n l)) (skipn (S l) n)) by reflexivity.
  rewrite (last_cons_default _ _ (skipn (S l) n) (skipn l n)). reflexivity.
Qed.

Lemma tailc_absent n l : ex (skipn l n) = false -> length (lc apex) <= length (skipn l n) ->
  forall m, In m (tailc n (S l)) -> ex m = false.
Proof.
  intros E L m Hin. apply tailc_In in Hin. destruct Hin as (k & Hk & ->).
  destruct (ex (skipn k n)) eqn:F; auto.
  rewrite (exists_name_up (skipn l n) (skipn k n) F) in E; auto.
  apply skipn_suffix. lia.
Qed.

Lemma filter_none {A} (P : A -> bool) l : (forall x, In x l -> P x = false) -> filter P l = [].
Proof.
  induction l as [|x l IH]; intros H; simpl; auto.
  rewrite (H x) by (left; reflexivity). apply IH. intros y Hy. apply H. right. exact Hy.
Qed.

Lemma spec_from_nochild n l sbc : ex (skipn (S l) n) = true -> ex (skipn l n) = false ->
  length (lc apex) <= length (skipn l n) ->
  spec_from n (S l) false sbc =
    let w := [42%N] :: skipn (S l) n in if ex w then SData w (Some w) else SNxDomain.
Proof.
  intros E1 E2 L. pose proof (tailc_absent n l E2 L) as Habs.
  unfold spec_from, spec_tail. cbn [app].
  assert (Hf : find cut (tailc n (S l)) = None).
  { rewrite find_filter_hd, filter_none; [reflexivity|]. intros m Hm. destruct (cut m) eqn:C; auto.
    apply cut_exists in C. rewrite (Habs m Hm) in C. discriminate. }
  rewrite Hf.
  assert (Hn : ex n = false).
  { apply Habs. rewrite tailc_S. destruct l.
    - left. reflexivity.
    - right. unfold tailc. apply in_map_iff. exists 0. split; auto. apply in_rev. rewrite rev_involutive.
      apply in_seq. lia. }
  rewrite Hn.
  cbn [filter]. rewrite E1. rewrite (filter_none _ _ Habs). simpl last.
  destruct sbc; reflexivity.
Qed.

(* how a model answer realises a spec answer *)
Definition base_rel (b : base_result) (s : spec_base) : Prop :=
  match b, s with
  | BFound data sos, SData m sos' => rrsets_ok req cls R m data /\ option_map lc sos = sos'
  | BReferral c ns, SReferral c' => lc c = c' /\ referral_ns req cls R c' = ns
  | BNxDomain, SNxDomain => True
  | BWrongZone, SWrongZone => True
  | _, _ => False
  end.

Lemma lookup_impl_unfold level t nm sbc at_apex :
  lookup_impl level t nm sbc at_apex =
  match (if negb at_apex && negb sbc then rr_lookup TYPE_NS (node_data t) else None) with
  | Some ns => Ok (BReferral (node_name t) (to_single ns))
  | None =>
    match level with
    | 0 => Ok (BFound (node_data t) None)
    | S l =>
      let* lab := name_index nm l in
      match find_child lab (node_children t) with
      | Some sub => lookup_impl l sub nm sbc false
      | None =>
        match find_child ASTERISK_LABEL (node_children t) with
        | Some w => Ok (BFound (node_data w) (Some (node_name w)))
        | None => Ok BNxDomain
        end
      end
    end
  end.
Proof. destruct level; reflexivity. Qed.

Variable qn : name.
Variable sbc : bool.

(* the referral check at a node below the apex (NS there means a cut), in front of the rest [X] of the walk *)
Lemma referral_check t P level chk (X : res zone_err base_result) :
  node_ok req apex cls R P (Some (node_name t, node_data t)) ->
  pname apex P = skipn level (lc qn) -> (chk = true -> P <> []) ->
  (exists b, X = Ok b /\ base_rel b (spec_from (lc qn) level false sbc)) ->
  exists b, match (if chk && negb sbc then rr_lookup TYPE_NS (node_data t) else None) with
            | Some ns => Ok (BReferral (node_name t) (to_single ns))
            | None => X
            end = Ok b /\ base_rel b (spec_from (lc qn) level chk sbc).
Proof.
  intros (_ & Hnm & _ & Hlk) HP Hat Hrest. rewrite spec_from_split, <- HP.
  destruct (chk && negb sbc) eqn:Chk; [|exact Hrest].
  rewrite cut_below by (rewrite pname_length; destruct P; [destruct chk; [destruct Hat; auto|discriminate]|simpl; lia]).
  change TYPE_NS with 2%N. rewrite Hlk.
  destruct (spec_rrset req cls R (pname apex P) 2) as [rs|] eqn:Sp; [|exact Hrest].
  eexists; split; [reflexivity|]. split; [exact Hnm|]. unfold referral_ns, single_of. rewrite Sp. reflexivity.
Qed.

Lemma lookup_impl_spec : forall level t P at_apex,
  level <= length qn ->
  (forall p, node_ok req apex cls R (P ++ p) (view p t)) ->
  pname apex P = skipn level (lc qn) ->
  (at_apex = false -> P <> []) ->
  exists b, lookup_impl level t qn sbc at_apex = Ok b /\
            base_rel b (spec_from (lc qn) level (negb at_apex) sbc).
Proof.
  induction level as [|l IH]; intros t P at_apex Hl Hok HP Hat; rewrite lookup_impl_unfold.
  (* at either level the walk stands on a node satisfying node_ok and starts with the referral check *)
  all: pose proof (Hok []) as H0; rewrite app_nil_r in H0.
  all: apply (referral_check t P _ (negb at_apex) _ H0 HP); [destruct at_apex; [discriminate|auto]|].
  all: destruct H0 as (Hex & _ & Hrr); rewrite HP in Hex, Hrr.
  - eexists; split; [reflexivity|]. rewrite spec_from_0 by exact Hex. split; [exact Hrr|reflexivity].
  - assert (Hnth : nth_error qn l = Some (nth l qn [])) by (apply nth_error_nth'; lia).
    unfold name_index. rewrite Hnth. cbn [bind]. set (x := nth l qn []).
    assert (Hchild : pname apex (P ++ [x]) = skipn l (lc qn)).
    { rewrite pname_snoc, HP.
      rewrite (skipn_nth_cons (lc qn) l (map lower [])) by (rewrite lc_length; lia).
      f_equal. unfold lc. rewrite map_nth. reflexivity. }
    pose proof (Hok [x]) as Hx. cbn [view] in Hx. unfold node_ok in Hx. rewrite Hchild in Hx.
    destruct (find_child x (node_children t)) as [c|] eqn:Fc.
    + destruct Hx as (Hexc & _ & _).
      rewrite (spec_from_child (lc qn) l sbc Hex Hexc).
      apply (IH c (P ++ [x]) false); [lia| |exact Hchild|intros _ E; destruct P; discriminate].
      intros p. rewrite <- app_assoc. specialize (Hok (x :: p)). cbn [view] in Hok.
      rewrite Fc in Hok. exact Hok.
    + (* no such child: the wildcard child of this node, if any *)
      rewrite (spec_from_nochild (lc qn) l sbc Hex Hx) by (rewrite <- Hchild, pname_length; lia). cbv zeta.
      pose proof (Hok [ASTERISK_LABEL]) as Hw. cbn [view] in Hw. unfold node_ok in Hw.
      rewrite pname_snoc, HP, lower_asterisk in Hw.
      destruct (find_child ASTERISK_LABEL (node_children t)) as [w|] eqn:Fw.
      * destruct Hw as (Hexw & Hnw & Hrw). rewrite Hexw.
        eexists; split; [reflexivity|]. split; [exact Hrw|]. simpl. rewrite Hnw. reflexivity.
      * rewrite Hw. eexists; split; [reflexivity|]. exact I.
Qed.

End Lookup.
