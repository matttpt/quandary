(* finish_signed_ok: what Proofs/SignSerP.v / SignDecP.v say of the server's ser_ops, for ANY contract-obeying
   operation sequence (questions and records included): if Writer::set_tsig in a signing mode succeeds, finish_with_mac
   in response mode never panics, stays within the limit, and its result decodes to the records denoted by the
   operations, (OPT iff EDNS) and ONE TSIG record whose MAC is what sign_response returns for a prefix of the message
   ([c5 <= len]; that c5 is the start of the TSIG record is not stated).
   The only facts about hmac: its output has the algorithm's output size and consists of octets. *)
From QV Require Import Base.ListX Gen.Consts Model.NameWire Model.ServerWT
  Model.MsgWriter
  Spec.NameWireS Spec.NameRepr Spec.MsgWriterS Spec.MsgWriterAbsS
  Proofs.NameWireP Proofs.MsgWriterP Proofs.MsgWriterScanP Proofs.MsgWriterNameP Proofs.MsgWriterInvP Proofs.MsgWriterClosP
  Proofs.MsgWriterNameSP Proofs.MsgWriterOpP
  Proofs.MsgWriterLayP Proofs.MsgWriterStepP Proofs.MsgWriterMsgP Proofs.MsgWriterDecP Proofs.MsgWriterHdrP Proofs.MsgWriterGetP
  Proofs.MsgWriterRtP
  Proofs.SignFinishP Proofs.SignDecP.
From QV Require Model.TsigMsg.
Local Open Scope nat_scope.

Section GW.
Variable hmac : TsigMsg.alg -> bytes -> bytes -> bytes.
Hypothesis hmac_len : forall a k d, length (hmac a k d) = TsigMsg.output_size a.
Hypothesis hmac_wf : forall a k d, wf_bytes (hmac a k d).

Theorem finish_signed_ok buf limit w0 ops d outs alg key time fudge origid error stime a secret rmac w2 :
  writer_new buf limit = Ok w0 -> run_contract (mkD w0 []) g0 ops -> Forall op_wf ops -> Forall op_wf2 ops ->
  run (mkD w0 []) ops = Ok (d, outs, true) ->
  MsgWriter.w_tsig (d_w d) = None ->
  op_wf (OSetTsig alg key time fudge origid error stime) ->
  length (nm_wire alg) = length (TsigMsg.alg_name a) -> (N.of_nat (length rmac) <= 65535)%N ->
  set_tsig_signed (TsigMsg.output_size a) (nm_lower alg) (nm_lower key) time fudge origid error stime (d_w d) = Ok (tt, w2) ->
  let A := areplay am0 ops outs in
  exists len b m c5 mac rdata,
    finish_signed hmac a secret rmac w2 = Ok (len, b) /\ len <= MsgWriter.w_limit (d_w d) /\
    decode_msg (firstn len b) = Some m /\
    Forall2 q_rel (am_qs A) (m_qs m) /\
    Forall2 (rr_rel xparts) (am_an A) (m_an m) /\ Forall2 (rr_rel xparts) (am_ns A) (m_ns m) /\
    Forall2 (rr_rel xparts) (am_ar A ++ pseudo_signed (d_w d) (nm_lower key) rdata) (m_ar m) /\
    c5 <= len /\
    TsigMsg.sign hmac (TsigMsg.mkPrepared (nm_wire (nm_lower key)) time fudge origid error stime)
                 (firstn c5 (firstn len b)) (TsigMsg.SResponse rmac) a secret = Ok (rdata, mac) /\
    length mac = TsigMsg.output_size a /\
    rdata = TsigMsg.serialize_tsig_unchecked (TsigMsg.alg_name a) time fudge mac origid error
              (if (error =? 18)%N then stime else []).
Proof.
  intros E0 Hrc F1 F2 Hrun Htn Hwf Hal Hrm ES A.
  destruct (run_ok2 ops _ _ _ _ _ (AInv_new _ _ _ E0) (LInv_new _ _ _ E0) Hrc)
    as (d' & outs' & alive' & g & y & L & Erun & Hi & HL).
  rewrite Hrun in Erun. inversion Erun; subst d' outs' alive'. clear Erun. fold A in HL.
  destruct d as [w1 regs]. cbn [d_w] in *.
  pose proof (a_n _ _ _ Hi) as Hn1. cbn [d_w] in Hn1.
  assert (Hop : 0 < TsigMsg.output_size a) by (destruct a; cbv; lia).
  destruct (signed_steps_gen w1 _ _ _ _ _ _ _ _ _ Hn1 Htn Hop ES) as (w1' & wh2 & EL & ET & -> & Etu & Elim & Ebuf & Eed & Emd).
  (* the two hypothetical steps keep C12's invariants *)
  pose proof (step2_all (mkD w1 regs) g y A L (OSetLimit (MsgWriter.w_limit w1 - TsigMsg.output_size a)) Hi HL I I) as S1.
  unfold step_ok2 in S1. cbn [step d_w d_regs] in S1. rewrite EL in S1. cbn [of_R] in S1.
  destruct S1 as (L1 & y1 & Hi1 & HL1). cbn [astep] in HL1.
  pose proof (step2_all _ _ y1 A L1 (OSetTsig alg key time fudge origid error stime) Hi1 HL1 Hwf I) as S2.
  unfold step_ok2 in S2. cbn [step d_w d_regs] in S2. rewrite ET in S2. cbn [of_M] in S2.
  destruct S2 as (L2 & y2 & Hi2 & HL2). cbn [astep] in HL2.
  destruct (finish_signed_decodes hmac hmac_len hmac_wf (mkD wh2 regs) _ y2 A L2 _ a secret rmac Hi2 HL2
              (areplay_wf _ _ _ am0_wf F1 F2) Etu)
    as (len & b & m & c5 & mac & rdata & EF & Hcl & Em & Rq & Ra & Rn & Rr & _ & Hc5 & Hsg & Hml & _ & Hrd);
    [cbn [t_alg]; rewrite wire_lower_length; exact Hal|exact Hrm|cbn [d_w]; rewrite Elim, Ebuf; exact (i_lim _ Hn1)|].
  cbn [d_w] in EF, Hcl, Rr. rewrite Elim in Hcl. unfold pseudo_signed in Rr. rewrite Eed, Emd in Rr.
  exists len, b, m, c5, mac, rdata. auto 12.
Qed.

End GW.
