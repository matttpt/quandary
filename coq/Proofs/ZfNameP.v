(* Names in the zone-file parser: the NameBuilder model builds the representation
   [name_of ls] of a list of non-empty labels of at most 63 octets with a wire form of
   at most 255 octets, never panics, and such names pass validate_uncompressed_name. *)
From QV Require Import Base.ListX Model.NameWire Spec.NameWireS Spec.NameRepr Proofs.NameWireP
  Model.ZfReader Model.ZfParser Proofs.ZfReaderP Spec.ZfValidS.

Local Open Scope nat_scope.

(* for equations `C a1 .. an = C b1 .. bn` whose arguments differ only in how a sum is bracketed
   (lengths and offsets) *)
Ltac feq := repeat (first [lia | reflexivity | f_equal]).

Lemma app_cons_snoc {A} (a : list A) x b : a ++ x :: b = (a ++ [x]) ++ b.
Proof. rewrite <- app_assoc. reflexivity. Qed.

Lemma slice_mid {A} (a l t : list A) i : i = length a -> slice (a ++ l ++ t) i (i + length l) = l.
Proof.
  intros ->. unfold slice. rewrite skipn_app_exact, Nat.add_comm, Nat.add_sub, firstn_app, Nat.sub_diag, firstn_all.
  apply app_nil_r.
Qed.

Lemma wire_of_app a b : wire_of (a ++ b) = lwire a ++ wire_of b.
Proof. unfold wire_of. rewrite lwire_app, <- app_assoc. reflexivity. Qed.

Lemma lwire_app_len a b : length (lwire (a ++ b)) = length (lwire a) + length (lwire b).
Proof. rewrite lwire_app, app_length. reflexivity. Qed.

Lemma lwire_cons_len l r : length (lwire (l :: r)) = 1 + length l + length (lwire r).
Proof. rewrite lwire_cons. cbn [length]. rewrite app_length. reflexivity. Qed.

Lemma lwire_snoc_len ds l : length (lwire (ds ++ [l])) = length (lwire ds) + 1 + length l.
Proof. rewrite lwire_snoc, app_length. cbn [length]. lia. Qed.

Lemma wire_len_app a b : wire_len (a ++ b) = length (lwire a) + wire_len b.
Proof. unfold wire_len. rewrite wire_of_app, app_length. reflexivity. Qed.

Lemma lwire_len_ge ls : Forall good_label ls -> 2 * length ls <= length (lwire ls).
Proof.
  induction 1 as [|l r Hl _ IH]; [simpl; lia|].
  rewrite lwire_cons_len. cbn [length]. unfold good_label in Hl. lia.
Qed.

Lemma good_labels_count ls : good_labels ls -> length ls <= 127.
Proof. intros [H1 H2]. pose proof (lwire_len_ge ls H1). rewrite wire_len_lwire in H2. lia. Qed.

Lemma good_root : good_name root_name.
Proof. exists []. split; [split; [constructor|vm_compute; lia]|reflexivity]. Qed.

Lemma good_name_len nm : good_name nm -> 1 <= length (n_wire nm) <= 255.
Proof.
  intros (ls & [H1 H2] & ->). unfold name_of. simpl. fold (wire_len ls).
  pose proof (wire_len_pos ls). lia.
Qed.

Lemma val_loop_step fuel b i l : nth_error b i = Some l -> (l <= 63)%N -> i + N.to_nat l + 1 <= 255 ->
  val_loop (S fuel) b i =
  if (l =? 0)%N then Ok (i + N.to_nat l + 1) else val_loop fuel b (i + N.to_nat l + 1).
Proof.
  intros E Hl Hi. cbn [val_loop]. rewrite E. change max_label_len with 63%N. change max_wire_len with 255.
  rewrite (proj2 (N.ltb_ge _ _) Hl), (proj2 (Nat.ltb_ge _ _) Hi). reflexivity.
Qed.

Lemma val_loop_wire : forall ls pre rest fuel,
  Forall good_label ls -> length pre + wire_len ls <= 255 -> length ls < fuel ->
  val_loop fuel (pre ++ wire_of ls ++ rest) (length pre) = Ok (length pre + wire_len ls).
Proof.
  induction ls as [|l r IH]; intros pre rest [|fuel] Hg Hlen Hf; try (cbn [length] in Hf; lia).
  - change (wire_len []) with 1 in *. change (wire_of [] ++ rest) with (0%N :: rest).
    rewrite (val_loop_step _ _ _ 0%N) by (first [apply nth_error_mid|lia]). cbn [N.eqb]. feq.
  - inversion Hg as [|? ? Hl Hr]; subst. unfold good_label in Hl.
    rewrite wire_len_cons in *. rewrite wire_of_cons.
    rewrite (val_loop_step _ _ _ (N.of_nat (length l))) by (first [apply nth_error_mid|lia]).
    rewrite (proj2 (N.eqb_neq _ _)) by lia.
    specialize (IH (pre ++ N.of_nat (length l) :: l) rest fuel Hr).
    rewrite app_length, <- app_assoc in IH. cbn [length app] in IH.
    cbn [app]. rewrite <- app_assoc, Nat2N.id.
    replace (length pre + length l + 1) with (length pre + S (length l)) by lia.
    rewrite IH; [feq|lia|cbn [length] in Hf; lia].
Qed.

Lemma val_loop_good ls rest : good_labels ls -> val_loop unc_fuel (wire_of ls ++ rest) 0 = Ok (wire_len ls).
Proof.
  intros [H1 H2]. apply (val_loop_wire ls [] rest unc_fuel H1 H2).
  pose proof (good_labels_count ls (conj H1 H2)). unfold unc_fuel. change max_wire_len with 255. lia.
Qed.

Lemma validate_wire ls rest : good_labels ls ->
  validate_uncompressed_name (wire_of ls ++ rest) false = Ok (wire_len ls).
Proof. intros H. unfold validate_uncompressed_name. rewrite val_loop_good by exact H. reflexivity. Qed.

Lemma validate_wire_all ls : good_labels ls ->
  validate_uncompressed_name (wire_of ls) true = Ok (wire_len ls).
Proof.
  intros H. pose proof (val_loop_good ls [] H) as E. rewrite app_nil_r in E.
  unfold validate_uncompressed_name. rewrite E. cbn [bind]. fold (wire_len ls). rewrite Nat.ltb_irrefl. reflexivity.
Qed.

Lemma val_loop_le b : forall fuel i n, val_loop fuel b i = Ok n -> n <= length b.
Proof.
  induction fuel as [|fuel IH]; intros i n H; [discriminate|].
  cbn [val_loop] in H. destruct (nth_error b i) as [l|] eqn:E; [|discriminate].
  destruct (max_label_len <? l)%N; [discriminate|].
  destruct (max_wire_len <? i + N.to_nat l + 1); [discriminate|].
  destruct (l =? 0)%N eqn:E0.
  - apply N.eqb_eq in E0. subst l. inversion H; subst. apply nth_error_Some_lt in E. simpl. lia.
  - eapply IH. exact H.
Qed.

Lemma validate_le b n : validate_uncompressed_name b false = Ok n -> n <= length b.
Proof.
  unfold validate_uncompressed_name. destruct (val_loop unc_fuel b 0) as [m|e|] eqn:E; try discriminate.
  cbn [bind andb]. intros [= <-]. eapply val_loop_le. exact E.
Qed.

Lemma validate_total b all :
  validate_uncompressed_name b all <> Panic /\ validate_uncompressed_name b all <> Err OutOfFuel.
Proof.
  rewrite validate_agrees. destruct (parse_uncompressed_total b all) as [H1 H2].
  destruct (parse_uncompressed_name b all) as [[nm l]|e|]; simpl; split; congruence.
Qed.

Lemma offs_of_length ls : forall base, length (offs_of base ls) = S (length ls).
Proof. induction ls as [|l r IH]; intros base; simpl; [reflexivity|]. rewrite IH. reflexivity. Qed.

Lemma offs_of_app a : forall base l b,
  offs_of base (a ++ l :: b) = offs_of base a ++ offs_of (base + length (lwire (a ++ [l]))) b.
Proof.
  induction a as [|x a IH]; intros base l b; rewrite lwire_snoc_len; cbn [app offs_of].
  - change (length (lwire [])) with 0. feq.
  - rewrite IH, lwire_snoc_len, lwire_cons_len. feq.
Qed.

Lemma offs_of_snoc ls base l :
  offs_of base (ls ++ [l]) = offs_of base ls ++ [(N.of_nat (base + length (lwire (ls ++ [l]))) mod 256)%N].
Proof. apply (offs_of_app ls base l []). Qed.

Lemma offs_of_last a base :
  offs_of base a = firstn (length a) (offs_of base a) ++ [(N.of_nat (base + length (lwire a)) mod 256)%N].
Proof.
  revert base. induction a as [|x a IH]; intros base; cbn [offs_of length firstn app].
  - change (length (lwire [])) with 0. feq.
  - rewrite lwire_cons_len, IH at 1. feq.
Qed.

Lemma nth_error_offs a : forall base rest,
  nth_error (offs_of base (a ++ rest)) (length a) = Some (N.of_nat (base + length (lwire a)) mod 256)%N.
Proof.
  induction a as [|x a IH]; intros base rest; cbn [app length].
  - change (length (lwire [])) with 0. destruct rest; cbn [offs_of nth_error]; feq.
  - cbn [offs_of nth_error]. rewrite IH, lwire_cons_len. feq.
Qed.

Lemma label_at_gen (A L T : bytes) offs i :
  nth_error offs i = Some (N.of_nat (length A)) ->
  label_at (mkName offs (A ++ N.of_nat (length L) :: L ++ T)) i = Ok L.
Proof.
  intros H. unfold label_at. cbn [n_offsets n_wire]. rewrite H, Nat2N.id, nth_error_mid, Nat2N.id.
  rewrite (proj2 (Nat.ltb_ge _ _)) by (rewrite app_length; cbn [length]; rewrite app_length; lia).
  f_equal. rewrite app_cons_snoc. apply slice_mid. rewrite app_length. reflexivity.
Qed.

(* [hd [] rest] is [] when [rest] is empty: the root label that ends the wire form *)
Lemma label_at_name_of a rest : good_labels (a ++ rest) ->
  label_at (name_of (a ++ rest)) (length a) = Ok (hd [] rest).
Proof.
  intros [_ Hw]. rewrite wire_len_lwire, lwire_app_len in Hw. unfold name_of.
  replace (wire_of (a ++ rest)) with (lwire a ++ N.of_nat (length (hd [] rest)) :: hd [] rest ++
                                      match rest with [] => [] | _ :: r => wire_of r end)
    by (rewrite wire_of_app; destruct rest; [reflexivity|rewrite wire_of_cons; reflexivity]).
  apply label_at_gen. rewrite nth_error_offs, N.mod_small by lia. reflexivity.
Qed.

Definition nb_inv (b : nb) (ds : list label) (cur : label) : Prop :=
  nb_wire b = lwire ds ++ 0%N :: cur /\ nb_offs b = offs_of 0 ds /\ nb_start b = length (lwire ds) /\
  nb_len b = N.of_nat (length cur) /\ Forall good_label ds /\ length cur <= 63 /\ length (nb_wire b) <= 255.

Lemma nb_inv_new : nb_inv nb_new [] [].
Proof. unfold nb_inv, nb_new. simpl. repeat split; auto; lia. Qed.

Lemma nb_wire_len b ds cur : nb_inv b ds cur -> length (nb_wire b) = length (lwire ds) + 1 + length cur.
Proof. intros (Hw & _). rewrite Hw, app_length. simpl. lia. Qed.

Lemma nb_fq_inv b ds cur : nb_inv b ds cur -> nb_fq b = (length cur =? 0).
Proof. intros (_ & _ & _ & Hl & _). unfold nb_fq. rewrite Hl. destruct (length cur); reflexivity. Qed.

(* Each builder operation has one [_spec] lemma: what it returns under the invariant, and what an error says
   about the state.  The [_exact] form (no error when the name fits), used in ZfNameRP, is a corollary. *)
Lemma nb_try_push_spec b ds cur o : nb_inv b ds cur ->
  match nb_try_push b o with
  | Ok b' => nb_inv b' ds (cur ++ [o])
  | Err _ => 63 <= length cur \/ 255 <= length (nb_wire b)
  | Panic => False
  end.
Proof.
  intros (Hw & Ho & Hs & Hl & Hg & Hc & Hlen). unfold nb_try_push.
  change (max_label_len mod 256)%N with 63%N. change max_wire_len with 255.
  destruct (63 <=? nb_len b)%N eqn:E1; [apply N.leb_le in E1; lia|]. apply N.leb_gt in E1.
  destruct (255 <=? length (nb_wire b)) eqn:E2; [apply Nat.leb_le in E2; auto|]. apply Nat.leb_gt in E2.
  unfold nb_inv. cbn [nb_wire nb_offs nb_start nb_len]. rewrite Hw.
  repeat split; auto.
  - rewrite <- app_assoc. reflexivity.
  - rewrite Hl, app_length. simpl. lia.
  - rewrite app_length. simpl. lia.
  - rewrite <- Hw, app_length. simpl. lia.
Qed.

Lemma nb_try_push_exact b ds cur o : nb_inv b ds cur -> length cur < 63 -> length (nb_wire b) < 255 ->
  exists b', nb_try_push b o = Ok b' /\ nb_inv b' ds (cur ++ [o]).
Proof.
  intros H Hc Hw. pose proof (nb_try_push_spec b ds cur o H).
  destruct (nb_try_push b o); [eauto|lia|contradiction].
Qed.

Lemma list_set_mid {A} (a : list A) x c y : list_set (a ++ x :: c) (length a) y = Some (a ++ y :: c).
Proof. induction a as [|z a IH]; simpl; [reflexivity|]. rewrite IH. reflexivity. Qed.

Lemma list_set_length {A} (l : list A) i x l' : list_set l i x = Some l' -> length l' = length l.
Proof.
  revert i l'. induction l as [|y t IH]; intros i l' H; [destruct i; discriminate|].
  destruct i as [|i]; simpl in H.
  - inversion H; reflexivity.
  - destruct (list_set t i x) as [t'|] eqn:E; [|discriminate]. inversion H; subst. simpl. f_equal. eauto.
Qed.

Lemma nb_update_ok b ds cur : nb_inv b ds cur ->
  nb_update_label_len b = Some (lwire (ds ++ [cur])).
Proof.
  intros (Hw & Ho & Hs & Hl & _). unfold nb_update_label_len. rewrite Hw, Hs, Hl, list_set_mid, lwire_snoc.
  reflexivity.
Qed.

Lemma nb_next_label_spec b ds cur : nb_inv b ds cur ->
  match nb_next_label b with
  | Ok b' => nb_inv b' (ds ++ [cur]) []
  | Err _ => length cur = 0 \/ 255 <= length (nb_wire b)
  | Panic => False
  end.
Proof.
  intros Hinv. pose proof Hinv as (Hw & Ho & Hs & Hl & Hg & Hc & Hlen). unfold nb_next_label.
  rewrite (nb_fq_inv b ds cur Hinv). destruct (length cur =? 0) eqn:E0; [apply Nat.eqb_eq in E0; auto|].
  apply Nat.eqb_neq in E0. change max_wire_len with 255.
  destruct (255 <=? length (nb_wire b)) eqn:E2; [apply Nat.leb_le in E2; auto|]. apply Nat.leb_gt in E2.
  rewrite (nb_update_ok b ds cur Hinv).
  assert (Hg' : Forall good_label (ds ++ [cur])).
  { apply Forall_app. split; [exact Hg|]. constructor; [unfold good_label; lia|constructor]. }
  pose proof (lwire_len_ge _ Hg') as Hcount. rewrite app_length, lwire_snoc_len in Hcount.
  rewrite (nb_wire_len b ds cur Hinv) in E2. cbn [length] in Hcount.
  rewrite push_offset_ok by (rewrite Ho, offs_of_length; lia).
  unfold nb_inv. cbn [nb_wire nb_offs nb_start nb_len].
  repeat split; auto.
  - rewrite Ho, offs_of_snoc. reflexivity.
  - simpl. lia.
  - rewrite app_length, lwire_snoc_len. simpl. lia.
Qed.

Lemma nb_next_label_exact b ds cur : nb_inv b ds cur -> 1 <= length cur -> length (nb_wire b) < 255 ->
  exists b', nb_next_label b = Ok b' /\ nb_inv b' (ds ++ [cur]) [].
Proof.
  intros H Hc Hw. pose proof (nb_next_label_spec b ds cur H).
  destruct (nb_next_label b); [eauto|lia|contradiction].
Qed.

Lemma nb_finish_exact b ds : nb_inv b ds [] -> nb_finish b = Ok (name_of ds).
Proof.
  intros H. unfold nb_finish. rewrite (nb_fq_inv b ds [] H). destruct H as (Hw & Ho & _).
  unfold name_of. rewrite Ho, Hw. reflexivity.
Qed.

Lemma nb_finish_ok b ds cur : nb_inv b ds cur ->
  match nb_finish b with
  | Ok nm => good_name nm
  | Err _ => True
  | Panic => False
  end.
Proof.
  intros H. destruct cur as [|c cur].
  - rewrite (nb_finish_exact b ds H). destruct H as (Hw & _ & _ & _ & Hg & _ & Hlen).
    exists ds. split; [split; [exact Hg|]|reflexivity]. unfold wire_len, wire_of. rewrite <- Hw. exact Hlen.
  - unfold nb_finish. rewrite (nb_fq_inv _ _ _ H). exact I.
Qed.

(* the suffix-label loop from label [length a] on, when [W ++ lwire a] has been written *)
Lemma nb_push_labels_spec W : forall b a, good_labels (a ++ b) ->
  match nb_push_labels (name_of (a ++ b)) (S (length b)) (length a) (W ++ lwire a) with
  | Ok w' => w' = W ++ wire_of (a ++ b) /\ length w' <= 255
  | Err _ => 255 < length W + wire_len (a ++ b)
  | Panic => False
  end.
Proof.
  induction b as [|l b IH]; intros a Hg; cbn [nb_push_labels]; rewrite (label_at_name_of _ _ Hg); cbn [hd];
    rewrite wire_len_app; unfold try_extend; change max_wire_len with 255; rewrite !app_length; cbn [length].
  - change (wire_len []) with 1.
    destruct (255 <=? length W + length (lwire a)) eqn:E1; [apply Nat.leb_le in E1; lia|].
    destruct (255 <? length W + length (lwire a) + 1 + 0) eqn:E2; [apply Nat.ltb_lt in E2; lia|].
    apply Nat.ltb_ge in E2. cbn [nb_push_labels]. change (N.of_nat 0 mod 256)%N with 0%N.
    rewrite !app_nil_r. unfold wire_of. rewrite app_assoc, !app_length. cbn [length]. split; [reflexivity|lia].
  - destruct Hg as [Hf Hw]. pose proof (wire_len_pos b). rewrite wire_len_cons.
    assert (Hl : good_label l) by (apply Forall_app in Hf; destruct Hf as [_ Hf]; inversion Hf; assumption).
    destruct (255 <=? length W + length (lwire a)) eqn:E1; [apply Nat.leb_le in E1; lia|].
    destruct (255 <? length W + length (lwire a) + 1 + length l) eqn:E2; [apply Nat.ltb_lt in E2; lia|].
    specialize (IH (a ++ [l])). rewrite <- app_cons_snoc, app_length, lwire_snoc, wire_len_app, wire_len_cons in IH.
    cbn [length] in IH. rewrite Nat.add_1_r in IH. unfold good_label in Hl.
    rewrite N.mod_small, <- !app_assoc by lia. apply IH. split; assumption.
Qed.

Lemma nb_push_offsets_cons o t base acc : (o + base < 256)%N -> length acc < 128 ->
  nb_push_offsets (o :: t) base acc = nb_push_offsets t base (acc ++ [(o + base)%N]).
Proof.
  intros H1 H2. cbn [nb_push_offsets]. change max_n_labels with 128.
  rewrite (proj2 (N.leb_gt _ _) H1), (proj2 (Nat.leb_gt _ _) H2). reflexivity.
Qed.

Lemma nb_push_offsets_ok b0 : forall ss k acc,
  k + b0 + wire_len ss <= 256 -> length acc + length ss < 128 ->
  nb_push_offsets (offs_of k ss) (N.of_nat b0) acc = Some (acc ++ offs_of (k + b0) ss).
Proof.
  induction ss as [|l r IH]; intros k acc Hk Hn; cbn [offs_of]; cbn [length] in Hn.
  - change (wire_len []) with 1 in Hk. rewrite !N.mod_small, nb_push_offsets_cons by lia.
    cbn [nb_push_offsets]. feq.
  - rewrite wire_len_cons in Hk. pose proof (wire_len_pos r).
    rewrite !N.mod_small, nb_push_offsets_cons by lia.
    rewrite IH by (rewrite ?app_length; cbn [length]; lia). rewrite <- app_assoc. cbn [app]. feq.
Qed.

Lemma nb_finish_with_suffix_spec b ds cur ss : nb_inv b ds cur -> good_labels ss ->
  match nb_finish_with_suffix b (name_of ss) with
  | Ok nm => nm = name_of (ds ++ cur :: ss) /\ good_labels (ds ++ cur :: ss)
  | Err _ => length cur = 0 \/ 255 < wire_len (ds ++ cur :: ss)
  | Panic => False
  end.
Proof.
  intros Hinv Hss. pose proof Hinv as (Hw & Ho & Hs & Hl & Hg & Hc & Hlen).
  unfold nb_finish_with_suffix. rewrite (nb_fq_inv b ds cur Hinv).
  destruct (length cur =? 0) eqn:E0; [apply Nat.eqb_eq in E0; auto|]. apply Nat.eqb_neq in E0.
  rewrite (nb_update_ok b ds cur Hinv), (app_cons_snoc ds cur ss), wire_len_app. cbv zeta. set (w := lwire (ds ++ [cur])).
  pose proof (nb_push_labels_spec w ss [] Hss) as HP. cbn [app length lwire flat_map] in HP. rewrite app_nil_r in HP.
  change (n_offsets (name_of ss)) with (offs_of 0 ss). rewrite offs_of_length.
  destruct (nb_push_labels (name_of ss) (S (length ss)) 0 w) as [w'|e|]; cbn [bind]; [|auto|exact HP].
  destruct HP as [-> HL]. rewrite app_length in HL. fold (wire_len ss) in HL. pose proof (wire_len_pos ss).
  assert (Hgood : good_labels ((ds ++ [cur]) ++ ss)).
  { split; [|rewrite wire_len_app; exact HL]. destruct Hss as [Hgs _].
    repeat (apply Forall_app; split); [exact Hg| |exact Hgs]. constructor; [unfold good_label; lia|constructor]. }
  pose proof (good_labels_count _ Hgood) as Hcnt. rewrite !app_length in Hcnt. cbn [length] in Hcnt.
  rewrite N.mod_small by lia.
  rewrite (nb_push_offsets_ok (length w) ss 0 (nb_offs b)); [|simpl; lia|rewrite Ho, offs_of_length; lia].
  split; [|exact Hgood]. unfold name_of. rewrite wire_of_app. f_equal.
  rewrite <- app_cons_snoc, offs_of_app, Ho. reflexivity.
Qed.

Lemma nb_finish_with_suffix_ok b ds cur suffix : nb_inv b ds cur -> good_name suffix ->
  match nb_finish_with_suffix b suffix with
  | Ok nm => good_name nm
  | Err _ => True
  | Panic => False
  end.
Proof.
  intros Hinv (ss & Hss & ->). pose proof (nb_finish_with_suffix_spec b ds cur ss Hinv Hss) as S.
  destruct (nb_finish_with_suffix b (name_of ss)) as [nm|e|]; [|exact I|exact S].
  exists (ds ++ cur :: ss). tauto.
Qed.

Lemma nb_finish_with_suffix_exact b ds cur ss : nb_inv b ds cur -> 1 <= length cur ->
  good_labels ss -> good_labels (ds ++ cur :: ss) ->
  nb_finish_with_suffix b (name_of ss) = Ok (name_of (ds ++ cur :: ss)).
Proof.
  intros Hinv Hc Hss [_ Hall]. pose proof (nb_finish_with_suffix_spec b ds cur ss Hinv Hss) as S.
  destruct (nb_finish_with_suffix b (name_of ss)) as [nm|e|]; [destruct S as [-> _]; reflexivity|lia|contradiction].
Qed.
