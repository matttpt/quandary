(* C23 — the framework for "parse (render x) = x" proofs: [runs T m s b b' v] says that the parser
   action m, started on any reader whose unconsumed input begins with the text s (followed by any tail t
   satisfying T), in parenthesis state b, succeeds with value v, consumes exactly s, leaves parenthesis
   state b' and advances the line counter by the number of LF octets in s.  Plus the reader-level facts:
   field navigation over rendered separators, read_field / expect_field on tokens. *)
From QV Require Import Base.ListX Model.ZfReader Model.ZfParser Proofs.ZfReaderP Proofs.ZfFieldsP Spec.ZfRenderS.

Local Open Scope N_scope.

Lemma count_nl_app a b : count_nl (a ++ b) = count_nl a + count_nl b.
Proof. unfold count_nl. rewrite count_occ_app. lia. Qed.

Lemma count_nl_nil : count_nl [] = 0. Proof. reflexivity. Qed.

Lemma count_nl_cons c s : count_nl (c :: s) = (if c =? 10 then 1 else 0) + count_nl s.
Proof.
  unfold count_nl. destruct (N.eq_dec c 10) as [->|Hne].
  - rewrite count_occ_cons_eq by reflexivity. rewrite Nat2N.inj_succ. change (10 =? 10) with true. cbv iota. lia.
  - rewrite count_occ_cons_neq by exact Hne. apply N.eqb_neq in Hne. rewrite Hne. lia.
Qed.

Lemma count_nl_none s : Forall (fun c => c <> 10) s -> count_nl s = 0.
Proof.
  induction 1 as [|c s Hc _ IH]; [reflexivity|]. rewrite count_nl_cons, IH.
  apply N.eqb_neq in Hc. rewrite Hc. reflexivity.
Qed.

Definition post (r r' : rd) (s t : bytes) (b' : bool) : Prop :=
  r_rest r' = t /\ r_paren r' = b' /\ p_line (r_pos r') = p_line (r_pos r) + count_nl s /\ r_fuel r' = r_fuel r.

(* [runs] inside a loop on fuel n: the caller took n from the reader's fuel bound (runs_get_fuel), so the
   unconsumed input is shorter than n and one unit can be spent per octet read *)
Definition runsN {A} (n : nat) (T : bytes -> Prop) (m : M A) (s : bytes) (b b' : bool) (v : A) : Prop :=
  forall r t, r_rest r = s ++ t -> r_paren r = b -> wfr r -> (length (r_rest r) < n)%nat -> T t ->
  exists r', m r = Ok (v, r') /\ post r r' s t b'.

Definition runs {A} (T : bytes -> Prop) (m : M A) (s : bytes) (b b' : bool) (v : A) : Prop :=
  forall r t, r_rest r = s ++ t -> r_paren r = b -> wfr r -> T t ->
  exists r', m r = Ok (v, r') /\ post r r' s t b'.

(* the same with a predicate on the value (for results that carry a position) *)
Definition runsQ {A} (T : bytes -> Prop) (m : M A) (s : bytes) (b b' : bool) (Q : A -> Prop) : Prop :=
  forall r t, r_rest r = s ++ t -> r_paren r = b -> wfr r -> T t ->
  exists r' v, m r = Ok (v, r') /\ post r r' s t b' /\ Q v.

Definition anyt (t : bytes) : Prop := True.
Definition fend (t : bytes) : Prop := at_field_end_at t 0 = Ok true.
Definition fstart (t : bytes) : Prop := at_field_end_at t 0 = Ok false.

Lemma post_refl r : post r r [] (r_rest r) (r_paren r).
Proof. unfold post. rewrite count_nl_nil, N.add_0_r. auto. Qed.

Lemma post_rest r r' s t b' : post r r' s t b' -> r_rest r' = t.
Proof. intros H. apply H. Qed.

Lemma post_paren r r' s t b' : post r r' s t b' -> r_paren r' = b'.
Proof. intros H. apply H. Qed.

Lemma post_trans r r1 r2 s1 s2 t b1 b2 :
  post r r1 s1 (s2 ++ t) b1 -> post r1 r2 s2 t b2 -> post r r2 (s1 ++ s2) t b2.
Proof.
  intros (A1 & A2 & A3 & A4) (B1 & B2 & B3 & B4). unfold post.
  rewrite count_nl_app. repeat split; auto; try congruence. rewrite B3, A3. lia.
Qed.

Lemma post_wfr r r' s t b' : wfr r -> r_rest r = s ++ t -> post r r' s t b' -> wfr r'.
Proof.
  intros W E (A1 & _ & _ & A4). unfold wfr in *. rewrite A1, A4. rewrite E, app_length in W. lia.
Qed.

Lemma post_len r r' s t b' : r_rest r = s ++ t -> post r r' s t b' ->
  (length (r_rest r') + length s = length (r_rest r))%nat.
Proof. intros E (A1 & _). rewrite A1, E, app_length. lia. Qed.

Lemma runs_N {A} n (T : bytes -> Prop) (m : M A) s b b' v : runs T m s b b' v -> runsN n T m s b b' v.
Proof. intros H r t E P W _ Ht. apply H; assumption. Qed.

Lemma runs_weaken {A} (T T' : bytes -> Prop) (m : M A) s b b' v :
  (forall t, T' t -> T t) -> runs T m s b b' v -> runs T' m s b b' v.
Proof. intros HT H r t E P W Ht. apply H; auto. Qed.

Lemma runsN_weaken {A} n (T T' : bytes -> Prop) (m : M A) s b b' v :
  (forall t, T' t -> T t) -> runsN n T m s b b' v -> runsN n T' m s b b' v.
Proof. intros HT H r t E P W L Ht. apply H; auto. Qed.

Lemma runsN_iff_runs {A} n (T : bytes -> Prop) (m : M A) s b b' v :
  runsN n T m s b b' v <-> runs (fun t => (length (s ++ t) < n)%nat /\ T t) m s b b' v.
Proof.
  split; intros H r t E P W.
  - intros [L Ht]. apply H; auto. rewrite E. exact L.
  - intros L Ht. apply H; auto. rewrite <- E. auto.
Qed.

Lemma runsQ_of_runs {A} (T : bytes -> Prop) (m : M A) s b b' v (Q : A -> Prop) : runs T m s b b' v -> Q v -> runsQ T m s b b' Q.
Proof. intros H HQ r t E P W Ht. destruct (H r t E P W Ht) as (r' & F & Po). eauto. Qed.

Lemma runs_of_runsQ {A} (T : bytes -> Prop) (m : M A) s b b' v : runsQ T m s b b' (fun x => x = v) -> runs T m s b b' v.
Proof. intros H r t E P W Ht. destruct (H r t E P W Ht) as (r' & x & F & Po & ->). eauto. Qed.

Lemma runsQ_bind {A B} (T1 T2 : bytes -> Prop) (m : M A) (f : A -> M B) s1 s2 b b1 b2 (Q1 : A -> Prop) Q :
  runsQ T1 m s1 b b1 Q1 -> (forall t, T2 t -> T1 (s2 ++ t)) -> (forall v1, Q1 v1 -> runsQ T2 (f v1) s2 b1 b2 Q) ->
  runsQ T2 (bindM m f) (s1 ++ s2) b b2 Q.
Proof.
  intros H1 HT H2 r t E P W Ht. rewrite <- app_assoc in E.
  destruct (H1 r (s2 ++ t) E P W (HT t Ht)) as (r1 & v1 & E1 & P1 & HQ1).
  destruct (H2 v1 HQ1 r1 t (post_rest _ _ _ _ _ P1) (post_paren _ _ _ _ _ P1) (post_wfr _ _ _ _ _ W E P1) Ht)
    as (r2 & v & E2 & P2 & HQ).
  exists r2, v. unfold bindM. rewrite E1. split; [exact E2|]. split; [|exact HQ]. eapply post_trans; eassumption.
Qed.

Lemma runs_bind_Q {A B} (T1 T2 : bytes -> Prop) (m : M A) (f : A -> M B) s1 s2 b b1 b2 v1 Q :
  runs T1 m s1 b b1 v1 -> (forall t, T2 t -> T1 (s2 ++ t)) -> runsQ T2 (f v1) s2 b1 b2 Q ->
  runsQ T2 (bindM m f) (s1 ++ s2) b b2 Q.
Proof.
  intros H1 HT H2. apply (runsQ_bind T1 T2 m f s1 s2 b b1 b2 (fun x => x = v1) Q).
  - apply (runsQ_of_runs _ _ _ _ _ v1); [exact H1|reflexivity].
  - exact HT.
  - intros v ->. exact H2.
Qed.

Lemma runs_bind {A B} (T1 T2 : bytes -> Prop) (m : M A) (f : A -> M B) s1 s2 b b1 b2 v1 v2 :
  runs T1 m s1 b b1 v1 -> (forall t, T2 t -> T1 (s2 ++ t)) -> runs T2 (f v1) s2 b1 b2 v2 ->
  runs T2 (bindM m f) (s1 ++ s2) b b2 v2.
Proof.
  intros H1 HT H2. apply runs_of_runsQ. eapply runs_bind_Q; [exact H1|exact HT|].
  apply (runsQ_of_runs _ _ _ _ _ v2); [exact H2|reflexivity].
Qed.

(* with fuel bounds: the second action needs what is left of the bound after s1 *)
Lemma runsN_bind_gen {A B} n n1 n2 (T1 T2 : bytes -> Prop) (m : M A) (f : A -> M B) s1 s2 b b1 b2 v1 v2 :
  runsN n1 T1 m s1 b b1 v1 -> (forall t, T2 t -> T1 (s2 ++ t)) -> runsN n2 T2 (f v1) s2 b1 b2 v2 ->
  (n <= n1)%nat -> (n <= n2 + length s1)%nat ->
  runsN n T2 (bindM m f) (s1 ++ s2) b b2 v2.
Proof.
  intros H1 HT H2 L1 L2. apply runsN_iff_runs. apply runsN_iff_runs in H1, H2.
  eapply runs_bind; [exact H1| |eapply runs_weaken; [|exact H2]]; cbv beta;
    intros t [L Ht]; rewrite <- app_assoc, app_length in L.
  - split; [rewrite app_length; lia|exact (HT t Ht)].
  - split; [lia|exact Ht].
Qed.

Lemma runsN_bind {A B} n (T1 T2 : bytes -> Prop) (m : M A) (f : A -> M B) s1 s2 b b1 b2 v1 v2 :
  runs T1 m s1 b b1 v1 -> (forall t, T2 t -> T1 (s2 ++ t)) -> runsN n T2 (f v1) s2 b1 b2 v2 ->
  runsN n T2 (bindM m f) (s1 ++ s2) b b2 v2.
Proof. intros H1 HT H2. eapply (runsN_bind_gen n n n); [apply runs_N; exact H1|exact HT|exact H2|lia|lia]. Qed.

Lemma runsN_bind_dec {A B} n (T1 T2 : bytes -> Prop) (m : M A) (f : A -> M B) s1 s2 b b1 b2 v1 v2 :
  runs T1 m s1 b b1 v1 -> s1 <> [] -> (forall t, T2 t -> T1 (s2 ++ t)) -> runsN n T2 (f v1) s2 b1 b2 v2 ->
  runsN (S n) T2 (bindM m f) (s1 ++ s2) b b2 v2.
Proof.
  intros H1 Hne HT H2. eapply (runsN_bind_gen (S n) (S n) n); [apply runs_N; exact H1|exact HT|exact H2|lia|].
  destruct s1; [congruence|simpl; lia].
Qed.

Lemma runsN_bind_l {A B} n (T1 T2 : bytes -> Prop) (m : M A) (f : A -> M B) s1 s2 b b1 b2 v1 v2 :
  runsN n T1 m s1 b b1 v1 -> (forall t, T2 t -> T1 (s2 ++ t)) -> runs T2 (f v1) s2 b1 b2 v2 ->
  runsN n T2 (bindM m f) (s1 ++ s2) b b2 v2.
Proof. intros H1 HT H2. eapply (runsN_bind_gen n n n); [exact H1|exact HT|apply runs_N; exact H2|lia|lia]. Qed.

Lemma runs_ret {A} (T : bytes -> Prop) (v : A) b : runs T (ret v) [] b b v.
Proof.
  intros r t E P W _. exists r. split; [reflexivity|]. simpl in E. subst t b. apply post_refl.
Qed.

Lemma runs_eq {A} (T : bytes -> Prop) (m m' : M A) s b b' v : (forall r, m r = m' r) -> runs T m' s b b' v -> runs T m s b b' v.
Proof. intros Hm H r t E P W Ht. rewrite Hm. apply H; assumption. Qed.

Lemma runsN_eq {A} n (T : bytes -> Prop) (m m' : M A) s b b' v : (forall r, m r = m' r) -> runsN n T m' s b b' v -> runsN n T m s b b' v.
Proof. intros Hm H r t E P W L Ht. rewrite Hm. apply H; assumption. Qed.

Lemma runsQ_eq {A} (T : bytes -> Prop) (m m' : M A) s b b' Q : (forall r, m r = m' r) -> runsQ T m' s b b' Q -> runsQ T m s b b' Q.
Proof. intros Hm H r t E P W Ht. rewrite Hm. apply H; assumption. Qed.

Lemma runs_getpos {A} (T : bytes -> Prop) (f : pos -> M A) s b b' v :
  (forall p, runs T (f p) s b b' v) -> runs T (bindM getpos f) s b b' v.
Proof. intros H r t E P W Ht. unfold bindM, getpos. apply H; assumption. Qed.

Lemma runsN_getpos {A} n (T : bytes -> Prop) (f : pos -> M A) s b b' v :
  (forall p, runsN n T (f p) s b b' v) -> runsN n T (bindM getpos f) s b b' v.
Proof. intros H r t E P W L Ht. unfold bindM, getpos. apply H; assumption. Qed.

Lemma runsQ_getpos {A} (T : bytes -> Prop) (f : pos -> M A) s b b' Q :
  (forall p, runsQ T (f p) s b b' Q) -> runsQ T (bindM getpos f) s b b' Q.
Proof. intros H r t E P W Ht. unfold bindM, getpos. apply H; assumption. Qed.

Lemma runs_get_fuel {A} (T : bytes -> Prop) (f : nat -> M A) s b b' v :
  (forall n, runsN n T (f n) s b b' v) -> runs T (bindM get_fuel f) s b b' v.
Proof.
  intros H r t E P W Ht. unfold bindM, get_fuel. apply H; try assumption. unfold wfr in W. lia.
Qed.

Lemma runs_peek {A B} (T : bytes -> Prop) (m : M A) (f : A -> M B) a s b b' v :
  (forall r t, r_rest r = s ++ t -> T t -> m r = Ok (a, r)) -> runs T (f a) s b b' v ->
  runs T (bindM m f) s b b' v.
Proof. intros Hm Hf r t E P W Ht. unfold bindM. rewrite (Hm r t E Ht). apply Hf; assumption. Qed.

Lemma runs_app_nil {A} (T : bytes -> Prop) (m : M A) s b b' v : runs T m (s ++ []) b b' v -> runs T m s b b' v.
Proof. rewrite app_nil_r. auto. Qed.

Lemma runsN_app_nil {A} n (T : bytes -> Prop) (m : M A) s b b' v : runsN n T m (s ++ []) b b' v -> runsN n T m s b b' v.
Proof. rewrite app_nil_r. auto. Qed.

Lemma runsN_0 {A} (T : bytes -> Prop) (m : M A) s b b' v : runsN 0 T m s b b' v.
Proof. intros r t _ _ _ L. lia. Qed.

Lemma runs_try_ok {A} (T : bytes -> Prop) (m : M A) s b b' v :
  runs T m s b b' v -> runs T (try_ok m) s b b' (Some v).
Proof.
  intros H r t E P W Ht. destruct (H r t E P W Ht) as (r' & F & Q). exists r'. unfold try_ok. rewrite F. auto.
Qed.

Lemma try_ok_fails {A} (m : M A) r p k : m r = Err (ZErr p k) -> try_ok m r = Ok (None, r).
Proof. intros H. unfold try_ok. rewrite H. reflexivity. Qed.

Lemma bindM_assoc {A B C} (m : M A) (f : A -> M B) (g : B -> M C) r :
  bindM (bindM m f) g r = bindM m (fun x => bindM (f x) g) r.
Proof. unfold bindM. destruct (m r) as [[a r']|e|]; reflexivity. Qed.

(* an octet that neither ends a field nor can begin a line ending *)
Definition plainb (c : N) : bool := negb (ends_field c) && negb (c =? 10) && negb (c =? 13).

Lemma plainb_spec c : plainb c = true -> ends_field c = false /\ (c =? 10) = false /\ (c =? 13) = false.
Proof.
  unfold plainb. intros H. apply andb_true_iff in H. destruct H as [H H13].
  apply andb_true_iff in H. destruct H as [He H10]. apply negb_true_iff in He, H10, H13. auto.
Qed.

Lemma get_eol_other c t : (c =? 10) = false -> (c =? 13) = false -> get_eol_at (c :: t) 0 = None.
Proof.
  intros H10 H13. unfold get_eol_at. cbn [nth_error]. rewrite H10, H13.
  destruct (nth_error (c :: t) (0 + 1)); reflexivity.
Qed.

Lemma fstart_plain c t : plainb c = true -> fstart (c :: t).
Proof.
  intros H. destruct (plainb_spec c H) as (He & H10 & H13). unfold fstart, at_field_end_at.
  rewrite (get_eol_other c t H10 H13). cbn [nth_error]. rewrite He. reflexivity.
Qed.

Lemma fstart_inv t : fstart t -> exists c t', t = c :: t' /\ ends_field c = false /\ get_eol_at t 0 = None.
Proof.
  unfold fstart, at_field_end_at. destruct (get_eol_at t 0) eqn:E; [discriminate|].
  destruct t as [|c t']; [discriminate|]. cbn [nth_error]. intros [= H]. eauto.
Qed.

Lemma ends_field_ws c : ends_field c = false -> is_whitespace c = false.
Proof. unfold ends_field. destruct (is_whitespace c); [discriminate|reflexivity]. Qed.

Lemma fend_nil : fend []. Proof. reflexivity. Qed.

Lemma fend_cons c t : ends_field c = true \/ c = 10 -> fend (c :: t).
Proof.
  intros H. unfold fend, at_field_end_at. destruct (get_eol_at (c :: t) 0) eqn:E; [reflexivity|].
  cbn [nth_error]. destruct H as [H| ->]; [rewrite H; reflexivity|]. discriminate.
Qed.

Lemma fend_crlf t : fend (13 :: 10 :: t). Proof. reflexivity. Qed.

Lemma post_adv r s t : r_rest r = s ++ t -> Forall (fun c => c <> 10) s ->
  post r (adv r (length s)) s t (r_paren r).
Proof.
  intros E Hs. unfold post, adv. cbn [r_rest r_paren r_pos p_line r_fuel].
  rewrite E, (skipn_app_exact s t), (count_nl_none s Hs), N.add_0_r. auto.
Qed.

Lemma post_adv1 r c t : r_rest r = c :: t -> c <> 10 -> post r (adv r 1) [c] t (r_paren r).
Proof.
  intros E Hc. apply (post_adv r [c] t E). constructor; [exact Hc|constructor].
Qed.

Lemma rfo_plain c b : plainb c = true -> runs anyt read_field_octet [c] b b (Some c).
Proof.
  intros Hc r t E P W _. simpl in E. unfold read_field_octet.
  pose proof (fstart_plain c t Hc) as Hf. unfold fstart in Hf. rewrite E, Hf. cbn [bind].
  exists (adv r 1). split; [reflexivity|]. subst b. apply post_adv1; [exact E|].
  apply N.eqb_neq, (plainb_spec c Hc).
Qed.

Lemma rfo_end b : runs fend read_field_octet [] b b None.
Proof.
  intros r t E P W Ht. simpl in E. unfold read_field_octet. rewrite E. unfold fend in Ht. rewrite Ht. cbn [bind].
  exists r. split; [reflexivity|]. subst t b. apply post_refl.
Qed.

Lemma read_octet_runs c b : runs anyt (lift read_octet) [c] b b (Some c).
Proof.
  intros r t E P W _. simpl in E. unfold lift, read_octet. rewrite E.
  eexists. split; [reflexivity|]. unfold post. rewrite count_nl_cons, count_nl_nil.
  destruct (c =? 10) eqn:Ec; unfold adv_line, adv; cbn [r_rest r_paren r_pos p_line r_fuel]; rewrite E; simpl skipn;
    repeat split; auto; lia.
Qed.

Lemma blanks_ok_ws b : blanks_ok b = true -> Forall (fun c => is_whitespace c = true) b.
Proof. intros H. apply Forall_forall, forallb_forall, H. Qed.

Lemma blanks_no_nl b : blanks_ok b = true -> Forall (fun c => c <> 10) b.
Proof.
  intros H. apply blanks_ok_ws in H. eapply Forall_impl; [|exact H]. intros c Hc ->. discriminate.
Qed.

Definition not_ws_head (l : bytes) : Prop := match l with c :: _ => is_whitespace c = false | [] => True end.

Lemma count_ws_app b l : blanks_ok b = true -> not_ws_head l -> count_ws (b ++ l) = length b.
Proof.
  intros Hb Hl. apply blanks_ok_ws in Hb. induction Hb as [|c b Hc _ IH]; simpl.
  - destruct l as [|c t]; [reflexivity|]. simpl in Hl. simpl. rewrite Hl. reflexivity.
  - rewrite Hc, IH. reflexivity.
Qed.

Lemma skip_ws_post r b l : blanks_ok b = true -> not_ws_head l -> r_rest r = b ++ l ->
  snd (skip_whitespace r) = adv r (length b) /\ post r (adv r (length b)) b l (r_paren r) /\
  fst (skip_whitespace r) = negb (beq b []).
Proof.
  intros Hb Hl E. unfold skip_whitespace. cbn [fst snd]. rewrite E, (count_ws_app b l Hb Hl).
  split; [reflexivity|]. split.
  - apply post_adv; [exact E|]. apply blanks_no_nl. exact Hb.
  - destruct b; reflexivity.
Qed.

Lemma fend_blanks bl l : bl <> [] -> blanks_ok bl = true -> fend (bl ++ l).
Proof.
  destruct bl as [|c bl]; [congruence|]. intros _ H. apply blanks_ok_ws in H. inversion H as [|? ? Hc _]; subst.
  apply fend_cons. left. unfold ends_field. rewrite Hc. reflexivity.
Qed.

Lemma get_eol_nl crlf l : get_eol_at (render_nl crlf ++ l) 0 = Some (length (render_nl crlf)).
Proof. destruct crlf; reflexivity. Qed.

Lemma nl_count crlf : count_nl (render_nl crlf) = 1. Proof. destruct crlf; reflexivity. Qed.

Lemma nl_not_ws crlf l : not_ws_head (render_nl crlf ++ l). Proof. destruct crlf; reflexivity. Qed.

Lemma post_adv_line r crlf t : r_rest r = render_nl crlf ++ t ->
  post r (adv_line r (length (render_nl crlf))) (render_nl crlf) t (r_paren r).
Proof.
  intros E. unfold post, adv_line. cbn [r_rest r_paren r_pos p_line r_fuel].
  rewrite E, skipn_app_exact, nl_count. auto.
Qed.

Lemma comment_no_nl x : comment_ok x = true -> Forall (fun c => c <> 10) x.
Proof.
  unfold comment_ok. rewrite forallb_forall, Forall_forall. intros H c Hc Heq. apply H in Hc. subst c. discriminate.
Qed.

(* a comment body x in front of l, where l begins with a line end of e octets or is empty (e = 0) *)
Lemma to_eol_comment x l e : comment_ok x = true -> to_eol l = (O, e) -> to_eol (x ++ l) = (length x, e).
Proof.
  intros H Hl. induction x as [|c x IH]; [exact Hl|].
  cbn [comment_ok forallb] in H. apply andb_true_iff in H. destruct H as [Hc Hx].
  apply negb_true_iff, orb_false_iff in Hc. destruct Hc as [H10 H13].
  cbn [app to_eol]. rewrite (get_eol_other _ _ H10 H13), (IH Hx). reflexivity.
Qed.

Lemma to_eol_nl crlf l : to_eol (render_nl crlf ++ l) = (O, length (render_nl crlf)).
Proof. destruct crlf; reflexivity. Qed.

Lemma skip_comment_post r x crlf t : comment_ok x = true -> r_rest r = (59 :: x ++ render_nl crlf) ++ t ->
  post r (skip_through_eol r) (59 :: x ++ render_nl crlf) t (r_paren r).
Proof.
  intros Hx E. change (comment_ok (59 :: x) = true) in Hx.
  change (r_rest r = ((59 :: x) ++ render_nl crlf) ++ t) in E. rewrite <- app_assoc in E.
  unfold skip_through_eol, eol_skipping_impl. rewrite E, (to_eol_comment _ _ _ Hx (to_eol_nl crlf t)).
  replace (0 <? length (render_nl crlf))%nat with true by (destruct crlf; reflexivity). cbn [andb].
  pose proof (post_adv r (59 :: x) _ E (comment_no_nl _ Hx)) as P1.
  exact (post_trans _ _ _ _ _ _ _ _ P1 (post_adv_line _ crlf t (post_rest _ _ _ _ _ P1))).
Qed.

Lemma sitem_not_ws i l : not_ws_head (render_sitem i ++ l).
Proof. destruct i as [| |c|x c]; try reflexivity. apply nl_not_ws. Qed.

Definition render_groups_s (gs : list (bytes * sitem)) : bytes := flat_map render_group_s gs.

Lemma render_groups_s_cons bl it gs l :
  render_groups_s ((bl, it) :: gs) ++ l = (bl ++ render_sitem it) ++ render_groups_s gs ++ l.
Proof. symmetry. apply app_assoc. Qed.

(* one round of the loop per group: the blanks, then the item.  The conclusion equates two calls of the loop
   and gives no result: whether it ends at a field or at a line end is known only after the last group
   (foe_field_base, foe_eol_base). *)
Lemma foe_group fuel through r bl it gs l p p' :
  groups_paren p ((bl, it) :: gs) = Some p' -> r_rest r = (bl ++ render_sitem it) ++ l -> r_paren r = p ->
  exists r2 p2, groups_paren p2 gs = Some p' /\ foe_loop (S fuel) through r = foe_loop fuel through r2 /\
    post r r2 (bl ++ render_sitem it) l p2.
Proof.
  cbn [groups_paren]. intros Hg E P. destruct (blanks_ok bl) eqn:Hbl; [|discriminate]. rewrite <- app_assoc in E.
  destruct (skip_ws_post r bl _ Hbl (sitem_not_ws it l) E) as (S1 & P1 & _).
  cbn [foe_loop]. rewrite S1. set (r1 := adv r (length bl)) in *. rewrite P in P1.
  pose proof (post_rest _ _ _ _ _ P1) as E1. pose proof (post_paren _ _ _ _ _ P1) as Pp. rewrite E1, Pp.
  destruct it as [| |crlf|x crlf]; cbn [render_sitem] in *.
  - destruct p; [discriminate|]. cbn [app]. rewrite get_eol_other by reflexivity.
    exists (adv (set_paren r1 true) 1), true. split; [exact Hg|]. split; [reflexivity|].
    eapply post_trans; [exact P1|]. exact (post_adv1 (set_paren r1 true) 40 l E1 ltac:(discriminate)).
  - destruct p; [|discriminate]. cbn [app]. rewrite get_eol_other by reflexivity.
    exists (adv (set_paren r1 false) 1), false. split; [exact Hg|]. split; [reflexivity|].
    eapply post_trans; [exact P1|]. exact (post_adv1 (set_paren r1 false) 41 l E1 ltac:(discriminate)).
  - destruct p; [|discriminate]. rewrite get_eol_nl.
    exists (adv_line r1 (length (render_nl crlf))), true. split; [exact Hg|]. split; [destruct crlf; reflexivity|].
    pose proof (post_adv_line r1 crlf l E1) as P2. rewrite Pp in P2. eapply post_trans; eassumption.
  - destruct p; [|discriminate]. cbn [andb] in Hg. destruct (comment_ok x) eqn:Hx; [|discriminate].
    cbn [app]. rewrite get_eol_other by reflexivity.
    exists (skip_through_eol r1), true. split; [exact Hg|]. split; [reflexivity|].
    pose proof (skip_comment_post r1 x crlf l Hx E1) as P2. rewrite Pp in P2. eapply post_trans; eassumption.
Qed.

Lemma render_sitem_nonempty it : render_sitem it <> [].
Proof. destruct it as [| |[|]|x c]; discriminate. Qed.

Lemma foe_groups : forall gs p p' fuel through r l,
  groups_paren p gs = Some p' -> r_rest r = render_groups_s gs ++ l -> r_paren r = p ->
  (length (r_rest r) < fuel)%nat ->
  exists r1 fuel1, foe_loop fuel through r = foe_loop fuel1 through r1 /\
    post r r1 (render_groups_s gs) l p' /\ (length (r_rest r1) < fuel1)%nat.
Proof.
  induction gs as [|[bl it] gs IH]; intros p p' fuel through r l Hg E P L.
  - injection Hg as <-. exists r, fuel. split; [reflexivity|]. split; [|exact L].
    simpl in E. rewrite <- E, <- P. apply post_refl.
  - destruct fuel as [|fuel]; [lia|]. rewrite render_groups_s_cons in E.
    destruct (foe_group fuel through r bl it gs _ p p' Hg E P) as (r2 & p2 & Hg2 & F & P2).
    pose proof (post_len _ _ _ _ _ E P2) as L2. rewrite app_length in L2.
    destruct (IH p2 p' fuel through r2 l Hg2 (post_rest _ _ _ _ _ P2) (post_paren _ _ _ _ _ P2))
      as (r3 & f3 & F3 & P3 & L3).
    { pose proof (render_sitem_nonempty it). destruct (render_sitem it); [congruence|simpl in L2; lia]. }
    exists r3, f3. rewrite F. split; [exact F3|]. split; [|exact L3].
    change (render_groups_s ((bl, it) :: gs)) with ((bl ++ render_sitem it) ++ render_groups_s gs).
    eapply post_trans; eassumption.
Qed.

Lemma render_sep_split s : render_sep s = render_groups_s (s_groups s) ++ s_tail s.
Proof. reflexivity. Qed.

Lemma fstart_not_ws t : fstart t -> not_ws_head t.
Proof. intros H. destruct (fstart_inv t H) as (c & t' & -> & Hc & _). simpl. apply ends_field_ws. exact Hc. Qed.

Lemma foe_field_base fuel through r bl t : blanks_ok bl = true -> fstart t -> r_rest r = bl ++ t ->
  (length (r_rest r) < fuel)%nat ->
  exists r', foe_loop fuel through r = Ok (Field, r') /\ post r r' bl t (r_paren r).
Proof.
  intros Hbl Ht E L. destruct fuel as [|fuel]; [lia|].
  destruct (skip_ws_post r bl t Hbl (fstart_not_ws t Ht) E) as (S1 & P1 & _).
  cbn [foe_loop]. rewrite S1, (post_rest _ _ _ _ _ P1).
  destruct (fstart_inv t Ht) as (c & t' & Et & Hc & He). rewrite He, Et.
  unfold ends_field in Hc. apply orb_false_iff in Hc. destruct Hc as [Hc H59].
  apply orb_false_iff in Hc. destruct Hc as [Hc H41]. apply orb_false_iff in Hc. destruct Hc as [_ H40].
  rewrite H59, H40, H41. eexists. split; [reflexivity|]. rewrite <- Et. exact P1.
Qed.

Theorem foe_field fuel through r s t p p' :
  sep_paren p s = Some p' -> fstart t -> r_rest r = render_sep s ++ t -> r_paren r = p ->
  (length (r_rest r) < fuel)%nat ->
  exists r', foe_loop fuel through r = Ok (Field, r') /\ post r r' (render_sep s) t p'.
Proof.
  unfold sep_paren. intros Hs Ht E P L. destruct (blanks_ok (s_tail s)) eqn:Hbl; [|discriminate].
  rewrite render_sep_split, <- app_assoc in E.
  destruct (foe_groups _ p p' fuel through r _ Hs E P L) as (r1 & f1 & F1 & P1 & L1).
  destruct (foe_field_base f1 through r1 _ t Hbl Ht (post_rest _ _ _ _ _ P1) L1) as (r2 & F2 & P2).
  exists r2. rewrite F1. split; [exact F2|]. rewrite render_sep_split.
  rewrite (post_paren _ _ _ _ _ P1) in P2. eapply post_trans; eassumption.
Qed.

(* the tail after a line end: nothing may follow an end of file *)
Definition eoft (tm : term) (t : bytes) : Prop := term_eof tm = true -> t = [].

Lemma term_not_ws tm t : eoft tm t -> not_ws_head (render_term tm ++ t).
Proof.
  intros H. destruct tm as [c|x c| |x]; cbn [render_term app]; try reflexivity.
  - apply nl_not_ws.
  - rewrite (H eq_refl). exact I.
Qed.

Lemma foe_eol_base fuel r bl tm t : blanks_ok bl = true -> term_ok tm = true -> eoft tm t ->
  r_rest r = bl ++ render_term tm ++ t -> r_paren r = false -> (length (r_rest r) < fuel)%nat ->
  exists r', foe_loop fuel true r = Ok (Eol, r') /\ post r r' (bl ++ render_term tm) t false.
Proof.
  intros Hbl Htm Ht E P L. destruct fuel as [|fuel]; [lia|].
  destruct (skip_ws_post r bl _ Hbl (term_not_ws tm t Ht) E) as (S1 & P1 & _).
  cbn [foe_loop]. rewrite S1. set (r1 := adv r (length bl)) in *. rewrite P in P1.
  pose proof (post_rest _ _ _ _ _ P1) as E1. pose proof (post_paren _ _ _ _ _ P1) as Pp. rewrite E1, Pp.
  destruct tm as [crlf|x crlf| |x]; cbn [render_term term_ok] in *.
  - rewrite get_eol_nl. exists (adv_line r1 (length (render_nl crlf))). split; [destruct crlf; reflexivity|].
    pose proof (post_adv_line r1 crlf t E1) as Q. rewrite Pp in Q. eapply post_trans; eassumption.
  - cbn [app]. rewrite get_eol_other by reflexivity. eexists. split; [reflexivity|].
    pose proof (skip_comment_post r1 x crlf t Htm E1) as Q. rewrite Pp in Q. eapply post_trans; eassumption.
  - rewrite (Ht eq_refl) in *. exists r1. split; [reflexivity|]. rewrite app_nil_r. exact P1.
  - rewrite (Ht eq_refl) in *. cbn [app]. rewrite get_eol_other by reflexivity. eexists. split; [reflexivity|].
    eapply post_trans; [exact P1|]. change (comment_ok (59 :: x) = true) in Htm.
    unfold skip_through_eol, eol_skipping_impl. rewrite E1, (to_eol_comment _ [] _ Htm eq_refl).
    pose proof (post_adv r1 (59 :: x) [] E1 (comment_no_nl _ Htm)) as Q. rewrite Pp in Q. exact Q.
Qed.

Theorem foe_eol fuel r e t p :
  eol_ok p e = true -> eoft (e_term e) t -> r_rest r = render_eol e ++ t -> r_paren r = p ->
  (length (r_rest r) < fuel)%nat ->
  exists r', foe_loop fuel true r = Ok (Eol, r') /\ post r r' (render_eol e) t false.
Proof.
  unfold eol_ok, sep_paren. intros He Ht E P L.
  destruct (blanks_ok (s_tail (e_sep e))) eqn:Hbl; [|discriminate].
  destruct (groups_paren p (s_groups (e_sep e))) as [[|]|] eqn:Hs; try discriminate.
  unfold render_eol in E. rewrite render_sep_split, <- !app_assoc in E.
  destruct (foe_groups _ p false fuel true r _ Hs E P L) as (r1 & f1 & F1 & P1 & L1).
  destruct (foe_eol_base f1 r1 _ _ t Hbl He Ht (post_rest _ _ _ _ _ P1) (post_paren _ _ _ _ _ P1) L1) as (r2 & F2 & P2).
  exists r2. rewrite F1. split; [exact F2|]. unfold render_eol. rewrite render_sep_split, <- app_assoc.
  eapply post_trans; [|exact P2]. rewrite <- app_assoc. exact P1.
Qed.

Lemma wfr_fuel r : wfr r -> (length (r_rest r) < foe_fuel r)%nat.
Proof. unfold wfr, foe_fuel. lia. Qed.

Theorem skip_to_next_field_runs k s p p' : sep_paren p s = Some p' ->
  runs fstart (skip_to_next_field k) (render_sep s) p p' tt.
Proof.
  intros Hs r t E P W Ht. unfold skip_to_next_field, skip_to_next_field_or_to_eol.
  destruct (foe_field (foe_fuel r) false r s t p p' Hs Ht E P (wfr_fuel r W)) as (r' & F & Q).
  rewrite F. cbn [bind]. exists r'. split; [reflexivity|exact Q].
Qed.

Theorem through_field_runs s p p' : sep_paren p s = Some p' ->
  runs fstart skip_to_next_field_or_through_eol (render_sep s) p p' Field.
Proof. intros Hs r t E P W Ht. exact (foe_field (foe_fuel r) true r s t p p' Hs Ht E P (wfr_fuel r W)). Qed.

Theorem to_field_runs s p p' : sep_paren p s = Some p' ->
  runs fstart skip_to_next_field_or_to_eol (render_sep s) p p' Field.
Proof. intros Hs r t E P W Ht. exact (foe_field (foe_fuel r) false r s t p p' Hs Ht E P (wfr_fuel r W)). Qed.

Theorem through_eol_runs e p : eol_ok p e = true ->
  runs (eoft (e_term e)) skip_to_next_field_or_through_eol (render_eol e) p false Eol.
Proof. intros He r t E P W Ht. exact (foe_eol (foe_fuel r) r e t p He Ht E P (wfr_fuel r W)). Qed.

Theorem expect_eol_runs e p : eol_ok p e = true ->
  runs (eoft (e_term e)) expect_eol (render_eol e) p false tt.
Proof.
  intros He r t E P W Ht. unfold expect_eol.
  destruct (through_eol_runs e p He r t E P W Ht) as (r' & F & Q). rewrite F. cbn [bind]. eauto.
Qed.

Lemma fend_sitem it l : fend (render_sitem it ++ l).
Proof.
  destruct it as [| |[|]|x c]; cbn [render_sitem render_nl app]; [| |apply fend_crlf| |];
    apply fend_cons; [left|left|right|left]; reflexivity.
Qed.

Lemma fend_sep s p p' l : sep_paren p s = Some p' -> sep_empty s = false -> fend (render_sep s ++ l).
Proof.
  unfold sep_paren, sep_empty. intros Hs Hne. destruct (blanks_ok (s_tail s)) eqn:Hbl; [|discriminate].
  rewrite render_sep_split, <- app_assoc. destruct (s_groups s) as [|[bl it] gs].
  - apply (fend_blanks (s_tail s) l); [|exact Hbl]. intros Ht. rewrite Ht in Hne. discriminate.
  - rewrite render_groups_s_cons, <- app_assoc. cbn [groups_paren] in Hs.
    destruct (blanks_ok bl) eqn:Hb; [|discriminate].
    destruct bl as [|c bl]; [apply fend_sitem|apply fend_blanks; [discriminate|exact Hb]].
Qed.

Lemma fend_term tm t : eoft tm t -> fend (render_term tm ++ t).
Proof.
  intros H. destruct tm as [c|x c| |x]; cbn [render_term].
  - exact (fend_sitem (SNl c) t).
  - exact (fend_sitem (SComment x c) t).
  - rewrite (H eq_refl). apply fend_nil.
  - apply fend_cons. left. reflexivity.
Qed.

Lemma fend_eol e p t : eol_ok p e = true -> eoft (e_term e) t -> fend (render_eol e ++ t).
Proof.
  intros He Ht. unfold render_eol. rewrite <- app_assoc.
  destruct (sep_empty (e_sep e)) eqn:Em.
  - unfold sep_empty in Em. unfold render_sep. destruct (s_groups (e_sep e)); [|discriminate].
    destruct (s_tail (e_sep e)); [|discriminate]. apply fend_term. exact Ht.
  - unfold eol_ok in He. destruct (sep_paren p (e_sep e)) as [p'|] eqn:Hs; [|discriminate].
    eapply fend_sep; eassumption.
Qed.

Definition tokch (c : N) : bool := plainb c && (c <? 128).

Lemma tokch_split tok : forallb tokch tok = true ->
  forallb plainb tok = true /\ forallb (fun c => c <? 128) tok = true.
Proof.
  rewrite !forallb_forall. intros H. split; intros c Hc; apply H, andb_true_iff in Hc; apply Hc.
Qed.

Lemma plain_no_nl tok : forallb plainb tok = true -> Forall (fun c => c <> 10) tok.
Proof.
  rewrite forallb_forall, Forall_forall. intros H c Hc. apply N.eqb_neq, (plainb_spec c (H c Hc)).
Qed.

Lemma scan_field_tok : forall tok t len, forallb plainb tok = true -> fend t ->
  len + N.of_nat (length tok) <= 65536 -> scan_field (tok ++ t) len = Ok (len + N.of_nat (length tok)).
Proof.
  induction tok as [|c tok IH]; intros t len Hp Ht Hl.
  - cbn [app length]. unfold fend in Ht. destruct t as [|d t]; cbn [scan_field]; rewrite Ht; f_equal; lia.
  - cbn [forallb] in Hp. apply andb_true_iff in Hp. destruct Hp as [Hc Hp].
    cbn [app scan_field]. pose proof (fstart_plain c (tok ++ t) Hc) as Hf. unfold fstart in Hf. rewrite Hf.
    change MAX_READ_FIELD_SIZE with 65536. cbn [length] in Hl.
    rewrite (proj2 (N.ltb_ge 65536 (len + 1))) by lia.
    rewrite IH; [f_equal; cbn [length]; lia|exact Hp|exact Ht|lia].
Qed.

Lemma utf8_ascii s : forallb (fun c => c <? 128) s = true -> utf8_valid s = true.
Proof.
  induction s as [|c s IH]; [reflexivity|]. cbn [forallb]. intros H. apply andb_true_iff in H. destruct H as [Hc Hs].
  cbn [utf8_valid]. rewrite Hc. apply IH. exact Hs.
Qed.

(* the field read is the token; what remains is the token's own parser *)
Lemma read_field_tok {T E} (parse : bytes -> T + E) k tok r t :
  forallb tokch tok = true -> N.of_nat (length tok) <= 65536 -> r_rest r = tok ++ t -> fend t ->
  read_field parse k r =
  match parse tok with inl v => Ok (v, adv r (length tok)) | inr e => fail (r_pos r) (k e) end.
Proof.
  intros Hc Hl Er Ht. destruct (tokch_split tok Hc) as [Hp Ha]. unfold read_field.
  rewrite Er, (scan_field_tok tok t 0 Hp Ht) by lia.
  rewrite N.add_0_l, Nat2N.id, firstn_app_exact, (utf8_ascii _ Ha). reflexivity.
Qed.

Theorem read_field_runs {T E} (parse : bytes -> T + E) k tok v b :
  forallb tokch tok = true -> N.of_nat (length tok) <= 65536 -> parse tok = inl v ->
  runs fend (read_field parse k) tok b b v.
Proof.
  intros Hc Hl Hp r t Er P W Ht. rewrite (read_field_tok parse k tok r t Hc Hl Er Ht), Hp.
  eexists. split; [reflexivity|]. subst b. apply post_adv; [exact Er|]. apply plain_no_nl, (tokch_split tok Hc).
Qed.

Theorem read_field_fails {T E} (parse : bytes -> T + E) k tok e r t :
  forallb tokch tok = true -> N.of_nat (length tok) <= 65536 -> parse tok = inr e ->
  r_rest r = tok ++ t -> fend t -> read_field parse k r = Err (ZErr (r_pos r) (k e)).
Proof. intros Hc Hl Hp Er Ht. rewrite (read_field_tok parse k tok r t Hc Hl Er Ht), Hp. reflexivity. Qed.

Lemma nth_error_app_len {A} (a t : list A) k : nth_error (a ++ t) (length a + k) = nth_error t k.
Proof. rewrite nth_error_app2 by lia. f_equal. lia. Qed.

Lemma at_field_end_at_app a t : at_field_end_at (a ++ t) (length a) = at_field_end_at t 0.
Proof.
  unfold at_field_end_at, get_eol_at. rewrite (nth_error_app_len a t 1).
  pose proof (nth_error_app_len a t 0) as H0. rewrite Nat.add_0_r in H0. rewrite H0. reflexivity.
Qed.

Lemma expect_field_tok fld cmp tok b : length tok = length fld -> cmp tok fld = true ->
  Forall (fun c => c <> 10) tok -> runs fend (expect_field_impl fld cmp) tok b b true.
Proof.
  intros Hl Hc Hn r t E P W Ht. unfold expect_field_impl.
  rewrite E, <- Hl, firstn_app_exact, Nat.eqb_refl, Hc, at_field_end_at_app. unfold fend in Ht. rewrite Ht. cbn [bind].
  eexists. split; [reflexivity|]. subst b. apply post_adv; assumption.
Qed.

Lemma expect_field_yes fld cmp b : cmp fld fld = true -> Forall (fun c => c <> 10) fld ->
  runs fend (expect_field_impl fld cmp) fld b b true.
Proof. apply expect_field_tok. reflexivity. Qed.

Lemma expect_field_cont fld cmp r c l : r_rest r = fld ++ c :: l -> plainb c = true ->
  expect_field_impl fld cmp r = Ok (false, r).
Proof.
  intros E Hc. unfold expect_field_impl. rewrite E, firstn_app_exact, Nat.eqb_refl, at_field_end_at_app.
  pose proof (fstart_plain c l Hc) as Hf. unfold fstart in Hf. rewrite Hf. cbn [bind].
  destruct (cmp fld fld); reflexivity.
Qed.

Lemma expect_field_differs fld cmp r :
  cmp (firstn (length fld) (r_rest r)) fld = false -> expect_field_impl fld cmp r = Ok (false, r).
Proof.
  intros H. unfold expect_field_impl. rewrite H. destruct (_ =? _)%nat; reflexivity.
Qed.

Lemma bytes_eqb_head c d a b : c <> d -> bytes_eqb (c :: a) (d :: b) = false.
Proof. intros H. cbn [bytes_eqb]. apply N.eqb_neq in H. rewrite H. reflexivity. Qed.

Lemma expect_field_unless fld r :
  (forall rest, r_rest r = fld ++ rest -> exists c l, rest = c :: l /\ plainb c = true) ->
  expect_field fld r = Ok (false, r).
Proof.
  intros H. destruct (bytes_eqb (firstn (length fld) (r_rest r)) fld) eqn:E; [|apply expect_field_differs; exact E].
  apply bytes_eqb_eq in E.
  assert (Er : r_rest r = fld ++ skipn (length fld) (r_rest r)) by (rewrite <- E at 1; symmetry; apply firstn_skipn).
  destruct (H _ Er) as (c & l & Hr & Hc). rewrite Hr in Er. exact (expect_field_cont fld bytes_eqb r c l Er Hc).
Qed.

(* facts about all octets (or all numbers below a bound) are proved by evaluating a boolean test over the list of
   them: state `forallb test octets256 = true`, prove it by vm_compute, read instances off with sweep_below *)
Definition octets256 : list N := map N.of_nat (seq 0 256).

Lemma sweep_below (P : N -> bool) k : forallb P (map N.of_nat (seq 0 k)) = true -> forall n, n < N.of_nat k -> P n = true.
Proof. intros H n Hn. rewrite forallb_forall in H. apply H. rewrite <- (N2Nat.id n). apply in_map, in_seq. lia. Qed.
