(* Rdata::read (model) against the executable read specification: same result,
   never a panic, never out of fuel, for every message, cursor and RDLENGTH. *)
From QV Require Import Base.ListX Spec.NameWireS Spec.NameRepr Proofs.NameWireP Proofs.NameWireSP
  Model.RdataM Spec.RdataFormatS Proofs.RdNameP Proofs.RdataFormatSP Proofs.RdataVP.
Local Open Scope nat_scope.

Definition ragrees (x : res rd_err bytes) (o : option bytes) : Prop :=
  match x with
  | Ok r => o = Some r
  | Err e => o = None /\ e <> ROutOfFuel /\ e <> InvalidName OutOfFuel
  | Panic => False
  end.

Lemma ragrees_other o : o = None -> ragrees (Err ROther) o.
Proof. intros ->. repeat split; discriminate. Qed.

Definition gram_of_d (d : dreader) : list field :=
  match d with
  | D_read_name_rdata => [FName]
  | D_read_ch_a => [FName; FBytes 2]
  | D_read_soa => [FName; FName; FBytes 4; FBytes 4; FBytes 4; FBytes 4; FBytes 4]
  | D_read_minfo => [FName; FName]
  | D_read_mx => [FBytes 2; FName]
  | D_read_in_srv => [FBytes 2; FBytes 2; FBytes 2; FName]
  end.

Lemma skipn_firstn_slice {A} (l : list A) p e : skipn p (firstn e l) = slice l p e.
Proof. unfold slice. apply skipn_firstn_comm. Qed.

Lemma slice_firstn {A} (l : list A) a b e : b <= e -> slice (firstn e l) a b = slice l a b.
Proof.
  intros H. unfold slice. rewrite skipn_firstn_comm, firstn_firstn. f_equal. lia.
Qed.

Lemma usub_ok {E} a b : b <= a -> @usub E a b = Ok (a - b).
Proof. intros H. unfold usub. destruct (Nat.ltb_spec a b); [lia|reflexivity]. Qed.

Lemma slice_range_ok {E} (l : bytes) a b : a <= b -> b <= length l -> @slice_range E l a b = Ok (slice l a b).
Proof.
  intros H1 H2. unfold slice_range, get_range.
  destruct (Nat.ltb_spec b a), (Nat.ltb_spec (length l) b); try lia. reflexivity.
Qed.

(* the last step of every reader: a length test, then the conversion to an Rdata (at most 65535
   octets; what the readers build is a few names and fixed fields, and 1000 is a bound lia reaches) *)
Lemma ragrees_done a b a' b' (v x : bytes) :
  (a = b <-> a' = b') -> (a' = b' -> v = x /\ length x <= 1000) ->
  ragrees (if a =? b then to_rdata v else Err ROther) (if a' =? b' then Some x else None).
Proof.
  intros Hab Hv. destruct (Nat.eqb_spec a b) as [E|E], (Nat.eqb_spec a' b') as [E'|E']; try tauto.
  - destruct (Hv E') as [-> L]. unfold to_rdata.
    destruct (N.ltb_spec 65535 (N.of_nat (length x))); [lia|reflexivity].
  - apply ragrees_other. reflexivity.
Qed.

(* s_cmatch one field at a time; [w] is what the fields before have produced *)

Lemma option_map_if {A B} (f : A -> B) (c : bool) x :
  option_map f (if c then Some x else None) = if c then Some (f x) else None.
Proof. destruct c; reflexivity. Qed.

Lemma option_map_app_nil {A} (o : option (list A)) : option_map (app []) o = o.
Proof. destruct o; reflexivity. Qed.

Lemma s_cmatch_name w msg e pos g :
  option_map (app w) (s_cmatch msg e pos (FName :: g)) =
  match spec_decode_name (firstn e msg) pos with
  | Some (ls, l) => option_map (app (w ++ wire_of ls)) (s_cmatch msg e (pos + l) g)
  | None => None
  end.
Proof.
  cbn [s_cmatch]. destruct (spec_decode_name _ pos) as [[ls l]|]; [|reflexivity].
  destruct (s_cmatch msg e (pos + l) g); [|reflexivity]. cbn. rewrite app_assoc. reflexivity.
Qed.

Lemma s_cmatch_bytes w msg e pos n g :
  option_map (app w) (s_cmatch msg e pos (FBytes n :: g)) =
  if pos + n <=? e then option_map (app (w ++ slice msg pos (pos + n))) (s_cmatch msg e (pos + n) g)
  else None.
Proof.
  cbn [s_cmatch]. destruct (pos + n <=? e); [|reflexivity].
  destruct (s_cmatch msg e (pos + n) g); [|reflexivity]. cbn. rewrite app_assoc. reflexivity.
Qed.

Lemma s_cmatch_nil msg e pos : s_cmatch msg e pos [] = if pos =? e then Some [] else None.
Proof. reflexivity. Qed.

Lemma s_cmatch_last_bytes msg e pos n :
  s_cmatch msg e pos [FBytes n] = if pos + n =? e then Some (slice msg pos (pos + n)) else None.
Proof.
  cbn [s_cmatch]. destruct (Nat.eqb_spec (pos + n) e) as [B|B].
  - rewrite (proj2 (Nat.leb_le _ _)), app_nil_r by lia. reflexivity.
  - destruct (pos + n <=? e); reflexivity.
Qed.

Lemma s_cmatch_merge msg e pos a b g :
  s_cmatch msg e pos (FBytes a :: FBytes b :: g) = s_cmatch msg e pos (FBytes (a + b) :: g).
Proof.
  cbn [s_cmatch]. replace (pos + (a + b)) with (pos + a + b) by lia.
  destruct (Nat.leb_spec0 (pos + a) e), (Nat.leb_spec0 (pos + a + b) e); try reflexivity; try lia.
  destruct (s_cmatch msg e (pos + a + b) g) as [out|]; [|reflexivity].
  rewrite app_assoc. rewrite <- (slice_app msg pos (pos + a) (pos + a + b)) by lia. reflexivity.
Qed.

(* every arm of Rdata::read first cuts the message at the end of the RDATA *)
Lemma ragrees_prepare msg cur rdlen body o :
  (cur + N.to_nat rdlen <= length msg -> ragrees (body (firstn (cur + N.to_nat rdlen) msg)) o) ->
  ragrees (let* buf := prepare_to_read_rdata msg cur rdlen in body buf)
          (if cur + N.to_nat rdlen <=? length msg then o else None).
Proof.
  intros Hb. unfold prepare_to_read_rdata.
  destruct (Nat.ltb_spec (length msg) (cur + N.to_nat rdlen)), (Nat.leb_spec0 (cur + N.to_nat rdlen) (length msg));
    try lia; cbn [bind]; [repeat split; discriminate|apply Hb; assumption].
Qed.

(* one compressed name: the reader's step against the specification's step *)
Lemma ragrees_pname msg e w pos g k : wf_bytes msg ->
  (forall ls l, spec_decode_name (firstn e msg) pos = Some (ls, l) ->
     ragrees (k (name_of ls, l)) (option_map (app (w ++ wire_of ls)) (s_cmatch msg e (pos + l) g))) ->
  ragrees (let* x := pname (firstn e msg) pos in k x) (option_map (app w) (s_cmatch msg e pos (FName :: g))).
Proof.
  intros Hwf Hk. rewrite s_cmatch_name. pose proof (pname_spec _ pos (wf_firstn e msg Hwf)) as H.
  destruct (pname (firstn e msg) pos) as [[nm l]|er|]; cbn [bind]; [| |exact H].
  - destruct H as (ls & Hs & ->). rewrite Hs. apply Hk, Hs.
  - destruct H as (-> & H). split; [reflexivity|exact H].
Qed.

(* read_mx (k = 2) and read_in_srv (k = 6) *)
Lemma fixed_then_name_agrees k msg cur rdlen : wf_bytes msg -> k <= 100 ->
  ragrees (read_fixed_then_name k msg cur rdlen)
          (if cur + N.to_nat rdlen <=? length msg
           then s_cmatch msg (cur + N.to_nat rdlen) cur [FBytes k; FName] else None).
Proof.
  intros Hwf Hk. apply ragrees_prepare. set (e := cur + N.to_nat rdlen). intros He.
  rewrite <- (option_map_app_nil (s_cmatch _ _ _ _)), s_cmatch_bytes.
  rewrite firstn_length_le, usub_ok by lia. cbn [bind].
  destruct (Nat.ltb_spec (e - cur) k) as [A|A], (Nat.leb_spec0 (cur + k) e) as [B|B]; try lia;
    [apply ragrees_other; reflexivity|].
  apply ragrees_pname; [exact Hwf|]. intros ls l Hs. cbv beta iota.
  destruct (decode_bounds _ _ _ _ Hs) as (_ & H & W). unfold wire_len in W. rewrite firstn_length_le in H by exact He.
  rewrite slice_range_ok by (rewrite ?firstn_length_le; lia). cbn [bind name_of n_wire app].
  rewrite slice_firstn, Bool.if_negb, s_cmatch_nil, option_map_if, app_nil_r by lia.
  apply ragrees_done; [lia|]. intros _. split; [reflexivity|].
  rewrite app_length, slice_length by lia. lia.
Qed.

(* four of the six readers cut the message and then parse a name at the cursor *)
Lemma ragrees_first msg cur rdlen g (k : bytes -> name * nat -> res rd_err bytes) : wf_bytes msg ->
  (forall ls l, cur + N.to_nat rdlen <= length msg -> cur + l <= cur + N.to_nat rdlen ->
     length (wire_of ls) <= 255 ->
     length (firstn (cur + N.to_nat rdlen) msg) = cur + N.to_nat rdlen ->
     ragrees (k (firstn (cur + N.to_nat rdlen) msg) (name_of ls, l))
             (option_map (app (wire_of ls)) (s_cmatch msg (cur + N.to_nat rdlen) (cur + l) g))) ->
  ragrees (let* buf := prepare_to_read_rdata msg cur rdlen in let* x := pname buf cur in k buf x)
          (if cur + N.to_nat rdlen <=? length msg
           then s_cmatch msg (cur + N.to_nat rdlen) cur (FName :: g) else None).
Proof.
  intros Hwf Hk. apply ragrees_prepare. intros He. rewrite <- (option_map_app_nil (s_cmatch _ _ _ _)).
  apply ragrees_pname; [exact Hwf|]. intros ls l Hs.
  destruct (decode_bounds _ _ _ _ Hs) as (_ & H & W). rewrite firstn_length_le in H by exact He.
  apply Hk; auto. apply firstn_length_le, He.
Qed.

Theorem run_reader_agrees d msg cur rdlen : wf_bytes msg ->
  ragrees (run_reader d msg cur rdlen)
          (if cur + N.to_nat rdlen <=? length msg
           then s_cmatch msg (cur + N.to_nat rdlen) cur (gram_of_d d) else None).
Proof.
  intros Hwf. destruct d; cbn [run_reader gram_of_d].
  - apply ragrees_first; [exact Hwf|]. intros ls l He H W Hlen. cbv beta iota. rewrite Hlen.
    rewrite usub_ok by lia. cbn [bind name_of n_wire].
    rewrite Bool.if_negb, s_cmatch_nil, option_map_if, app_nil_r.
    apply ragrees_done; [lia|]. intros _. split; [reflexivity|lia].
  - apply ragrees_first; [exact Hwf|]. intros ls l He H W Hlen. cbv beta iota.
    rewrite slice_from_ok by lia. rewrite Hlen, usub_ok by lia. cbn [bind name_of n_wire].
    rewrite skipn_firstn_slice, s_cmatch_last_bytes, option_map_if.
    apply ragrees_done; [lia|]. intros A. rewrite A. split; [reflexivity|].
    rewrite app_length, slice_length by lia. lia.
  - apply ragrees_first; [exact Hwf|]. intros ls l He _ W Hlen. cbv beta iota.
    apply ragrees_pname; [exact Hwf|]. intros ls2 l2 Hs2. cbv beta iota.
    destruct (decode_bounds _ _ _ _ Hs2) as (_ & H & W2). unfold wire_len in W2.
    rewrite slice_from_ok by exact H. rewrite Hlen in *.
    do 3 (rewrite usub_ok by lia; cbn [bind]). cbn [name_of n_wire].
    rewrite !s_cmatch_merge. cbn [Nat.add].
    rewrite skipn_firstn_slice, Bool.if_negb, s_cmatch_last_bytes, option_map_if.
    apply ragrees_done; [lia|]. intros A. rewrite A, <- app_assoc. split; [reflexivity|].
    rewrite !app_length, slice_length by lia. lia.
  - apply ragrees_first; [exact Hwf|]. intros ls l He _ W Hlen. cbv beta iota.
    apply ragrees_pname; [exact Hwf|]. intros ls2 l2 Hs2. cbv beta iota.
    destruct (decode_bounds _ _ _ _ Hs2) as (_ & H & W2). unfold wire_len in W2.
    rewrite Hlen in *. rewrite usub_ok by lia. cbn [bind name_of n_wire].
    rewrite Bool.if_negb, s_cmatch_nil, option_map_if, app_nil_r.
    apply ragrees_done; [lia|]. intros _. split; [reflexivity|]. rewrite app_length. lia.
  - apply fixed_then_name_agrees; [exact Hwf|lia].
  - rewrite !s_cmatch_merge. apply fixed_then_name_agrees; [exact Hwf|lia].
Qed.

Theorem without_decompression_agrees v msg cur rdlen : wf_bytes msg -> (rdlen < 65536)%N ->
  ragrees (without_decompression v msg cur rdlen)
          (if cur + N.to_nat rdlen <=? length msg
           then let r := slice msg cur (cur + N.to_nat rdlen) in
                if smatch (gram_of_v v) r then Some r else None
           else None).
Proof.
  intros Hwf Hlen. apply ragrees_prepare. intros He.
  rewrite slice_from_ok by (rewrite firstn_length_le; lia). cbn [bind]. rewrite skipn_firstn_slice.
  set (r := slice msg cur (cur + N.to_nat rdlen)).
  assert (L : length r = N.to_nat rdlen) by (unfold r; rewrite slice_length; lia).
  unfold to_rdata. rewrite L, N2Nat.id. destruct (N.ltb_spec 65535 rdlen); [lia|]. cbn [bind].
  pose proof (run_validator_agrees v r) as V.
  destruct (run_validator v r) as [u|er|]; cbn [agrees bind ragrees] in *; [rewrite V; reflexivity| |exact V].
  destruct V as (-> & V). auto.
Qed.

Theorem dispatch_read c t :
  match lookup read_arms read_default c t with
  | R_dec d => decompressed c t = true /\ gram_of_d d = grammar c t
  | R_nodec v => decompressed c t = false /\ gram_of_v v = grammar c t
  end.
Proof.
  unfold decompressed, grammar, one_of, read_arms, read_default. unfold_types.
  cbn [lookup]. unfold arm_matches. cbn [existsb fst snd]. case_types c t.
Qed.

Theorem read_agrees c t msg cur rdlen : wf_bytes msg -> (rdlen < 65536)%N ->
  ragrees (read c t msg cur rdlen) (spec_read c t msg cur rdlen).
Proof.
  intros Hwf Hlen. unfold read, spec_read. cbv zeta. pose proof (dispatch_read c t) as D.
  destruct (lookup read_arms read_default c t) as [d|v]; destruct D as [-> <-].
  - apply run_reader_agrees. exact Hwf.
  - apply (without_decompression_agrees v msg cur rdlen Hwf Hlen).
Qed.

Theorem read_total c t msg cur rdlen : wf_bytes msg -> (rdlen < 65536)%N ->
  read c t msg cur rdlen <> Panic /\ read c t msg cur rdlen <> Err ROutOfFuel /\
  read c t msg cur rdlen <> Err (InvalidName OutOfFuel).
Proof.
  intros Hwf Hlen. apply not_fuel. pose proof (read_agrees c t msg cur rdlen Hwf Hlen) as H.
  destruct (read c t msg cur rdlen); [exact I|apply H|exact H].
Qed.

Theorem read_iff c t msg cur rdlen r : wf_bytes msg -> (rdlen < 65536)%N ->
  (read c t msg cur rdlen = Ok r <-> read_spec c t msg cur rdlen r).
Proof.
  intros Hwf Hlen. rewrite <- (spec_read_iff c t msg cur rdlen r Hwf).
  pose proof (read_agrees c t msg cur rdlen Hwf Hlen) as H.
  destruct (read c t msg cur rdlen) as [r'|e|]; cbn [ragrees] in H; [| |contradiction].
  - rewrite H. split; intros E; inversion E; reflexivity.
  - destruct H as (-> & _). split; discriminate.
Qed.

Theorem read_err c t msg cur rdlen : wf_bytes msg -> (rdlen < 65536)%N ->
  (~ exists r, read_spec c t msg cur rdlen r) -> exists e, read c t msg cur rdlen = Err e.
Proof.
  intros Hwf Hlen Hn. destruct (read_total c t msg cur rdlen Hwf Hlen) as (Hp & _).
  destruct (read c t msg cur rdlen) as [r|e|] eqn:E; [|eauto|congruence].
  exfalso. apply Hn. exists r. apply (read_iff c t msg cur rdlen r Hwf Hlen). exact E.
Qed.

Theorem validate_iff c t r : wf_bytes r ->
  (validate c t r = Ok tt <-> matches (grammar c t) r).
Proof.
  intros Hwf. rewrite <- (smatch_iff (grammar c t) r Hwf), <- dispatch_validate. unfold validate.
  pose proof (run_validator_agrees (lookup validate_arms validate_default c t) r) as H.
  destruct (run_validator _ r) as [[]|e|]; cbn [agrees] in H; [| |contradiction].
  - rewrite H. split; reflexivity.
  - destruct H as (-> & _). split; discriminate.
Qed.

Theorem validate_total c t r : wf_bytes r ->
  validate c t r <> Panic /\ validate c t r <> Err ROutOfFuel /\
  validate c t r <> Err (InvalidName OutOfFuel).
Proof.
  intros _. apply not_fuel. unfold validate.
  pose proof (run_validator_agrees (lookup validate_arms validate_default c t) r) as H.
  destruct (run_validator _ r); [exact I|apply H|exact H].
Qed.

Theorem validate_err c t r : wf_bytes r -> ~ matches (grammar c t) r -> exists e, validate c t r = Err e.
Proof.
  intros Hwf Hn. destruct (validate_total c t r Hwf) as (Hp & _).
  destruct (validate c t r) as [[]|e|] eqn:E; [|eauto|congruence].
  exfalso. apply Hn. apply (validate_iff c t r Hwf). exact E.
Qed.

(* types the RFCs leave opaque (and every unknown type) validate, whatever the octets *)
Theorem validate_opaque c t r : grammar c t = [FRest] -> validate c t r = Ok tt.
Proof.
  intros G. unfold validate. rewrite <- dispatch_validate in G.
  destruct (lookup validate_arms validate_default c t); try discriminate. reflexivity.
Qed.

Lemma cmatches_wf msg e : wf_bytes msg ->
  forall pos g out, cmatches msg e pos g out -> wf_bytes out.
Proof.
  intros Hwf. induction 1 as [|pos ls l g out D C IH|pos n g out Hle C IH].
  - constructor.
  - apply wf_app. split; auto. eapply decodes_name_wf; [|exact D]. apply wf_firstn. exact Hwf.
  - apply wf_app. split; auto. apply Forall_slice. exact Hwf.
Qed.

Theorem read_valid c t msg cur rdlen r : wf_bytes msg -> (rdlen < 65536)%N ->
  read c t msg cur rdlen = Ok r ->
  wf_bytes r /\ matches (grammar c t) r /\ validate c t r = Ok tt.
Proof.
  intros Hwf Hlen H. apply (read_iff c t msg cur rdlen r Hwf Hlen) in H.
  destruct H as [He H].
  assert (P : wf_bytes r /\ matches (grammar c t) r).
  { destruct (decompressed c t).
    - split; [eapply cmatches_wf; eauto|eapply cmatches_matches; eauto].
    - destruct H as [-> M]. split; [apply Forall_slice; exact Hwf|exact M]. }
  destruct P as [P1 P2]. split; [exact P1|]. split; [exact P2|].
  apply validate_iff; assumption.
Qed.
