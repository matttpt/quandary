(* C30 — the TCP connection loop serves the framed requests of the byte stream, for every
   way the stream is cut into reads. *)
From QV Require Import Base.Res Base.Octets Base.ListX Model.Framing Spec.FramingS Proofs.FramingSP.

Definition cr (e : end_reason) : close_reason :=
  match e with
  | EndEof => ClEof | EndTimeout => ClTimeout | EndIoError => ClIoError
  | EndBlocked => ClBlocked | EndNoResponse => ClNoResponse
  end.

(* how the connection ends when the data is followed by the events tl; under [stop_tail] the head is
   never RdData or RdIntr false: what those arms return only makes the function total *)
Definition tail_end (tl : list rd_event) : end_reason :=
  match tl with
  | [] => EndBlocked
  | RdEof :: _ => EndEof
  | RdTimeout :: _ => EndTimeout
  | RdErr :: _ => EndIoError
  | RdIntr _ :: _ => EndTimeout
  | RdData _ _ :: _ => EndBlocked
  end.
Definition stop_tail (tl : list rd_event) : Prop :=
  match tl with [] => True | e :: _ => is_stop e = true end.
Definition data (s : bytes) : rd_event := RdData s false.

Lemma nth_error_firstn_lt {A} (l : list A) n i : i < n -> nth_error (firstn n l) i = nth_error l i.
Proof.
  revert n i. induction l as [|x l IH]; intros n i H.
  - rewrite firstn_nil. reflexivity.
  - destruct n; [lia|]. destruct i; [reflexivity|]. simpl. apply IH. lia.
Qed.

Lemma buf_write_length (buf : bytes) off d :
  off + length d <= length buf -> length (buf_write buf off d) = length buf.
Proof.
  intros H. unfold buf_write. rewrite !app_length, firstn_length, skipn_length. lia.
Qed.

Lemma firstn_buf_write (buf : bytes) off d :
  off <= length buf -> firstn (off + length d) (buf_write buf off d) = firstn off buf ++ d.
Proof.
  intros H. unfold buf_write. rewrite app_assoc.
  rewrite firstn_app.
  assert (E : length (firstn off buf ++ d) = off + length d).
  { rewrite app_length, firstn_length. lia. }
  rewrite E, Nat.sub_diag. simpl. rewrite app_nil_r.
  rewrite <- E. apply firstn_all.
Qed.

Lemma nth_error_buf_write_lt (buf : bytes) off d i :
  i < off -> off <= length buf -> nth_error (buf_write buf off d) i = nth_error buf i.
Proof.
  intros Hi Hoff. unfold buf_write. rewrite nth_error_app1 by (rewrite firstn_length; lia).
  apply nth_error_firstn_lt. exact Hi.
Qed.

Lemma copy_within0_length (buf : bytes) a b :
  a <= b -> b <= length buf -> length (copy_within0 buf a b) = length buf.
Proof.
  intros H1 H2. unfold copy_within0. rewrite app_length, slice_length, skipn_length by lia. lia.
Qed.

Lemma firstn_copy_within0 (buf : bytes) a b :
  a <= b -> b <= length buf -> firstn (b - a) (copy_within0 buf a b) = slice buf a b.
Proof.
  intros H1 H2. unfold copy_within0.
  rewrite firstn_app, slice_length, Nat.sub_diag by lia. simpl. rewrite app_nil_r.
  rewrite <- (slice_length buf a b) at 1 by lia. apply firstn_all.
Qed.

Lemma firstn_split_frame (buf : bytes) n h l L :
  nth_error buf 0 = Some h -> nth_error buf 1 = Some l -> L + 2 <= n ->
  firstn n buf = h :: l :: slice buf 2 (L + 2) ++ slice buf (L + 2) n.
Proof.
  intros H0 H1 Hn. rewrite <- slice_0.
  rewrite (slice_cons buf 0 h n H0) by lia.
  rewrite (slice_cons buf 1 l n H1) by lia.
  rewrite (slice_app buf 2 (L + 2) n) by lia. reflexivity.
Qed.

(* what remains queued of the segment s after a read took its first n' octets *)
Lemma read_rest (s : bytes) (segs : list bytes) tl n' : 1 <= n' <= length s ->
  exists segs' : list bytes,
    (if n' <? length s then RdData (skipn n' s) false :: map data segs ++ tl else map data segs ++ tl)
    = map data segs' ++ tl /\
    firstn n' s ++ concat segs' = s ++ concat segs /\
    (Forall (fun s => s <> []) segs -> Forall (fun s => s <> []) segs') /\
    2 * length (concat segs') + n' + length segs' <= 2 * length (s ++ concat segs) + length segs.
Proof.
  intros [H1 H2]. destruct (n' <? length s) eqn:E.
  - apply Nat.ltb_lt in E. exists (skipn n' s :: segs). split; [reflexivity|].
    cbn [concat length]. rewrite app_assoc, firstn_skipn. split; [reflexivity|]. split.
    + constructor; [|assumption]. intros Hnil. apply (f_equal (@length _)) in Hnil.
      rewrite skipn_length in Hnil. simpl in Hnil. lia.
    + rewrite !app_length, skipn_length. lia.
  - apply Nat.ltb_ge in E. exists segs. replace n' with (length s) by lia. rewrite firstn_all, app_length.
    split; [reflexivity|]. split; [reflexivity|]. split; [trivial|lia].
Qed.

Lemma to_be16_frame (r : bytes) : (N.of_nat (length r) < 65536)%N -> to_be16 (length r) ++ r = frame r.
Proof.
  intros H. unfold to_be16, frame. rewrite N.mod_small by exact H. cbn [app].
  assert (E1 : (N.of_nat (length r) / 256)%N = N.of_nat (length r / 256)).
  { change 256%N with (N.of_nat 256). rewrite <- Nat2N.inj_div. reflexivity. }
  assert (E2 : (N.of_nat (length r) mod 256)%N = N.of_nat (length r mod 256)).
  { change 256%N with (N.of_nat 256). rewrite <- Nat2N.inj_mod. reflexivity. }
  rewrite E1, E2. reflexivity.
Qed.

Lemma drain_close_val evs : drain_close evs = ClNoResponse.
Proof.
  induction evs as [|e evs IH]; [reflexivity|].
  destruct e as [s ex| | |ex|]; try reflexivity.
  - destruct s; [reflexivity|]. destruct ex; [reflexivity|exact IH].
  - destruct ex; [reflexivity|exact IH].
Qed.

Lemma be16_bound h l : is_octet h -> is_octet l -> be16 h l + 2 <= N.to_nat 65537.
Proof. unfold is_octet, be16. lia. Qed.

Section Loop.
  Variable handler : bytes -> option bytes.
  Variable cap rcap : nat.
  Hypothesis Hcap : (65537 <= N.of_nat cap)%N.
  Hypothesis Hrcap : (65537 <= N.of_nat rcap)%N.
  Hypothesis Hbound : forall m r, handler m = Some r -> (N.of_nat (length r) < 65536)%N.

  Let nosd : nat -> bool := fun _ => false.
  Let loop := conn_loop handler cap rcap nosd.

  (* the service of Spec/FramingS.v in the shape the loop produces it *)
  Fixpoint serve (ms : list bytes) (e : end_reason) : list bytes * close_reason :=
    match ms with
    | [] => ([], cr e)
    | m :: ms' =>
        match handler m with
        | None => ([], ClNoResponse)
        | Some r => let '(ws, c) := serve ms' e in (frame r :: ws, c)
        end
    end.

  Lemma serve_service ms e :
    serve ms e = (fst (service handler ms e), cr (snd (service handler ms e))).
  Proof.
    induction ms as [|m ms IH]; [reflexivity|]. cbn [serve].
    destruct (handler m) as [r|] eqn:Hm.
    - rewrite (service_cons_some handler m ms e r Hm), IH. reflexivity.
    - rewrite (service_cons_none handler m ms e Hm). reflexivity.
  Qed.

  (* state invariant at the head of the inner loop *)
  Definition inv (buf : bytes) (n : nat) (lo : option nat) : Prop :=
    length buf = cap /\ n <= cap /\
    match lo with
    | None => True
    | Some L => 2 <= n /\ exists h l, nth_error buf 0 = Some h /\ nth_error buf 1 = Some l /\ L = be16 h l
    end.

  Definition need_more (buf : bytes) (n : nat) : Prop :=
    n < 2 \/ exists h l, nth_error buf 0 = Some h /\ nth_error buf 1 = Some l /\ n < be16 h l + 2.

  Lemma need_more_deframe buf n : length buf = cap -> n <= cap -> need_more buf n ->
    deframe (firstn n buf) = [].
  Proof.
    intros Hlen Hn [H|(h & l & H0 & H1 & H)]; [apply deframe_short; rewrite firstn_length; lia|].
    destruct (Nat.lt_ge_cases n 2) as [Hlt|Hge]; [apply deframe_short; rewrite firstn_length; lia|].
    apply deframe_incomplete. right. exists h, l, (slice buf 2 n).
    rewrite <- slice_0, (slice_cons buf 0 h n H0), (slice_cons buf 1 l n H1), slice_length by lia.
    split; [reflexivity|]. unfold be16 in H. lia.
  Qed.

  Lemma need_more_room buf n segs : length buf = cap -> n <= cap -> need_more buf n ->
    wf_bytes (firstn n buf ++ concat segs) -> n < cap.
  Proof.
    intros Hlen Hn [H|(h & l & H0 & H1 & H)] Hwf; [lia|].
    destruct (Nat.lt_ge_cases n 2) as [Hlt|Hge]; [lia|].
    assert (Hoct : forall i x, i < 2 -> nth_error buf i = Some x -> is_octet x).
    { intros i x Hi Hx. apply Forall_app in Hwf. destruct Hwf as [Hwf _].
      apply (nth_error_Forall _ (firstn n buf) i x Hwf). rewrite nth_error_firstn_lt by lia. exact Hx. }
    pose proof (be16_bound h l (Hoct 0 h ltac:(lia) H0) (Hoct 1 l ltac:(lia) H1)). lia.
  Qed.

  Definition measure (n : nat) (segs : list bytes) : nat := 2 * length (concat segs) + n + length segs.

  (* the statement proved by induction on the fuel *)
  Definition loop_ok (f : nat) : Prop :=
    forall buf n lo k segs tl,
      inv buf n lo -> Forall (fun s => s <> []) segs -> stop_tail tl ->
      wf_bytes (firstn n buf ++ concat segs) ->
      measure n segs < f ->
      loop f buf n lo k (map data segs ++ tl) =
      Ok (serve (deframe (firstn n buf ++ concat segs)) (tail_end tl)).

  Lemma do_read_ok f buf n lo k segs tl :
    loop_ok f ->
    inv buf n lo -> need_more buf n ->
    Forall (fun s => s <> []) segs -> stop_tail tl ->
    wf_bytes (firstn n buf ++ concat segs) ->
    measure n segs < S f ->
    do_read cap (loop f) buf n lo k (map data segs ++ tl) =
    Ok (serve (deframe (firstn n buf ++ concat segs)) (tail_end tl)).
  Proof.
    intros IH Hinv Hneed Hsegs Htl Hwf Hm.
    destruct Hinv as (Hlen & Hn & Hlo).
    pose proof (need_more_room buf n segs Hlen Hn Hneed Hwf) as Hroom.
    unfold do_read.
    rewrite (proj2 (Nat.ltb_ge cap n)) by lia.
    destruct segs as [|s segs].
    - cbn [map app concat]. rewrite app_nil_r.
      rewrite (need_more_deframe buf n Hlen Hn Hneed). cbn [serve].
      destruct tl as [|e tl]; [reflexivity|].
      destruct e as [s0 ex| | |ex|]; simpl in Htl; try discriminate; try reflexivity.
      destruct ex; [reflexivity|discriminate].
    - cbn [map app]. unfold data at 1.
      inversion Hsegs as [|? ? Hs Hsegs']; subst.
      set (n' := Nat.min (length s) (cap - n)).
      assert (Hn'1 : 1 <= n').
      { unfold n'. destruct s; [congruence|]. simpl length. lia. }
      assert (Hn'2 : n' <= length s) by (unfold n'; lia).
      assert (Hn'3 : n + n' <= cap) by (unfold n'; lia).
      assert (E1 : (n' =? 0) = false) by (apply Nat.eqb_neq; lia). rewrite E1.
      assert (Hfl : length (firstn n' s) = n') by (rewrite firstn_length; lia).
      set (buf' := buf_write buf n (firstn n' s)).
      assert (Hlen' : length buf' = cap).
      { unfold buf'. rewrite buf_write_length; rewrite ?Hfl; lia. }
      assert (Hfirst : firstn (n + n') buf' = firstn n buf ++ firstn n' s).
      { unfold buf'. rewrite <- Hfl at 1. apply firstn_buf_write. lia. }
      assert (Hinv' : inv buf' (n + n') lo).
      { split; [exact Hlen'|]. split; [exact Hn'3|].
        destruct lo as [L|]; [|exact I].
        destruct Hlo as (H2 & h & l & H0 & H1 & HL).
        split; [lia|]. exists h, l. unfold buf'.
        rewrite !nth_error_buf_write_lt by lia. auto. }
      destruct (read_rest s segs tl n' ltac:(lia)) as (segs' & Hev & Hcat & Hne & Hms).
      cbn [concat] in Hwf |- *.
      rewrite Hev, IH; try assumption.
      * rewrite Hfirst, <- app_assoc, Hcat. reflexivity.
      * apply Hne. assumption.
      * rewrite Hfirst, <- app_assoc, Hcat. exact Hwf.
      * unfold measure in *. cbn [concat length] in Hm. lia.
  Qed.

  Lemma process_ok f buf n h l k segs tl :
    loop_ok f ->
    length buf = cap -> n <= cap ->
    nth_error buf 0 = Some h -> nth_error buf 1 = Some l -> be16 h l + 2 <= n ->
    Forall (fun s => s <> []) segs -> stop_tail tl ->
    wf_bytes (firstn n buf ++ concat segs) ->
    measure n segs < S f ->
    process handler cap rcap nosd (loop f) buf n (be16 h l) k (map data segs ++ tl) =
    Ok (serve (deframe (firstn n buf ++ concat segs)) (tail_end tl)).
  Proof.
    intros IH Hlen Hn H0 H1 HL Hsegs Htl Hwf Hm.
    set (L := be16 h l) in *.
    rewrite (firstn_split_frame buf n h l L H0 H1 HL) in *.
    set (m := slice buf 2 (L + 2)) in *.
    set (x := slice buf (L + 2) n) in *.
    assert (Hml : length m = L) by (unfold m; rewrite slice_length; lia).
    assert (Hxl : length x = n - (L + 2)) by (unfold x; rewrite slice_length; lia).
    assert (Hdf : deframe ((h :: l :: m ++ x) ++ concat segs) = m :: deframe (x ++ concat segs))
      by (cbn [app]; rewrite <- app_assoc; apply deframe_msg; exact Hml).
    rewrite Hdf. cbn [serve].
    unfold process.
    rewrite (proj2 (Nat.ltb_ge cap (L + 2))) by lia.
    rewrite (proj2 (Nat.ltb_ge rcap 2)) by lia.
    rewrite (proj2 (N.ltb_ge _ 65535)) by lia.
    fold m.
    destruct (handler m) as [r|] eqn:Hr; [|rewrite drain_close_val; reflexivity].
    pose proof (Hbound m r Hr) as Hrb.
    rewrite (proj2 (Nat.ltb_ge rcap (2 + length r))) by lia.
    rewrite (to_be16_frame r Hrb). unfold nosd at 1. cbv beta.
    assert (Hwf' : wf_bytes (x ++ concat segs)).
    { unfold wf_bytes in *. cbn [app] in Hwf. inversion Hwf as [|? ? _ Hw1]; subst.
      inversion Hw1 as [|? ? _ Hw2]; subst. rewrite <- app_assoc in Hw2.
      apply Forall_app in Hw2. tauto. }
    destruct (L + 2 <? n) eqn:E5.
    - apply Nat.ltb_lt in E5.
      assert (Hinv' : inv (copy_within0 buf (L + 2) n) (n - (L + 2)) None).
      { split; [rewrite copy_within0_length; lia|]. split; [lia|exact I]. }
      assert (Hf' : firstn (n - (L + 2)) (copy_within0 buf (L + 2) n) = x).
      { unfold x. apply firstn_copy_within0; lia. }
      rewrite IH; try assumption.
      + rewrite Hf'. cbn [map_ok]. destruct (serve (deframe (x ++ concat segs)) (tail_end tl)). reflexivity.
      + rewrite Hf'. exact Hwf'.
      + unfold measure in *. lia.
    - apply Nat.ltb_ge in E5. assert (Hx : x = []).
      { apply length_zero_iff_nil. lia. }
      assert (Hinv' : inv buf 0 None).
      { split; [exact Hlen|]. split; [lia|exact I]. }
      rewrite IH; try assumption.
      + cbn [firstn]. rewrite Hx. cbn [map_ok]. cbn [app].
        destruct (serve (deframe (concat segs)) (tail_end tl)). reflexivity.
      + cbn [firstn app]. rewrite Hx in Hwf'. exact Hwf'.
      + unfold measure in *. lia.
  Qed.

  Lemma loop_ok_all : forall f, loop_ok f.
  Proof.
    induction f as [|f IH]; intros buf n lo k segs tl Hinv Hsegs Htl Hwf Hm; [lia|].
    unfold loop. cbn [conn_loop]. fold loop. unfold conn_step.
    pose proof Hinv as (Hlen & Hn & Hlo).
    destruct lo as [L|].
    - destruct Hlo as (H2 & h & l & H0 & H1 & HL). subst L.
      destruct (be16 h l + 2 <=? n) eqn:E.
      + apply Nat.leb_le in E. apply process_ok; assumption.
      + apply Nat.leb_gt in E. apply do_read_ok; try assumption.
        right. exists h, l. auto.
    - destruct (2 <=? n) eqn:E2.
      + apply Nat.leb_le in E2.
        destruct (nth_error buf 0) as [h|] eqn:H0.
        2:{ apply nth_error_None in H0. lia. }
        destruct (nth_error buf 1) as [l|] eqn:H1.
        2:{ apply nth_error_None in H1. lia. }
        destruct (be16 h l + 2 <=? n) eqn:E.
        * apply Nat.leb_le in E. apply process_ok; assumption.
        * apply Nat.leb_gt in E. apply do_read_ok; try assumption.
          -- split; [exact Hlen|]. split; [exact Hn|]. split; [exact E2|]. exists h, l. auto.
          -- right. exists h, l. auto.
      + apply Nat.leb_gt in E2. apply do_read_ok; try assumption. left. exact E2.
  Qed.

  Lemma evs_bytes_app a b : evs_bytes (a ++ b) = evs_bytes a + evs_bytes b.
  Proof. induction a as [|e a IH]; simpl; [reflexivity|]. rewrite IH. lia. Qed.

  Lemma evs_bytes_data segs : evs_bytes (map data segs) = length (concat segs).
  Proof.
    induction segs as [|s segs IH]; [reflexivity|]. simpl. rewrite IH, app_length. reflexivity.
  Qed.

  Lemma run_tcp_stream segs tl ms t :
    Forall (fun s => s <> []) segs -> stop_tail tl -> wf_bytes (concat segs) ->
    framed ms t (concat segs) ->
    run_tcp handler cap rcap nosd (map data segs ++ tl) =
    Ok (fst (service handler ms (tail_end tl)), cr (snd (service handler ms (tail_end tl)))).
  Proof.
    intros Hsegs Htl Hwf Hfr. unfold run_tcp.
    pose proof (loop_ok_all (tcp_fuel (map data segs ++ tl)) (repeat 0%N cap) 0 None 0 segs tl) as H.
    unfold loop in H. rewrite H; try assumption.
    - cbn [firstn app]. rewrite (framed_deframe ms t _ Hfr). rewrite serve_service. reflexivity.
    - split; [apply repeat_length|]. split; [lia|exact I].
    - unfold measure, tcp_fuel. rewrite evs_bytes_app, evs_bytes_data, app_length, map_length. lia.
  Qed.

  Lemma run_tcp_segmentation reqs segs tl :
    Forall wf_bytes reqs -> Forall (fun m => (N.of_nat (length m) < 65536)%N) reqs ->
    Forall (fun s => s <> []) segs -> stop_tail tl ->
    concat segs = frame_all reqs ->
    run_tcp handler cap rcap nosd (map data segs ++ tl) =
    Ok (fst (service handler reqs (tail_end tl)), cr (snd (service handler reqs (tail_end tl)))).
  Proof.
    intros Hwf Hlen Hsegs Htl Hcat.
    apply (run_tcp_stream segs tl reqs []); try assumption.
    - rewrite Hcat. apply wf_frame_all; assumption.
    - rewrite Hcat. apply framed_frame_all. exact Hlen.
  Qed.
End Loop.

(* For EVERY event list (any octet values, timeouts, errors, interrupts, oversized reads) and
   every shutdown schedule the loop neither panics nor runs out of the model's fuel. *)
Section Total.
  Variable handler : bytes -> option bytes.
  Variable cap rcap : nat.
  Variable sd : nat -> bool.
  Hypothesis Hcap : (65537 <= N.of_nat cap)%N.
  Hypothesis Hrcap : (65537 <= N.of_nat rcap)%N.
  Hypothesis Hbound : forall m r, handler m = Some r -> (N.of_nat (length r) < 65536)%N.

  Let loop := conn_loop handler cap rcap sd.

  Definition is_okr (r : R) : Prop := exists ws c, r = Ok (ws, c).

  Definition total_at (f : nat) : Prop :=
    forall buf n lo k evs, length buf = cap -> n <= cap ->
      2 * evs_bytes evs + n + length evs < f -> is_okr (loop f buf n lo k evs).

  Lemma do_read_total f buf n lo k evs :
    total_at f -> length buf = cap -> n <= cap ->
    2 * evs_bytes evs + n + length evs < S f ->
    is_okr (do_read cap (loop f) buf n lo k evs).
  Proof.
    intros IH Hlen Hn Hm. unfold do_read.
    rewrite (proj2 (Nat.ltb_ge cap n)) by lia.
    destruct evs as [|e evs]; [eexists _, _; reflexivity|].
    destruct e as [s ex| | |ex|]; try (eexists _, _; reflexivity).
    - set (n' := Nat.min (length s) (cap - n)).
      destruct (n' =? 0) eqn:E1; [eexists _, _; reflexivity|].
      apply Nat.eqb_neq in E1.
      destruct ex; [eexists _, _; reflexivity|].
      assert (Hfl : length (firstn n' s) = n') by (rewrite firstn_length; unfold n'; lia).
      apply IH.
      + rewrite buf_write_length; rewrite ?Hfl; unfold n'; lia.
      + unfold n'. lia.
      + cbn [evs_bytes fold_right ev_bytes length] in Hm. fold (evs_bytes evs) in Hm.
        destruct (n' <? length s) eqn:E2.
        * apply Nat.ltb_lt in E2. cbn [evs_bytes fold_right ev_bytes length]. fold (evs_bytes evs).
          rewrite skipn_length. lia.
        * apply Nat.ltb_ge in E2. assert (n' <= length s) by (unfold n'; lia). lia.
    - destruct ex; [eexists _, _; reflexivity|].
      apply IH; try assumption.
      cbn [evs_bytes fold_right ev_bytes length] in Hm. fold (evs_bytes evs) in Hm. lia.
  Qed.

  Lemma process_total f buf n L k evs :
    total_at f -> length buf = cap -> n <= cap -> L + 2 <= n ->
    2 * evs_bytes evs + n + length evs < S f ->
    is_okr (process handler cap rcap sd (loop f) buf n L k evs).
  Proof.
    intros IH Hlen Hn HL Hm. unfold process.
    rewrite (proj2 (Nat.ltb_ge cap (L + 2))) by lia.
    rewrite (proj2 (Nat.ltb_ge rcap 2)) by lia.
    rewrite (proj2 (N.ltb_ge _ 65535)) by lia.
    destruct (handler (slice buf 2 (L + 2))) as [r|] eqn:Hr; [|eexists _, _; reflexivity].
    pose proof (Hbound _ r Hr) as Hrb.
    rewrite (proj2 (Nat.ltb_ge rcap (2 + length r))) by lia.
    destruct (sd k); [eexists _, _; reflexivity|].
    destruct (L + 2 <? n) eqn:E5.
    - apply Nat.ltb_lt in E5.
      destruct (IH (copy_within0 buf (L + 2) n) (n - (L + 2)) None (S k) evs) as (ws & c & Hr').
      + rewrite copy_within0_length; lia.
      + lia.
      + lia.
      + rewrite Hr'. eexists _, _; reflexivity.
    - destruct (IH buf 0 None (S k) evs) as (ws & c & Hr'); try assumption; try lia.
      rewrite Hr'. eexists _, _; reflexivity.
  Qed.

  (* the case analysis of conn_step once more, as in loop_ok_all: there the cached length is tied to
     the buffer by the invariant, here [lo] is any value and only the bounds matter *)
  Lemma total_all : forall f, total_at f.
  Proof.
    induction f as [|f IH]; intros buf n lo k evs Hlen Hn Hm; [lia|].
    unfold loop. cbn [conn_loop]. fold loop. unfold conn_step.
    destruct lo as [L|].
    - destruct (L + 2 <=? n) eqn:E.
      + apply Nat.leb_le in E. apply process_total; assumption.
      + apply do_read_total; assumption.
    - destruct (2 <=? n) eqn:E2; [|apply do_read_total; assumption].
      apply Nat.leb_le in E2.
      destruct (nth_error buf 0) as [h|] eqn:H0.
      2:{ apply nth_error_None in H0. lia. }
      destruct (nth_error buf 1) as [l|] eqn:H1.
      2:{ apply nth_error_None in H1. lia. }
      destruct (be16 h l + 2 <=? n) eqn:E.
      + apply Nat.leb_le in E. apply process_total; assumption.
      + apply do_read_total; assumption.
  Qed.

  Lemma run_tcp_total evs : is_okr (run_tcp handler cap rcap sd evs).
  Proof.
    unfold run_tcp. apply total_all; [apply repeat_length|lia|unfold tcp_fuel; lia].
  Qed.
End Total.

Section UdpP.
  Variable handler : bytes -> option bytes.
  Variable psize : nat.

  (* the sends the specification allows for one datagram *)
  Definition udp_spec_one (d : dgram) : list usend :=
    match udp_answer handler psize (dg_payload d) with
    | Some r => [{| us_payload := r; us_to := dg_src d; us_from := dg_dst d |}]
    | None => []
    end.

  Lemma udp_one_spec d out : udp_one handler psize d = Ok out ->
    out = udp_spec_one d /\ length out <= 1 /\
    forall s, In s out -> us_to s = dg_src d /\ us_from s = dg_dst d /\ length (us_payload s) <= psize.
  Proof.
    unfold udp_one, udp_spec_one, udp_answer.
    destruct (handler (firstn psize (dg_payload d))) as [r|].
    - destruct (psize <? length r) eqn:E; [discriminate|]. apply Nat.ltb_ge in E.
      intros H; inversion H; subst. split; [reflexivity|]. split; [simpl; lia|].
      intros s [<-|[]]. simpl. auto.
    - intros H; inversion H; subst. split; [reflexivity|]. split; [simpl; lia|]. intros s [].
  Qed.

  Lemma udp_one_total d : (forall m r, handler m = Some r -> length r <= psize) ->
    exists out, udp_one handler psize d = Ok out.
  Proof.
    intros Hb. unfold udp_one.
    destruct (handler (firstn psize (dg_payload d))) as [r|] eqn:Hr; [|eauto].
    apply Hb in Hr. assert (E : (psize <? length r) = false) by (apply Nat.ltb_ge; lia).
    rewrite E. eauto.
  Qed.

  Fixpoint udp_received (sd : nat -> bool) (i : nat) (evs : list ud_event) : list dgram :=
    match evs with
    | [] => []
    | e :: evs' =>
        if sd i then []
        else match e with
        | UdRecv d => d :: udp_received sd (S i) evs'
        | UdErr => []
        | _ => udp_received sd (S i) evs'
        end
    end.

  Lemma udp_blocking_sends sd : forall evs i out,
    udp_blocking handler psize sd i evs = Ok out ->
    out = flat_map udp_spec_one (udp_received sd i evs) /\
    Forall (fun s => length (us_payload s) <= psize) out.
  Proof.
    induction evs as [|e evs IH]; intros i out H; simpl in H |- *.
    - inversion H. split; [reflexivity|constructor].
    - destruct (sd i); [inversion H; split; [reflexivity|constructor]|].
      destruct e as [d| | |]; [|exact (IH _ _ H)..|inversion H; split; [reflexivity|constructor]].
      destruct (udp_one handler psize d) as [o| |] eqn:Ho; simpl in H; try discriminate.
      destruct (udp_blocking handler psize sd (S i) evs) as [rest| |] eqn:Hr; simpl in H; try discriminate.
      inversion H; subst. destruct (udp_one_spec _ _ Ho) as (-> & _ & Hs). destruct (IH _ _ Hr) as [-> Hb].
      split; [reflexivity|]. apply Forall_app. split; [|exact Hb].
      apply Forall_forall. intros s Hin. apply Hs in Hin. tauto.
  Qed.

  Lemma udp_blocking_spec sd : forall evs i out,
    udp_blocking handler psize sd i evs = Ok out ->
    out = flat_map udp_spec_one (udp_received sd i evs).
  Proof. intros evs i out H. apply (udp_blocking_sends sd evs i out H). Qed.

  Lemma udp_sends_bounded sd : forall evs i out,
    udp_blocking handler psize sd i evs = Ok out ->
    Forall (fun s => length (us_payload s) <= psize) out.
  Proof. intros evs i out H. apply (udp_blocking_sends sd evs i out H). Qed.

  Lemma udp_blocking_total sd : (forall m r, handler m = Some r -> length r <= psize) ->
    forall evs i, exists out, udp_blocking handler psize sd i evs = Ok out.
  Proof.
    intros Hb. induction evs as [|e evs IH]; intros i; simpl; [eauto|].
    destruct (sd i); [eauto|]. destruct e as [d| | |]; eauto.
    destruct (udp_one_total d Hb) as [o Ho]. destruct (IH (S i)) as [rest Hr].
    rewrite Ho, Hr. simpl. eauto.
  Qed.

  Lemma udp_spec_at_most_one ds : length (flat_map udp_spec_one ds) <= length ds.
  Proof.
    induction ds as [|d ds IH]; simpl; [lia|].
    rewrite app_length. unfold udp_spec_one at 1.
    destruct (udp_answer handler psize (dg_payload d)); simpl; lia.
  Qed.

  Lemma udp_tokio_spec : forall evs,
    Forall2 (fun r d => forall out, r = Ok out -> out = udp_spec_one d)
            (udp_tokio handler psize evs)
            (udp_received (fun _ => false) 0 evs).
  Proof.
    intros evs. generalize 0. induction evs as [|e evs IH]; intros i; simpl; [constructor|].
    destruct e as [d| | |]; simpl; auto.
    constructor; [|apply IH]. intros out Ho. apply udp_one_spec in Ho. tauto.
  Qed.
End UdpP.
