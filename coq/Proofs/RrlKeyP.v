(* Lemmas for C27: netmasks, IPv4-mapped addresses, the name hash stream, key equality. *)
From QV Require Import Base.Res Base.Octets Model.Rrl Spec.RrlBucketS Spec.RrlStreamS Proofs.RrlP.
Local Open Scope N_scope.

Lemma testbit_high a n i : a < 2 ^ n -> n <= i -> N.testbit a i = false.
Proof.
  intros Ha Hi. rewrite <- (N.mod_small a (2 ^ n)) by exact Ha.
  apply N.mod_pow2_bits_high. exact Hi.
Qed.

Lemma land_high_mask a l s : a < 2 ^ (l + s) ->
  N.land a (N.shiftl (N.ones l) s) = N.shiftl (N.shiftr a s) s.
Proof.
  intros Ha. apply N.bits_inj. intros i. rewrite N.land_spec.
  destruct (N.lt_ge_cases i s) as [Hlt|Hge].
  - rewrite !N.shiftl_spec_low by exact Hlt. apply andb_false_r.
  - rewrite !N.shiftl_spec_high' by exact Hge.
    rewrite N.shiftr_spec'. replace (i - s + s) with i by lia.
    destruct (N.lt_ge_cases (i - s) l) as [Hl|Hl].
    + rewrite N.ones_spec_low by exact Hl. apply andb_true_r.
    + rewrite N.ones_spec_high by exact Hl. rewrite andb_false_r.
      symmetry. apply (testbit_high a (l + s)); [exact Ha|lia].
Qed.

Lemma masked_eq_iff a b l s : a < 2 ^ (l + s) -> b < 2 ^ (l + s) ->
  (N.land a (N.shiftl (N.ones l) s) = N.land b (N.shiftl (N.ones l) s) <-> a / 2 ^ s = b / 2 ^ s).
Proof.
  intros Ha Hb. rewrite !land_high_mask by assumption.
  rewrite !N.shiftl_mul_pow2, !N.shiftr_div_pow2.
  assert (H2 : 2 ^ s <> 0) by (apply N.pow_nonzero; discriminate).
  split; intros H.
  - apply N.mul_cancel_r in H; assumption.
  - rewrite H. reflexivity.
Qed.

(* for every admissible length the shifted u32::MAX / u64::MAX is l ones followed by zeros:
   (2^w - 1) * 2^s = (2^s - 1) * 2^w + (2^l - 1) * 2^s  when w = l + s *)
Lemma max_shl_mask w l : 1 <= l <= w -> max_shl w w l = Some (N.shiftl (N.ones l) (w - l)).
Proof.
  intros H. unfold max_shl.
  replace (w <? l) with false by (symmetry; apply N.ltb_ge; lia).
  replace (w <=? w - l) with false by (symmetry; apply N.leb_gt; lia).
  f_equal. rewrite N.shiftl_mul_pow2, N.ones_equiv.
  replace w with (l + (w - l)) at 1 3 by lia. rewrite N.pow_add_r.
  pose proof (N.pow_nonzero 2 l ltac:(discriminate)) as HA.
  pose proof (N.pow_nonzero 2 (w - l) ltac:(discriminate)) as HB.
  set (A := 2 ^ l) in *. set (B := 2 ^ (w - l)) in *.
  replace ((A * B - 1) * B) with (N.pred A * B + (B - 1) * (A * B)) by nia.
  rewrite N.mod_add by nia. apply N.mod_small. nia.
Qed.

Definition mask4 (l : N) : N := N.shiftl (N.ones l) (32 - l).
Definition mask6 (l : N) : N := N.shiftl (N.ones l) (64 - l).

Definition has_prefixes (p : params) (l4 l6 : N) : Prop :=
  l4 <= 32 /\ l6 <= 64 /\ p_ipv4_netmask p = mask4 l4 /\ p_ipv6_netmask p = mask6 l6.

Lemma set_ipv4_prefix_len_spec p l :
  (l <= 32 -> set_ipv4_prefix_len p l = Ok (with_ipv4_netmask p (mask4 l))) /\
  (32 < l -> set_ipv4_prefix_len p l = Err InvalidIpv4PrefixLen).
Proof.
  unfold set_ipv4_prefix_len. change RRL_IPV4_MAX_PREFIX with 32. change RRL_IPV4_SHIFT_BASE with 32.
  split; intros H.
  - replace (32 <? l) with false by (symmetry; apply N.ltb_ge; exact H).
    destruct (N.eqb_spec l 0) as [->|E0]; [reflexivity|].
    rewrite max_shl_mask by lia. reflexivity.
  - apply N.ltb_lt in H. rewrite H. reflexivity.
Qed.

Lemma set_ipv6_prefix_len_spec p l :
  (l <= 64 -> set_ipv6_prefix_len p l = Ok (with_ipv6_netmask p (mask6 l))) /\
  (64 < l -> set_ipv6_prefix_len p l = Err InvalidIpv6PrefixLen).
Proof.
  unfold set_ipv6_prefix_len. change RRL_IPV6_MAX_PREFIX with 64. change RRL_IPV6_SHIFT_BASE with 64.
  split; intros H.
  - replace (64 <? l) with false by (symmetry; apply N.ltb_ge; exact H).
    destruct (N.eqb_spec l 0) as [->|E0]; [reflexivity|].
    rewrite max_shl_mask by lia. reflexivity.
  - apply N.ltb_lt in H. rewrite H. reflexivity.
Qed.

Lemma params_new_prefixes ne nx er w p : params_new ne nx er w = Ok p -> has_prefixes p 24 56.
Proof.
  unfold params_new.
  destruct (ne =? 0); [discriminate|]. destruct (nx =? 0); [discriminate|].
  destruct (er =? 0); [discriminate|]. destruct (w =? 0); [discriminate|].
  destruct (_ || _); [discriminate|]. intros H; inversion H; subst p.
  unfold has_prefixes. cbn [p_ipv4_netmask p_ipv6_netmask].
  split; [lia|]. split; [lia|]. split; vm_compute; reflexivity.
Qed.

Lemma prefixes_after_setters p l4 l6 a b p1 p2 : has_prefixes p a b ->
  set_ipv4_prefix_len p l4 = Ok p1 -> set_ipv6_prefix_len p1 l6 = Ok p2 -> has_prefixes p2 l4 l6.
Proof.
  intros (_ & _ & _ & _) H1 H2.
  destruct (N.le_gt_cases l4 32) as [L4|L4].
  2:{ rewrite (proj2 (set_ipv4_prefix_len_spec p l4) L4) in H1. discriminate. }
  destruct (N.le_gt_cases l6 64) as [L6|L6].
  2:{ rewrite (proj2 (set_ipv6_prefix_len_spec p1 l6) L6) in H2. discriminate. }
  rewrite (proj1 (set_ipv4_prefix_len_spec p l4) L4) in H1. inversion H1; subst p1.
  rewrite (proj1 (set_ipv6_prefix_len_spec _ l6) L6) in H2. inversion H2; subst p2.
  unfold has_prefixes. cbn. repeat split; assumption.
Qed.

Lemma be_value_gen o acc :
  fold_left (fun a x => a * 256 + x) o acc = acc * 256 ^ N.of_nat (length o) + addr_value o.
Proof.
  revert acc. induction o as [|x r IH]; intros acc.
  - simpl. lia.
  - cbn [fold_left addr_value length]. rewrite IH. rewrite Nat2N.inj_succ, N.pow_succ_r'. lia.
Qed.

Lemma be_value_addr o : be_value o = addr_value o.
Proof. unfold be_value. rewrite be_value_gen. lia. Qed.

Lemma addr_value_bound o : wf_bytes o -> addr_value o < 256 ^ N.of_nat (length o).
Proof.
  induction o as [|x r IH]; intros W.
  - simpl. lia.
  - inversion W as [|? ? Hx Hr]; subst. specialize (IH Hr). unfold is_octet in Hx.
    cbn [addr_value length]. rewrite Nat2N.inj_succ, N.pow_succ_r'. nia.
Qed.

Definition wf_ip (ip : ipaddr) : Prop :=
  match ip with
  | V4 o => length o = 4%nat /\ wf_bytes o
  | V6 o => length o = 16%nat /\ wf_bytes o
  end.

Definition to_saddr (ip : ipaddr) : saddr := match ip with V4 o => S4 o | V6 o => S6 o end.

Lemma list_N_eqb_eq a b : list_N_eqb a b = true <-> a = b.
Proof.
  unfold list_N_eqb. revert b. induction a as [|x a IH]; intros [|y b]; simpl; split; intros H;
    try reflexivity; try discriminate.
  - apply andb_true_iff in H. destruct H as [H1 H2]. apply andb_true_iff in H2. destruct H2 as [H2 H3].
    apply N.eqb_eq in H2. subst y. f_equal. apply IH. rewrite H1, H3. reflexivity.
  - inversion H; subst. rewrite N.eqb_refl. simpl. apply IH. reflexivity.
Qed.

Lemma received_info_source_canonical src : wf_ip src ->
  to_saddr (received_info_source src) = canonical (to_saddr src) /\ wf_ip (received_info_source src).
Proof.
  destruct src as [o|o]; intros [Hl W]; [split; [reflexivity|split; assumption]|].
  do 16 (destruct o as [|? o]; [discriminate|]). destruct o; [|discriminate].
  (* both tests are the conjunction of the same twelve octet comparisons, bracketed differently *)
  cbn -[N.eqb]. rewrite <- !andb_assoc, !andb_true_r. cbn [andb].
  destruct (_ && _); (split; [reflexivity|]); (split; [reflexivity|]); [|exact W].
  do 12 apply Forall_inv_tail in W. exact W.
Qed.


Definition wf_label (l : bytes) : Prop := (1 <= length l <= 63)%nat.
Definition wf_name (n : rname) : Prop := Forall wf_label n.

Lemma lower_is_ascii_lower : lower = ascii_lower.
Proof. reflexivity. Qed.

Lemma name_eq_ci_iff a b : name_eq_ci a b = true <-> map (map lower) a = map (map lower) b.
Proof.
  unfold name_eq_ci. rewrite lower_is_ascii_lower.
  revert b. induction a as [|x a IH]; intros [|y b]; simpl; split; intros H;
    try reflexivity; try discriminate.
  - apply andb_true_iff in H. destruct H as [H1 H2]. apply andb_true_iff in H2. destruct H2 as [H2 H3].
    unfold label_eq_ci in H2. apply list_N_eqb_eq in H2. rewrite H2. f_equal.
    apply IH. rewrite H1, H3. reflexivity.
  - inversion H as [[H1 H2]]. apply IH in H2. apply andb_true_iff in H2. destruct H2 as [H2 H3].
    rewrite H2. simpl. rewrite H3, andb_true_r. unfold label_eq_ci. apply list_N_eqb_eq. exact H1.
Qed.

Lemma app_inv_length {A} (a b c d : list A) : length a = length b -> a ++ c = b ++ d -> a = b /\ c = d.
Proof.
  revert b. induction a as [|x a IH]; intros [|y b] Hl H; try discriminate.
  - split; [reflexivity|exact H].
  - simpl in *. inversion H; subst. destruct (IH b ltac:(lia) H2) as [-> ->]. split; reflexivity.
Qed.

Lemma label_len_mod l : wf_label l -> N.of_nat (length l) mod 256 = N.of_nat (length l).
Proof. intros [H1 H2]. apply N.mod_small. lia. Qed.

Lemma name_hash_stream_inj a b : wf_name a -> wf_name b ->
  name_hash_stream a = name_hash_stream b -> map (map lower) a = map (map lower) b.
Proof.
  unfold name_hash_stream. revert b. induction a as [|x a IH]; intros [|y b] Wa Wb H.
  - reflexivity.
  - exfalso. inversion Wb as [|? ? Hy _]; subst. cbn in H. injection H as H0 _.
    rewrite (label_len_mod y Hy) in H0. destruct Hy. lia.
  - exfalso. inversion Wa as [|? ? Hx _]; subst. cbn in H. injection H as H0 _.
    rewrite (label_len_mod x Hx) in H0. destruct Hx. lia.
  - inversion Wa as [|? ? Hx Wa']; subst. inversion Wb as [|? ? Hy Wb']; subst.
    cbn [flat_map label_hash_stream] in H. rewrite <- !app_assoc in H. cbn [app] in H.
    injection H as H0 H1. rewrite (label_len_mod x Hx), (label_len_mod y Hy) in H0.
    apply Nat2N.inj in H0.
    destruct (app_inv_length (map lower x) (map lower y) _ _ ltac:(rewrite !map_length; exact H0) H1) as [E1 E2].
    cbn [map]. rewrite E1. f_equal. apply IH; assumption.
Qed.

Lemma name_hash_stream_ci a b : map (map lower) a = map (map lower) b ->
  name_hash_stream a = name_hash_stream b.
Proof.
  unfold name_hash_stream. intros H. f_equal.
  revert b H. induction a as [|x a IH]; intros [|y b] H; try discriminate; [reflexivity|].
  cbn [map] in H. inversion H as [[H1 H2]]. cbn [flat_map]. rewrite (IH b H2). f_equal.
  unfold label_hash_stream. rewrite H1. f_equal.
  rewrite <- (map_length lower x), <- (map_length lower y), H1. reflexivity.
Qed.

Lemma name_hash_stream_iff a b : wf_name a -> wf_name b ->
  (name_hash_stream a = name_hash_stream b <-> name_eq_ci a b = true).
Proof.
  intros Wa Wb. rewrite name_eq_ci_iff. split.
  - apply name_hash_stream_inj; assumption.
  - apply name_hash_stream_ci.
Qed.

Lemma scategory_model rc :
  match category_of_rcode rc with NoError => SNoError | NxDomain => SNxDomain | ErrorCat => SOther end
  = scategory_of rc.
Proof.
  unfold category_of_rcode, scategory_of. change XRCODE_NOERROR with 0. change XRCODE_NXDOMAIN with 3.
  destruct (rc =? 0); [reflexivity|]. destruct (rc =? 3); reflexivity.
Qed.

Lemma category_eq_iff rc1 rc2 :
  category_of_rcode rc1 = category_of_rcode rc2 <-> scategory_of rc1 = scategory_of rc2.
Proof.
  rewrite <- !scategory_model.
  destruct (category_of_rcode rc1), (category_of_rcode rc2); split; intros H; try reflexivity; discriminate.
Qed.

Lemma scategory_eqb_eq a b : scategory_eqb a b = true <-> a = b.
Proof. destruct a, b; simpl; split; intros H; try reflexivity; discriminate. Qed.

Definition resp_name (c : ctx) : option rname :=
  match c_sos c with Some n => Some n | None => c_question c end.

Lemma dest4_eq_iff p l4 l6 a b : has_prefixes p l4 l6 ->
  length a = 4%nat -> wf_bytes a -> length b = 4%nat -> wf_bytes b ->
  (ip_to_dest p (V4 a) = ip_to_dest p (V4 b) <-> same_network 32 l4 (addr_value a) (addr_value b) = true).
Proof.
  intros (L4 & _ & M4 & _) La Wa Lb Wb. unfold ip_to_dest, same_network. rewrite M4, !be_value_addr.
  pose proof (addr_value_bound a Wa) as Ba. pose proof (addr_value_bound b Wb) as Bb.
  rewrite La in Ba. rewrite Lb in Bb. change (256 ^ N.of_nat 4) with (2 ^ 32) in *.
  unfold mask4. rewrite N.eqb_eq.
  apply masked_eq_iff; replace (l4 + (32 - l4)) with 32 by lia; assumption.
Qed.

Lemma dest6_eq_iff p l4 l6 a b : has_prefixes p l4 l6 ->
  length a = 16%nat -> wf_bytes a -> length b = 16%nat -> wf_bytes b ->
  (ip_to_dest p (V6 a) = ip_to_dest p (V6 b) <-> same_network 128 l6 (addr_value a) (addr_value b) = true).
Proof.
  intros (_ & L6 & _ & M6) La Wa Lb Wb. unfold ip_to_dest, same_network. rewrite M6, !be_value_addr.
  pose proof (addr_value_bound a Wa) as Ba. pose proof (addr_value_bound b Wb) as Bb.
  rewrite La in Ba. rewrite Lb in Bb. change (256 ^ N.of_nat 16) with (2 ^ 128) in *.
  change two64 with (2 ^ 64).
  assert (Ha : addr_value a / 2 ^ 64 < 2 ^ 64)
    by (apply N.div_lt_upper_bound; [discriminate|]; rewrite <- N.pow_add_r; exact Ba).
  assert (Hb : addr_value b / 2 ^ 64 < 2 ^ 64)
    by (apply N.div_lt_upper_bound; [discriminate|]; rewrite <- N.pow_add_r; exact Bb).
  rewrite !(N.mod_small _ (2 ^ 64)) by assumption.
  unfold mask6. rewrite N.eqb_eq.
  rewrite masked_eq_iff by (replace (l6 + (64 - l6)) with 64 by lia; assumption).
  rewrite !N.div_div by (try discriminate; apply N.pow_nonzero; discriminate).
  rewrite <- !N.pow_add_r. replace (64 + (64 - l6)) with (128 - l6) by lia. reflexivity.
Qed.

Lemma dest_eq_iff p l4 l6 ip1 ip2 : has_prefixes p l4 l6 -> wf_ip ip1 -> wf_ip ip2 ->
  (ip_to_dest p ip1 = ip_to_dest p ip2 /\ is_ipv6 ip1 = is_ipv6 ip2 <->
   match to_saddr ip1, to_saddr ip2 with
   | S4 a, S4 b => same_network 32 l4 (addr_value a) (addr_value b)
   | S6 a, S6 b => same_network 128 l6 (addr_value a) (addr_value b)
   | _, _ => false
   end = true).
Proof.
  (* same family: dest4/dest6_eq_iff; mixed: is_ipv6 differs on the left, the match is false on the right *)
  intros HP. destruct ip1 as [a|a], ip2 as [b|b]; intros [La Wa] [Lb Wb]; cbn [to_saddr is_ipv6].
  - rewrite <- (dest4_eq_iff p l4 l6 a b HP La Wa Lb Wb). intuition.
  - intuition discriminate.
  - intuition discriminate.
  - rewrite <- (dest6_eq_iff p l4 l6 a b HP La Wa Lb Wb). intuition.
Qed.

Section WithNameHash.
  Variable hname : bytes -> N.

  Definition hash32 (n : rname) : N := hname (name_hash_stream n) mod two32.

  Lemma key_of_form p c :
    key_of hname p c =
    match category_of_rcode (w_rcode (c_response c)) with
    | NoError => match resp_name c with
                 | Some n => Some (mkKey (ip_to_dest p (c_source c)) (is_ipv6 (c_source c)) (hash32 n) NoError)
                 | None => None
                 end
    | cat => Some (mkKey (ip_to_dest p (c_source c)) (is_ipv6 (c_source c)) 0 cat)
    end.
  Proof.
    unfold key_of, resp_name, hash32. destruct (category_of_rcode _); try reflexivity.
    destruct (c_sos c); [reflexivity|]. destruct (c_question c); reflexivity.
  Qed.

  Lemma key_of_named p c n :
    let cat := category_of_rcode (w_rcode (c_response c)) in
    (cat = NoError -> resp_name c = Some n) ->
    key_of hname p c = Some (mkKey (ip_to_dest p (c_source c)) (is_ipv6 (c_source c))
                               (match cat with NoError => hash32 n | _ => 0 end) cat).
  Proof.
    intros cat H. rewrite key_of_form. fold cat. destruct cat; try reflexivity. rewrite (H eq_refl). reflexivity.
  Qed.

  (* [same_stream] with "same name ignoring case" weakened to "same 32-bit name hash":
     the documented design decision of rrl.rs (struct Key) *)
  Definition same_stream_h (l4 l6 : N) (src1 src2 : ipaddr) (rc1 rc2 : N) (n1 n2 : rname) : Prop :=
    same_prefix l4 l6 (to_saddr src1) (to_saddr src2) = true /\
    scategory_of rc1 = scategory_of rc2 /\
    (scategory_of rc1 = SNoError -> hash32 n1 = hash32 n2).

  Lemma key_eq_iff p l4 l6 src1 src2 c1 c2 n1 n2 :
    has_prefixes p l4 l6 -> wf_ip src1 -> wf_ip src2 ->
    c_source c1 = received_info_source src1 -> c_source c2 = received_info_source src2 ->
    (scategory_of (w_rcode (c_response c1)) = SNoError -> resp_name c1 = Some n1) ->
    (scategory_of (w_rcode (c_response c2)) = SNoError -> resp_name c2 = Some n2) ->
    (key_of hname p c1 <> None /\ key_of hname p c1 = key_of hname p c2
     <-> same_stream_h l4 l6 src1 src2 (w_rcode (c_response c1)) (w_rcode (c_response c2)) n1 n2).
  Proof.
    intros HP W1 W2 S1 S2 N1 N2.
    destruct (received_info_source_canonical src1 W1) as [C1 W1'].
    destruct (received_info_source_canonical src2 W2) as [C2 W2'].
    unfold same_stream_h, same_prefix. rewrite <- C1, <- C2, <- S1, <- S2 in *.
    rewrite <- (dest_eq_iff p l4 l6 _ _ HP W1' W2'), <- category_eq_iff.
    rewrite <- scategory_model in N1, N2 |- *.
    rewrite (key_of_named p c1 n1), (key_of_named p c2 n2).
    - (* different categories: the keys differ in k_category, and the right side asks for equal
         categories; the same category: two keys are equal iff their fields are, which is what the
         right side lists (the hash only where the category is NoError) *)
      destruct (category_of_rcode (w_rcode (c_response c1))), (category_of_rcode (w_rcode (c_response c2)));
        intuition congruence.
    - intros E. apply N2. rewrite E. reflexivity.
    - intros E. apply N1. rewrite E. reflexivity.
  Qed.
End WithNameHash.

Lemma same_stream_same_key hname p l4 l6 src1 src2 c1 c2 n1 n2 :
  has_prefixes p l4 l6 -> wf_ip src1 -> wf_ip src2 ->
  c_source c1 = received_info_source src1 -> c_source c2 = received_info_source src2 ->
  (scategory_of (w_rcode (c_response c1)) = SNoError -> resp_name c1 = Some n1) ->
  (scategory_of (w_rcode (c_response c2)) = SNoError -> resp_name c2 = Some n2) ->
  same_stream l4 l6 (mkSResp (to_saddr src1) (w_rcode (c_response c1)) n1)
                    (mkSResp (to_saddr src2) (w_rcode (c_response c2)) n2) = true ->
  key_of hname p c1 <> None /\ key_of hname p c1 = key_of hname p c2.
Proof.
  intros HP W1 W2 S1 S2 N1 N2 H.
  apply (key_eq_iff hname p l4 l6 src1 src2 c1 c2 n1 n2 HP W1 W2 S1 S2 N1 N2).
  unfold same_stream in H. cbn [s_dest s_rcode s_name] in H.
  apply andb_true_iff in H. destruct H as [H H3]. apply andb_true_iff in H. destruct H as [H1 H2].
  apply scategory_eqb_eq in H2. split; [exact H1|]. split; [exact H2|].
  intros E. rewrite E in H3. unfold hash32. f_equal. f_equal.
  apply name_hash_stream_ci. apply name_eq_ci_iff. exact H3.
Qed.

Lemma same_key_same_stream hname p l4 l6 src1 src2 c1 c2 n1 n2 :
  has_prefixes p l4 l6 -> wf_ip src1 -> wf_ip src2 ->
  c_source c1 = received_info_source src1 -> c_source c2 = received_info_source src2 ->
  (scategory_of (w_rcode (c_response c1)) = SNoError -> resp_name c1 = Some n1) ->
  (scategory_of (w_rcode (c_response c2)) = SNoError -> resp_name c2 = Some n2) ->
  wf_name n1 -> wf_name n2 ->
  (* the two names do not collide in the 32-bit hash *)
  (hash32 hname n1 = hash32 hname n2 -> name_hash_stream n1 = name_hash_stream n2) ->
  key_of hname p c1 <> None -> key_of hname p c1 = key_of hname p c2 ->
  same_stream l4 l6 (mkSResp (to_saddr src1) (w_rcode (c_response c1)) n1)
                    (mkSResp (to_saddr src2) (w_rcode (c_response c2)) n2) = true.
Proof.
  intros HP W1 W2 S1 S2 N1 N2 Wn1 Wn2 NC K0 K.
  destruct (proj1 (key_eq_iff hname p l4 l6 src1 src2 c1 c2 n1 n2 HP W1 W2 S1 S2 N1 N2) (conj K0 K))
    as (H1 & H2 & H3).
  unfold same_stream. cbn [s_dest s_rcode s_name]. rewrite H1, H2.
  rewrite (proj2 (scategory_eqb_eq _ _) eq_refl). cbn [andb].
  rewrite <- H2. destruct (scategory_of (w_rcode (c_response c1))) eqn:E; try reflexivity.
  apply (name_hash_stream_iff n1 n2 Wn1 Wn2). apply NC. apply H3. reflexivity.
Qed.

Lemma subject_is_limitable c :
  subject_to_rrl c = limitable (match c_transport c with Udp => true | Tcp => false end)
                               (c_opcode c) (c_send_response c).
Proof.
  unfold subject_to_rrl, limitable. change OPCODE_QUERY with 0.
  destruct (c_send_response c), (c_transport c), (c_opcode c =? 0); reflexivity.
Qed.

Lemma exempt_unchanged hname hkey p t c now rnd :
  c_transport c = Tcp \/ c_opcode c <> OPCODE_QUERY \/ c_send_response c = false ->
  process_response hname hkey p t c now rnd = Ok (t, c).
Proof.
  intros H. unfold process_response, process_response_gen.
  assert (E : subject_to_rrl c = false).
  { unfold subject_to_rrl. destruct H as [H|[H|H]].
    - rewrite H. rewrite andb_false_r. reflexivity.
    - apply N.eqb_neq in H. rewrite H. apply andb_false_r.
    - rewrite H. reflexivity. }
  rewrite E. reflexivity.
Qed.

Lemma pair_limited_iff hname hkey p t c1 c2 k1 k2 now1 now2 rnd1 rnd2 :
  wf_params p -> (forall cat, rate_of p cat = 1) -> p_window p = 1 -> wf_table p t ->
  subject_to_rrl c1 = true -> subject_to_rrl c2 = true ->
  key_of hname p c1 = Some k1 -> key_of hname p c2 = Some k2 ->
  abs_bucket hkey p t k1 = None -> abs_bucket hkey p t k2 = None ->
  now1 <= now2 < now1 + nanos_per_sec ->
  exists t1 t2,
    process_response hname hkey p t c1 now1 rnd1 = Ok (t1, apply_action c1 Send) /\
    process_response hname hkey p t1 c2 now2 rnd2
    = Ok (t2, apply_action c2 (if key_eqb k1 k2
                               then action_of_verdict (limited_verdict (p_slip p) rnd2)
                               else Send)).
Proof.
  intros W R1 W1 WT S1 S2 K1 K2 A1 A2 [T1 T2].
  destruct (process_response_step hname hkey p t c1 k1 now1 rnd1 W WT S1 K1) as (t1 & P1 & WT1 & L1 & B1 & O1).
  rewrite A1, R1, W1 in *. cbn in P1, B1.
  exists t1.
  destruct (process_response_step hname hkey p t1 c2 k2 now2 rnd2 W WT1 S2 K2) as (t2 & P2 & _).
  exists t2. split; [exact P1|]. rewrite P2. f_equal. f_equal. f_equal. rewrite R1, W1.
  destruct (key_eqb k1 k2) eqn:EK.
  - apply key_eqb_eq in EK. subst k2. rewrite B1.
    unfold bucket_step, bucket_refill, bucket_take. cbn [b_tokens b_since].
    change second with nanos_per_sec.
    assert (D : (now2 - now1) / nanos_per_sec = 0) by (apply N.div_small; lia).
    rewrite D. cbn. reflexivity.
  - rewrite (abs_bucket_other hkey p t t1 k1 k2 _ L1 B1 O1 EK), A2.
    destruct (_ =? _); reflexivity.
Qed.
