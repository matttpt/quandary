(* RdataSetOwned::from_iter keeps the first member of each equality class in
   insertion order: iterating the result gives nodup_by of the inputs. *)
From QV Require Import Base.ListX Model.RdataM Model.RdataSetM Spec.RdataFormatS Spec.RdataEqS
  Proofs.RdNameP Proofs.RdataFormatSP Proofs.RdataVP.
Local Open Scope nat_scope.

Definition small (r : bytes) : Prop := (N.of_nat (length r) < 65536)%N.
Definition enc (be : bool) (r : bytes) : bytes := enc16 be (N.of_nat (length r) mod 65536) ++ r.
Definition inner_of (be : bool) (rs : list bytes) : bytes := flat_map (enc be) rs.

Lemma dec_enc16 be L : (L < 65536)%N ->
  exists x y, enc16 be L = [x; y] /\ dec16 be x y = L.
Proof.
  intros H. destruct (be16_parts L H) as (P1 & P2 & P3).
  unfold enc16, dec16. destruct be; eexists; eexists; split; try reflexivity; lia.
Qed.

Lemma iter_next_enc be r rest : small r -> iter_next be (enc be r ++ rest) = Some (r, rest).
Proof.
  intros Hs. unfold small in Hs. unfold enc. rewrite N.mod_small by exact Hs.
  destruct (dec_enc16 be _ Hs) as (x & y & -> & D).
  unfold iter_next. cbn [app]. unfold get_range at 1. cbn [Nat.ltb Nat.leb orb length slice skipn firstn Nat.sub].
  rewrite D, Nat2N.id. unfold get_range.
  destruct (length r + 2 <? 2) eqn:A; [apply Nat.ltb_lt in A; lia|]. cbn [orb].
  destruct (length (x :: y :: r ++ rest) <? length r + 2) eqn:B.
  { apply Nat.ltb_lt in B. simpl in B. rewrite app_length in B. lia. }
  unfold slice. replace (length r + 2 - 2) with (length r) by lia. cbn [skipn].
  rewrite firstn_app_exact by reflexivity.
  replace (length r + 2) with (S (S (length r))) by lia. cbn [skipn].
  rewrite skipn_app_exact by reflexivity. reflexivity.
Qed.

Lemma iter_all_inner be : forall rs fuel, Forall small rs -> length rs < fuel ->
  iter_all fuel be (inner_of be rs) = rs.
Proof.
  induction rs as [|r rs IH]; intros fuel Hs Hf; (destruct fuel as [|f]; [lia|]); cbn [iter_all].
  - reflexivity.
  - inversion Hs; subst. cbn [inner_of flat_map]. rewrite iter_next_enc by assumption.
    f_equal. apply IH; auto. simpl in Hf. lia.
Qed.

Lemma inner_len be rs : length rs <= length (inner_of be rs).
Proof.
  induction rs as [|r rs IH]; simpl; [lia|]. unfold enc at 1, enc16. rewrite !app_length.
  destruct be; simpl; lia.
Qed.

Lemma set_iter_inner be rs : Forall small rs -> set_iter be (inner_of be rs) = rs.
Proof. intros H. unfold set_iter. apply iter_all_inner; auto. pose proof (inner_len be rs). lia. Qed.

Lemma inner_snoc be kept r :
  inner_of be (kept ++ [r]) = inner_of be kept ++ enc16 be (N.of_nat (length r) mod 65536) ++ r.
Proof. unfold inner_of. rewrite flat_map_app. simpl. rewrite app_nil_r. reflexivity. Qed.

Section WithEq.
  Variables (c t : N) (eqf : bytes -> bytes -> bool) (all : list bytes).
  (* on the inputs, the model's equals is the total boolean function eqf *)
  Hypothesis Heq : forall x y, In x all -> In y all -> equals c t x y = Ok (eqf x y).

  Lemma any_equal_spec r ex : In r all -> incl ex all ->
    any_equal c t r ex = Ok (existsb (fun y => eqf r y) ex).
  Proof.
    intros Hr. induction ex as [|x ex IH]; intros Hi; cbn [any_equal existsb]; [reflexivity|].
    rewrite Heq by (auto; apply Hi; left; reflexivity). cbn [bind].
    destruct (eqf r x); cbn [orb]; [reflexivity|]. apply IH. intros z Hz. apply Hi. right. exact Hz.
  Qed.

  (* acc is None exactly while no input has been seen; kept is the decoded content of acc *)
  Lemma from_iter_loop_spec be : forall rs kept acc,
    match acc with Some i => i | None => [] end = inner_of be kept ->
    Forall small kept -> Forall small rs -> incl kept all -> incl rs all ->
    from_iter_loop be c t acc rs =
    Ok (match rs with [] => acc | _ => Some (inner_of be (kept ++ nodup_by eqf kept rs)) end).
  Proof.
    induction rs as [|r rs IH]; intros kept acc Hacc Hk Hs Ik Ir; cbn [from_iter_loop]; [reflexivity|].
    inversion Hs as [|? ? Hr Hs']; subst.
    cbv zeta.
    match goal with |- context [set_insert be c t ?x r] =>
      replace x with (inner_of be kept) by (symmetry; exact Hacc) end.
    unfold set_insert. rewrite set_iter_inner by exact Hk.
    rewrite any_equal_spec by (auto; apply Ir; left; reflexivity). cbn [bind nodup_by].
    assert (Ir' : incl rs all) by (intros z Hz; apply Ir; right; exact Hz).
    destruct (existsb (fun y => eqf r y) kept) eqn:E; cbn [bind].
    - rewrite (IH kept (Some (inner_of be kept))) by auto.
      destruct rs; [rewrite app_nil_r|]; reflexivity.
    - rewrite (IH (kept ++ [r])).
      + destruct rs; cbn [nodup_by]; rewrite <- ?app_assoc; [rewrite inner_snoc|]; reflexivity.
      + cbn iota. symmetry. apply inner_snoc.
      + apply Forall_app. split; auto.
      + exact Hs'.
      + intros z Hz. apply in_app_or in Hz. destruct Hz as [Hz|[<-|[]]]; [apply Ik; exact Hz|].
        apply Ir. left. reflexivity.
      + exact Ir'.
  Qed.

  Theorem from_iter_spec be rs : Forall small rs -> incl rs all ->
    from_iter be c t rs =
    Ok (match rs with [] => None | _ => Some (inner_of be (nodup_by eqf [] rs)) end) /\
    (forall inner, from_iter be c t rs = Ok (Some inner) -> set_iter be inner = nodup_by eqf [] rs).
  Proof.
    intros Hs Hi. unfold from_iter.
    assert (L : from_iter_loop be c t None rs =
                Ok (match rs with [] => None | _ => Some (inner_of be ([] ++ nodup_by eqf [] rs)) end)).
    { apply (from_iter_loop_spec be rs [] None); auto; try reflexivity; try (intros z []). }
    rewrite L.
    split; [destruct rs; reflexivity|].
    intros inner H. destruct rs as [|r rs]; [discriminate|].
    assert (E : inner = inner_of be (nodup_by eqf [] (r :: rs))) by (cbn [app] in H; congruence).
    rewrite E.
    apply set_iter_inner.
    (* the kept members are members of the input, hence small *)
    assert (G : forall l seen, Forall small l -> Forall small (nodup_by eqf seen l)).
    { induction l as [|x l IHl]; intros seen Hl; cbn [nodup_by]; [constructor|].
      inversion Hl; subst. destruct (existsb _ seen); [apply IHl; auto|constructor; auto]. }
    apply G. exact Hs.
  Qed.
End WithEq.
