(* C04 — responses respect the transport size limit and truncate correctly.
   Statements only (proofs are [exact <lemma>] or a few lines of unpacking).

   What is proved, for ALL zones, questions, buffers and sizes, about the OCTET-LEVEL model
   (Model/QueryW.v: the query model of C05 driving the Writer model of C12, prepared as
   Server::handle_message prepares the response of a clean QUERY):
     c04_response_within_limit   |response| <= limit in effect (TCP 65535; UDP 512 without OPT; UDP with
                                 OPT: the negotiated limit handed over by the server model)
     c04_tc_shape                the TC bit is set only in the Truncation arm, only over UDP, after
                                 clear_rrs: no answer/authority record and only the reserved pseudo-records
                                 counted; over TCP TC stays clear; the limit never changes while answering
     c04_limit_value             (server model, Model/Server.v) the limit of every response handle_message
                                 yields: 65535 / 512 (capped by the buffer), or over UDP the CLASS of a
                                 processed OPT clamped to [512, server size]
     c04_udp_response_size       the two sides composed for UDP
     c04_udp_identical_when_fits_partial   clause (iii) for answers that end Ok: if the finished TCP message
                                 fits the UDP space, the UDP response is octet-identical (through
                                 c04_writer_limit_monotone and a relational lifting over the query model)
     c04_tc_on_the_octets        (third wave, composition with C12's round trip) clause (ii) on the FINISHED OCTETS,
                                 for every zone built by adds: the RFC 1035 decoder finds TC set only over UDP, and
                                 then no answer / authority record and nothing but the OPT in the additional section
     c04_glue_complete_partial   (third wave) the glue half of clause (iv), unary: a direct referral whose answering
                                 logic succeeded (so: neither TC nor an error SERVFAIL) carries, on the finished octets,
                                 the NS RRset and — first in the additional section — EVERY address record the zone
                                 holds for the name servers at/below the delegated zone
     c04_only_optional_omitted_partial   (third wave) clause (iv) for EVERY question (CNAME chains, ANY, negative answers
                                 included), per response against the idealised answer: whenever the answering logic
                                 succeeds on the octet-level Writer, the decoded answer and authority sections are those of
                                 the idealised (never-truncating) run of the same logic — which is C05's resolve — and the
                                 decoded additional section is the idealised one minus some records of its optional tail
   What is NOT proved and is decided per case by the extracted oracle [pair_check] (Spec/RespS.v) on
   the real server's two responses to every generated request: clause (iii) for answers that end in
   SERVFAIL (false there: finding C04-1), clause (iv) "otherwise a TC-clear UDP response differs only
   by omitted optional additional records, never by in-bailiwick glue", and the size/TC clauses on
   the finished octets.  c04_oracle_* say what a verdict PairOk means. *)
From QV Require Import Base.Res Base.Octets Model.MsgWriter Model.ZoneTree Model.Query Model.QueryW
  Proofs.MsgWriterInvP Proofs.QueryWP Proofs.ServerLimitP Proofs.WriterMonoP Proofs.QueryMonoP Spec.MsgWriterS Spec.RespS.
From QV Require Model.Server Spec.NameRepr.
From QV Require Import Spec.ZoneLookupS Spec.MsgWriterAbsS Proofs.MsgWriterDecP Proofs.ComposeTraceP Proofs.ComposeTcP Proofs.ComposeGlueP Proofs.ComposeAbsP Proofs.ComposeEndP.
From QV Require Spec.ResolveS Spec.ResolveRepr.
From QV Require Import Spec.RespSigS Proofs.RespSigP.

Theorem c04_response_within_limit : forall negttl buf tcp id rd qname qtype qclass edns limit z len b,
  respond_w negttl buf tcp id rd qname qtype qclass edns limit z = Some (len, b) ->
  (tcp = true -> len <= N.to_nat 65535) /\
  (tcp = false -> edns = None -> len <= N.to_nat 512) /\
  (tcp = false -> edns <> None -> N.to_nat 512 <= limit -> len <= limit).
Proof. exact respond_w_limit. Qed.

Theorem c04_tc_shape : forall negttl buf tcp id rd qname qtype qclass edns limit z w w',
  prepare_w buf tcp id rd qname qtype qclass edns limit = Some w ->
  handle_non_axfr_query w_iface negttl z qname qtype tcp w = Some w' ->
  w_limit w' = w_limit w /\
  (tcp = true -> tc_clear w') /\
  (tc_clear w' \/ (tcp = false /\ tc_set w' /\ no_records w')).
Proof.
  intros negttl buf tcp id rd qname qtype qclass edns limit z w w' Hp Hh.
  destruct (prepare_PW _ _ _ _ _ _ _ _ _ _ Hp) as (L & HP & _).
  destruct (handle_PW L _ _ _ _ _ _ _ HP Hh) as (_ & Hl & A & B).
  destruct HP as (_ & Hl0 & _). split; [congruence|]. auto.
Qed.

(* The server side (Model/Server.v, every path of handle_message that yields a response): the limit in
   effect is 65535 over TCP and 512 over UDP (capped by the buffer) unless — over UDP — an OPT record of
   the request was processed, in which case it is that OPT's CLASS field (the requestor's payload
   size) clamped to [512, the server's configured size]. *)
Theorem c04_limit_value : forall answer verify cfg req w,
  Server.handle_message answer verify cfg req = Ok (Some w) ->
  Server.w_buflen w = Server.c_buflen cfg /\
  (Server.w_limit w = Nat.min (match Server.c_transport cfg with Server.Tcp => Server.tcp_limit | Server.Udp => Server.udp_limit end)
                              (Server.c_buflen cfg) \/
   (Server.c_transport cfg = Server.Udp /\ Server.w_edns w <> None /\
    exists their, opt_class req their /\
      Server.w_limit w = Nat.min (N.to_nat (N.max 512 (N.min their (Server.c_edns_size cfg)))) (Server.c_buflen cfg))).
Proof. exact handle_message_limit. Qed.

(* Composition of the two sides for UDP: the response the octet-level model produces under the limit and
   EDNS state that the server model hands over is at most 512 octets long, or at most the requestor's
   advertised size clamped to [512, server size] for an OPT of the request. *)
Theorem c04_udp_response_size : forall answer verify cfg req w negttl buf id rd qn qt qc z len b,
  Server.handle_message answer verify cfg req = Ok (Some w) ->
  Server.c_transport cfg = Server.Udp -> N.to_nat 512 <= Server.c_buflen cfg ->
  respond_w negttl buf false id rd qn qt qc (option_map fst (Server.w_edns w)) (Server.w_limit w) z = Some (len, b) ->
  len <= N.to_nat 512 \/
  exists their, opt_class req their /\ len <= N.to_nat (N.max 512 (N.min their (Server.c_edns_size cfg))).
Proof.
  intros answer verify cfg req w negttl buf id rd qn qt qc z len b Hm Tr Hbuf Hr.
  destruct (handle_message_limit _ _ _ _ _ Hm) as (_ & L).
  destruct (respond_w_limit _ _ _ _ _ _ _ _ _ _ _ _ _ Hr) as (_ & B2 & B3).
  destruct L as [L|(_ & Ed & their & O & L)].
  - left. unfold L0 in L. rewrite Tr in L. change Server.udp_limit with (N.to_nat 512) in L.
    rewrite Nat.min_l in L by exact Hbuf.
    destruct (Server.w_edns w) as [[sz up]|] eqn:E; cbn [option_map] in *.
    + rewrite <- L. apply B3; auto; [discriminate|lia].
    + apply B2; auto.
  - right. exists their. split; [exact O|]. unfold negotiated in L.
    destruct (Server.w_edns w) as [[sz up]|] eqn:E; [|congruence]. cbn [option_map] in *.
    assert (H512 : N.to_nat 512 <= Server.w_limit w) by (rewrite L; apply Nat.min_glb; lia).
    specialize (B3 eq_refl ltac:(discriminate) H512). rewrite L in B3. etransitivity; [exact B3|apply Nat.le_min_l].
Qed.

(* Clause (iii), PARTIAL: for answers that END Ok with every Writer operation succeeding on the TCP side
   ([w_strict]: the octet-level interface with failures turned into panics, so that an Ok run is a run
   without any failed operation): if the finished message fits the space the UDP writer has, the UDP
   response is the TCP response, octet for octet.  Not covered: answers that end in SERVFAIL after
   partial writes (there the statement is false: finding C04-1) and clause (iv). *)
Theorem c04_udp_identical_when_fits_partial : forall negttl buf id rd qname qtype qclass edns limit z wt wu wt' len b,
  prepare_w buf true id rd qname qtype qclass edns limit = Some wt ->
  prepare_w buf false id rd qname qtype qclass edns limit = Some wu ->
  (if (qtype =? QTYPE_ANY)%N then answer_any w_strict negttl z qname wt else answer w_strict negttl z qname qtype wt) = Ok (tt, wt') ->
  finish wt' = Ok (len, b) -> w_tsig wt' = None -> w_cursor wt' <= w_avail wt' ->
  w_cursor wt' <= w_avail wu -> len <= w_avail wu + (if w_edns wt' then opt_record_size else 0) ->
  respond_w negttl buf true id rd qname qtype qclass edns limit z = Some (len, b) /\
  respond_w negttl buf false id rd qname qtype qclass edns limit z = Some (len, b).
Proof. exact respond_udp_identical. Qed.

(* its Writer-level core: an add_*_rr / add_*_rrset that succeeds with final cursor c succeeds identically
   (same result, same octets, same compression decisions) under any limit / available space a >= c *)
Theorem c04_writer_limit_monotone : forall l a s h owner ty cl ttl,
  (forall rd v, mono l a (add_section_rr s h owner ty cl ttl rd v)) /\
  (forall rds v, mono l a (add_section_rrset s h owner ty cl ttl rds v)).
Proof. intros. split; intros; [apply mono_section_rr|apply mono_section_rrset]. Qed.

(* what the oracle's verdict means *)
Lemma label_eqb_eq : forall a b, label_eqb a b = true -> a = b.
Proof.
  induction a as [|x a IH]; destruct b as [|y b]; simpl; try discriminate; auto.
  intros H. apply andb_true_iff in H. destruct H as [H1 H2]. apply N.eqb_eq in H1. f_equal; auto.
Qed.

Theorem c04_oracle_tc_shape : forall their server u t mu mt,
  decode_msg u = Some mu -> decode_msg t = Some mt ->
  pair_check their server u t = PairOk -> tc_bit mu = true ->
  m_an mu = [] /\ m_ns mu = [] /\ forallb is_pseudo (m_ar mu) = true /\ tc_bit mt = false.
Proof.
  intros their server u t mu mt Hu Ht. unfold pair_check. rewrite Hu, Ht.
  destruct (_ || _); [discriminate|]. destruct (tc_bit mt) eqn:Tt; [discriminate|].
  intros H Htc. destruct (length t <=? udp_limit_of mu their server) eqn:F.
  { destruct (label_eqb u t) eqn:E; [|discriminate]. apply label_eqb_eq in E. subst t.
    rewrite Hu in Ht. inversion Ht; subst. rewrite Htc in *. discriminate. }
  rewrite Htc in H.
  destruct (length (m_an mu) =? 0) eqn:A; [|discriminate]. destruct (length (m_ns mu) =? 0) eqn:B; [|discriminate].
  destruct (forallb is_pseudo (m_ar mu)) eqn:C; [|discriminate].
  apply Nat.eqb_eq in A. apply Nat.eqb_eq in B.
  destruct (m_an mu); [|discriminate]. destruct (m_ns mu); [|discriminate]. auto.
Qed.

Theorem c04_oracle_sizes_and_identity : forall their server u t mu mt,
  decode_msg u = Some mu -> decode_msg t = Some mt ->
  pair_check their server u t = PairOk ->
  length u <= udp_limit_of mu their server /\ length t <= N.to_nat 65535 /\ tc_bit mt = false /\
  (length t <= udp_limit_of mu their server -> u = t).
Proof.
  intros their server u t mu mt Hu Ht. unfold pair_check. rewrite Hu, Ht.
  destruct (udp_limit_of mu their server <? length u) eqn:A; [discriminate|].
  destruct (N.to_nat 65535 <? length t) eqn:B; [discriminate|]. cbn [orb].
  apply Nat.ltb_ge in A. apply Nat.ltb_ge in B.
  destruct (tc_bit mt); [discriminate|]. intros H. repeat split; auto.
  intros Hfit. apply Nat.leb_le in Hfit. rewrite Hfit in H.
  destruct (label_eqb u t) eqn:E; [|discriminate]. apply label_eqb_eq. exact E.
Qed.

(* Non-vacuity: zone "a." with a TXT RRset of 3 x 201 octets at b.a.; the question b.a. TXT without EDNS.
   Over TCP the model writes the complete 660-octet response (3 answers); over UDP (limit 512) the second
   record does not fit: 21 octets, TC set (flags octet 0x86), no records.  The oracle accepts the pair and
   both responses are well formed. *)
Example c04_example :
  let a := [97%N] in let big := [98%N] in
  let soa := [0; 0; 0;0;0;1; 0;0;0;2; 0;0;0;3; 0;0;0;4; 0;0;0;60]%N in
  let txt := fun c : N => (200 :: repeat c 200)%N in
  let recs := [mk_record [a] 6 1 3600 soa; mk_record [big; a] 16 1 300 (txt 120%N);
               mk_record [big; a] 16 1 300 (txt 121%N); mk_record [big; a] 16 1 300 (txt 122%N)] in
  exists z ru rt lu lt,
    zone_build req_simple (zone_new [a] 1 false) recs = Some z /\
    respond_w neg_ttl (repeat 0%N 1000) false 7 false [big; a] 16 1 None 512 z = Some (lu, ru) /\
    respond_w neg_ttl (repeat 0%N 1000) true 7 false [big; a] 16 1 None 512 z = Some (lt, rt) /\
    lu = 21 /\ lt = 660 /\ nth_error ru 2 = Some 134%N /\ nth_error rt 2 = Some 132%N /\
    pair_check 0 1232 (firstn lu ru) (firstn lt rt) = PairOk /\
    wf_response (firstn lu ru) = true /\ wf_response (firstn lt rt) = true.
Proof.
  intros a big soa txt recs.
  (* the two runs evaluated once, as one boolean; the witnesses are then variables, not 1000-octet literals *)
  assert (E : match zone_build req_simple (zone_new [a] 1 false) recs with
              | Some z =>
                match respond_w neg_ttl (repeat 0%N 1000) false 7 false [big; a] 16 1 None 512 z,
                      respond_w neg_ttl (repeat 0%N 1000) true 7 false [big; a] 16 1 None 512 z with
                | Some (lu, ru), Some (lt, rt) =>
                  (lu =? 21) && (lt =? 660) &&
                  match nth_error ru 2 with Some x => (x =? 134)%N | None => false end &&
                  match nth_error rt 2 with Some x => (x =? 132)%N | None => false end &&
                  match pair_check 0 1232 (firstn lu ru) (firstn lt rt) with PairOk => true | _ => false end &&
                  wf_response (firstn lu ru) && wf_response (firstn lt rt)
                | _, _ => false end
              | None => false end = true) by (vm_compute; reflexivity).
  destruct (zone_build req_simple (zone_new [a] 1 false) recs) as [z|] eqn:Ez; [|discriminate E].
  destruct (respond_w neg_ttl (repeat 0%N 1000) false 7 false [big; a] 16 1 None 512 z) as [[lu ru]|] eqn:Eu; [|discriminate E].
  destruct (respond_w neg_ttl (repeat 0%N 1000) true 7 false [big; a] 16 1 None 512 z) as [[lt rt]|] eqn:Et; [|discriminate E].
  exists z, ru, rt, lu, lt.
  rewrite !andb_true_iff in E. destruct E as [[[[[[Hlu Hlt] Hn1] Hn2] Hp] Hw1] Hw2].
  destruct (nth_error ru 2) as [x|]; [|discriminate Hn1]. destruct (nth_error rt 2) as [y|]; [|discriminate Hn2].
  destruct (pair_check 0 1232 (firstn lu ru) (firstn lt rt)); try discriminate Hp.
  apply Nat.eqb_eq in Hlu, Hlt. apply N.eqb_eq in Hn1, Hn2. subst x y. repeat split; assumption.
Qed.

(* Non-vacuity of c04_udp_identical_when_fits_partial: the zone of c04_example, question b.a. TXT with an OPT
   (server size 1232, negotiated limit 1232): every hypothesis holds, the response is 671 octets on both transports. *)
Example c04_identical_example :
  let a := [97%N] in let big := [98%N] in
  let soa := [0; 0; 0;0;0;1; 0;0;0;2; 0;0;0;3; 0;0;0;4; 0;0;0;60]%N in
  let txt := fun c : N => (200 :: repeat c 200)%N in
  let recs := [mk_record [a] 6 1 3600 soa; mk_record [big; a] 16 1 300 (txt 120%N);
               mk_record [big; a] 16 1 300 (txt 121%N); mk_record [big; a] 16 1 300 (txt 122%N)] in
  let buf := repeat 0%N 1300 in
  exists z wt wu wt' len b,
    zone_build req_simple (zone_new [a] 1 false) recs = Some z /\
    prepare_w buf true 7 false [big; a] 16 1 (Some 1232%N) 1232 = Some wt /\
    prepare_w buf false 7 false [big; a] 16 1 (Some 1232%N) 1232 = Some wu /\
    answer w_strict neg_ttl z [big; a] 16 wt = Ok (tt, wt') /\ finish wt' = Ok (len, b) /\
    w_tsig wt' = None /\ w_cursor wt' <= w_avail wt' /\ w_cursor wt' <= w_avail wu /\
    len <= w_avail wu + (if w_edns wt' then opt_record_size else 0) /\ len = 671.
Proof.
  intros a big soa txt recs buf.
  (* the whole run evaluated once, as one boolean; the witnesses are then variables, not 1300-octet literals *)
  assert (E : match zone_build req_simple (zone_new [a] 1 false) recs,
                    prepare_w buf true 7 false [big; a] 16 1 (Some 1232%N) 1232,
                    prepare_w buf false 7 false [big; a] 16 1 (Some 1232%N) 1232 with
              | Some z, Some wt, Some wu =>
                match answer w_strict neg_ttl z [big; a] 16 wt with
                | Ok (tt, wt') =>
                  match finish wt' with
                  | Ok (len, b) =>
                    match w_tsig wt' with None => true | Some _ => false end &&
                    (w_cursor wt' <=? w_avail wt') && (w_cursor wt' <=? w_avail wu) &&
                    (len <=? w_avail wu + (if w_edns wt' then opt_record_size else 0)) && (len =? 671)
                  | _ => false end
                | _ => false end
              | _, _, _ => false end = true) by (vm_compute; reflexivity).
  destruct (zone_build req_simple (zone_new [a] 1 false) recs) as [z|] eqn:Ez; [|discriminate E].
  destruct (prepare_w buf true 7 false [big; a] 16 1 (Some 1232%N) 1232) as [wt|] eqn:Et; [|discriminate E].
  destruct (prepare_w buf false 7 false [big; a] 16 1 (Some 1232%N) 1232) as [wu|] eqn:Eu; [|discriminate E].
  destruct (answer w_strict neg_ttl z [big; a] 16 wt) as [[[] wt']| |] eqn:Ea; try discriminate E.
  destruct (finish wt') as [[len b]| |] eqn:Ef; try discriminate E.
  exists z, wt, wu, wt', len, b.
  repeat (apply andb_true_iff in E; destruct E as [E ?]).
  destruct (w_tsig wt'); [discriminate E|].
  repeat split; try assumption; try (apply Nat.leb_le; assumption). apply Nat.eqb_eq; assumption.
Qed.

(* Clause (ii) on the octets.  c04_tc_shape above speaks about the Writer's counters and header octet; this one about
   what an independent RFC 1035 decoder reads from the finished message: for every zone built by adds (any records with
   RDATA <= 65535 octets < 256 and 16-bit types), every question at/below the apex, both transports, with or without
   EDNS, any buffer of at least 512 octets: respond_w returns a message that decodes; over TCP its TC bit is clear; if
   its TC bit is set, the answer and authority sections are empty and the additional section holds only pseudo-records
   (the OPT).  From c12_roundtrip + the key lemma of Proofs/ComposeKeyP.v: the only operation of the whole run that
   touches TC is the set_tc(true) right after clear_rrs in the Truncation arm over UDP. *)
Theorem c04_tc_on_the_octets : forall reqf apex cls wide recs z negttl buf tcp id rd qname qtype qclass edns limit,
  (forall c t a b d, reqf c t a b = true -> reqf c t b d = true -> reqf c t a d = true) ->
  zone_build reqf (zone_new apex cls wide) recs = Some z ->
  Forall (fun r => good_rd (r_rdata r) /\ (r_type r < 65536)%N) recs -> good_name apex -> (cls < 65536)%N ->
  512 <= length buf -> good_name qname -> in_zone apex qname = true ->
  (id < 65536)%N -> (qtype < 65536)%N -> (qclass < 65536)%N -> (forall s, edns = Some s -> (s < 65536)%N) ->
  exists len b m, respond_w negttl buf tcp id rd qname qtype qclass edns limit z = Some (len, b) /\
    decode_msg (firstn len b) = Some m /\
    (tcp = true -> tc_bit m = false) /\
    (tc_bit m = true -> m_an m = [] /\ m_ns m = [] /\ forallb is_pseudo (m_ar m) = true).
Proof. exact respond_w_tc_build. Qed.

(* The glue half of clause (iv) ("never by in-bailiwick referral glue"), in unary form.  For every zone built by adds and
   every question (QTYPE other than ANY) that the zone answers with a referral (the lookup reports LReferral child ns):
   respond_w returns a message that decodes, and IF the answering logic (do_referral on the prepared writer) succeeded —
   then the response is TC-clear and not an error SERVFAIL (c04_tc_shape, handle_non_axfr_query) — the decoded authority
   section is the NS RRset of the delegation and the decoded additional section BEGINS WITH every address record
   ([glue_rrs]: for each NS target at/below the child, in RDATA order, the A RRset and, in class IN, the AAAA RRset that
   Zone::lookup_addrs reports with search_below_cuts) — whatever the transport, the limit and the EDNS settings; after
   them come records related to an order-preserving SUB-SELECTION X ([Sub]) of the candidate list [opt_rrs] (the address
   records of the other name servers, added under execute_allowing_truncation), then only pseudo-records (the OPT).
   Since glue_rrs and opt_rrs are functions of the zone and the question alone, any two successful responses to the same
   referral — over UDP and over TCP, under any limits — have the same authority section, the same glue, and differ only in
   WHICH of the optional candidates are present: the complete response has them all (X = opt_rrs), a UDP response that
   lacks room omits some.  This is clause (iv) for direct referrals, stated per response against the canonical lists
   instead of by comparing two runs.  PARTIAL: direct referrals only (not those reached through a CNAME chain or by QTYPE
   ANY, nor the additional-section processing of positive answers: same argument, not done). *)
Theorem c04_glue_complete_partial : forall reqf apex cls wide recs z negttl buf tcp id rd qname qtype qclass edns limit child ns,
  (forall c t a b d, reqf c t a b = true -> reqf c t b d = true -> reqf c t a d = true) ->
  zone_build reqf (zone_new apex cls wide) recs = Some z ->
  Forall (fun r => good_rd (r_rdata r) /\ (r_type r < 65536)%N) recs -> good_name apex -> (cls < 65536)%N ->
  512 <= length buf -> good_name qname -> in_zone apex qname = true ->
  (id < 65536)%N -> (qtype < 65536)%N -> (qclass < 65536)%N -> (forall s, edns = Some s -> (s < 65536)%N) ->
  (qtype =? QTYPE_ANY)%N = false ->
  zone_lookup z qname qtype true false = Ok (LReferral child ns) ->
  exists w len b m,
    prepare_w buf tcp id rd qname qtype qclass edns limit = Some w /\
    respond_w negttl buf tcp id rd qname qtype qclass edns limit z = Some (len, b) /\
    decode_msg (firstn len b) = Some m /\
    match do_referral w_iface z child ns w with
    | Ok _ =>
      exists ds_ns ds_glue X ds_opt ds_pseudo,
        m_ns m = ds_ns /\
        Forall2 (rr_rel xparts) (map (mkAR child Standard Gen.ZoneConsts.TYPE_NS (z_class z) (ttl_rfc (fst ns))) (snd ns)) ds_ns /\
        m_ar m = ds_glue ++ ds_opt ++ ds_pseudo /\
        Forall2 (rr_rel xparts) (glue_rrs z child (snd ns)) ds_glue /\
        Forall2 (rr_rel xparts) X ds_opt /\ Sub X (opt_rrs z child (snd ns)) /\
        forallb is_pseudo ds_pseudo = true
    | _ => True
    end.
Proof. exact respond_referral_glue_build. Qed.

(* Clause (iv) for direct positive answers, in the same unary form.  For every zone built by adds and every question
   (QTYPE other than ANY) answered by an RRset at the query name (the lookup reports LFound rs): respond_w decodes, and if the
   answering logic (set_aa, the answer RRset, additional-section processing) succeeded, the decoded answer section is that
   RRset, the authority section is empty, and the additional section is records related to an order-preserving
   sub-selection X of the candidate list [addl_rrs] (for NS/MD/MF/MB/MX/SRV answers in classes IN/CH: the A / AAAA RRsets
   of the names in the RDATA, in order) followed only by pseudo-records.  Any two successful responses to the same question
   — UDP or TCP, any limit — therefore differ only in which of those optional candidates are present. *)
Theorem c04_optional_only_partial : forall reqf apex cls wide recs z negttl buf tcp id rd qname qtype qclass edns limit rs sos,
  (forall c t a b d, reqf c t a b = true -> reqf c t b d = true -> reqf c t a d = true) ->
  zone_build reqf (zone_new apex cls wide) recs = Some z ->
  Forall (fun r => good_rd (r_rdata r) /\ (r_type r < 65536)%N) recs -> good_name apex -> (cls < 65536)%N ->
  512 <= length buf -> good_name qname -> in_zone apex qname = true ->
  (id < 65536)%N -> (qtype < 65536)%N -> (qclass < 65536)%N -> (forall s, edns = Some s -> (s < 65536)%N) ->
  (qtype =? QTYPE_ANY)%N = false ->
  zone_lookup z qname qtype true false = Ok (LFound rs sos) ->
  exists w len b m,
    prepare_w buf tcp id rd qname qtype qclass edns limit = Some w /\
    respond_w negttl buf tcp id rd qname qtype qclass edns limit z = Some (len, b) /\
    decode_msg (firstn len b) = Some m /\
    match set_aa_then w_iface (add_found w_iface z QhQname qname qtype rs) w with
    | Ok _ =>
      exists X ds_opt ds_pseudo,
        Forall2 (rr_rel xparts) (map (mkAR qname Standard qtype (z_class z) (ttl_rfc (fst rs))) (snd rs)) (m_an m) /\
        m_ns m = [] /\
        m_ar m = ds_opt ++ ds_pseudo /\
        Forall2 (rr_rel xparts) X ds_opt /\ Sub X (addl_rrs z qtype (snd rs)) /\
        forallb is_pseudo ds_pseudo = true
    | _ => True
    end.
Proof. exact respond_found_optional_build. Qed.

(* CLAUSE (iv) IN GENERAL, per response against the idealised answer — and the bridge from the octets to C05.
   For every zone built by adds, every question at/below the apex (any QTYPE: direct answers, CNAME chains, referrals,
   ANY, negative answers), both transports, any limits: respond_w decodes, and if the answering logic (answer / answer_any
   of query.rs driving the octet-level Writer) succeeded, then with r the response of the SAME logic on the idealised
   never-truncating Writer (answer_rec, the object of C05; = the RFC resolution algorithm [resolve] by c05_answer_refines):
     - the decoded answer section is r's answer section and the decoded authority section is r's authority section
       (record by record: owner and RDATA names modulo ASCII case, type, class, TTL, RDATA — C12's rr_rel);
     - r's additional section splits as M ++ O and the decoded additional section is M' ++ X' ++ P with M' the records
       of M, X' the records of an order-preserving sub-selection X of O, and P only pseudo-records (the OPT).
   Hence any two successful responses to the same question — over UDP and over TCP, under any limits — have the same
   answer and authority sections and differ only by omitted records of the additional section; a complete response
   omits nothing.  PARTIAL with respect to the literal clause (iv): (a) the condition is the model-level "answering
   succeeded" (by c04_tc_shape / c04_tc_on_the_octets the other endings are exactly the TC and SERVFAIL responses);
   (b) that the mandatory part M contains every in-bailiwick glue record is stated only for direct referrals
   (c04_glue_complete_partial); here M is whatever was written before the first optional record. *)
Theorem c04_only_optional_omitted_partial : forall reqf apex cls wide recs z buf tcp id rd qname qtype qclass edns limit,
  (forall c t a b d, reqf c t a b = true -> reqf c t b d = true -> reqf c t a d = true) ->
  zone_build reqf (zone_new apex cls wide) recs = Some z ->
  Forall (fun r => good_rd (r_rdata r) /\ (r_type r < 65536)%N) recs -> good_name apex -> (cls < 65536)%N ->
  512 <= length buf -> good_name qname -> in_zone apex qname = true ->
  (id < 65536)%N -> (qtype < 65536)%N -> (qclass < 65536)%N -> (forall s, edns = Some s -> (s < 65536)%N) ->
  exists w len b m,
    prepare_w buf tcp id rd qname qtype qclass edns limit = Some w /\
    respond_w neg_ttl buf tcp id rd qname qtype qclass edns limit z = Some (len, b) /\
    decode_msg (firstn len b) = Some m /\
    match answering z neg_ttl w_iface qname qtype w with
    | Ok _ =>
      exists r, (forall tcp', answer_rec z qname qtype tcp' = Some r) /\
        ResolveRepr.norm_rec r = ResolveS.resolve reqf apex cls (accepted apex cls recs) qname qtype /\
        Forall2 (rr_rel xparts) (map q2a (rc_an r)) (m_an m) /\
        Forall2 (rr_rel xparts) (map q2a (rc_ns r)) (m_ns m) /\
        exists M X Oq dsM dsX dsP,
          map q2a (rc_ar r) = M ++ map q2a Oq /\ Sub X (map q2a Oq) /\
          Forall (fun q => ~ in_bailiwick (rc_ns r) q) Oq /\
          m_ar m = dsM ++ dsX ++ dsP /\ Forall2 (rr_rel xparts) M dsM /\ Forall2 (rr_rel xparts) X dsX /\
          forallb is_pseudo dsP = true
    | _ => True
    end.
Proof. exact respond_w_vs_resolve. Qed.

(* The endings of handle_non_axfr_query read off the octets: the answering logic succeeded exactly when the decoded
   response has TC clear and an RCODE other than SERVFAIL (the answering logic itself only ever sets NXDOMAIN and never TC;
   the error arms end with set_rcode(SERVFAIL) or, over UDP after a Truncation, set_tc(true)). *)
Theorem c04_endings_on_the_octets : forall reqf apex cls R z negttl buf tcp id rd qname qtype qclass edns limit,
  Proofs.ZoneInvP.Inv reqf apex cls z R -> good_name apex -> (cls < 65536)%N ->
  Forall (fun r => Proofs.ComposeKeyP.Pz (fun _ _ => True) (r_type r) (r_rdata r)) R ->
  512 <= length buf -> good_name qname -> in_zone apex qname = true ->
  (id < 65536)%N -> (qtype < 65536)%N -> (qclass < 65536)%N -> (forall s, edns = Some s -> (s < 65536)%N) ->
  exists w len b m,
    prepare_w buf tcp id rd qname qtype qclass edns limit = Some w /\
    respond_w negttl buf tcp id rd qname qtype qclass edns limit z = Some (len, b) /\
    decode_msg (firstn len b) = Some m /\
    match answering z negttl w_iface qname qtype w with
    | Ok _ => tc_bit m = false /\ rcode_of_msg m <> 2%N
    | Err _ => tc_bit m = true \/ rcode_of_msg m = 2%N
    | Panic => False
    end.
Proof. intros. eapply respond_w_endings; eauto. Qed.

(* CLAUSE (iv), premise and conclusion both on the octets: for every zone built by adds, every question, transport and
   limit, the response decodes, and IF ITS TC BIT IS CLEAR AND ITS RCODE IS NOT SERVFAIL then its answer and authority
   sections are those of the idealised complete answer r (= resolve, C05) and its additional section is r's minus some
   records of the optional tail (plus the OPT).  A UDP response with TC clear therefore differs from the complete response
   to the same question only by omitted additional records, none of which is in-bailiwick (owner at/below the owner of
   an authority record): referral glue is never omitted, however the referral is reached. *)
Theorem c04_clause_iv : forall reqf apex cls wide recs z buf tcp id rd qname qtype qclass edns limit,
  (forall c t a b d, reqf c t a b = true -> reqf c t b d = true -> reqf c t a d = true) ->
  zone_build reqf (zone_new apex cls wide) recs = Some z ->
  Forall (fun r => good_rd (r_rdata r) /\ (r_type r < 65536)%N) recs -> good_name apex -> (cls < 65536)%N ->
  512 <= length buf -> good_name qname -> in_zone apex qname = true ->
  (id < 65536)%N -> (qtype < 65536)%N -> (qclass < 65536)%N -> (forall s, edns = Some s -> (s < 65536)%N) ->
  exists len b m,
    respond_w neg_ttl buf tcp id rd qname qtype qclass edns limit z = Some (len, b) /\
    decode_msg (firstn len b) = Some m /\
    (tc_bit m = false -> rcode_of_msg m <> 2%N ->
     exists r, (forall tcp', answer_rec z qname qtype tcp' = Some r) /\
       ResolveRepr.norm_rec r = ResolveS.resolve reqf apex cls (accepted apex cls recs) qname qtype /\
       Forall2 (rr_rel xparts) (map q2a (rc_an r)) (m_an m) /\
       Forall2 (rr_rel xparts) (map q2a (rc_ns r)) (m_ns m) /\
       exists M X Oq dsM dsX dsP,
         map q2a (rc_ar r) = M ++ map q2a Oq /\ Sub X (map q2a Oq) /\
         Forall (fun q => ~ in_bailiwick (rc_ns r) q) Oq /\
         m_ar m = dsM ++ dsX ++ dsP /\ Forall2 (rr_rel xparts) M dsM /\ Forall2 (rr_rel xparts) X dsX /\
         forallb is_pseudo dsP = true).
Proof. exact respond_w_clause_iv. Qed.

(* CLAUSE (iv) AS A COMPARISON OF TWO RUNS.  `differs_only_by_omissions r m`: the decoded message m has the answer and
   authority sections of the complete answer r, and its additional section is r's without some records of an optional
   tail none of which is in-bailiwick (so never referral glue), followed only by pseudo-records (the OPT). *)
Definition differs_only_by_omissions (r : recorder) (m : MsgWriterS.dmsg) : Prop :=
  Forall2 (rr_rel xparts) (map q2a (rc_an r)) (m_an m) /\
  Forall2 (rr_rel xparts) (map q2a (rc_ns r)) (m_ns m) /\
  exists M X Oq dsM dsX dsP,
    map q2a (rc_ar r) = M ++ map q2a Oq /\ Sub X (map q2a Oq) /\
    Forall (fun q => ~ in_bailiwick (rc_ns r) q) Oq /\
    m_ar m = dsM ++ dsX ++ dsP /\ Forall2 (rr_rel xparts) M dsM /\ Forall2 (rr_rel xparts) X dsX /\
    forallb is_pseudo dsP = true.

(* The same question asked over UDP and over TCP (any buffers >= 512, ids, RD bits, EDNS states and limits on either
   side): both responses decode; the TCP one never has TC set; and if the UDP response has TC clear and neither is
   SERVFAIL, there is ONE complete answer r (the RFC resolution algorithm's, C05) from which BOTH differ only by omitted
   not-in-bailiwick additional records: equal answer sections, equal authority sections, all glue present in both. *)
Theorem c04_clause_iv_two_runs : forall reqf apex cls wide recs z qname qtype qclass
    bufU idU rdU ednsU limitU bufT idT rdT ednsT limitT,
  (forall c t a b d, reqf c t a b = true -> reqf c t b d = true -> reqf c t a d = true) ->
  zone_build reqf (zone_new apex cls wide) recs = Some z ->
  Forall (fun r => good_rd (r_rdata r) /\ (r_type r < 65536)%N) recs -> good_name apex -> (cls < 65536)%N ->
  good_name qname -> in_zone apex qname = true -> (qtype < 65536)%N -> (qclass < 65536)%N ->
  512 <= length bufU -> (idU < 65536)%N -> (forall s, ednsU = Some s -> (s < 65536)%N) ->
  512 <= length bufT -> (idT < 65536)%N -> (forall s, ednsT = Some s -> (s < 65536)%N) ->
  exists lenU bU mU lenT bT mT,
    respond_w neg_ttl bufU false idU rdU qname qtype qclass ednsU limitU z = Some (lenU, bU) /\
    decode_msg (firstn lenU bU) = Some mU /\
    respond_w neg_ttl bufT true idT rdT qname qtype qclass ednsT limitT z = Some (lenT, bT) /\
    decode_msg (firstn lenT bT) = Some mT /\
    tc_bit mT = false /\
    (tc_bit mU = false -> rcode_of_msg mU <> 2%N -> rcode_of_msg mT <> 2%N ->
     exists r, (forall tcp, answer_rec z qname qtype tcp = Some r) /\
       ResolveRepr.norm_rec r = ResolveS.resolve reqf apex cls (accepted apex cls recs) qname qtype /\
       differs_only_by_omissions r mU /\ differs_only_by_omissions r mT).
Proof.
  intros reqf apex cls wide recs z qname qtype qclass bufU idU rdU ednsU limitU bufT idT rdT ednsT limitT
         Ht Hb Hrecs Ga Hc Gq Hz Hqt Hqc HbU HidU HeU HbT HidT HeT.
  destruct (c04_clause_iv reqf apex cls wide recs z bufU false idU rdU qname qtype qclass ednsU limitU
              Ht Hb Hrecs Ga Hc HbU Gq Hz HidU Hqt Hqc HeU) as (lenU & bU & mU & EU & DU & HU).
  destruct (c04_clause_iv reqf apex cls wide recs z bufT true idT rdT qname qtype qclass ednsT limitT
              Ht Hb Hrecs Ga Hc HbT Gq Hz HidT Hqt Hqc HeT) as (lenT & bT & mT & ET & DT & HT).
  destruct (c04_tc_on_the_octets reqf apex cls wide recs z neg_ttl bufT true idT rdT qname qtype qclass ednsT limitT
              Ht Hb Hrecs Ga Hc HbT Gq Hz HidT Hqt Hqc HeT) as (lenT' & bT' & mT' & ET' & DT' & Htc & _).
  rewrite ET in ET'. inversion ET'; subst lenT' bT'. rewrite DT in DT'. inversion DT'; subst mT'.
  exists lenU, bU, mU, lenT, bT, mT. split; [exact EU|]. split; [exact DU|]. split; [exact ET|]. split; [exact DT|].
  split; [exact (Htc eq_refl)|]. intros TU RU RT.
  destruct (HU TU RU) as (r & Hr & Hres & HanU & HnsU & HarU).
  destruct (HT (Htc eq_refl) RT) as (r' & Hr' & _ & HanT & HnsT & HarT).
  assert (r' = r) by (pose proof (Hr true) as A; rewrite (Hr' true) in A; inversion A; reflexivity). subst r'.
  exists r. split; [exact Hr|]. split; [exact Hres|]. split; [exact (conj HanU (conj HnsU HarU))|exact (conj HanT (conj HnsT HarT))].
Qed.

(* Non-vacuity: zone a. with the delegation sub.a. NS ns.sub.a. / NS ns.other. and the glue ns.sub.a. A 5.6.7.8:
   the lookup of x.sub.a. is a referral, its glue list is that one A record, and do_referral succeeds in 512 octets. *)
Definition ex_recs4 : list record :=
  [mk_record [[115;117;98];[97]]%N 2 1 60 [2;110;115;3;115;117;98;1;97;0]%N;
   mk_record [[115;117;98];[97]]%N 2 1 60 [2;110;115;5;111;116;104;101;114;0]%N;
   mk_record [[110;115];[115;117;98];[97]]%N 1 1 60 [5;6;7;8]%N].
Example c04_glue_example :
  match zone_build req_simple (zone_new [[97]]%N 1 false) ex_recs4 with
  | Some z =>
    match zone_lookup z [[120];[115;117;98];[97]]%N 1 true false with
    | Ok (LReferral child ns) =>
      glue_rrs z child (snd ns) = [mkAR [[110;115];[115;117;98];[97]]%N Standard 1 1 60 [5;6;7;8]%N] /\
      match prepare_w (repeat 0%N 512) false 7 false [[120];[115;117;98];[97]]%N 1 1 None 512 with
      | Some w => match do_referral w_iface z child ns w with Ok _ => True | _ => False end
      | None => False
      end
    | _ => False
    end
  | None => False
  end.
Proof. vm_compute. split; [reflexivity|exact I]. Qed.

(* ---------------------------------------------------------------- responses that carry a TSIG (suite `signed`)
   There is no model of TSIG-bearing response octets: for correctly signed requests all clauses are decided by the
   extracted relation [pair_check_signed] (Spec/RespSigS.v) on the real server's two responses.  It is [pair_check]
   with the trailing TSIG record of each additional section set aside in the omission clause; the theorems below
   say that it is not a second, unrelated specification (it IS pair_check on responses without a TSIG record) and
   what its verdict means. *)
Theorem c04_signed_oracle_conservative : forall their server u t,
  no_tsig u -> no_tsig t ->
  pair_check_signed their server u t = SPair (pair_check their server u t).
Proof. exact pair_check_signed_plain. Qed.

Theorem c04_signed_oracle_sizes_and_identity : forall their server u t mu mt,
  decode_msg u = Some mu -> decode_msg t = Some mt ->
  pair_check_signed their server u t = SPair PairOk ->
  length u <= udp_limit_of mu their server /\ length t <= N.to_nat 65535 /\ tc_bit mt = false /\
  (length t <= udp_limit_of mu their server -> u = t).
Proof. exact signed_sizes_and_identity. Qed.

Theorem c04_signed_oracle_tc_shape : forall their server u t mu mt,
  decode_msg u = Some mu -> decode_msg t = Some mt ->
  pair_check_signed their server u t = SPair PairOk -> tc_bit mu = true ->
  m_an mu = [] /\ m_ns mu = [] /\ forallb is_pseudo (m_ar mu) = true /\ tc_bit mt = false /\
  udp_limit_of mu their server < length t.
Proof. exact signed_tc_shape. Qed.

Theorem c04_signed_oracle_omission : forall their server u t mu mt,
  decode_msg u = Some mu -> decode_msg t = Some mt ->
  pair_check_signed their server u t = SPair PairOk ->
  udp_limit_of mu their server < length t -> tc_bit mu = false ->
  m_id mu = m_id mt /\ m_flags2 mu = m_flags2 mt /\ m_flags3 mu = m_flags3 mt /\
  rrs_eq (m_an mu) (m_an mt) = true /\ rrs_eq (m_ns mu) (m_ns mt) = true /\
  exists au su at_ st left_out,
    split_tsig (m_ar mu) = (au, su) /\ split_tsig (m_ar mt) = (at_, st) /\
    tsig_eq_mod_rdata su st = true /\
    omitted au at_ = Some left_out /\
    forallb (fun r => negb (is_pseudo r) && negb (is_glue_for (m_ns mt) r)) left_out = true.
Proof. exact signed_omission. Qed.

(* tie to C02's oracle: in a response accepted by wf_response (at most one TSIG record, and only as the last record) the
   additional-section body that remains after setting the trailing TSIG record aside contains no TSIG record: for a pair
   of well-formed responses the omission clause compares exactly the non-TSIG records *)
Theorem c04_signed_oracle_tsig_set_aside : forall b m body ts,
  wf_response b = true -> decode_msg b = Some m -> split_tsig (m_ar m) = (body, ts) ->
  forallb (fun r => negb (is_tsig r)) body = true.
Proof.
  intros b m body ts Hwf Hd. unfold wf_response in Hwf. rewrite Hd in Hwf. exact (split_tsig_complete m body ts Hwf).
Qed.

(* Non-vacuity, on hand-written octets.  Question b.a. ; key k. (hmac-sha256, 32-octet MAC [m]). *)
Definition sx_hdr (f2 an ar : N) : list N := [0;7;f2;0; 0;1; 0;an; 0;0; 0;ar]%N.
Definition sx_q (ty : N) : list N := [1;98;1;97;0; 0;ty; 0;1]%N.
Definition sx_txt (c : N) : list N := ([192;12; 0;16; 0;1; 0;0;1;44; 0;201] ++ (200 :: repeat c 200))%N.
Definition sx_tsig (m : N) : list N :=
  ([1;107;0; 0;250; 0;255; 0;0;0;0; 0;61] ++ [11;104;109;97;99;45;115;104;97;50;53;54;0] ++
   [0;0;100;0;0;0; 1;44; 0;32] ++ repeat m 32 ++ [0;7; 0;0; 0;0])%N.
Definition sx_mx : list N := [192;12; 0;15; 0;1; 0;0;1;44; 0;6; 0;10; 1;109; 192;14]%N.
Definition sx_a (i : N) : list N := [192;35; 0;1; 0;1; 0;0;0;60; 0;4; 10;0;0;i]%N.

(* (a) the complete signed answer (3 x 201 octets of TXT + TSIG = 734 octets) does not fit 512: over UDP TC, no records,
       the TSIG RR (another MAC) kept; both accepted by wf_response *)
Example c04_signed_tc_example :
  let u := sx_hdr 134 0 1 ++ sx_q 16 ++ sx_tsig 1 in
  let t := sx_hdr 132 3 1 ++ sx_q 16 ++ sx_txt 120 ++ sx_txt 121 ++ sx_txt 122 ++ sx_tsig 2 in
  length u = 95 /\ length t = 734 /\
  pair_check_signed 0 1232 u t = SPair PairOk /\ wf_response u = true /\ wf_response t = true /\
  (* ... and with answer records next to TC (seeded defect C04-B) it is rejected *)
  pair_check_signed 0 1232 (sx_hdr 134 1 0 ++ sx_q 16 ++ sx_txt 120) t = SPair PTcWithRecords.
Proof. vm_compute. repeat split. Qed.

(* (b) MX answer with 32 address records of the target + TSIG (625 octets): over UDP only 10 of them, TC clear, TSIG with
       another MAC.  The signed relation accepts (only optional additional records are missing); the plain relation
       cannot (it would count the TSIG RDATA as a difference): this is why the variant exists.  A response that also
       drops the TSIG record is rejected. *)
Example c04_signed_omission_example :
  let addrs := fun n => flat_map sx_a (map N.of_nat (seq 0 n)) in
  let u := sx_hdr 132 1 11 ++ sx_q 15 ++ sx_mx ++ addrs 10 ++ sx_tsig 1 in
  let t := sx_hdr 132 1 33 ++ sx_q 15 ++ sx_mx ++ addrs 32 ++ sx_tsig 2 in
  length t = 625 /\
  pair_check_signed 0 1232 u t = SPair PairOk /\ pair_check 0 1232 u t = PNotOmission /\
  wf_response u = true /\ wf_response t = true /\
  pair_check_signed 0 1232 (sx_hdr 132 1 10 ++ sx_q 15 ++ sx_mx ++ addrs 10) t = STsigMismatch.
Proof. vm_compute. repeat split. Qed.

(* (c) the hypothesis of c04_signed_oracle_conservative holds for the unsigned pair of (a) *)
Example c04_signed_conservative_example :
  no_tsig (sx_hdr 134 0 0 ++ sx_q 16) /\ no_tsig (sx_hdr 132 3 0 ++ sx_q 16 ++ sx_txt 120 ++ sx_txt 121 ++ sx_txt 122).
Proof. vm_compute. split; reflexivity. Qed.

Print Assumptions c04_clause_iv.
Print Assumptions c04_clause_iv_two_runs.
Print Assumptions c04_endings_on_the_octets.
Print Assumptions c04_only_optional_omitted_partial.
Print Assumptions c04_glue_complete_partial.
Print Assumptions c04_optional_only_partial.
Print Assumptions c04_tc_on_the_octets.
Print Assumptions c04_response_within_limit.
Print Assumptions c04_tc_shape.
Print Assumptions c04_limit_value.
Print Assumptions c04_udp_response_size.
Print Assumptions c04_udp_identical_when_fits_partial.
Print Assumptions c04_writer_limit_monotone.
Print Assumptions c04_oracle_tc_shape.
Print Assumptions c04_oracle_sizes_and_identity.

(* ---- TSIG-bearing responses and the limit (Model/ServerWT.v) ----
   c04_tsig_within_limit_partial: whenever the response of the abstract server model carries TSIG settings, the
   octets the extended composed model returns for it - header, question, OPT, TSIG record, written by the byte-level
   Writer model - are no longer than the response's limit, and that limit is the one c04_limit_value describes
   (65535 / 512, or the requestor's payload size clamped to [512, server size]).
   c04_tsig_or_tc: what the code does when OPT + TSIG do not fit (set_tsig_or_truncate, on the model of
   Model/Server.v): the TSIG settings are installed only if cursor + TSIG length <= available (= limit - 11 with an
   OPT), otherwise the response keeps its RCODE and OPT, gets TC, and carries no TSIG - never a panic; such a
   response has no TSIG settings and is produced in octets by ServerW.serialize_resp (c01_no_panic, c02_wellformed).
   PARTIAL: [unverified] verifiers only (BADKEY / BADSIG / FORMERR classes). *)
From QV Require Import Model.Server Model.ServerW Model.ServerWT Proofs.ServerP Proofs.ServerLimitP Proofs.ComposeTsigTopP.

Theorem c04_tsig_within_limit_partial : forall hmac zones negttl answer verify cfg buf req wa t,
  ServerP.wf_cfg cfg -> length buf = Server.c_buflen cfg -> (Server.c_now cfg < 281474976710656)%N -> unverified verify -> wf_bytes req ->
  Server.handle_message answer verify cfg req = Ok (Some wa) -> Server.w_tsig wa = Some t ->
  exists len b,
    handle_message_wt hmac zones negttl answer verify cfg buf req = Ok (Some (ROctets len b)) /\
    len <= Server.w_limit wa /\ ServerLimitP.lim_ok cfg req wa.
Proof.
  intros hmac zones negttl answer verify cfg buf req wa t Hcfg Hbuf Hnow Hunv Hwf HA Et.
  destruct (tsig_response_octets hmac zones negttl answer verify cfg buf Hcfg Hbuf Hnow Hunv req wa t Hwf HA Et)
    as (len & b & f & E & Hl & L & _).
  exists len, b. auto.
Qed.

Theorem c04_tsig_or_tc : forall w t,
  Server.w_tsig w = None ->
  (Server.w_avail w < Server.w_cursor w + Server.t_reserved t ->
     Server.set_tsig_or_truncate w t = (Server.set_tc w, false)) /\
  (Server.w_cursor w + Server.t_reserved t <= Server.w_avail w -> (Server.w_arcount w < 65535)%N ->
     snd (Server.set_tsig_or_truncate w t) = true /\
     Server.w_tsig (fst (Server.set_tsig_or_truncate w t)) = Some t /\
     Server.w_tc (fst (Server.set_tsig_or_truncate w t)) = Server.w_tc w /\
     Server.w_avail (fst (Server.set_tsig_or_truncate w t)) = Server.w_avail w - Server.t_reserved t).
Proof.
  intros w t Hn. unfold Server.set_tsig_or_truncate, Server.set_tsig. rewrite Hn. split.
  - intros H. apply Nat.ltb_lt in H. rewrite H. reflexivity.
  - intros H Ha. apply Nat.ltb_ge in H. rewrite H.
    destruct (65535 <=? Server.w_arcount w)%N eqn:X; [apply N.leb_le in X; lia|]. cbn. auto.
Qed.

Print Assumptions c04_tsig_within_limit_partial.
Print Assumptions c04_tsig_or_tc.
Print Assumptions c04_signed_oracle_conservative.
Print Assumptions c04_signed_oracle_sizes_and_identity.
Print Assumptions c04_signed_oracle_tc_shape.
Print Assumptions c04_signed_oracle_omission.
Print Assumptions c04_signed_oracle_tsig_set_aside.

(* ---- the SIGNED TSIG record and the limit (pkg-sproof; Proofs/SignFinishP.v, SignSerP.v, SignTopP.v) ----
   c04_tsig_within_limit: c04_tsig_within_limit_partial WITHOUT [unverified]: for every verifier and every hmac whose
   output has the algorithm's output size (the only fact about HMAC used; Proofs/SignShapeP.v, SignLenP.v): whenever the response of the abstract server model
   carries TSIG settings - unsigned (BADKEY / BADSIG / FORMERR) or SIGNING (BADTIME with 6 octets of other data;
   verified and answered NOTIMP / REFUSED / SERVFAIL / FORMERR) - the extended composed model returns octets no
   longer than the response's limit; the one remaining class (a verified request answered out of a Loaded zone) is
   still the abstract response [RAbs wa] (Model/ServerWT.v: handle_query_t).  The record written is never larger
   than the reservation signed_len = key name + algorithm name + 26 + output size (+ 6 for BADTIME) the pre-scan
   subtracted from the available space, so no spurious TC and no overflow of the limit. *)
From QV Require Import Proofs.SignTopP Proofs.SignLenP.
From QV Require Model.TsigMsg.

Theorem c04_tsig_within_limit : forall hmac zones negttl answer verify cfg buf req wa t,
  (forall a k d, length (hmac a k d) = TsigMsg.output_size a) ->
  ServerP.wf_cfg cfg -> length buf = Server.c_buflen cfg -> (Server.c_now cfg < 281474976710656)%N -> wf_bytes req ->
  Server.handle_message answer verify cfg req = Ok (Some wa) -> Server.w_tsig wa = Some t ->
  handle_message_wt hmac zones negttl answer verify cfg buf req = Ok (Some (RAbs wa)) \/
  exists len b,
    handle_message_wt hmac zones negttl answer verify cfg buf req = Ok (Some (ROctets len b)) /\
    len <= Server.w_limit wa /\ ServerLimitP.lim_ok cfg req wa.
Proof.
  intros hmac zones negttl answer verify cfg buf req wa t Hl Hcfg Hbuf Hnow Hwf HA Et.
  exact (tsig_response_limit_len hmac Hl zones negttl answer verify cfg buf Hcfg Hbuf Hnow req wa t Hwf HA Et).
Qed.

Print Assumptions c04_tsig_within_limit.

(* Regression for the arithmetic finish_signed_ok2 / signed_steps pin down (the seeded defect "signed_len counts the
   MAC size field twice", + 2): HMAC-SHA256, root key name, no question, BADTIME, limit 90 = 12 + 78: the real
   reservation (output size 32 -> 78) lets the record in and the finished message is exactly 90 octets long; a
   reservation 2 octets larger is refused - Truncation, i.e. a spurious TC for a response that fits. *)
Example c04_signed_len_plus_two_refuted :
  let hm := fun (a : TsigMsg.alg) (k d : bytes) => repeat 90%N (TsigMsg.output_size a) in
  let alg : MsgWriter.wname := [[104;109;97;99;45;115;104;97;50;53;54]%N] in
  let tm : bytes := [0;0;101;83;241;0]%N in
  match MsgWriter.writer_new (repeat 0%N 90) 90 with
  | Ok w =>
    match set_tsig_signed 32 alg [] tm 300 7 18 tm w with
    | Ok (_, w2) => match finish_signed hm TsigMsg.HmacSha256 [] [] w2 with Ok (len, _) => len = 90 | _ => False end
    | _ => False
    end /\
    match set_tsig_signed 34 alg [] tm 300 7 18 tm w with
    | Err (MsgWriter.Truncation, _) => True
    | _ => False
    end
  | _ => False
  end.
Proof. vm_compute. auto. Qed.
