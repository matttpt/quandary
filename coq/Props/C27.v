(* C27 — rate limiting groups responses into the documented streams.
   Statements only; every proof is [exact <lemma from Proofs/RrlKeyP.v>]. *)
From QV Require Import Base.Res Base.Octets Model.Rrl Spec.RrlBucketS Spec.RrlStreamS Proofs.RrlP Proofs.RrlKeyP Proofs.RrlFreshP.
Local Open Scope N_scope.

(* The setters accept exactly the prefix lengths 0..32 / 0..64, never panic, and store the
   mask "len ones, then zeros" (by arithmetic on the shift, for every width and length); RrlParams::new = /24, /56. *)
Theorem c27_set_ipv4_prefix_len : forall p l,
  (l <= 32 -> set_ipv4_prefix_len p l = Ok (with_ipv4_netmask p (mask4 l))) /\
  (32 < l -> set_ipv4_prefix_len p l = Err InvalidIpv4PrefixLen).
Proof. exact set_ipv4_prefix_len_spec. Qed.

Theorem c27_set_ipv6_prefix_len : forall p l,
  (l <= 64 -> set_ipv6_prefix_len p l = Ok (with_ipv6_netmask p (mask6 l))) /\
  (64 < l -> set_ipv6_prefix_len p l = Err InvalidIpv6PrefixLen).
Proof. exact set_ipv6_prefix_len_spec. Qed.

Theorem c27_default_prefixes : forall ne nx er w p, params_new ne nx er w = Ok p -> has_prefixes p 24 56.
Proof. exact params_new_prefixes. Qed.

(* Bit level, every prefix length: two IPv4 sources get the same destination word iff their
   top l4 bits agree; two IPv6 sources iff their top l6 (<= 64) bits agree. *)
Theorem c27_v4_mask : forall p l4 l6 a b, has_prefixes p l4 l6 ->
  length a = 4%nat -> wf_bytes a -> length b = 4%nat -> wf_bytes b ->
  (ip_to_dest p (V4 a) = ip_to_dest p (V4 b) <-> same_network 32 l4 (addr_value a) (addr_value b) = true).
Proof. exact dest4_eq_iff. Qed.

Theorem c27_v6_mask : forall p l4 l6 a b, has_prefixes p l4 l6 ->
  length a = 16%nat -> wf_bytes a -> length b = 16%nat -> wf_bytes b ->
  (ip_to_dest p (V6 a) = ip_to_dest p (V6 b) <-> same_network 128 l6 (addr_value a) (addr_value b) = true).
Proof. exact dest6_eq_iff. Qed.

(* ReceivedInfo::new turns exactly the RFC 4291 IPv4-mapped addresses into the embedded
   IPv4 address and leaves everything else alone. *)
Theorem c27_mapped : forall src, wf_ip src ->
  to_saddr (received_info_source src) = canonical (to_saddr src) /\ wf_ip (received_info_source src).
Proof. exact received_info_source_canonical. Qed.

(* What Name::hash feeds the hasher determines the name exactly up to ASCII case. *)
Theorem c27_name_hash_ci : forall a b, wf_name a -> wf_name b ->
  (name_hash_stream a = name_hash_stream b <-> name_eq_ci a b = true).
Proof. exact name_hash_stream_iff. Qed.

(* MAIN (iff characterisation of key equality, every hash function): two responses get the
   same Key exactly when they are in the same stream of the specification, with "same name
   ignoring case" weakened to "same 32-bit hash of the name" — the explicit, documented
   weakening (struct Key keeps only a 32-bit hash of the QNAME / source of synthesis). *)
Theorem c27_key_eq : forall (hname : bytes -> N) p l4 l6 src1 src2 c1 c2 n1 n2,
  has_prefixes p l4 l6 -> wf_ip src1 -> wf_ip src2 ->
  c_source c1 = received_info_source src1 -> c_source c2 = received_info_source src2 ->
  (scategory_of (w_rcode (c_response c1)) = SNoError -> resp_name c1 = Some n1) ->
  (scategory_of (w_rcode (c_response c2)) = SNoError -> resp_name c2 = Some n2) ->
  (key_of hname p c1 <> None /\ key_of hname p c1 = key_of hname p c2
   <-> same_stream_h hname l4 l6 src1 src2 (w_rcode (c_response c1)) (w_rcode (c_response c2)) n1 n2).
Proof. exact key_eq_iff. Qed.

(* Same stream (full specification: prefixes with IPv4-mapped canonicalisation, category,
   name ignoring case / source of synthesis) => same key, for every hash function. *)
Theorem c27_same_stream_same_key : forall (hname : bytes -> N) p l4 l6 src1 src2 c1 c2 n1 n2,
  has_prefixes p l4 l6 -> wf_ip src1 -> wf_ip src2 ->
  c_source c1 = received_info_source src1 -> c_source c2 = received_info_source src2 ->
  (scategory_of (w_rcode (c_response c1)) = SNoError -> resp_name c1 = Some n1) ->
  (scategory_of (w_rcode (c_response c2)) = SNoError -> resp_name c2 = Some n2) ->
  same_stream l4 l6 (mkSResp (to_saddr src1) (w_rcode (c_response c1)) n1)
                    (mkSResp (to_saddr src2) (w_rcode (c_response c2)) n2) = true ->
  key_of hname p c1 <> None /\ key_of hname p c1 = key_of hname p c2.
Proof. exact same_stream_same_key. Qed.

(* Same key => same stream, unless the two names collide in the 32-bit hash. *)
Theorem c27_same_key_same_stream : forall (hname : bytes -> N) p l4 l6 src1 src2 c1 c2 n1 n2,
  has_prefixes p l4 l6 -> wf_ip src1 -> wf_ip src2 ->
  c_source c1 = received_info_source src1 -> c_source c2 = received_info_source src2 ->
  (scategory_of (w_rcode (c_response c1)) = SNoError -> resp_name c1 = Some n1) ->
  (scategory_of (w_rcode (c_response c2)) = SNoError -> resp_name c2 = Some n2) ->
  wf_name n1 -> wf_name n2 ->
  (hash32 hname n1 = hash32 hname n2 -> name_hash_stream n1 = name_hash_stream n2) ->
  key_of hname p c1 <> None -> key_of hname p c1 = key_of hname p c2 ->
  same_stream l4 l6 (mkSResp (to_saddr src1) (w_rcode (c_response c1)) n1)
                    (mkSResp (to_saddr src2) (w_rcode (c_response c2)) n2) = true.
Proof. exact same_key_same_stream. Qed.

(* TCP responses, responses to non-QUERY opcodes and suppressed responses are never limited:
   process_response returns the table and the context unchanged. *)
Theorem c27_exempt : forall (hname : bytes -> N) (hkey : key -> N) p t c now rnd,
  c_transport c = Tcp \/ c_opcode c <> OPCODE_QUERY \/ c_send_response c = false ->
  process_response hname hkey p t c now rnd = Ok (t, c).
Proof. exact exempt_unchanged. Qed.

Theorem c27_subject_is_limitable : forall c,
  subject_to_rrl c = limitable (match c_transport c with Udp => true | Tcp => false end)
                               (c_opcode c) (c_send_response c).
Proof. exact subject_is_limitable. Qed.

(* Under a limit of one response per stream (all rates 1, window 1), for EVERY hash function
   (distinct keys may share a bucket — the second then evicts the first — or not): of two
   responses less than a second apart whose streams have no bucket yet, the first is sent and
   the second is limited if and only if it has the same key. *)
Theorem c27_pair : forall (hname : bytes -> N) (hkey : key -> N) p t c1 c2 k1 k2 now1 now2 rnd1 rnd2,
  wf_params p -> (forall cat, rate_of p cat = 1) -> p_window p = 1 -> wf_table p t ->
  subject_to_rrl c1 = true -> subject_to_rrl c2 = true ->
  key_of hname p c1 = Some k1 -> key_of hname p c2 = Some k2 ->
  abs_bucket hkey p t k1 = None -> abs_bucket hkey p t k2 = None ->
  now1 <= now2 < now1 + nanos_per_sec ->
  exists t1 t2,
    process_response hname hkey p t c1 now1 rnd1 = Ok (t1, apply_action c1 Send) /\
    process_response hname hkey p t1 c2 now2 rnd2
    = Ok (t2, apply_action c2 (if key_eqb k1 k2
                               then action_of_verdict (limited_verdict (p_slip p) rnd2)
                               else Send)).
Proof. exact pair_limited_iff. Qed.

(* The same on a freshly started server (Rrl::new's table): the only requirement left is that
   neither key is the placeholder key the table is initialised with. *)
Theorem c27_pair_fresh : forall (hname : bytes -> N) (hkey : key -> N) p t0 c1 c2 k1 k2 now1 now2 rnd1 rnd2,
  wf_params p -> (forall cat, rate_of p cat = 1) -> p_window p = 1 ->
  subject_to_rrl c1 = true -> subject_to_rrl c2 = true ->
  key_of hname p c1 = Some k1 -> key_of hname p c2 = Some k2 ->
  k1 <> init_key -> k2 <> init_key ->
  now1 <= now2 < now1 + nanos_per_sec ->
  exists t1 t2,
    process_response hname hkey p (rrl_new p t0) c1 now1 rnd1 = Ok (t1, apply_action c1 Send) /\
    process_response hname hkey p t1 c2 now2 rnd2
    = Ok (t2, apply_action c2 (if key_eqb k1 k2
                               then action_of_verdict (limited_verdict (p_slip p) rnd2)
                               else Send)).
Proof. exact pair_limited_iff_fresh. Qed.

(* Non-vacuity: /24 and /56; 192.0.2.1 and ::ffff:192.0.2.200 asking for a.EXAMPLE / A.example
   (NOERROR) are one stream and get one key; 192.0.3.1 is another stream. *)
Definition ex27_params : params := mkParams 1 1 1 1 1 (mask4 24) (mask6 56) 7.
Definition ex27_ctx (src : ipaddr) (q : rname) : ctx :=
  mkCtx (received_info_source src) Udp 0 (Some q) None (mkW 1 0 0 false false false 0) None true.
Definition ex27_mapped : ipaddr := V6 [0; 0; 0; 0; 0; 0; 0; 0; 0; 0; 255; 255; 192; 0; 2; 200].
Definition ex27_n1 : rname := [[97]; [69; 88; 65; 77; 80; 76; 69]].
Definition ex27_n2 : rname := [[65]; [101; 120; 97; 109; 112; 108; 101]].
Example c27_example :
  has_prefixes ex27_params 24 56 /\ wf_ip (V4 [192; 0; 2; 1]) /\ wf_ip ex27_mapped /\
  wf_name ex27_n1 /\ wf_name ex27_n2 /\
  same_stream 24 56 (mkSResp (S4 [192; 0; 2; 1]) 0 ex27_n1) (mkSResp (to_saddr ex27_mapped) 0 ex27_n2) = true /\
  same_stream 24 56 (mkSResp (S4 [192; 0; 2; 1]) 0 ex27_n1) (mkSResp (S4 [192; 0; 3; 1]) 0 ex27_n1) = false /\
  (forall hname : bytes -> N,
     key_of hname ex27_params (ex27_ctx (V4 [192; 0; 2; 1]) ex27_n1)
     = key_of hname ex27_params (ex27_ctx ex27_mapped ex27_n2)).
Proof.
  split; [repeat split; vm_compute; congruence|].
  split; [split; [reflexivity|apply wf_bytesb_spec; reflexivity]|].
  split; [split; [reflexivity|apply wf_bytesb_spec; reflexivity]|].
  split; [repeat constructor|]. split; [repeat constructor|].
  split; [vm_compute; reflexivity|]. split; [vm_compute; reflexivity|].
  intros hname. apply (same_stream_same_key hname ex27_params 24 56 (V4 [192; 0; 2; 1]) ex27_mapped
                         (ex27_ctx (V4 [192; 0; 2; 1]) ex27_n1) (ex27_ctx ex27_mapped ex27_n2) ex27_n1 ex27_n2).
  - repeat split; vm_compute; congruence.
  - split; [reflexivity|apply wf_bytesb_spec; reflexivity].
  - split; [reflexivity|apply wf_bytesb_spec; reflexivity].
  - reflexivity.
  - reflexivity.
  - intros _; reflexivity.
  - intros _; reflexivity.
  - vm_compute; reflexivity.
Qed.

Print Assumptions c27_set_ipv4_prefix_len.
Print Assumptions c27_set_ipv6_prefix_len.
Print Assumptions c27_default_prefixes.
Print Assumptions c27_v4_mask.
Print Assumptions c27_v6_mask.
Print Assumptions c27_mapped.
Print Assumptions c27_name_hash_ci.
Print Assumptions c27_key_eq.
Print Assumptions c27_same_stream_same_key.
Print Assumptions c27_same_key_same_stream.
Print Assumptions c27_exempt.
Print Assumptions c27_subject_is_limitable.
Print Assumptions c27_pair.
Print Assumptions c27_pair_fresh.
