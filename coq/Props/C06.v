(* C06 — zone lookups follow RFC 1034 §4.3.2 and RFC 4592.
   Statements only; a proof is [exact <lemma from Proofs/Zone*.v>], for the real equality the parametric
   lemma at req := spec_req applied to [real_build_spec].

   [req] is Rdata::equals (class, type, new, existing); only its transitivity is assumed.
   [zone_build req (zone_new apex cls wide) recs] is the zone obtained from HashMapTreeZone::new
   followed by one add per element of [recs] in order (rejected adds included: they leave the
   tree unchanged, see C20); [accepted apex cls recs] is the flat list of the records the
   specification says are accepted.  [spec_lookup*] never looks at a tree. *)
From QV Require Import Base.Res Base.Octets Model.ZoneTree Spec.ZoneLookupS Proofs.ZoneTopP Proofs.ZoneSpellP
  Model.ZoneReal Spec.ZoneRealS Proofs.ZoneRealP.
From QV Require Model.RdataM Spec.RdataEqS.

(* the shared runner (Extract/ExZone.v) also extracts the validation model: keep it in this cone so
   that `make Props/...vo` rebuilds everything the extraction loads *)
From QV Require Model.ZoneValid Spec.ZoneValidS Model.RdataBuf.


(* ================================================================================================
   The theorems for the REAL Rdata::equals.
   Model side: [req_real] = Model/RdataM.v [equals], the model of Rdata::equals that C19 is about.
   Specification side: [spec_req] = Spec/RdataEqS.v [spec_equals], the RFC characterisation (octet
   equality, except that names embedded in the RDATA of the RFC 1035 name-bearing types, SRV in class IN
   and A in class CH compare without ASCII case when both RDATA are valid for the type's format).
   The only hypothesis about the records is that every RDATA is an octet string (each element < 256:
   the u8 type), which is what C19's theorems are about.  Nothing about Rdata::equals is assumed. *)

(* what the instance is: on octet strings the model of Rdata::equals always returns a boolean (the
   [false] that req_real gives to a Panic/Err of [equals] is never used), and that boolean is the
   characterisation *)
Theorem c06_req_real_is_equals : forall c t a b, wf_bytes a -> wf_bytes b ->
  RdataM.equals c t a b = Ok (req_real c t a b) /\ req_real c t a b = RdataEqS.spec_equals c t a b.
Proof. intros c t a b Ha Hb. split; [apply equals_req_real|apply req_real_spec]; assumption. Qed.

Theorem c06_build_total_real : forall apex cls wide recs, Forall wf_record recs ->
  exists z, zone_build req_real (zone_new apex cls wide) recs = Some z.
Proof. exact real_build_total. Qed.

Theorem c06_lookup_refines_real : forall apex cls wide recs z, Forall wf_record recs ->
  zone_build req_real (zone_new apex cls wide) recs = Some z ->
  forall qn ty unchecked sbc, (unchecked = true -> in_zone apex qn = true) ->
  exists r, zone_lookup z qn ty unchecked sbc = Ok r /\
            spec_lookup spec_req apex cls (accepted apex cls recs) qn ty unchecked sbc = Some (norm_lookup r).
Proof.
  intros apex cls wide recs z W B qn ty u sbc.
  exact (build_lookup_refines _ spec_req_trans _ _ _ _ _ qn ty u sbc (real_build_spec W B)).
Qed.

Theorem c06_lookup_addrs_refines_real : forall apex cls wide recs z, Forall wf_record recs ->
  zone_build req_real (zone_new apex cls wide) recs = Some z ->
  forall qn unchecked sbc, (unchecked = true -> in_zone apex qn = true) ->
  exists r, zone_lookup_addrs z qn unchecked sbc = Ok r /\
            spec_lookup_addrs spec_req apex cls (accepted apex cls recs) qn unchecked sbc = Some (norm_addrs r).
Proof.
  intros apex cls wide recs z W B qn u sbc.
  exact (build_lookup_addrs_refines _ spec_req_trans _ _ _ _ _ qn u sbc (real_build_spec W B)).
Qed.

Theorem c06_lookup_all_refines_real : forall apex cls wide recs z, Forall wf_record recs ->
  zone_build req_real (zone_new apex cls wide) recs = Some z ->
  forall qn unchecked sbc, (unchecked = true -> in_zone apex qn = true) ->
  exists r, zone_lookup_all z qn unchecked sbc = Ok r /\
            spec_lookup_all spec_req apex cls (accepted apex cls recs) qn unchecked sbc = Some (norm_all r).
Proof.
  intros apex cls wide recs z W B qn u sbc.
  exact (build_lookup_all_refines _ spec_req_trans _ _ _ _ _ qn u sbc (real_build_spec W B)).
Qed.

Theorem c06_lookup_exact_real : forall apex cls wide recs z, Forall wf_record recs ->
  zone_build req_real (zone_new apex cls wide) recs = Some z ->
  forall qn ty unchecked sbc, (unchecked = true -> in_zone apex qn = true) ->
  exists r', spec_lookup spec_req apex cls (accepted apex cls recs) qn ty unchecked sbc = Some r' /\
             zone_lookup z qn ty unchecked sbc = Ok (spell_lookup apex (accepted apex cls recs) r').
Proof.
  intros apex cls wide recs z W B qn ty u sbc.
  exact (build_lookup_exact _ spec_req_trans _ _ _ _ _ qn ty u sbc (real_build_spec W B)).
Qed.

Theorem c06_lookup_addrs_exact_real : forall apex cls wide recs z, Forall wf_record recs ->
  zone_build req_real (zone_new apex cls wide) recs = Some z ->
  forall qn unchecked sbc, (unchecked = true -> in_zone apex qn = true) ->
  exists r', spec_lookup_addrs spec_req apex cls (accepted apex cls recs) qn unchecked sbc = Some r' /\
             zone_lookup_addrs z qn unchecked sbc = Ok (spell_addrs apex (accepted apex cls recs) r').
Proof.
  intros apex cls wide recs z W B qn u sbc.
  exact (build_lookup_addrs_exact _ spec_req_trans _ _ _ _ _ qn u sbc (real_build_spec W B)).
Qed.

Theorem c06_lookup_all_exact_real : forall apex cls wide recs z, Forall wf_record recs ->
  zone_build req_real (zone_new apex cls wide) recs = Some z ->
  forall qn unchecked sbc, (unchecked = true -> in_zone apex qn = true) ->
  exists r', spec_lookup_all spec_req apex cls (accepted apex cls recs) qn unchecked sbc = Some r' /\
             zone_lookup_all z qn unchecked sbc = Ok (spell_all apex (accepted apex cls recs) r').
Proof.
  intros apex cls wide recs z W B qn u sbc.
  exact (build_lookup_all_exact _ spec_req_trans _ _ _ _ _ qn u sbc (real_build_spec W B)).
Qed.

(* Non-vacuity with the real equality: apex "c."; c. NS ns.c. / NS NS.C. (one RDATA: names compare
   without case), c. NS "ns.c." + junk octet / NS "NS.C." + junk octet (two RDATAs: malformed RDATA is
   compared octet-wise), MX 10 mx.c. / MX 10 MX.c. (one) / MX 20 mx.c. (another); the lookups return
   the de-duplicated RRsets and the specification agrees. *)
Example c06_example_real :
  let c := [99%N] in
  let ns := [2; 110; 115; 1; 99; 0]%N in let nsU := [2; 78; 83; 1; 67; 0]%N in
  let mx p l := [0; p; 2; l; 120; 1; 99; 0]%N in
  let recs :=
    [ mk_record [c] 2 1 3600 ns; mk_record [c] 2 1 3600 nsU;
      mk_record [c] 2 1 3600 (ns ++ [9%N]); mk_record [c] 2 1 3600 (nsU ++ [9%N]);
      mk_record [c] 15 1 3600 (mx 10%N 109%N); mk_record [c] 15 1 3600 (mx 10%N 77%N); mk_record [c] 15 1 3600 (mx 20%N 109%N) ] in
  Forall wf_record recs /\
  exists z, zone_build req_real (zone_new [c] 1 false) recs = Some z /\
    zone_lookup z [c] 2 false false = Ok (LFound (3600%N, [ns; ns ++ [9%N]; nsU ++ [9%N]]) None) /\
    zone_lookup z [c] 15 false false = Ok (LFound (3600%N, [mx 10%N 109%N; mx 20%N 109%N]) None) /\
    spec_lookup spec_req [c] 1 (accepted [c] 1 recs) [c] 2 false false
      = Some (LFound (3600%N, [ns; ns ++ [9%N]; nsU ++ [9%N]]) None).
Proof.
  cbv zeta. split.
  - repeat constructor; apply wf_bytesb_spec; reflexivity.
  - eexists. split; [vm_compute; reflexivity|]. vm_compute. repeat split.
Qed.

(* ================================================================================================
   Parametric library versions: any RDATA equality that is transitive per (class, type). *)
Definition req_transitive (req : N -> N -> bytes -> bytes -> bool) : Prop :=
  forall cls ty a b c, req cls ty a b = true -> req cls ty b c = true -> req cls ty a c = true.

(* Loading never panics, whatever the records are. *)
Theorem c06_build_total : forall req, req_transitive req ->
  forall apex cls wide recs, exists z, zone_build req (zone_new apex cls wide) recs = Some z.
Proof. exact build_total. Qed.

(* Single-type lookup: for every add history, name, type and option combination (the name at or
   below the apex whenever the caller asked for an unchecked lookup) the tree walk returns, without
   panicking, exactly what the flat-record specification prescribes (names reported
   case-insensitively). *)
Theorem c06_lookup_refines : forall req, req_transitive req ->
  forall apex cls wide recs z qn ty unchecked sbc,
  zone_build req (zone_new apex cls wide) recs = Some z ->
  (unchecked = true -> in_zone apex qn = true) ->
  exists r, zone_lookup z qn ty unchecked sbc = Ok r /\
            spec_lookup req apex cls (accepted apex cls recs) qn ty unchecked sbc = Some (norm_lookup r).
Proof. exact build_lookup_refines. Qed.

Theorem c06_lookup_addrs_refines : forall req, req_transitive req ->
  forall apex cls wide recs z qn unchecked sbc,
  zone_build req (zone_new apex cls wide) recs = Some z ->
  (unchecked = true -> in_zone apex qn = true) ->
  exists r, zone_lookup_addrs z qn unchecked sbc = Ok r /\
            spec_lookup_addrs req apex cls (accepted apex cls recs) qn unchecked sbc = Some (norm_addrs r).
Proof. exact build_lookup_addrs_refines. Qed.

Theorem c06_lookup_all_refines : forall req, req_transitive req ->
  forall apex cls wide recs z qn unchecked sbc,
  zone_build req (zone_new apex cls wide) recs = Some z ->
  (unchecked = true -> in_zone apex qn = true) ->
  exists r, zone_lookup_all z qn unchecked sbc = Ok r /\
            spec_lookup_all req apex cls (accepted apex cls recs) qn unchecked sbc = Some (norm_all r).
Proof. exact build_lookup_all_refines. Qed.

(* Exact form (letter case of the reported names included): the answer IS the specification's
   answer with every reported name (referral child zone, source of synthesis) spelled as the zone
   spells it — the apex as given to new, any other name as in the first accepted record at or below
   it ([spelled], defined on the flat record list). *)
Theorem c06_lookup_exact : forall req, req_transitive req ->
  forall apex cls wide recs z qn ty unchecked sbc,
  zone_build req (zone_new apex cls wide) recs = Some z ->
  (unchecked = true -> in_zone apex qn = true) ->
  exists r', spec_lookup req apex cls (accepted apex cls recs) qn ty unchecked sbc = Some r' /\
             zone_lookup z qn ty unchecked sbc = Ok (spell_lookup apex (accepted apex cls recs) r').
Proof. exact build_lookup_exact. Qed.

Theorem c06_lookup_addrs_exact : forall req, req_transitive req ->
  forall apex cls wide recs z qn unchecked sbc,
  zone_build req (zone_new apex cls wide) recs = Some z ->
  (unchecked = true -> in_zone apex qn = true) ->
  exists r', spec_lookup_addrs req apex cls (accepted apex cls recs) qn unchecked sbc = Some r' /\
             zone_lookup_addrs z qn unchecked sbc = Ok (spell_addrs apex (accepted apex cls recs) r').
Proof. exact build_lookup_addrs_exact. Qed.

Theorem c06_lookup_all_exact : forall req, req_transitive req ->
  forall apex cls wide recs z qn unchecked sbc,
  zone_build req (zone_new apex cls wide) recs = Some z ->
  (unchecked = true -> in_zone apex qn = true) ->
  exists r', spec_lookup_all req apex cls (accepted apex cls recs) qn unchecked sbc = Some r' /\
             zone_lookup_all z qn unchecked sbc = Ok (spell_all apex (accepted apex cls recs) r').
Proof. exact build_lookup_all_exact. Qed.

(* The case left out above — an unchecked lookup of a name that is NOT at or below the apex, which
   the documentation of LookupOptions::unchecked declares a caller error ("may panic or return
   incorrect data") — is characterised exactly, for ANY zone value: a name with fewer labels than
   the apex panics (usize underflow), any other name is answered as if its trailing labels were
   the apex's. *)
Theorem c06_unchecked_outside : forall z qn ty sbc,
  (length qn < length (zone_name z) ->
     zone_lookup z qn ty true sbc = Panic /\ zone_lookup_addrs z qn true sbc = Panic /\
     zone_lookup_all z qn true sbc = Panic) /\
  (length (zone_name z) <= length qn ->
     let qn' := firstn (length qn - length (zone_name z)) qn ++ zone_name z in
     zone_lookup z qn ty true sbc = zone_lookup z qn' ty true sbc /\
     zone_lookup_addrs z qn true sbc = zone_lookup_addrs z qn' true sbc /\
     zone_lookup_all z qn true sbc = zone_lookup_all z qn' true sbc).
Proof. exact unchecked_outside. Qed.

(* The instance of Rdata::equals the runner uses meets the hypothesis. *)
Theorem c06_req_simple_transitive : req_transitive req_simple.
Proof. exact req_simple_trans. Qed.

(* Non-vacuity: apex "c."; records  c. NS, *.c. TXT, b.c. NS (a cut), a.b.c. A (glue), x.A.c. A
   (A.c. is an empty non-terminal), one TTL-mismatched and one out-of-zone add.  The hypotheses are
   met and the lookups give a wildcard synthesis, a referral to the topmost cut, glue when searching
   below cuts, NoRecords at the empty non-terminal and NxDomain below it. *)
Example c06_example :
  let a := [99%N] in let b := [98%N] in let la := [97%N] in let uA := [65%N] in let x := [120%N] in
  let ns := [2; 110; 115; 1; 99; 0]%N in
  let recs :=
    [ mk_record [a] 2 1 3600 ns;
      mk_record [[42%N]; a] 16 1 3600 [1; 97]%N;
      mk_record [b; a] 2 1 3600 ns;
      mk_record [la; b; a] 1 1 3600 [127; 0; 0; 1]%N;
      mk_record [la; b; a] 1 1 7200 [127; 0; 0; 2]%N;
      mk_record [x; uA; a] 1 1 3600 [127; 0; 0; 3]%N;
      mk_record [x] 1 1 3600 [127; 0; 0; 4]%N ] in
  exists z, zone_build req_simple (zone_new [a] 1 false) recs = Some z /\
    length (accepted [a] 1 recs) = 5 /\
    zone_lookup z [x; a] 16 false false = Ok (LFound (3600%N, [[1; 97]%N]) (Some [[42%N]; a])) /\
    zone_lookup z [la; b; a] 1 false false = Ok (LReferral [b; a] (3600%N, [ns])) /\
    zone_lookup z [la; b; a] 1 false true = Ok (LFound (3600%N, [[127; 0; 0; 1]%N]) None) /\
    zone_lookup z [la; a] 1 false false = Ok (LNoRecords None) /\
    zone_lookup z [b; la; a] 1 false false = Ok LNxDomain /\
    zone_lookup z [x] 1 false false = Ok LWrongZone /\
    spec_lookup req_simple [a] 1 (accepted [a] 1 recs) [la; b; a] 1 false false
      = Some (LReferral [b; a] (3600%N, [ns])).
Proof. cbv zeta. eexists. split; [vm_compute; reflexivity|]. vm_compute. repeat split. Qed.

Print Assumptions c06_req_real_is_equals.
Print Assumptions c06_build_total_real.
Print Assumptions c06_lookup_refines_real.
Print Assumptions c06_lookup_addrs_refines_real.
Print Assumptions c06_lookup_all_refines_real.
Print Assumptions c06_lookup_exact_real.
Print Assumptions c06_lookup_addrs_exact_real.
Print Assumptions c06_lookup_all_exact_real.
Print Assumptions c06_build_total.
Print Assumptions c06_lookup_refines.
Print Assumptions c06_lookup_addrs_refines.
Print Assumptions c06_lookup_all_refines.
Print Assumptions c06_lookup_exact.
Print Assumptions c06_lookup_addrs_exact.
Print Assumptions c06_lookup_all_exact.
Print Assumptions c06_unchecked_outside.
Print Assumptions c06_req_simple_transitive.
