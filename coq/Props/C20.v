(* C20 — the zone store holds exactly the records added to it.
   Statements only; a proof is [exact <lemma from Proofs/Zone*.v>], for the real equality the parametric
   lemma at req := spec_req applied to [real_build_spec].
   [req] is Rdata::equals, assumed transitive.  A zone is what HashMapTreeZone::new followed by any
   sequence of adds produces ([zone_build]; rejected adds are part of the history). *)
From QV Require Import Base.Res Base.Octets Gen.ZoneConsts Model.ZoneTree Spec.ZoneLookupS
  Model.RdataBuf Proofs.ZoneRrsetP Proofs.ZoneTopP Proofs.ZoneIterP Proofs.ZoneIterSmP Proofs.ZoneStoreP Proofs.RdataBufP
  Model.ZoneReal Spec.ZoneRealS Proofs.ZoneRealP.
From QV Require Model.RdataM Spec.RdataEqS Model.RdataSetM Proofs.RdataSetP.

(* the shared runner (Extract/ExZone.v) also extracts the validation model: keep it in this cone so
   that `make Props/...vo` rebuilds everything the extraction loads *)
From QV Require Model.ZoneValid Spec.ZoneValidS.


(* ================================================================================================
   The theorems for the REAL Rdata::equals: model side [req_real] = Model/RdataM.v [equals] (C19's model
   of Rdata::equals), specification side [spec_req] = Spec/RdataEqS.v [spec_equals] (the RFC
   characterisation).  Only hypothesis on the records: every RDATA is an octet string (u8 elements).
   Nothing is assumed about Rdata::equals. *)

Theorem c20_req_real_is_equals : forall c t a b, wf_bytes a -> wf_bytes b ->
  RdataM.equals c t a b = Ok (req_real c t a b) /\ req_real c t a b = RdataEqS.spec_equals c t a b.
Proof. intros c t a b Ha Hb. split; [apply equals_req_real|apply req_real_spec]; assumption. Qed.

Theorem c20_add_result_real : forall apex cls wide recs z, Forall wf_record recs ->
  zone_build req_real (zone_new apex cls wide) recs = Some z ->
  forall r, wf_record r ->
  exists z', zone_add req_real z r = Ok (z', add_verdict apex cls (accepted apex cls recs) r) /\
             (add_verdict apex cls (accepted apex cls recs) r <> None -> z' = z) /\
             zone_build req_real (zone_new apex cls wide) (recs ++ [r]) = Some z'.
Proof. exact real_add_result. Qed.

Theorem c20_iter_by_node_real : forall apex cls wide recs z, Forall wf_record recs ->
  zone_build req_real (zone_new apex cls wide) recs = Some z ->
  let R := accepted apex cls recs in
  NoDup (map (fun nd => lc (fst nd)) (zone_iter_by_node z)) /\
  (forall m, In m (map (fun nd => lc (fst nd)) (zone_iter_by_node z)) <->
             is_suffixb (lc apex) m && exists_name apex R m = true) /\
  (forall n d, In (n, d) (zone_iter_by_node z) -> d = spec_rrsets spec_req cls R (lc n)).
Proof. intros apex cls wide recs z W B. exact (build_iter_nodes _ spec_req_trans _ _ _ _ _ (real_build_spec W B)). Qed.

Theorem c20_iter_by_rrset_real : forall apex cls wide recs z, Forall wf_record recs ->
  zone_build req_real (zone_new apex cls wide) recs = Some z ->
  let R := accepted apex cls recs in
  (forall n rs, In (n, rs) (zone_iter_by_rrset z) ->
     spec_rrset spec_req cls R (lc n) (rs_type rs) = Some rs) /\
  (forall m ty rs, is_suffixb (lc apex) m = true -> spec_rrset spec_req cls R m ty = Some rs ->
     exists n, lc n = m /\ In (n, rs) (zone_iter_by_rrset z)) /\
  NoDup (map (fun x => (lc (fst x), rs_type (snd x))) (zone_iter_by_rrset z)).
Proof. intros apex cls wide recs z W B. exact (build_iter_rrsets _ spec_req_trans _ _ _ _ _ (real_build_spec W B)). Qed.

Theorem c20_iter_names_spelled_real : forall apex cls wide recs z, Forall wf_record recs ->
  zone_build req_real (zone_new apex cls wide) recs = Some z ->
  (forall n d, In (n, d) (zone_iter_by_node z) -> spelled apex (accepted apex cls recs) (lc n) = n) /\
  (forall n rs, In (n, rs) (zone_iter_by_rrset z) -> spelled apex (accepted apex cls recs) (lc n) = n).
Proof. intros apex cls wide recs z W B. exact (build_iter_names_spelled _ spec_req_trans _ _ _ _ _ (real_build_spec W B)). Qed.

Theorem c20_soa_ns_real : forall apex cls wide recs z, Forall wf_record recs ->
  zone_build req_real (zone_new apex cls wide) recs = Some z ->
  let R := accepted apex cls recs in
  zone_soa z = single_of spec_req cls R (lc apex) 6 /\ zone_ns z = single_of spec_req cls R (lc apex) 2 /\
  exists d, hd_error (zone_iter_by_node z) = Some (zone_name z, d) /\
            zone_soa z = option_map to_single (rr_lookup TYPE_SOA d) /\
            zone_ns z = option_map to_single (rr_lookup TYPE_NS d).
Proof. intros apex cls wide recs z W B. exact (build_soa_ns _ spec_req_trans _ _ _ _ _ (real_build_spec W B)). Qed.

(* what an RRset of the specification holds, in C19's terms: the RDATAs of the accepted records of that
   owner and type, reduced by [nodup_by spec_equals] — the function c19_set proves RdataSetOwned::from_iter
   computes and c19_set_meaning explains (subsequence in insertion order, members pairwise unequal,
   every input has an equal member, each member is the first of its equality class) *)
Theorem c20_rrset_is_c19_set : forall cls R m ty rs,
  spec_rrset spec_req cls R m ty = Some rs ->
  rs_type rs = ty /\
  rs_rdatas rs = RdataEqS.nodup_by (RdataEqS.spec_equals cls ty) [] (map r_rdata (records_at R m ty)).
Proof. exact spec_rrset_nodup_by. Qed.

(* the zone model keeps an RdataSetOwned as the list of its RDATAs; for the real equality that list-level
   insert IS C19's octet-buffer model of RdataSetOwned::insert (Model/RdataSetM.v: Vec<u8> with u16 length
   prefixes in either byte order, the loop over the members calling Rdata::equals with early exit): on a
   buffer holding [kept], insert of [r] never fails, returns the encoding of [rdataset_insert req_real kept r]
   and the flag "was inserted"; iterating that buffer yields the list back.  (RDATA of at most 65535 octets:
   the invariant of the Rdata type.) *)
Theorem c20_rdataset_real_buffer : forall be c t kept r,
  Forall RdataSetP.small kept -> Forall wf_bytes kept -> RdataSetP.small r -> wf_bytes r ->
  RdataSetM.set_insert be c t (RdataSetP.inner_of be kept) r =
    Ok (RdataSetP.inner_of be (rdataset_insert req_real c t kept r),
        negb (existsb (fun ex => req_real c t r ex) kept)) /\
  RdataSetM.set_iter be (RdataSetP.inner_of be (rdataset_insert req_real c t kept r)) =
    rdataset_insert req_real c t kept r.
Proof.
  intros be c t kept r Hs Hw Hr Hwr. split.
  - apply rdataset_insert_is_buffer; assumption.
  - apply rdataset_insert_buffer_iter; assumption.
Qed.

(* every RDATA stored in the zone is an octet string again (so the hypotheses of C19 hold for whatever
   is compared next) *)
Theorem c20_stored_rdata_real : forall apex cls wide recs z, Forall wf_record recs ->
  zone_build req_real (zone_new apex cls wide) recs = Some z ->
  forall n d rs rd, In (n, d) (zone_iter_by_node z) -> In rs d -> In rd (rs_rdatas rs) -> wf_bytes rd.
Proof. exact real_build_wf. Qed.

(* Non-vacuity with the real equality: SOA twice with MNAME/RNAME in other letter case (one RDATA), CH-class-
   free IN zone with SRV _x: same target in other case (one RDATA in class IN), NS valid / NS + junk in two
   cases (octet-wise: both junk variants kept). *)
Example c20_example_real :
  let c := [99%N] in
  let soa l := ([2; l; 115; 1; 99; 0; 1; 114; 1; 99; 0] ++ repeat 0 20)%N in
  let srv l := [0; 1; 0; 2; 0; 53; 2; l; 115; 1; 99; 0]%N in
  let ns l := [2; l; 115; 1; 99; 0]%N in
  let recs :=
    [ mk_record [c] 6 1 3600 (soa 110%N); mk_record [c] 6 1 3600 (soa 78%N);
      mk_record [c] 33 1 3600 (srv 110%N); mk_record [c] 33 1 3600 (srv 78%N);
      mk_record [c] 2 1 3600 (ns 110%N); mk_record [c] 2 1 3600 (ns 78%N);
      mk_record [c] 2 1 3600 (ns 110%N ++ [9%N]); mk_record [c] 2 1 3600 (ns 78%N ++ [9%N]) ] in
  Forall wf_record recs /\
  exists z, zone_build req_real (zone_new [c] 1 false) recs = Some z /\
    map snd (zone_iter_by_rrset z) =
      [mk_rrset 2 3600 [ns 110%N; ns 110%N ++ [9%N]; ns 78%N ++ [9%N]];
       mk_rrset 6 3600 [soa 110%N]; mk_rrset 33 3600 [srv 110%N]] /\
    zone_soa z = Some (3600%N, [soa 110%N]).
Proof.
  cbv zeta. split.
  - repeat constructor; apply wf_bytesb_spec; reflexivity.
  - eexists. split; [vm_compute; reflexivity|]. vm_compute. repeat split.
Qed.

(* ================================================================================================
   Parametric library versions: any RDATA equality that is transitive per (class, type). *)
Definition req_transitive (req : N -> N -> bytes -> bytes -> bool) : Prop :=
  forall cls ty a b c, req cls ty a b = true -> req cls ty b c = true -> req cls ty a c = true.

(* add never panics, returns exactly the verdict of the specification (computed from the flat
   list of records accepted so far), and a rejected add returns the SAME tree — hence every
   lookup and iteration is unchanged (despite the doc comment's disclaimer of atomicity). *)
Theorem c20_add_result : forall req, req_transitive req ->
  forall apex cls wide recs z r,
  zone_build req (zone_new apex cls wide) recs = Some z ->
  exists z', zone_add req z r = Ok (z', add_verdict apex cls (accepted apex cls recs) r) /\
             (add_verdict apex cls (accepted apex cls recs) r <> None -> z' = z) /\
             zone_build req (zone_new apex cls wide) (recs ++ [r]) = Some z'.
Proof. exact add_result. Qed.

(* the verdict is Ok exactly when the owner is at/below the apex, the class is the zone's, and the
   TTL equals that of the existing RRset of this owner and type (if any) *)
Theorem c20_add_ok_iff : forall req apex cls R r,
  add_verdict apex cls R r = None <->
  in_zone apex (r_owner r) = true /\ r_class r = cls /\
  (forall rs, spec_rrset req cls R (lc (r_owner r)) (r_type r) = Some rs -> rs_ttl rs = r_ttl r).
Proof. exact add_verdict_none. Qed.

(* and the error reported is the first failing condition, in the order of the code *)
Theorem c20_add_err_kind : forall apex cls R r,
  add_verdict apex cls R r =
    if negb (in_zone apex (r_owner r)) then Some NotInZone
    else if negb (r_class r =? cls)%N then Some ClassMismatch
    else if negb (ttl_ok R r) then Some TtlMismatch else None.
Proof. exact add_verdict_kinds. Qed.

(* iter_by_node yields every existing name (apex, owners and their ancestors down to the apex —
   empty non-terminals included) exactly once, each with exactly its RRsets in type order *)
Theorem c20_iter_by_node : forall req, req_transitive req ->
  forall apex cls wide recs z,
  zone_build req (zone_new apex cls wide) recs = Some z ->
  let R := accepted apex cls recs in
  NoDup (map (fun nd => lc (fst nd)) (zone_iter_by_node z)) /\
  (forall m, In m (map (fun nd => lc (fst nd)) (zone_iter_by_node z)) <->
             is_suffixb (lc apex) m && exists_name apex R m = true) /\
  (forall n d, In (n, d) (zone_iter_by_node z) -> d = spec_rrsets req cls R (lc n)).
Proof. exact build_iter_nodes. Qed.

(* iter_by_rrset yields exactly the RRsets the specification derives from the accepted records
   (first TTL, RDATAs in order of first appearance without later equal ones), each (owner, type) once *)
Theorem c20_iter_by_rrset : forall req, req_transitive req ->
  forall apex cls wide recs z,
  zone_build req (zone_new apex cls wide) recs = Some z ->
  let R := accepted apex cls recs in
  (forall n rs, In (n, rs) (zone_iter_by_rrset z) ->
     spec_rrset req cls R (lc n) (rs_type rs) = Some rs) /\
  (forall m ty rs, is_suffixb (lc apex) m = true -> spec_rrset req cls R m ty = Some rs ->
     exists n, lc n = m /\ In (n, rs) (zone_iter_by_rrset z)) /\
  NoDup (map (fun x => (lc (fst x), rs_type (snd x))) (zone_iter_by_rrset z)).
Proof. exact build_iter_rrsets. Qed.

(* the names iteration yields are spelled as the zone spells them (apex as given to new, any other
   name as in the first accepted record at or below it): with c20_iter_by_node / c20_iter_by_rrset
   this determines the iterated items exactly, letter case included *)
Theorem c20_iter_names_spelled : forall req, req_transitive req ->
  forall apex cls wide recs z,
  zone_build req (zone_new apex cls wide) recs = Some z ->
  (forall n d, In (n, d) (zone_iter_by_node z) -> spelled apex (accepted apex cls recs) (lc n) = n) /\
  (forall n rs, In (n, rs) (zone_iter_by_rrset z) -> spelled apex (accepted apex cls recs) (lc n) = n).
Proof. exact build_iter_names_spelled. Qed.

(* Node::iter as coded — the explicit-stack state machine driven until exhaustion — yields, for
   ANY tree, exactly the pre-order walk the theorems above talk about, within the model's fuel *)
Theorem c20_iter_state_machine : forall t, node_iter_sm t = Some (node_iter t).
Proof. exact node_iter_sm_correct. Qed.

(* RdataSetOwned as coded — one octet buffer, every RDATA behind its u16 length, a cursor walking it —
   is the list of RDATAs the zone model uses, for RDATA of at most 65535 octets (the invariant of the
   Rdata type): iterating the encoding of a list yields the list, and insert on the buffer is
   rdataset_insert on the list *)
Theorem c20_rdataset_buffer : forall l, Forall short l -> buf_rdatas (encode l) = l.
Proof. exact buf_rdatas_encode. Qed.

Theorem c20_rdataset_insert : forall req cls ty s rd, Forall short s ->
  buf_insert req cls ty (encode s) rd = encode (rdataset_insert req cls ty s rd).
Proof. exact buf_insert_encode. Qed.

(* soa() / ns() are the specification's apex SOA / NS RRsets and agree with the first item of the
   iteration (the apex node) *)
Theorem c20_soa_ns : forall req, req_transitive req ->
  forall apex cls wide recs z,
  zone_build req (zone_new apex cls wide) recs = Some z ->
  let R := accepted apex cls recs in
  zone_soa z = single_of req cls R (lc apex) 6 /\ zone_ns z = single_of req cls R (lc apex) 2 /\
  exists d, hd_error (zone_iter_by_node z) = Some (zone_name z, d) /\
            zone_soa z = option_map to_single (rr_lookup TYPE_SOA d) /\
            zone_ns z = option_map to_single (rr_lookup TYPE_NS d).
Proof. exact build_soa_ns. Qed.

(* every accepted record's owner is in the zone, so the side condition of c20_iter_by_rrset is
   met by every RRset of the accepted records — stated on the model: a non-vacuity example *)
Example c20_example :
  let a := [99%N] in let b := [98%N] in let uB := [66%N] in
  let recs :=
    [ mk_record [a] 6 1 3600 [0]%N;
      mk_record [[120%N]; b; a] 1 1 3600 [127; 0; 0; 1]%N;
      mk_record [[120%N]; uB; a] 1 1 3600 [127; 0; 0; 2]%N;
      mk_record [[120%N]; b; a] 1 1 3600 [127; 0; 0; 1]%N;
      mk_record [[120%N]; b; a] 1 1 60 [127; 0; 0; 3]%N;
      mk_record [b] 1 1 3600 [127; 0; 0; 4]%N;
      mk_record [b; a] 16 3 3600 [0]%N ] in
  exists z, zone_build req_simple (zone_new [a] 1 false) recs = Some z /\
    map (add_verdict [a] 1 (accepted [a] 1 (firstn 4 recs))) (skipn 4 recs)
      = [Some TtlMismatch; Some NotInZone; Some ClassMismatch] /\
    map (fun nd => lc (fst nd)) (zone_iter_by_node z) = [[a]; [b; a]; [[120%N]; b; a]] /\
    map snd (zone_iter_by_rrset z) =
      [mk_rrset 6 3600 [[0]%N]; mk_rrset 1 3600 [[127; 0; 0; 1]; [127; 0; 0; 2]]%N] /\
    zone_soa z = Some (3600%N, [[0]%N]) /\ zone_ns z = None.
Proof. cbv zeta. eexists. split; [vm_compute; reflexivity|]. vm_compute. repeat split. Qed.

Print Assumptions c20_req_real_is_equals.
Print Assumptions c20_add_result_real.
Print Assumptions c20_iter_by_node_real.
Print Assumptions c20_iter_by_rrset_real.
Print Assumptions c20_iter_names_spelled_real.
Print Assumptions c20_soa_ns_real.
Print Assumptions c20_rrset_is_c19_set.
Print Assumptions c20_rdataset_real_buffer.
Print Assumptions c20_stored_rdata_real.
Print Assumptions c20_add_result.
Print Assumptions c20_add_ok_iff.
Print Assumptions c20_add_err_kind.
Print Assumptions c20_iter_by_node.
Print Assumptions c20_iter_by_rrset.
Print Assumptions c20_iter_names_spelled.
Print Assumptions c20_iter_state_machine.
Print Assumptions c20_soa_ns.
Print Assumptions c20_rdataset_buffer.
Print Assumptions c20_rdataset_insert.
