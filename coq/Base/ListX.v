(* List lemmas the proofs share: the project's [slice], lists cut at a known length, and the one-directional
   forms of [nth_error_Some] / [nth_error_None] under the names used throughout. *)
From QV Require Export Base.Res Base.Octets.

Lemma firstn_plus {A} (a b : nat) (l : list A) :
  firstn (a + b) l = firstn a l ++ firstn b (skipn a l).
Proof.
  revert l; induction a as [|a IH]; intros l; simpl; auto.
  destruct l; simpl.
  - rewrite firstn_nil. reflexivity.
  - rewrite IH. reflexivity.
Qed.

Lemma skipn_plus {A} (a b : nat) (l : list A) : skipn a (skipn b l) = skipn (b + a) l.
Proof.
  revert l; induction b as [|b IH]; intros l; simpl; auto.
  destruct l; simpl; auto. apply skipn_nil.
Qed.

Lemma nth_error_skipn {A} (l : list A) s k : nth_error (skipn s l) k = nth_error l (s + k).
Proof.
  revert l; induction s as [|s IH]; intros l; simpl; auto.
  destruct l; simpl; auto. destruct k; reflexivity.
Qed.

Lemma nth_error_Some_lt {A} (l : list A) i x : nth_error l i = Some x -> i < length l.
Proof. intros H. apply nth_error_Some. congruence. Qed.

Lemma nth_error_None_ge {A} (l : list A) i : nth_error l i = None -> length l <= i.
Proof. apply nth_error_None. Qed.

Lemma slice_cons {A} (l : list A) i x e : nth_error l i = Some x -> i < e ->
  slice l i e = x :: slice l (S i) e.
Proof.
  unfold slice. revert i e; induction l as [|y l IH]; intros i e H Hlt.
  - destruct i; discriminate.
  - destruct i.
    + simpl in H. inversion H; subst. destruct e; [lia|]. simpl. rewrite Nat.sub_0_r. reflexivity.
    + simpl in H. destruct e; [lia|]. simpl skipn.
      replace (S e - S i) with (e - i) by lia.
      rewrite (IH i e H) by lia. destruct e; [lia|]. reflexivity.
Qed.

Lemma slice_app {A} (l : list A) a m e : a <= m -> m <= e ->
  slice l a e = slice l a m ++ slice l m e.
Proof.
  intros H1 H2. unfold slice.
  replace (e - a) with ((m - a) + (e - m)) by lia.
  rewrite firstn_plus. f_equal.
  rewrite skipn_plus. replace (a + (m - a)) with m by lia. reflexivity.
Qed.

Lemma slice_nil {A} (l : list A) a : slice l a a = [].
Proof. unfold slice. rewrite Nat.sub_diag. reflexivity. Qed.

Lemma slice_0 {A} (l : list A) e : slice l 0 e = firstn e l.
Proof. unfold slice. rewrite Nat.sub_0_r. reflexivity. Qed.

Lemma slice_skipn {A} (l : list A) s a b : slice (skipn s l) a b = slice l (s + a) (s + b).
Proof. unfold slice. rewrite skipn_plus. f_equal. lia. Qed.

Lemma In_firstn {A} (n : nat) (l : list A) x : In x (firstn n l) -> In x l.
Proof. intros H. rewrite <- (firstn_skipn n l). apply in_or_app. left. exact H. Qed.

Lemma In_skipn {A} (n : nat) (l : list A) x : In x (skipn n l) -> In x l.
Proof. intros H. rewrite <- (firstn_skipn n l). apply in_or_app. right. exact H. Qed.

Lemma Forall_slice {A} (P : A -> Prop) l a b : Forall P l -> Forall P (slice l a b).
Proof.
  intros H. unfold slice. rewrite Forall_forall in *. intros x Hx.
  apply H. apply (In_skipn a). eapply In_firstn. exact Hx.
Qed.

Lemma nth_error_Forall {A} (P : A -> Prop) l i x : Forall P l -> nth_error l i = Some x -> P x.
Proof. intros H E. rewrite Forall_forall in H. apply H. eapply nth_error_In. exact E. Qed.

Lemma Forall_skipn {A} (P : A -> Prop) k l : Forall P l -> Forall P (skipn k l).
Proof. intros H. rewrite Forall_forall in *. intros x Hx. apply H. eapply In_skipn. exact Hx. Qed.

Lemma Forall_firstn {A} (P : A -> Prop) k l : Forall P l -> Forall P (firstn k l).
Proof. intros H. rewrite Forall_forall in *. intros x Hx. apply H. eapply In_firstn. exact Hx. Qed.

Lemma skipn_app_exact {A} (a b : list A) n : n = length a -> skipn n (a ++ b) = b.
Proof. intros ->. rewrite skipn_app, skipn_all, Nat.sub_diag. reflexivity. Qed.

Lemma firstn_app_exact {A} (a b : list A) n : n = length a -> firstn n (a ++ b) = a.
Proof. intros ->. rewrite firstn_app, firstn_all, Nat.sub_diag. simpl. apply app_nil_r. Qed.

Lemma nth_error_mid {A} (a : list A) x t : nth_error (a ++ x :: t) (length a) = Some x.
Proof. rewrite nth_error_app2 by lia. rewrite Nat.sub_diag. reflexivity. Qed.

Lemma nth_error_snoc {A} (l : list A) x r y : nth_error (l ++ [x]) r = Some y ->
  (r < length l /\ nth_error l r = Some y) \/ (r = length l /\ y = x).
Proof.
  intros H. destruct (Nat.lt_ge_cases r (length l)) as [Hr|Hr].
  - left. rewrite nth_error_app1 in H by lia. auto.
  - right. rewrite nth_error_app2 in H by lia.
    destruct (r - length l) as [|k] eqn:E; simpl in H.
    + inversion H. split; auto. lia.
    + destruct k; discriminate.
Qed.

Lemma skipn_nth_cons {A} (l : list A) k d : k < length l -> skipn k l = nth k l d :: skipn (S k) l.
Proof.
  revert k; induction l as [|x l IH]; intros k H; simpl in *; [lia|].
  destruct k; simpl; auto. apply IH. lia.
Qed.

Lemma Forall2_one_l {A B} (R : A -> B -> Prop) a l : Forall2 R [a] l -> exists d, l = [d] /\ R a d.
Proof. intros H. inversion H as [|x y l1 l2 Hxy Hr]; subst. inversion Hr; subst. eauto. Qed.

Lemma wf_app (a b : bytes) : wf_bytes (a ++ b) <-> wf_bytes a /\ wf_bytes b.
Proof. unfold wf_bytes. apply Forall_app. Qed.

Lemma wf_cons x (r : bytes) : wf_bytes (x :: r) <-> is_octet x /\ wf_bytes r.
Proof. unfold wf_bytes. split; [intros H; inversion H; auto|intros [? ?]; constructor; auto]. Qed.

Lemma wf_skipn n (r : bytes) : wf_bytes r -> wf_bytes (skipn n r).
Proof. apply Forall_skipn. Qed.

Lemma wf_firstn n (r : bytes) : wf_bytes r -> wf_bytes (firstn n r).
Proof. apply Forall_firstn. Qed.

Lemma map_lower_idem l : map lower (map lower l) = map lower l.
Proof. rewrite map_map. apply map_ext. intros. apply lower_idem. Qed.

(* every model and specification has its own copy of the octet-wise comparison of two octet
   strings; whatever satisfies its defining equation decides equality *)
Lemma bytes_eqb_fix_eq (f : bytes -> bytes -> bool) :
  (forall a b, f a b = match a, b with
                       | [], [] => true
                       | x :: a', y :: b' => (x =? y)%N && f a' b'
                       | _, _ => false
                       end) ->
  forall a b, f a b = true <-> a = b.
Proof.
  intros Hf. induction a as [|x a IH]; intros [|y b]; rewrite Hf; split; intros H; try discriminate; auto.
  - apply andb_true_iff in H. destruct H as [H1 H2]. apply N.eqb_eq in H1. apply IH in H2. congruence.
  - inversion H; subst. rewrite N.eqb_refl. apply IH. reflexivity.
Qed.

